(* Parsing primitives for the specification decoders of C05 (Spec/Format*.v).

   A specification decoder reads a byte string front to back.  [parser A] = the bytes still unread go in,
   the value and the bytes that remain come out; a short input or a field the specification forbids is
   [Err] (a specification decoder never panics).  Departures of the writer from the specification that are
   listed in KNOWN_FINDINGS.json are named by a [tag]; a decoder takes the set of tags it may tolerate
   ([tol : tag -> bool]) and returns the list of the tags it had to use.  [strict] tolerates nothing. *)
From HV Require Import Base.Prelude Base.Outcome Base.Bytes.

(* ------------------------------------------------------------------ deviation tags (KNOWN_FINDINGS.json, C05-<name>) *)
Inductive tag : Type :=
| T_sb_crc32                      (* superblock v2/v3 checksum is CRC-32 *)
| T_ohdr_no_checksum              (* v2 object header chunk without trailing checksum *)
| T_fixed_props_malformed
| T_float_props_malformed
| T_float64_bias_127
| T_string_extra_prop_byte
| T_pipeline_v2_with_v1_layout
| T_refcount_msg_no_version
| T_extlink_value_layout
| T_fheap_hdr_crc32
| T_fheap_addr_0_not_undef
| T_fhdb_trailing_crc32
| T_btree2_crc32
| T_gcol_free_size
| T_btree1_node_over_capacity
| T_snod_over_capacity
| T_heap_name_offset_0
| T_attrinfo_type_0x0f
| T_dataset_no_fillvalue_msg
| T_softlink_stored_as_object
| T_chunk_dims_no_elem_dim
| T_chunk_btree_addr_0
(* not in KNOWN_FINDINGS.json: proposed in notes/c05-known-findings-proposed.json *)
| T_compound_v3_layout      (* version 3 compound: member count in the properties (class bits 0), 4-byte member offsets *)
| T_enum_v3_layout.         (* version 3 enumeration: (padded name, value) pairs instead of names then values *)

(* the number the tie prints for a tag (tools/props/c05spec.py TAGS has the same table) *)
Definition tag_code (t : tag) : N :=
  match t with
  | T_sb_crc32 => 1 | T_ohdr_no_checksum => 2 | T_fixed_props_malformed => 3
  | T_float_props_malformed => 4 | T_float64_bias_127 => 5 | T_string_extra_prop_byte => 6
  | T_pipeline_v2_with_v1_layout => 7 | T_refcount_msg_no_version => 8 | T_extlink_value_layout => 9
  | T_fheap_hdr_crc32 => 10 | T_fheap_addr_0_not_undef => 11 | T_fhdb_trailing_crc32 => 12
  | T_btree2_crc32 => 13 | T_gcol_free_size => 14 | T_btree1_node_over_capacity => 15
  | T_snod_over_capacity => 16 | T_heap_name_offset_0 => 17 | T_attrinfo_type_0x0f => 18
  | T_dataset_no_fillvalue_msg => 19 | T_softlink_stored_as_object => 20
  | T_chunk_dims_no_elem_dim => 21 | T_chunk_btree_addr_0 => 22
  | T_compound_v3_layout => 23 | T_enum_v3_layout => 24
  end.

Definition tolerance := tag -> bool.
Definition strict : tolerance := fun _ => false.
Definition tolerant : tolerance := fun _ => true.

(* use of a listed deviation: allowed only when [tol] says so, and then reported *)
Definition dev (tol : tolerance) (t : tag) : outcome (list tag) := if tol t then Ok [t] else Err.
(* [devif c tol t]: the deviation [t] is present iff [c] *)
Definition devif (c : bool) (tol : tolerance) (t : tag) : outcome (list tag) := if c then dev tol t else Ok [].

Definition guard (c : bool) : outcome unit := if c then Ok tt else Err.

(* ------------------------------------------------------------------ primitives *)
Definition parser (A : Type) := bytes -> outcome (A * bytes).

Definition p_take (n : nat) : parser bytes :=
  fun bs => if (n <=? length bs)%nat then Ok (firstn n bs, skipn n bs) else Err.
(* unsigned little-endian integer of n bytes *)
Definition p_u (n : nat) : parser N :=
  fun bs => '(b, r) <- p_take n bs;; Ok (unle b, r).
Definition p_byte : parser N :=
  fun bs => match bs with x :: r => Ok (x, r) | [] => Err end.
(* the literal bytes [s] *)
Definition p_expect (s : bytes) : parser unit :=
  fun bs => '(b, r) <- p_take (length s) bs;; if bytes_eqb b s then Ok (tt, r) else Err.
(* n bytes that must all be zero (reserved fields, padding) *)
Definition all_zero (bs : bytes) : bool := forallb (fun b => b =? 0) bs.
Definition p_zeros (n : nat) : parser unit :=
  fun bs => '(b, r) <- p_take n bs;; if all_zero b then Ok (tt, r) else Err.
(* k values of n bytes *)
Fixpoint p_us (n : nat) (k : nat) : parser (list N) :=
  fun bs => match k with
            | O => Ok ([], bs)
            | S k' => '(v, r) <- p_u n bs;; '(vs, r) <- p_us n k' r;; Ok (v :: vs, r)
            end.
(* a NUL-terminated string: the bytes before the first 0, and the bytes after it *)
Fixpoint p_cstr (bs : bytes) : outcome (bytes * bytes) :=
  match bs with
  | [] => Err
  | b :: r => if b =? 0 then Ok ([], r) else '(s, r') <- p_cstr r;; Ok (b :: s, r')
  end.

(* the bytes of [bs] that were read when [r] remains *)
Definition consumed (bs r : bytes) : bytes := firstn (length bs - length r) bs.

(* the undefined address of an n-byte address field *)
Definition undef (n : nat) : N := 256 ^ N.of_nat n - 1.

Definition size_ok (n : N) : bool := (n =? 2) || (n =? 4) || (n =? 8).

(* no NUL byte inside *)
Definition no_nul (s : bytes) : bool := forallb (fun b => negb (b =? 0)) s.

(* round up to a multiple of 8 *)
Definition up8 (n : N) : N := (n + 7) / 8 * 8.

Lemma forallb_Forall_lt (bound : N) (l : list N) :
  forallb (fun d => d <? bound) l = true -> Forall (fun v => v < bound) l.
Proof. rewrite forallb_forall, Forall_forall. intros H x Hx. now apply N.ltb_lt, H. Qed.

Lemma obind_Ok {A B} (x : A) (k : A -> outcome B) : obind (Ok x) k = k x.
Proof. reflexivity. Qed.

(* One step of a decoder: [eqn] says what the primitive at the head returns on the bytes in front of it; every value
   so produced goes to the rest of the decoder.  [obind_Ok] is rewritten and not computed: were the kernel asked to
   convert [obind (Ok x) k] with [k x], itself an [obind], it would compare the first arguments first, which runs the
   next primitive on symbolic bytes, and so on down the decoder. *)
Tactic Notation "parse" constr(eqn) "by" tactic3(side) := rewrite eqn by side; repeat (rewrite obind_Ok; cbn [app]).
Tactic Notation "parse" constr(eqn) := parse eqn by (first [assumption | reflexivity | lia]).

Lemma guard_Ok c : c = true -> guard c = Ok tt.
Proof. now intros ->. Qed.

Lemma p_byte_cons b (r : list N) : p_byte (b :: r) = Ok (b, r).
Proof. reflexivity. Qed.

Lemma p_take_app (a r : list N) n : length a = n -> p_take n (a ++ r) = Ok (a, r).
Proof.
  intros <-. unfold p_take. rewrite app_length, firstn_app, skipn_app, Nat.sub_diag, firstn_all, skipn_all, app_nil_r.
  now rewrite (proj2 (Nat.leb_le _ _) (Nat.le_add_r _ _)).
Qed.

Lemma p_take_all (a : list N) n : length a = n -> p_take n a = Ok (a, []).
Proof. intros H. rewrite <- (app_nil_r a) at 1. now apply p_take_app. Qed.

Lemma p_u_le_mod n v (r : list N) : p_u n (le n v ++ r) = Ok (v mod 256 ^ N.of_nat n, r).
Proof. unfold p_u. now rewrite p_take_app, obind_Ok, unle_le by apply length_le. Qed.

Lemma p_u_le n v (r : list N) : v < 256 ^ N.of_nat n -> p_u n (le n v ++ r) = Ok (v, r).
Proof. intros H. now rewrite p_u_le_mod, N.mod_small. Qed.

Lemma p_u_le_end n v : v < 256 ^ N.of_nat n -> p_u n (le n v) = Ok (v, []).
Proof. rewrite <- (app_nil_r (le n v)). apply p_u_le. Qed.

Lemma p_expect_app (s r : list N) : p_expect s (s ++ r) = Ok (tt, r).
Proof. unfold p_expect. now rewrite p_take_app, obind_Ok, bytes_eqb_refl. Qed.

Lemma all_zero_zeros n : all_zero (zeros n) = true.
Proof. induction n; cbn [zeros repeat all_zero forallb]; auto. Qed.

Lemma p_zeros_app n (r : list N) : p_zeros n (zeros n ++ r) = Ok (tt, r).
Proof. unfold p_zeros. now rewrite p_take_app, obind_Ok, all_zero_zeros by apply length_zeros. Qed.

Lemma p_zeros_end n : p_zeros n (zeros n) = Ok (tt, []).
Proof. rewrite <- (app_nil_r (zeros n)). apply p_zeros_app. Qed.

Lemma p_us_app n (l : list N) (r : list N) :
  Forall (fun v => v < 256 ^ N.of_nat n) l ->
  p_us n (length l) (concat (map (le n) l) ++ r) = Ok (l, r).
Proof.
  induction 1 as [|v l Hv Hl IH]; cbn [length p_us map concat]; auto.
  now rewrite <- app_assoc, p_u_le, obind_Ok, IH.
Qed.

Lemma p_cstr_app (s r : list N) : no_nul s = true -> p_cstr (s ++ 0 :: r) = Ok (s, r).
Proof.
  induction s as [|b s IH]; cbn [app p_cstr no_nul forallb]; [reflexivity|].
  intros [Hb Hs]%andb_true_iff. apply negb_true_iff in Hb. now rewrite Hb, IH.
Qed.

Lemma consumed_app (a r : list N) : consumed (a ++ r) r = a.
Proof. unfold consumed. now rewrite app_length, Nat.add_sub, firstn_app, Nat.sub_diag, firstn_all, app_nil_r. Qed.
