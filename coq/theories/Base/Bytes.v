(* Byte strings as every model uses them: big-endian codec, Go-style checked slicing and indexing
   (out of range = Panic), and the facts about them, about Go's fixed-width arithmetic and about
   lists that the proofs of more than one property need. *)
From HV Require Import Base.Prelude Base.Outcome.

Definition blen (bs : list N) : N := N.of_nat (length bs).

(* [byte] is a definition for N; make lengths of both spellings one atom before calling lia *)
Ltac bnorm := unfold bytes in *; change byte with N in *.
(* rewrite with a lemma instance after bringing it and the goal to the same spelling *)
Tactic Notation "brewrite" constr(t) :=
  let Q := fresh "Q" in pose proof t as Q; bnorm; rewrite Q; clear Q.
Tactic Notation "brewrite" constr(t) "by" tactic(tac) :=
  let Q := fresh "Q" in pose proof t as Q; bnorm; rewrite Q by tac; clear Q.
Ltac blia := bnorm; lia.

Definition be (n : nat) (v : N) : bytes := rev (le n v).
Definition unbe (bs : bytes) : N := unle (rev bs).

Definition zeros (n : nat) : bytes := repeat 0 n.

(* every element is a byte *)
Definition bytes_ok (bs : bytes) : bool := forallb (fun b => b <? 256) bs.

(* Go  bs[a:b]  *)
Definition slice (bs : bytes) (a b : N) : outcome bytes :=
  if (a <=? b) && (b <=? blen bs)
  then Ok (firstn (N.to_nat (b - a)) (skipn (N.to_nat a) bs))
  else Panic.
(* Go  bs[a:]  *)
Definition slice_from (bs : bytes) (a : N) : outcome bytes :=
  if a <=? blen bs then Ok (skipn (N.to_nat a) bs) else Panic.
(* Go  bs[i]  *)
Definition index (bs : bytes) (i : N) : outcome byte :=
  match nth_error bs (N.to_nat i) with Some b => Ok b | None => Panic end.

(* binary.LittleEndian.UintK(bs[off:off+k]) *)
Definition rd_le (bs : bytes) (off : N) (k : N) : outcome N :=
  s <- slice bs off (off + k);; Ok (unle s).
Definition rd_be (bs : bytes) (off : N) (k : N) : outcome N :=
  s <- slice bs off (off + k);; Ok (unbe s).

(* index of the first 0 byte at or after position [from], scanning like
   `for end < len(b) && b[end] != 0 { end++ }`; returns len when there is none *)
Fixpoint find0_aux (bs : bytes) (pos : N) : N :=
  match bs with
  | [] => pos
  | b :: r => if b =? 0 then pos else find0_aux r (pos + 1)
  end.
Definition find0 (bs : bytes) (from : N) : N := find0_aux (skipn (N.to_nat from) bs) from.


(* Go fixed-width arithmetic is the identity in range *)
Lemma wrap8_small x : x < 256 -> wrap8 x = x.
Proof. apply N.mod_small. Qed.
Lemma wrap16_small x : x < 65536 -> wrap16 x = x.
Proof. apply N.mod_small. Qed.
Lemma wrap32_small x : x < 4294967296 -> wrap32 x = x.
Proof. apply N.mod_small. Qed.
Lemma wrap64_small x : x < 18446744073709551616 -> wrap64 x = x.
Proof. apply N.mod_small. Qed.
Lemma sub64_small a b : b <= a -> a < 18446744073709551616 -> sub64 a b = a - b.
Proof. intros. unfold sub64. lia. Qed.
Lemma ltb_false a b : b <= a -> (a <? b) = false.
Proof. apply N.ltb_ge. Qed.
Lemma leb_true a b : a <= b -> (a <=? b) = true.
Proof. apply N.leb_le. Qed.

Lemma skipn_skipn {A} (a b : nat) (l : list A) : skipn a (skipn b l) = skipn (b + a) l.
Proof. revert l. induction b; intros [|x l]; cbn [skipn Nat.add]; auto using skipn_nil. Qed.
Lemma nth_skipn {A} (l : list A) i j d : nth j (skipn i l) d = nth (i + j) l d.
Proof.
  revert l. induction i as [|i IH]; intros [|x l]; cbn [skipn Nat.add nth]; auto. now destruct j.
Qed.
Lemma nth_error_firstn_lt {A} (l : list A) m i : (i < m)%nat -> nth_error (firstn m l) i = nth_error l i.
Proof.
  revert l i. induction m; intros [|x l] [|i] H; cbn [firstn nth_error]; auto; try lia. apply IHm. lia.
Qed.
Lemma nth_firstn_lt {A} (l : list A) m i d : (i < m)%nat -> nth i (firstn m l) d = nth i l d.
Proof.
  revert l i. induction m; intros [|x l] [|i] H; cbn [firstn nth]; auto; try lia. apply IHm. lia.
Qed.
Lemma firstn_length_app {A} (a b : list A) : firstn (length a) (a ++ b) = a.
Proof. induction a; cbn [length firstn app]; [now destruct b|]. now f_equal. Qed.
Lemma skipn_length_app {A} (a b : list A) : skipn (length a) (a ++ b) = b.
Proof. induction a; cbn [length skipn app]; auto. Qed.
Lemma last_cons {A} (l : list A) a d : last (a :: l) d = last l a.
Proof.
  revert a d. induction l as [|b l IH]; intros a d; [reflexivity|].
  change (last (b :: l) d = last (b :: l) a). now rewrite !IH.
Qed.
Lemma existsb_fresh a l : Forall (fun v => v < a) l -> existsb (N.eqb a) l = false.
Proof.
  induction 1 as [|v l Hv _ IH]; cbn [existsb]; [reflexivity|]. rewrite IH. now rewrite (proj2 (N.eqb_neq a v)) by lia.
Qed.
Lemma Forall2_length {A B} (R : A -> B -> Prop) l l' : Forall2 R l l' -> length l = length l'.
Proof. induction 1; cbn [length]; congruence. Qed.
Lemma flat_map_ext_in {A B} (f g : A -> list B) l :
  (forall x, In x l -> f x = g x) -> flat_map f l = flat_map g l.
Proof. intros H. rewrite !flat_map_concat_map. f_equal. now apply map_ext_in. Qed.
Lemma map_flat_map {A B C} (f : B -> C) (g : A -> list B) (l : list A) :
  map f (flat_map g l) = flat_map (fun x => map f (g x)) l.
Proof. induction l as [|x l IH]; cbn [flat_map map]; [reflexivity|]. now rewrite map_app, IH. Qed.
Lemma fold_left_map {A B S} (f : S -> B -> S) (g : A -> B) (l : list A) (st : S) :
  fold_left f (map g l) st = fold_left (fun st x => f st (g x)) l st.
Proof. revert st; induction l as [|x l IH]; intros st; cbn [map fold_left]; [reflexivity|apply IH]. Qed.
Lemma fold_left_ext_in {A S} (f g : S -> A -> S) (l : list A) (st : S) :
  (forall st x, In x l -> f st x = g st x) -> fold_left f l st = fold_left g l st.
Proof.
  revert st; induction l as [|x l IH]; intros st H; cbn [fold_left]; [reflexivity|].
  rewrite H by (left; reflexivity). apply IH. intros; apply H; right; assumption.
Qed.

Lemma list_eqb_eq {A} (eqb : A -> A -> bool) : (forall x y, eqb x y = true <-> x = y) ->
  forall a b, list_eqb eqb a b = true <-> a = b.
Proof.
  intros E. induction a as [|x a IH]; intros [|y b]; cbn [list_eqb]; try easy.
  rewrite andb_true_iff, E, IH. split; [intros [-> ->] | intros [= -> ->]]; auto.
Qed.
Lemma bytes_eqb_eq (a b : list N) : bytes_eqb a b = true <-> a = b.
Proof. apply list_eqb_eq, N.eqb_eq. Qed.
Lemma bytes_eqb_refl (a : list N) : bytes_eqb a a = true.
Proof. now apply bytes_eqb_eq. Qed.
Lemma bytes_eqb_neq (a b : list N) : bytes_eqb a b = false <-> a <> b.
Proof. rewrite <- bytes_eqb_eq. now destruct (bytes_eqb a b). Qed.
Lemma bytes_eqb_sym (a b : list N) : bytes_eqb a b = bytes_eqb b a.
Proof.
  destruct (bytes_eqb b a) eqn:E.
  - apply bytes_eqb_eq in E as ->. apply bytes_eqb_refl.
  - apply bytes_eqb_neq. apply bytes_eqb_neq in E. congruence.
Qed.

Lemma blen_app (a b : list N) : blen (a ++ b) = blen a + blen b.
Proof. unfold blen. rewrite app_length. blia. Qed.
Lemma blen_cons (x : N) (a : list N) : blen (x :: a) = 1 + blen a.
Proof. unfold blen. cbn [length]. blia. Qed.
Lemma blen_nil : blen [] = 0.
Proof. reflexivity. Qed.
Lemma to_nat_blen (l : list N) : N.to_nat (blen l) = length l.
Proof. apply Nat2N.id. Qed.

Lemma length_le n v : length (le n v) = n.
Proof. revert v. induction n; intros; cbn [le length]; auto. Qed.
Lemma blen_le n v : blen (le n v) = N.of_nat n.
Proof. unfold blen. now rewrite length_le. Qed.
Lemma length_be n v : length (be n v) = n.
Proof. unfold be. now rewrite rev_length, length_le. Qed.
Lemma blen_be n v : blen (be n v) = N.of_nat n.
Proof. unfold blen. now rewrite length_be. Qed.
Lemma length_zeros n : length (zeros n) = n.
Proof. apply repeat_length. Qed.
Lemma blen_zeros n : blen (zeros n) = N.of_nat n.
Proof. unfold blen. now rewrite length_zeros. Qed.
Lemma zeros_app a b : zeros (a + b) = zeros a ++ zeros b.
Proof. apply repeat_app. Qed.

Lemma unle_le n v : unle (le n v) = v mod 256 ^ N.of_nat n.
Proof.
  revert v. induction n; intros v.
  - cbn [le unle]. change (N.of_nat 0) with 0. rewrite N.pow_0_r, N.mod_1_r. reflexivity.
  - cbn [le unle]. rewrite IHn.
    replace (N.of_nat (S n)) with (N.succ (N.of_nat n)) by blia.
    rewrite N.pow_succ_r'.
    assert (H : 256 ^ N.of_nat n <> 0) by (apply N.pow_nonzero; blia).
    rewrite N.mod_mul_r by (auto; blia). blia.
Qed.
Lemma unle_le_small n v : v < 256 ^ N.of_nat n -> unle (le n v) = v.
Proof. intros. rewrite unle_le. apply N.mod_small; auto. Qed.
Lemma unbe_be n v : unbe (be n v) = v mod 256 ^ N.of_nat n.
Proof. unfold unbe, be. rewrite rev_involutive. apply unle_le. Qed.
Lemma unbe_be_small n v : v < 256 ^ N.of_nat n -> unbe (be n v) = v.
Proof. intros. rewrite unbe_be. apply N.mod_small; auto. Qed.

Lemma le_bytes_ok n v : bytes_ok (le n v) = true.
Proof.
  revert v. induction n; intros; cbn [le bytes_ok forallb]; auto.
  fold (bytes_ok (le n (v / 256))). rewrite IHn.
  assert (v mod 256 < 256) by (apply N.mod_lt; blia).
  apply andb_true_iff; split; auto. apply N.ltb_lt; auto.
Qed.
Lemma bytes_ok_app (a b : list N) : bytes_ok (a ++ b) = bytes_ok a && bytes_ok b.
Proof. apply forallb_app. Qed.
Lemma bytes_ok_cons (x : N) (s : list N) : bytes_ok (x :: s) = true -> x < 256 /\ bytes_ok s = true.
Proof. cbn [bytes_ok forallb]. rewrite andb_true_iff, N.ltb_lt. auto. Qed.
Lemma unle_bound (s : list N) : bytes_ok s = true -> unle s < 256 ^ blen s.
Proof.
  induction s as [|x s IH]; intros H; [reflexivity|].
  apply bytes_ok_cons in H as [Hx Hs]. specialize (IH Hs). cbn [unle]. rewrite blen_cons.
  replace (1 + blen s) with (N.succ (blen s)) by blia. rewrite N.pow_succ_r'. blia.
Qed.
Lemma le_unle (s : list N) : bytes_ok s = true -> le (length s) (unle s) = s.
Proof.
  induction s as [|x s IH]; intros H; [reflexivity|].
  apply bytes_ok_cons in H as [Hx Hs]. cbn [length le unle].
  replace ((x + 256 * unle s) mod 256) with x by lia.
  replace ((x + 256 * unle s) / 256) with (unle s) by lia.
  now rewrite IH.
Qed.

Lemma slice_app (pre mid suf : list N) :
  slice (pre ++ mid ++ suf) (blen pre) (blen pre + blen mid) = Ok mid.
Proof.
  unfold slice. rewrite !blen_app, !leb_true by blia. cbn [andb]. f_equal.
  replace (blen pre + blen mid - blen pre) with (blen mid) by blia.
  rewrite !to_nat_blen, skipn_length_app. apply firstn_length_app.
Qed.
(* variants with the offsets given as numbers *)
Lemma slice_app' (pre mid suf : list N) a b :
  a = blen pre -> b = a + blen mid -> slice (pre ++ mid ++ suf) a b = Ok mid.
Proof. intros -> ->. apply slice_app. Qed.
Lemma slice_app_end (pre mid : list N) a b :
  a = blen pre -> b = a + blen mid -> slice (pre ++ mid) a b = Ok mid.
Proof. intros. rewrite <- (app_nil_r mid) at 1. apply slice_app'; auto. Qed.

Lemma slice_from_app (pre suf : list N) a : a = blen pre -> slice_from (pre ++ suf) a = Ok suf.
Proof.
  intros ->. unfold slice_from. rewrite blen_app, leb_true by blia.
  f_equal. rewrite to_nat_blen. apply skipn_length_app.
Qed.

Lemma index_app (pre : list N) (b : N) (suf : list N) i : i = blen pre -> index (pre ++ b :: suf) i = Ok b.
Proof.
  intros ->. unfold index. rewrite to_nat_blen, nth_error_app2, Nat.sub_diag by blia. reflexivity.
Qed.

Lemma index0 (a : N) (l : list N) : index (a :: l) 0 = Ok a.
Proof. reflexivity. Qed.
Lemma index1 (a b : N) (l : list N) : index (a :: b :: l) 1 = Ok b.
Proof. reflexivity. Qed.
Lemma index2 (a b c : N) (l : list N) : index (a :: b :: c :: l) 2 = Ok c.
Proof. reflexivity. Qed.
Lemma index3 (a b c d : N) (l : list N) : index (a :: b :: c :: d :: l) 3 = Ok d.
Proof. reflexivity. Qed.

Lemma rd_le_app (pre suf : list N) off k v :
  off = blen pre -> v < 256 ^ N.of_nat k ->
  rd_le (pre ++ le k v ++ suf) off (N.of_nat k) = Ok v.
Proof.
  intros -> Hv. unfold rd_le. rewrite slice_app' with (mid := le k v); auto.
  - cbn [obind]. now rewrite unle_le_small.
  - now rewrite blen_le.
Qed.
Lemma rd_be_app (pre suf : list N) off k v :
  off = blen pre -> v < 256 ^ N.of_nat k ->
  rd_be (pre ++ be k v ++ suf) off (N.of_nat k) = Ok v.
Proof.
  intros -> Hv. unfold rd_be. rewrite slice_app' with (mid := be k v); auto.
  - cbn [obind]. now rewrite unbe_be_small.
  - now rewrite blen_be.
Qed.

(* the same with the width given as a number (so that literals match syntactically) *)
Lemma rd_le_at (pre : list N) k kN v (suf : list N) off :
  off = blen pre -> kN = N.of_nat k -> v < 256 ^ kN ->
  rd_le (pre ++ le k v ++ suf) off kN = Ok v.
Proof. intros -> -> Hv. apply rd_le_app; auto. Qed.
Lemma rd_le_head k kN v (suf : list N) :
  kN = N.of_nat k -> v < 256 ^ kN -> rd_le (le k v ++ suf) 0 kN = Ok v.
Proof. intros. apply (rd_le_at [] k kN v suf 0); auto. Qed.
Lemma rd_be_at (pre : list N) k kN v (suf : list N) off :
  off = blen pre -> kN = N.of_nat k -> v < 256 ^ kN ->
  rd_be (pre ++ be k v ++ suf) off kN = Ok v.
Proof. intros -> -> Hv. apply rd_be_app; auto. Qed.
Lemma rd_be_head k kN v (suf : list N) :
  kN = N.of_nat k -> v < 256 ^ kN -> rd_be (be k v ++ suf) 0 kN = Ok v.
Proof. intros. apply (rd_be_at [] k kN v suf 0); auto. Qed.

Lemma find0_aux_app (name suf : list N) pos :
  forallb (fun b => negb (b =? 0)) name = true ->
  find0_aux (name ++ 0 :: suf) pos = pos + blen name.
Proof.
  revert pos. induction name as [|b r IH]; intros pos H.
  - cbn [app find0_aux]. rewrite N.eqb_refl. unfold blen. cbn [length]. blia.
  - cbn [forallb] in H. apply andb_true_iff in H as [Hb Hr].
    cbn [app find0_aux]. destruct (b =? 0); [discriminate|].
    rewrite IH by auto. rewrite blen_cons. blia.
Qed.
Lemma find0_aux_nonul (s : list N) pos :
  forallb (fun b => negb (b =? 0)) s = true -> find0_aux s pos = pos + blen s.
Proof.
  revert pos. induction s as [|b r IH]; intros pos H; cbn [find0_aux].
  - rewrite blen_nil. blia.
  - cbn [forallb] in H. apply andb_true_iff in H as [Hb Hr]. destruct (b =? 0); [discriminate|].
    rewrite IH by exact Hr. rewrite blen_cons. blia.
Qed.
Lemma find0_app (pre name suf : list N) from :
  from = blen pre -> forallb (fun b => negb (b =? 0)) name = true ->
  find0 (pre ++ name ++ 0 :: suf) from = from + blen name.
Proof.
  intros -> H. unfold find0. rewrite to_nat_blen, skipn_length_app. now apply find0_aux_app.
Qed.
