(* CRC-32 (IEEE 802.3, reflected, polynomial 0xEDB88320), bit by bit.
   This is what Go's hash/crc32.ChecksumIEEE computes: register initialised to 0xFFFFFFFF, every
   input byte xor-ed into the low byte and shifted out LSB first, final complement.
   Written from the definition, not from Go's table-driven code; the tie compares it with the
   checksums that the library puts into every B-tree header and leaf. *)
From HV Require Import Base.Prelude.

Definition crc_poly : N := 3988292384.        (* 0xEDB88320 *)
Definition crc_ones : N := 4294967295.        (* 0xFFFFFFFF *)

Definition crc_bit (r : N) : N :=
  if N.odd r then N.lxor (N.shiftr r 1) crc_poly else N.shiftr r 1.

Definition crc_byte (r b : N) : N :=
  let r := N.lxor r b in
  crc_bit (crc_bit (crc_bit (crc_bit (crc_bit (crc_bit (crc_bit (crc_bit r))))))).

Definition crc32_update (r : N) (bs : bytes) : N := fold_left crc_byte bs r.

(* the result is a uint32 (for inputs < 256 the register never leaves 32 bits; wrap32 states the type) *)
Definition crc32 (bs : bytes) : N := wrap32 (N.lxor (crc32_update crc_ones bs) crc_ones).

Lemma crc32_lt bs : crc32 bs < 4294967296.
Proof. now apply N.mod_lt. Qed.

(* known vectors *)
Example crc32_check : crc32 (unhex "313233343536373839") = 3421780262.   (* "123456789" -> 0xCBF43926 *)
Proof. vm_compute. reflexivity. Qed.
Example crc32_empty : crc32 [] = 0.
Proof. vm_compute. reflexivity. Qed.
Example crc32_a : crc32 [97] = 3904355907.                                 (* "a" -> 0xE8B7BE43 *)
Proof. vm_compute. reflexivity. Qed.
Example crc32_fox :                                                         (* 0x414FA339 *)
  crc32 (unhex "54686520717569636b2062726f776e20666f78206a756d7073206f76657220746865206c617a7920646f67") = 1095738169.
Proof. vm_compute. reflexivity. Qed.

(* aliases of the two step functions; no proof goes through them *)
Definition crc32_step := crc_bit.
Definition crc32_byte := crc_byte.
