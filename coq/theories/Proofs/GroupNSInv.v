(* C03: what linkToParent does to a well-formed group, the invariant of reachable writer states, and the
   theorems that need no specification: names stay distinct, a failing call leaves every namespace
   structure as it was, duplicate / missing-parent / capacity requests fail. *)
From HV Require Import Base.Prelude Model.GroupNS Proofs.GroupNSBase Proofs.GroupNSHeap Proofs.GroupNSPath.

Definition linked (w : wstate) (g : N) (seg' : bytes) (ents' : list entry) : wstate :=
  set_snods (set_heaps w (aset g seg' (heaps w))) (aset g ents' (snods w)).

Lemma ltp_shape : forall c w parent nm child,
  (exists e, link_to_parent c w parent nm child = (w, Err e)) \/
  (exists g seg' ents', link_to_parent c w parent nm child = (linked w g seg' ents', Ok) /\
     alookup g (heaps w) <> None /\ alookup g (snods w) <> None).
Proof.
  intros c w parent nm child. unfold link_to_parent.
  destruct (strict_names c && negb (heap_name_ok nm)); [left; eauto|].
  destruct (parent_group w parent) as [g|]; [|left; eauto].
  destruct (alookup g (heaps w)) eqn:Hh; [|left; eauto].
  destruct (alookup g (snods w)) eqn:Hs; [|left; eauto].
  destruct (existsb _ _); [left; eauto|].
  destruct (add_string _ _) as [[off h1]|]; [|left; eauto].
  destruct (add_entry _ _); [|left; eauto].
  right. do 3 eexists. split; [reflexivity|]. rewrite Hh, Hs. split; discriminate.
Qed.

Lemma ltp_err_unchanged : forall c w parent nm child w' e,
  link_to_parent c w parent nm child = (w', Err e) -> w' = w.
Proof.
  intros c w parent nm child w' e H.
  destruct (ltp_shape c w parent nm child) as [(e' & E)|(g & seg' & ents' & E & _)]; rewrite E in H; congruence.
Qed.

Lemma ltp_spec : forall c w parent nm child g seg ents ns,
  parent_group w parent = Some g -> alookup g (heaps w) = Some seg -> alookup g (snods w) = Some ents ->
  gwf seg ents ns -> hname_ok nm ->
  (In nm ns /\ link_to_parent c w parent nm child = (w, Err EDup)) \/
  (~ In nm ns /\ blen seg < blen (enc ns) + blen nm + 1 /\ link_to_parent c w parent nm child = (w, Err EHeapFull)) \/
  (~ In nm ns /\ blen (enc ns) + blen nm + 1 <= blen seg /\ snod_cap c <= blen ents /\
     link_to_parent c w parent nm child = (w, Err ESnodFull)) \/
  (~ In nm ns /\ blen (enc ns) + blen nm + 1 <= blen seg /\ blen ents < snod_cap c /\
     exists seg', let ents' := ents ++ [{| e_off := blen (enc ns); e_obj := child |}] in
       link_to_parent c w parent nm child = (linked w g seg' ents', Ok) /\
       gwf seg' ents' (ns ++ [nm]) /\ blen seg' = blen seg).
Proof.
  intros c w parent nm child g seg ents ns Hp Hh Hs Hwf Hnm.
  unfold link_to_parent. rewrite (proj2 (heap_name_ok_iff nm) Hnm), andb_false_r.
  rewrite Hp, Hh, Hs. cbn [parse_snod sn_entries].
  destruct (existsb (entry_has_name seg nm) ents) eqn:D.
  - left. split; [apply (dup_check_iff _ _ _ nm Hwf); assumption | reflexivity].
  - right. assert (Hnin : ~ In nm ns) by (intro I; apply (dup_check_iff _ _ _ nm Hwf) in I; congruence).
    destruct (heap_link seg ents ns nm Hwf Hnm Hnin) as [HA HB].
    destruct (add_string (prepare_for_modification seg) nm) as [[off h1]|] eqn:A.
    + right. destruct (HB off h1 eq_refl) as (Hoff & Hlen & Hg). subst off.
      assert (Hfit : blen (enc ns) + blen nm + 1 <= blen seg).
      { destruct (N.lt_ge_cases (blen seg) (blen (enc ns) + blen nm + 1)) as [X|X]; [|assumption].
        apply HA in X. congruence. }
      unfold add_entry, parse_snod. cbn [sn_cap sn_entries].
      destruct (N.max (snod_cap c) (blen ents) <=? blen ents) eqn:E.
      * left. apply N.leb_le in E. split; [assumption|]. split; [assumption|]. split; [nlia | reflexivity].
      * right. apply N.leb_gt in E. assert (Hlt : blen ents < snod_cap c) by nlia.
        split; [assumption|]. split; [assumption|]. split; [assumption|].
        exists (snd (write_to h1)). cbv zeta. split; [|split; [apply Hg | assumption]].
        unfold linked. cbn [snods set_heaps]. f_equal. f_equal. f_equal.
        unfold snod_write_at. cbn [sn_entries]. apply firstn_all2.
        rewrite app_length. cbn [length]. unfold blen in Hlt. lia.
    + left. split; [assumption|]. split; [apply HA; reflexivity | reflexivity].
Qed.

Record InvB (c : cfg) (n : N) (w : wstate) : Prop := {
  i_wf : forall g seg ents, alookup g (heaps w) = Some seg -> alookup g (snods w) = Some ents ->
         exists ns, gwf seg ents ns /\ blen seg = new_heap_size (heap_cap c);
  i_reg : forall p g, plookup p (groups w) = Some g ->
          (exists seg, alookup g (heaps w) = Some seg) /\ (exists ents, alookup g (snods w) = Some ents);
  i_root : (exists seg, alookup 0 (heaps w) = Some seg) /\ (exists ents, alookup 0 (snods w) = Some ents);
  i_fresh_h : forall g, n <= g -> alookup g (heaps w) = None;
  i_fresh_s : forall g, n <= g -> alookup g (snods w) = None;
  i_fresh_o : forall g, n <= g -> alookup g (objects w) = None;
  i_pos : 0 < n
}.
Definition Inv1 (c : cfg) (w : wstate) : Prop := InvB c (clock w) w.

Lemma invb_mono : forall c n m w, n <= m -> InvB c n w -> InvB c m w.
Proof.
  intros c n m w L [A B C D E F G]. constructor; try assumption; try lia; intros g Hg; [apply D | apply E | apply F]; lia.
Qed.

Lemma invb_tick : forall c n w, InvB c n w -> InvB c n (tick w).
Proof. intros c n w [A B C D E F G]. constructor; assumption. Qed.

Lemma obj_below : forall c n w t o, InvB c n w -> alookup t (objects w) = Some o -> t < n.
Proof.
  intros c n w t o I H. destruct (N.lt_ge_cases t n) as [X|X]; [exact X|].
  rewrite (i_fresh_o _ _ _ I t X) in H. discriminate.
Qed.

Lemma invb_linked : forall c n w g seg' ents' ns, InvB c n w -> g < n ->
  gwf seg' ents' ns -> blen seg' = new_heap_size (heap_cap c) -> InvB c n (linked w g seg' ents').
Proof.
  intros c n w g seg' ents' ns [A B C D E F G] Hg Hwf Hlen.
  constructor; unfold linked; cbn [heaps snods groups objects set_heaps set_snods]; try assumption.
  - intros g' s e. rewrite !alookup_aset. destruct (g =? g'); [|apply A]. intros [= <-] [= <-]. eauto.
  - intros p g' H. destruct (B p g' H) as [[s Hs'] [e He']]. rewrite !alookup_aset. destruct (g =? g'); split; eauto.
  - destruct C as [[s Hs'] [e He']]. rewrite !alookup_aset. destruct (g =? 0); split; eauto.
  - intros g' L. rewrite alookup_aset. destruct (g =? g') eqn:X; [apply N.eqb_eq in X; lia | apply D; assumption].
  - intros g' L. rewrite alookup_aset. destruct (g =? g') eqn:X; [apply N.eqb_eq in X; lia | apply E; assumption].
Qed.

Lemma init_heaps : forall c, heaps (init c) = [(0, zeros (new_heap_size (heap_cap c)))].
Proof. intro c. unfold init. cbn [heaps]. rewrite new_heap_segment. reflexivity. Qed.
Lemma init_snods : forall c, snods (init c) = [(0, [])].
Proof. intro c. unfold init. cbn [snods]. rewrite new_snod_entries. reflexivity. Qed.

Lemma invb_init : forall c, Inv1 c (init c).
Proof.
  intro c. unfold Inv1. replace (clock (init c)) with 1 by reflexivity.
  assert (F : forall A (v : A) g, 1 <= g -> alookup g [(0, v)] = None).
  { intros A v g Hg. cbn [alookup]. destruct (0 =? g) eqn:E; [apply N.eqb_eq in E; lia | reflexivity]. }
  constructor; rewrite ?init_heaps, ?init_snods; try (intros g Hg; apply F; exact Hg).
  - intros g seg ents Hh Hs. cbn [alookup] in Hh, Hs. destruct (0 =? g); [|discriminate].
    injection Hh as <-. injection Hs as <-. exists []. split; [apply gwf_empty | apply blen_zeros].
  - intros p g H. discriminate.
  - split; eexists; reflexivity.
  - lia.
Qed.

Lemma parent_group_structs : forall c n w parent g, InvB c n w -> parent_group w parent = Some g ->
  (exists seg, alookup g (heaps w) = Some seg) /\ (exists ents, alookup g (snods w) = Some ents).
Proof.
  intros c n w parent g I H. unfold parent_group in H. destruct (is_root_parent parent).
  - inversion H; subst. apply (i_root _ _ _ I).
  - apply (i_reg _ _ _ I parent). assumption.
Qed.

Definition name_cond (c : cfg) (nm : name) : Prop := strict_names c = true \/ hname_ok nm.

Lemma invb_ltp : forall c n w parent nm child, InvB c n w -> name_cond c nm ->
  InvB c n (fst (link_to_parent c w parent nm child)).
Proof.
  intros c n w parent nm child I Hd.
  destruct (heap_name_ok nm) eqn:Hb.
  - assert (Hnm : hname_ok nm) by (apply heap_name_ok_iff; assumption).
    destruct (parent_group w parent) as [g|] eqn:P.
    + destruct (parent_group_structs _ _ _ _ _ I P) as [[seg Hh] [ents Hs]].
      destruct (i_wf _ _ _ I g seg ents Hh Hs) as (ns & Hwf & Hcap).
      destruct (ltp_spec c w parent nm child g seg ents ns P Hh Hs Hwf Hnm)
        as [(_ & E)|[(_ & _ & E)|[(_ & _ & _ & E)|(_ & _ & _ & seg' & E & Hwf' & Hl)]]]; rewrite E; cbn [fst]; try assumption.
      eapply invb_linked; [exact I | | exact Hwf' | congruence].
      destruct (N.lt_ge_cases g n) as [X|X]; [exact X|]. rewrite (i_fresh_h _ _ _ I g X) in Hh. discriminate.
    + unfold link_to_parent. rewrite Hb, andb_false_r, P. assumption.
  - assert (S : strict_names c = true).
    { destruct Hd as [S|Hn]; [assumption|]. apply heap_name_ok_iff in Hn. congruence. }
    unfold link_to_parent. rewrite S, Hb. assumption.
Qed.

Lemma ltp_frame : forall c w parent nm child w' r, link_to_parent c w parent nm child = (w', r) ->
  groups w' = groups w /\ objects w' = objects w /\ clock w' = clock w.
Proof.
  intros c w parent nm child w' r H.
  destruct (ltp_shape c w parent nm child) as [(e & E)|(g & seg' & ents' & E & _)];
    rewrite E in H; injection H as <- _; auto.
Qed.

Lemma ltp_keeps_keys : forall c w parent nm child w' r k, link_to_parent c w parent nm child = (w', r) ->
  (alookup k (heaps w) <> None -> alookup k (heaps w') <> None) /\
  (alookup k (snods w) <> None -> alookup k (snods w') <> None).
Proof.
  intros c w parent nm child w' r k H.
  destruct (ltp_shape c w parent nm child) as [(e & E)|(g & seg' & ents' & E & _)];
    rewrite E in H; injection H as <- _; [auto|].
  unfold linked. cbn [heaps snods set_heaps set_snods]. rewrite !alookup_aset. destruct (g =? k); split; congruence.
Qed.

Definition fresh_obj (k : kind) : obj := {| o_kind := k; o_rcmsg := None |}.
Definition with_obj (w : wstate) (id : N) (o : obj) : wstate := set_objects w (aset id o (objects w)).
(* createGroupStructures at the address of the current call *)
Definition with_structs (c : cfg) (w : wstate) : wstate :=
  let w1 := set_heaps w (aset (clock w) (snd (write_to (new_local_heap (heap_cap c)))) (heaps w)) in
  set_snods w1 (aset (clock w) (snod_write_at (new_snod (snod_cap c)) (snod_cap c)) (snods w1)).

Lemma with_structs_eq : forall c w, with_structs c w = linked w (clock w) (zeros (new_heap_size (heap_cap c))) [].
Proof. intros. unfold with_structs. cbv zeta. rewrite new_heap_segment, new_snod_entries. reflexivity. Qed.

Lemma invb_add_object : forall c n w id o, InvB c n w -> id < n -> InvB c n (with_obj w id o).
Proof.
  intros c n w id o [A B C D E F G] L. constructor; cbn [heaps snods groups objects with_obj set_objects]; try assumption.
  intros g Hg. rewrite alookup_aset. destruct (id =? g) eqn:X; [apply N.eqb_eq in X; lia | apply F; assumption].
Qed.

Lemma invb_set_groups : forall c n w p id, InvB c n w ->
  alookup id (heaps w) <> None -> alookup id (snods w) <> None -> InvB c n (set_groups w (pset p id (groups w))).
Proof.
  intros c n w p id [A B C D E F G] Hh Hs. constructor; cbn [heaps snods groups objects set_groups]; try assumption.
  intros p' g H. rewrite plookup_pset in H. destruct (bytes_eqb p p'); [|apply (B p' g H)].
  injection H as <-. destruct (alookup id (heaps w)), (alookup id (snods w)); try contradiction. eauto.
Qed.

Definition is_hard_link (o : op) : bool := match o with HardLink _ _ => true | _ => false end.
Definition op_parent (c : cfg) (o : op) : path := fst (parse_path (op_path_eff c o)).

(* What is left of a call once its own checks have passed: the state it hands to linkToParent (a fresh
   object header at the address of the call, for a group with fresh structures; for a hard link the
   target's header rewritten), the child it links, and what it does with linkToParent's answer
   (CreateGroup registers the path; CreateHardLink rewrites the target's header again on failure). *)
Inductive link_phase (c : cfg) (w : wstate) : op -> wstate -> N -> (wstate -> result -> wstate) -> Prop :=
| LP_group : forall p,
    link_phase c w (MkGroup p) (with_obj (with_structs c w) (clock w) (fresh_obj KGroup)) (clock w)
      (fun w' r => match r with
                   | Ok => set_groups w' (pset (op_path_eff c (MkGroup p)) (clock w) (groups w'))
                   | Err _ => w'
                   end)
| LP_data : forall p,
    link_phase c w (MkDataset p) (with_obj w (clock w) (fresh_obj KData)) (clock w) (fun w' _ => w')
| LP_soft : forall p q,
    link_phase c w (SoftLink p q) (with_obj w (clock w) (fresh_obj KSoft)) (clock w) (fun w' _ => w')
| LP_hard : forall p q t o o1 o2,
    validate_link_path p = true -> validate_link_path q = true -> resolve_object_address w q = Some t ->
    alookup t (objects w) = Some o -> o_kind o1 = o_kind o -> o_kind o2 = o_kind o ->
    link_phase c w (HardLink p q) (with_obj w t o1) t
      (fun w' r => match r with Ok => w' | Err _ => with_obj w' t o2 end).

Lemma step_body_shape : forall c w o,
  (exists e, step_body c w o = (w, Err e)) \/
  (exists wpre child post, link_phase c w o wpre child post /\
     step_body c w o =
     let '(w', r) := link_to_parent c wpre (op_parent c o) (op_link_name c o) child in (post w' r, r)).
Proof.
  intros c w o. unfold op_parent, op_link_name. destruct o as [p|p|p q|p q]; cbn [step_body op_path_eff].
  - unfold create_group. destruct (negb (validate_group_path p)); [left; eauto|]. cbv zeta.
    destruct (parse_path (if canon_group_key c then trim_suffix_slash p else p)) as [parent nm].
    destruct (negb (parent_registered w parent)); [left; eauto|]. destruct (precheck c w parent nm); [left; eauto|].
    right. do 3 eexists. split; [apply LP_group|]. unfold with_obj, with_structs, fresh_obj. cbn [fst snd op_path_eff].
    destruct (link_to_parent c _ parent nm (clock w)) as [w4 [|e]]; reflexivity.
  - unfold create_dataset. destruct (negb (validate_dataset_name p)); [left; eauto|].
    destruct (parse_path p) as [parent nm]. destruct (precheck c w parent nm); [left; eauto|].
    right. do 3 eexists. split; [apply LP_data|]. unfold with_obj, fresh_obj. cbn [fst snd].
    destruct (link_to_parent c _ parent nm (clock w)) as [w4 r]; reflexivity.
  - unfold create_hard_link. destruct (validate_link_path p) eqn:Vp; cbn [negb]; [|left; eauto].
    destruct (validate_link_path q) eqn:Vq; cbn [negb]; [|left; eauto].
    destruct (parse_path p) as [parent nm]. destruct (negb (parent_registered w parent)); [left; eauto|].
    destruct (resolve_object_address w q) as [t|] eqn:Rq; [|left; eauto].
    destruct (alookup t (objects w)) as [o|] eqn:Ho; [|left; eauto]. destruct (precheck c w parent nm); [left; eauto|].
    cbv zeta. set (o1 := write_refcount c o _). set (o2 := write_refcount c o1 _).
    right. do 3 eexists. split; [apply (LP_hard c w p q t o o1 o2); auto|]. unfold with_obj. cbn [fst snd].
    destruct (link_to_parent c _ parent nm t) as [w2 [|e]]; reflexivity.
  - unfold create_soft_link. destruct (negb (validate_link_path p)); [left; eauto|].
    destruct (negb (validate_soft_target q)); [left; eauto|].
    destruct (parse_path p) as [parent nm]. destruct (negb (parent_registered w parent)); [left; eauto|].
    destruct (soft_max c <? blen nm + blen q); [left; eauto|]. destruct (precheck c w parent nm); [left; eauto|].
    right. do 3 eexists. split; [apply LP_soft|]. unfold with_obj, fresh_obj. cbn [fst snd].
    destruct (link_to_parent c _ parent nm (clock w)) as [w4 r]; reflexivity.
Qed.

Lemma lp_pre : forall c w o wpre child post, link_phase c w o wpre child post ->
  groups wpre = groups w /\ clock wpre = clock w /\
  forall k, k <> clock w -> alookup k (heaps wpre) = alookup k (heaps w) /\ alookup k (snods wpre) = alookup k (snods w).
Proof.
  intros c w o wpre child post LP.
  destruct LP; unfold with_obj, with_structs; cbn [groups clock heaps snods set_objects set_snods set_heaps];
    (split; [reflexivity|]; split; [reflexivity|]; intros k Hk; rewrite ?alookup_aset_neq by congruence; auto).
Qed.

Lemma lp_pre_inv : forall c w o wpre child post, link_phase c w o wpre child post -> Inv1 c w ->
  InvB c (clock w + 1) wpre.
Proof.
  intros c w o wpre child post LP I.
  assert (I' : InvB c (clock w + 1) w) by (apply (invb_mono c (clock w)); [lia | exact I]).
  destruct LP as [| | |? ? t o o1 o2 _ _ _ Ho _ _]; apply invb_add_object; try assumption; try lia.
  - rewrite with_structs_eq. apply (invb_linked c _ w _ _ _ []); [exact I' | lia | apply gwf_empty | apply blen_zeros].
  - apply (obj_below _ _ _ _ _ I) in Ho. lia.
Qed.

Lemma lp_err_objects : forall c w o wpre child post e k, link_phase c w o wpre child post -> k < clock w ->
  option_map o_kind (alookup k (objects (post wpre (Err e)))) = option_map o_kind (alookup k (objects w)) /\
  (is_hard_link o = false -> alookup k (objects (post wpre (Err e))) = alookup k (objects w)).
Proof.
  intros c w o wpre child post e k LP Hk.
  destruct LP as [| | |? ? t o o1 o2 _ _ _ Ho K1 K2]; unfold with_obj, with_structs;
    cbn [objects set_objects set_snods set_heaps is_hard_link]; rewrite ?alookup_aset.
  1-3: replace (clock w =? k) with false by (symmetry; apply N.eqb_neq; lia); auto.
  destruct (t =? k) eqn:E; [|auto]. apply N.eqb_eq in E. subst k. rewrite Ho. cbn [option_map].
  split; [congruence | discriminate].
Qed.

Lemma step_body_clock : forall c w o, clock (fst (step_body c w o)) = clock w.
Proof.
  intros c w o. destruct (step_body_shape c w o) as [(e & ->)|(wpre & child & post & LP & ->)]; [reflexivity|].
  destruct (lp_pre _ _ _ _ _ _ LP) as (_ & C & _).
  destruct (link_to_parent c wpre _ _ child) as [w' r] eqn:L. destruct (ltp_frame _ _ _ _ _ _ _ L) as (_ & _ & F).
  cbn [fst]. rewrite <- C, <- F. destruct LP; try destruct r; reflexivity.
Qed.

Lemma step_body_inv : forall c w o, Inv1 c w -> name_cond c (op_link_name c o) ->
  InvB c (clock w + 1) (fst (step_body c w o)).
Proof.
  intros c w o I Hnm. destruct (step_body_shape c w o) as [(e & ->)|(wpre & child & post & LP & ->)].
  - apply (invb_mono c (clock w)); [lia | exact I].
  - pose proof (invb_ltp c _ wpre (op_parent c o) (op_link_name c o) child (lp_pre_inv _ _ _ _ _ _ LP I) Hnm) as I'.
    destruct (link_to_parent c wpre _ _ child) as [w' r] eqn:L. cbn [fst] in *.
    destruct LP as [| | |? ? t o o1 o2 _ _ _ Ho _ _]; try exact I'; destruct r; try exact I'.
    + destruct (ltp_keeps_keys _ _ _ _ _ _ _ (clock w) L) as [K1 K2].
      apply invb_set_groups; [exact I' | apply K1 | apply K2];
        unfold with_obj, with_structs; cbn [heaps snods set_objects set_snods set_heaps];
        rewrite alookup_aset_eq; discriminate.
    + apply invb_add_object; [exact I'|]. apply (obj_below _ _ _ _ _ I) in Ho. lia.
Qed.

Lemma step_inv : forall c w o, Inv1 c w -> name_cond c (op_link_name c o) -> Inv1 c (fst (step c w o)).
Proof.
  intros c w o I H. unfold step. pose proof (step_body_inv c w o I H) as B. pose proof (step_body_clock c w o) as C.
  destruct (step_body c w o) as [w' r]. cbn [fst] in *. unfold Inv1. cbn [clock tick]. rewrite C.
  apply invb_tick. assumption.
Qed.

Lemma names_ok_cons : forall c o h, names_ok c (o :: h) = true -> name_cond c (op_link_name c o) /\ names_ok c h = true.
Proof.
  intros c o h N. unfold names_ok, name_cond in *. destruct (strict_names c); [auto|]. cbn [orb forallb] in *.
  apply andb_true_iff in N. destruct N as [N1 N2]. split; [right; apply heap_name_ok_iff; assumption | assumption].
Qed.

Lemma run_inv : forall c h w, Inv1 c w -> names_ok c h = true -> Inv1 c (fst (run (step c) w h)).
Proof.
  intros c h. induction h as [|o h IH]; intros w I N; [assumption|].
  destruct (names_ok_cons c o h N) as [N1 N2].
  cbn [run]. pose proof (step_inv c w o I N1) as I1.
  destruct (step c w o) as [w1 r]. cbn [fst] in I1. specialize (IH w1 I1 N2).
  destruct (run (step c) w1 h) as [w2 rs]. assumption.
Qed.

Lemma group_names_inv : forall w g names, group_names w g = Some names ->
  exists seg ents, alookup g (heaps w) = Some seg /\ alookup g (snods w) = Some ents /\ names = map (name_of seg) ents.
Proof.
  intros w g names H. unfold group_names in H. destruct (alookup g (heaps w)) as [seg|]; [|discriminate].
  destruct (alookup g (snods w)) as [ents|]; [|discriminate]. injection H as <-. eauto.
Qed.

Lemma NoDup_map_Some : forall A (l : list A), NoDup l -> NoDup (map Some l).
Proof.
  induction l as [|x l IH]; intro H; cbn [map]; [constructor|]. inversion H; subst. constructor; [|auto].
  intro I. apply in_map_iff in I. destruct I as (y & Hy & Iy). inversion Hy; subst. contradiction.
Qed.

Lemma inv_no_dup : forall c w g names, Inv1 c w -> group_names w g = Some names ->
  NoDup names /\ Forall (fun x => x <> None) names.
Proof.
  intros c w g names I H. destruct (group_names_inv _ _ _ H) as (seg & ents & Hh & Hs & ->).
  destruct (i_wf _ _ _ I g seg ents Hh Hs) as (ns & Hwf & _).
  rewrite (names_decode _ _ _ Hwf). destruct Hwf as (_ & _ & _ & _ & Hnd). split.
  - apply NoDup_map_Some. assumption.
  - apply Forall_forall. intros x Hx. apply in_map_iff in Hx. destruct Hx as (y & Hy & _). congruence.
Qed.

(* everything that existed before the call (ids below the clock) is as it was; objects allocated by
   the failing call itself (id = clock) are unreachable leftovers; a failed hard link may change the
   target's stored reference count (see create_hard_link), never its kind *)
Definition same_ns (n : N) (w w' : wstate) : Prop :=
  groups w' = groups w /\
  forall k, k < n ->
    alookup k (heaps w') = alookup k (heaps w) /\ alookup k (snods w') = alookup k (snods w) /\
    option_map o_kind (alookup k (objects w')) = option_map o_kind (alookup k (objects w)).
Definition same_all (n : N) (w w' : wstate) : Prop :=
  same_ns n w w' /\ forall k, k < n -> alookup k (objects w') = alookup k (objects w).

Lemma same_ns_refl : forall n w, same_ns n w w.
Proof. intros. split; [reflexivity | intros; auto]. Qed.
Lemma same_all_refl : forall n w, same_all n w w.
Proof. intros. split; [apply same_ns_refl | auto]. Qed.

Lemma step_err_shape : forall c w o w' e, step_body c w o = (w', Err e) ->
  w' = w \/ exists wpre child post, link_phase c w o wpre child post /\ w' = post wpre (Err e).
Proof.
  intros c w o w' e H. destruct (step_body_shape c w o) as [(e' & E)|(wpre & child & post & LP & E)]; rewrite E in H.
  - left. congruence.
  - right. exists wpre, child, post. split; [exact LP|].
    destruct (link_to_parent c wpre _ _ child) as [w1 r] eqn:L. injection H as <- ->.
    apply ltp_err_unchanged in L. congruence.
Qed.

Lemma step_err_same_ns : forall c w o w' e, step_body c w o = (w', Err e) -> same_ns (clock w) w w'.
Proof.
  intros c w o w' e H. destruct (step_err_shape _ _ _ _ _ H) as [->|(wpre & child & post & LP & ->)]; [apply same_ns_refl|].
  destruct (lp_pre _ _ _ _ _ _ LP) as (G & _ & K). split.
  - destruct LP; exact G.
  - intros k Hk. destruct (K k ltac:(lia)) as [K1 K2]. split; [|split; [|apply (lp_err_objects _ _ _ _ _ _ e k LP Hk)]].
    + destruct LP; exact K1.
    + destruct LP; exact K2.
Qed.

Lemma step_err_same_all : forall c w o w' e, is_hard_link o = false ->
  step_body c w o = (w', Err e) -> same_all (clock w) w w'.
Proof.
  intros c w o w' e Hh H. split; [eapply step_err_same_ns; eassumption|].
  destruct (step_err_shape _ _ _ _ _ H) as [->|(wpre & child & post & LP & ->)]; [auto|].
  intros k Hk. apply (lp_err_objects _ _ _ _ _ _ e k LP Hk). exact Hh.
Qed.

Lemma step_body_links : forall c w o,
  (exists e, step_body c w o = (w, Err e)) \/
  (exists wpre child, groups wpre = groups w /\
     (forall k, k <> clock w -> alookup k (heaps wpre) = alookup k (heaps w) /\ alookup k (snods wpre) = alookup k (snods w)) /\
     is_ok (snd (step_body c w o)) = is_ok (snd (link_to_parent c wpre (op_parent c o) (op_link_name c o) child))).
Proof.
  intros c w o. destruct (step_body_shape c w o) as [E|(wpre & child & post & LP & E)]; [left; exact E|].
  right. exists wpre, child. destruct (lp_pre _ _ _ _ _ _ LP) as (G & _ & K). split; [exact G|]. split; [exact K|].
  rewrite E. destruct (link_to_parent c wpre _ _ child); reflexivity.
Qed.

Lemma parent_group_groups : forall w w' parent, groups w' = groups w -> parent_group w' parent = parent_group w parent.
Proof. intros w w' parent H. unfold parent_group. rewrite H. reflexivity. Qed.

Lemma ltp_dup_raw : forall c w parent nm child g seg ents,
  parent_group w parent = Some g -> alookup g (heaps w) = Some seg -> alookup g (snods w) = Some ents ->
  In (Some nm) (map (name_of seg) ents) -> exists e, link_to_parent c w parent nm child = (w, Err e).
Proof.
  intros c w parent nm child g seg ents Hp Hh Hs I. unfold link_to_parent.
  destruct (strict_names c && negb (heap_name_ok nm)); [eauto|]. rewrite Hp, Hh, Hs. cbn [parse_snod sn_entries].
  rewrite (proj2 (has_name_iff seg nm ents) I). eauto.
Qed.

(* the name is already present in the group the call would link into *)
Definition name_exists (c : cfg) (w : wstate) (o : op) : Prop :=
  exists g names, parent_group w (op_parent c o) = Some g /\ group_names w g = Some names /\ In (Some (op_link_name c o)) names.

Lemma structs_not_fresh : forall c w g names, Inv1 c w -> group_names w g = Some names -> g <> clock w.
Proof.
  intros c w g names I H ->. destruct (group_names_inv _ _ _ H) as (seg & _ & Hh & _).
  rewrite (i_fresh_h _ _ _ I (clock w)) in Hh by lia. discriminate.
Qed.

Lemma step_reject_dup : forall c w o, Inv1 c w -> name_exists c w o -> is_ok (snd (step_body c w o)) = false.
Proof.
  intros c w o I (g & names & Hp & Hn & Hin).
  destruct (step_body_links c w o) as [(e & E)|(wpre & child & Hg & Hk & E)]; [rewrite E; reflexivity|].
  rewrite E. pose proof (structs_not_fresh _ _ _ _ I Hn) as Hne. destruct (Hk g Hne) as [K1 K2].
  destruct (group_names_inv _ _ _ Hn) as (seg & ents & Hh & Hs & ->).
  destruct (ltp_dup_raw c wpre (op_parent c o) (op_link_name c o) child g seg ents) as (e & X); try congruence.
  - rewrite (parent_group_groups _ _ _ Hg). assumption.
  - rewrite X. reflexivity.
Qed.

Lemma step_reject_missing_parent : forall c w o, parent_group w (op_parent c o) = None -> is_ok (snd (step_body c w o)) = false.
Proof.
  intros c w o Hp.
  destruct (step_body_links c w o) as [(e & E)|(wpre & child & Hg & Hk & E)]; [rewrite E; reflexivity|].
  rewrite E. unfold link_to_parent. destruct (strict_names c && _); [reflexivity|]. rewrite (parent_group_groups _ _ _ Hg), Hp. reflexivity.
Qed.

(* bytes of the heap in use, computed from the names the reader decodes *)
Fixpoint used_bytes (names : list (option name)) : N :=
  match names with [] => 0 | Some n :: r => blen n + 1 + used_bytes r | None :: r => used_bytes r end.
Lemma used_bytes_enc : forall ns, used_bytes (map Some ns) = blen (enc ns).
Proof.
  induction ns as [|n ns IH]; [reflexivity|]. cbn [map used_bytes]. rewrite IH. unfold enc. cbn [flat_map]. fold (enc ns).
  rewrite !blen_app, !blen_cons, !blen_nil. nlia.
Qed.

Lemma step_capacity : forall c w o g names, Inv1 c w -> hname_ok (op_link_name c o) ->
  parent_group w (op_parent c o) = Some g -> group_names w g = Some names ->
  (snod_cap c <= blen names \/ new_heap_size (heap_cap c) < used_bytes names + blen (op_link_name c o) + 1) ->
  is_ok (snd (step_body c w o)) = false.
Proof.
  intros c w o g names I Hnm Hp Hn Hcap.
  destruct (step_body_links c w o) as [(e & E)|(wpre & child & Hg & Hk & E)]; [rewrite E; reflexivity|].
  rewrite E. pose proof (structs_not_fresh _ _ _ _ I Hn) as Hne. destruct (Hk g Hne) as [K1 K2].
  destruct (group_names_inv _ _ _ Hn) as (seg & ents & Hh & Hs & ->).
  destruct (i_wf _ _ _ I g seg ents Hh Hs) as (ns & Hwf & Hlen).
  rewrite (names_decode _ _ _ Hwf) in Hcap. rewrite used_bytes_enc, blen_map in Hcap.
  pose proof (gwf_length _ _ _ Hwf) as HL.
  assert (Hp' : parent_group wpre (op_parent c o) = Some g) by (rewrite (parent_group_groups _ _ _ Hg); assumption).
  rewrite <- K1 in Hh. rewrite <- K2 in Hs.
  destruct (ltp_spec c wpre (op_parent c o) (op_link_name c o) child g seg ents ns Hp' Hh Hs Hwf Hnm)
    as [(_ & X)|[(_ & _ & X)|[(_ & _ & _ & X)|(_ & F1 & F2 & _)]]]; try (rewrite X; reflexivity).
  exfalso. unfold blen in *. destruct Hcap; nlia.
Qed.

Definition reach (c : cfg) (h : list op) : wstate := fst (run (step c) (init c) h).

Lemma reach_inv : forall c h, names_ok c h = true -> Inv1 c (reach c h).
Proof. intros c h H. apply run_inv; [apply invb_init | assumption]. Qed.

Lemma reject_same_ns : forall c w o, is_ok (snd (step_body c w o)) = false ->
  same_ns (clock w) w (fst (step_body c w o)).
Proof.
  intros c w o H. destruct (step_body c w o) as [w' [|e]] eqn:B; [discriminate|]. eapply step_err_same_ns; eassumption.
Qed.

Lemma no_dup_reach : forall c h g names, names_ok c h = true -> group_names (reach c h) g = Some names ->
  NoDup names /\ Forall (fun x => x <> None) names.
Proof. intros c h g names H. apply inv_no_dup with (c := c). apply reach_inv. assumption. Qed.

Lemma reject_dup_reach : forall c h o, names_ok c h = true -> name_exists c (reach c h) o ->
  is_ok (snd (step_body c (reach c h) o)) = false /\
  same_ns (clock (reach c h)) (reach c h) (fst (step_body c (reach c h) o)).
Proof.
  intros c h o H E. assert (X := step_reject_dup c _ o (reach_inv c h H) E). exact (conj X (reject_same_ns _ _ _ X)).
Qed.

Lemma reject_missing_parent_any : forall c w o, parent_group w (op_parent c o) = None ->
  is_ok (snd (step_body c w o)) = false /\ same_ns (clock w) w (fst (step_body c w o)).
Proof. intros c w o H. assert (X := step_reject_missing_parent c w o H). exact (conj X (reject_same_ns _ _ _ X)). Qed.

Lemma capacity_reach : forall c h o g names, names_ok c h = true -> heap_name_ok (op_link_name c o) = true ->
  parent_group (reach c h) (op_parent c o) = Some g -> group_names (reach c h) g = Some names ->
  (snod_cap c <= blen names \/ new_heap_size (heap_cap c) < used_bytes names + blen (op_link_name c o) + 1) ->
  is_ok (snd (step_body c (reach c h) o)) = false /\
  same_ns (clock (reach c h)) (reach c h) (fst (step_body c (reach c h) o)).
Proof.
  intros c h o g names H Hn P G K.
  assert (X := step_capacity c _ o g names (reach_inv c h H) (proj1 (heap_name_ok_iff _) Hn) P G K).
  exact (conj X (reject_same_ns _ _ _ X)).
Qed.
