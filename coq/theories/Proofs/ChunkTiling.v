(* Main lemmas for C01 (tiling) and C13 (read after resize):
   placing all chunks written for `old` extents under `new` extents, in any order, starting from
   zeros, yields resize_arr old new data.  With old = new this is the tiling theorem. *)
From HV Require Import Base.Prelude Model.Chunk Proofs.ChunkLists Proofs.ChunkSpec Proofs.ChunkCoords.
From HV Require Base.Bytes.
From Coq Require Import Permutation.

Local Open Scope N_scope.

Section Tiling.
Variable esz : N.

Notation ext := (ext_spec esz).
Notation place := (place_spec esz).

(* functional version of read_chunked over write_chunks *)
Definition Rfold (new old cdims : list N) (data : bytes) (L : list (list N)) (init : bytes) : bytes :=
  fold_left (fun acc c => place new cdims c (ext old cdims c data (zerosN (vol cdims esz))) acc) L init.

Lemma lenN_resize_arr old : forall new data, length new = length old ->
  lenN data = vol old esz -> lenN (resize_arr old new esz data) = vol new esz.
Proof.
  induction old as [|o old' IH]; intros [|n new'] data Hl Hd; try discriminate.
  - cbn [resize_arr]. rewrite lenN_takeN, Hd, vol_nil. lia.
  - cbn [resize_arr]. cbn [length] in Hl. rewrite vol_cons in *.
    apply lenN_concat_range. intros k Hk. destruct (k <? o) eqn:E.
    + apply IH; [lia|]. eapply lenN_blk; [eassumption|lia].
    + apply lenN_zerosN.
Qed.

Lemma resize_arr_id d : forall x, lenN x = vol d esz -> resize_arr d d esz x = x.
Proof.
  induction d as [|d0 d' IH]; intros x Hx.
  - cbn [resize_arr]. apply takeN_all. rewrite Hx, vol_nil. lia.
  - cbn [resize_arr]. rewrite vol_cons in Hx.
    transitivity (concat (map (fun k => blk (vol d' esz) k x) (rangeN d0))); [| apply concat_blocks; auto].
    f_equal. apply map_ext_in. intros k Hk. apply in_rangeN in Hk.
    replace (k <? d0) with true by lia. apply IH. eapply lenN_blk; [eassumption|lia].
Qed.

Lemma get_elem_const v : forall dims ix, in_extent dims ix = true ->
  get_elem dims esz (repeat v (N.to_nat (vol dims esz))) ix = repeat v (N.to_nat esz).
Proof.
  induction dims as [|d ds IH]; intros [|i ix] H; cbn [in_extent] in H; try discriminate.
  - cbn [get_elem]. rewrite vol_nil. apply takeN_all. unfold lenN. rewrite repeat_length. lia.
  - apply andb_true_iff in H as [Hi H]. apply N.ltb_lt in Hi. cbn [get_elem]. rewrite vol_cons.
    unfold blk. rewrite slice_repeat by now apply blk_bound. apply IH; auto.
Qed.

Lemma get_resize_arr old : forall new data ix, length new = length old ->
  lenN data = vol old esz -> in_extent new ix = true ->
  get_elem new esz (resize_arr old new esz data) ix
  = if in_extent old ix then get_elem old esz data ix else zerosN esz.
Proof.
  induction old as [|o old' IH]; intros [|n new'] data ix Hl Hd Hin; try discriminate.
  - destruct ix; [|discriminate]. cbn [get_elem resize_arr in_extent].
    unfold takeN. rewrite firstn_firstn. f_equal. lia.
  - destruct ix as [|i ix']; [discriminate|].
    cbn [in_extent] in Hin. apply andb_prop in Hin. destruct Hin as [Hi Hin].
    cbn [length] in Hl. rewrite vol_cons in Hd.
    cbn [get_elem resize_arr in_extent].
    rewrite blk_concat; [| | lia].
    + destruct (i <? o) eqn:E; cbn [andb].
      * apply IH; auto. eapply lenN_blk; [eassumption|lia].
      * apply (get_elem_const 0). exact Hin.
    + intros k Hk. destruct (k <? o) eqn:E; [apply lenN_resize_arr; [lia|eapply lenN_blk; [eassumption|lia]] | apply lenN_zerosN].
Qed.

Lemma place_zeros dims : forall cdims coord, length cdims = length dims -> length coord = length dims ->
  place dims cdims coord (zerosN (vol cdims esz)) (zerosN (vol dims esz)) = zerosN (vol dims esz).
Proof.
  induction dims as [|d dims' IH]; intros [|cd cdims'] [|c coord'] Hc Hx; try discriminate.
  - cbn [place_spec]. rewrite vol_nil. apply takeN_all. rewrite lenN_zerosN. lia.
  - cbn [place_spec]. cbn [length] in *. rewrite !vol_cons.
    transitivity (concat (map (fun _ => zerosN (vol dims' esz)) (rangeN d))); [| apply concat_zeros].
    f_equal. apply map_ext_in. intros k Hk. apply in_rangeN in Hk.
    rewrite (blk_zeros _ d k) by lia.
    destruct ((c * cd <=? k) && (k <? c * cd + cd)) eqn:E; auto.
    rewrite blk_zeros by lia. apply IH; lia.
Qed.

(* what a chunk (c0 :: c') does to block k of the result *)
Definition stepk (new' old' cdims' : list N) (o cd k : N) (data : bytes) (b : bytes) (c : list N) : bytes :=
  match c with
  | c0 :: c' =>
      if (c0 * cd <=? k) && (k <? c0 * cd + cd)
      then place new' cdims' c'
                 (if k <? o then ext old' cdims' c' (blk (vol old' esz) k data) (zerosN (vol cdims' esz))
                  else zerosN (vol cdims' esz)) b
      else b
  | [] => b
  end.

Lemma lenN_Rfold new old cdims data L init :
  length new = length old -> length cdims = length old ->
  Forall (fun c => length c = length old) L ->
  lenN data = vol old esz -> lenN init = vol new esz ->
  lenN (Rfold new old cdims data L init) = vol new esz.
Proof.
  intros Hn Hc HL Hd Hi. unfold Rfold. apply (fold_left_inv (fun b => lenN b = vol new esz)); [exact Hi|].
  intros acc c Hin Hacc. rewrite Forall_forall in HL. specialize (HL c Hin).
  apply lenN_place_spec; try lia. apply lenN_ext_spec; auto; try lia. apply lenN_zerosN.
Qed.

Lemma blk_Rfold n new' o old' cd cdims' data k : forall L init,
  length new' = length old' -> length cdims' = length old' ->
  Forall (fun c => length c = S (length old')) L ->
  lenN data = vol (o :: old') esz -> lenN init = vol (n :: new') esz -> k < n ->
  blk (vol new' esz) k (Rfold (n :: new') (o :: old') (cd :: cdims') data L init)
  = fold_left (stepk new' old' cdims' o cd k data) L (blk (vol new' esz) k init).
Proof.
  induction L as [|c L IH]; intros init Hn Hc HL Hd Hi Hk; [reflexivity|].
  inversion HL as [|? ? Hlc HL']; subst.
  destruct c as [|c0 c']; [discriminate|]. cbn [length] in Hlc.
  unfold Rfold in *. cbn [fold_left].
  set (chunk := ext (o :: old') (cd :: cdims') (c0 :: c') data (zerosN (vol (cd :: cdims') esz))).
  assert (Hchunk : lenN chunk = vol (cd :: cdims') esz).
  { apply lenN_ext_spec; cbn [length]; auto; try lia. apply lenN_zerosN. }
  set (acc := place (n :: new') (cd :: cdims') (c0 :: c') chunk init).
  assert (Hacc : lenN acc = vol (n :: new') esz).
  { apply lenN_place_spec; cbn [length]; auto; lia. }
  rewrite (IH acc) by auto. f_equal.
  unfold acc. cbn [place_spec stepk]. rewrite !vol_cons in *.
  rewrite blk_concat; [| | exact Hk].
  2:{ intros i Hi'. destruct ((c0 * cd <=? i) && (i <? c0 * cd + cd)) eqn:E.
      - apply lenN_place_spec; try lia; (eapply lenN_blk; [eassumption|lia]).
      - eapply lenN_blk; [eassumption|lia]. }
  destruct ((c0 * cd <=? k) && (k <? c0 * cd + cd)) eqn:E; auto.
  f_equal.
  unfold chunk. cbn [ext_spec]. rewrite vol_cons.
  rewrite blk_concat; [| | lia].
  + replace (c0 * cd + (k - c0 * cd)) with k by lia.
    rewrite blk_zeros by lia. reflexivity.
  + intros i Hi'. rewrite (blk_zeros _ cd i) by lia.
    destruct (c0 * cd + i <? o) eqn:E'; [| apply lenN_zerosN].
    apply lenN_ext_spec; try lia; [eapply lenN_blk; [eassumption|lia] | apply lenN_zerosN].
Qed.

Lemma div_lt_num_chunks k o cd : 0 < cd -> k < o -> k / cd < (o + cd - 1) / cd.
Proof.
  intros Hcd Hk.
  apply N.div_lt_upper_bound; [lia|].
  pose proof (N.div_mod (o + cd - 1) cd ltac:(lia)) as E.
  pose proof (N.mod_lt (o + cd - 1) cd ltac:(lia)).
  nia.
Qed.

Lemma window_div c0 cd k : 0 < cd -> ((c0 * cd <=? k) && (k <? c0 * cd + cd)) = (c0 =? k / cd).
Proof.
  intros Hcd.
  pose proof (N.div_mod k cd ltac:(lia)) as E. pose proof (N.mod_lt k cd ltac:(lia)).
  destruct (N.eq_dec c0 (k / cd)) as [->|Hne].
  - rewrite N.eqb_refl. nia.
  - replace (c0 =? k / cd) with false by lia.
    destruct ((c0 * cd <=? k) && (k <? c0 * cd + cd)) eqn:E2; auto.
    exfalso. apply Hne. apply (N.div_unique k cd c0 (k - c0 * cd)); lia.
Qed.

Theorem Rfold_resize old : forall new cdims L data,
  length new = length old -> length cdims = length old ->
  posl cdims ->
  Permutation L (coords_of (num_chunks old cdims)) ->
  lenN data = vol old esz ->
  Rfold new old cdims data L (zerosN (vol new esz)) = resize_arr old new esz data.
Proof.
  induction old as [|o old' IH]; intros [|n new'] [|cd cdims'] L data Hn Hc Hp HP Hd; try discriminate.
  - cbn [num_chunks zipWith coords_of] in HP. apply Permutation_sym, Permutation_length_1_inv in HP. subst L.
    unfold Rfold. cbn [fold_left place_spec ext_spec resize_arr]. rewrite takeN_takeN. f_equal. lia.
  - cbn [length] in Hn, Hc. inversion Hp as [|? ? Hcd Hp']; subst.
    rewrite num_chunks_cons in HP.
    assert (HL : Forall (fun c => length c = S (length old')) L).
    { apply Forall_forall. intros c Hin. apply (Permutation_in _ HP) in Hin.
      apply in_coords_length in Hin. rewrite Hin. cbn [length]. f_equal. apply length_num_chunks. lia. }
    assert (Hz : lenN (zerosN (vol (n :: new') esz)) = vol (n :: new') esz) by apply lenN_zerosN.
    set (R := Rfold (n :: new') (o :: old') (cd :: cdims') data L (zerosN (vol (n :: new') esz))).
    assert (HR : lenN R = vol (n :: new') esz) by (apply lenN_Rfold; cbn [length]; auto).
    cbn [resize_arr]. rewrite vol_cons in HR, Hd.
    rewrite <- (concat_blocks (vol new' esz) n R HR).
    f_equal. apply map_ext_in. intros k Hk. apply in_rangeN in Hk.
    unfold R.
    rewrite (blk_Rfold n new' o old' cd cdims' data k L _ ltac:(lia) ltac:(lia) HL ltac:(rewrite vol_cons; exact Hd) Hz Hk).
    rewrite vol_cons, blk_zeros by lia.
    destruct (k <? o) eqn:Eko.
    + (* inside the old extent: the row of chunks k / cd rebuilds block k *)
      rewrite (Bytes.fold_left_ext_in _ (fun b c => if hd_is (k / cd) c
                  then (fun b c' => place new' cdims' c'
                                          (ext old' cdims' c' (blk (vol old' esz) k data) (zerosN (vol cdims' esz))) b)
                         b (tl c)
                  else b)).
      2:{ intros acc c Hin. rewrite Forall_forall in HL. specialize (HL c Hin).
          destruct c as [|c0 c']; [discriminate|]. cbn [stepk hd_is tl].
          rewrite window_div by lia. rewrite Eko. reflexivity. }
      rewrite (fold_left_filter (hd_is (k / cd))).
      rewrite <- (Bytes.fold_left_map
                 (fun b c' => place new' cdims' c' (ext old' cdims' c' (blk (vol old' esz) k data) (zerosN (vol cdims' esz))) b)
                 (@tl N)).
      apply (IH new' cdims' _ (blk (vol old' esz) k data)); try lia; auto.
      * apply (select_row_perm L ((o + cd - 1) / cd)); auto. apply div_lt_num_chunks; lia.
      * eapply lenN_blk; [eassumption|lia].
    + (* beyond the old extent: only zero padding is ever placed *)
      apply fold_left_inv; auto.
      intros acc c Hin ->. rewrite Forall_forall in HL. specialize (HL c Hin).
      destruct c as [|c0 c']; [discriminate|]. cbn [stepk]. rewrite Eko.
      destruct ((c0 * cd <=? k) && (k <? c0 * cd + cd)); auto.
      apply place_zeros; cbn [length] in HL; lia.
Qed.

Lemma existsb_zero_pos l : posl l -> existsb (N.eqb 0) l = false.
Proof.
  induction 1; cbn [existsb]; auto. rewrite IHForall. replace (0 =? x) with false by lia. reflexivity.
Qed.

Lemma read_chunked_refine new old cdims data L :
  old <> [] -> length new = length old -> length cdims = length old -> posl cdims ->
  Forall (fun c => length c = length old) L ->
  lenN data = vol old esz ->
  read_chunked new cdims esz
               (map (fun c => (chunk_key cdims c, extract_padded old cdims esz data c)) L)
  = Ok (Rfold new old cdims data L (zerosN (vol new esz))).
Proof.
  intros Hne Hn Hc Hp HL Hd. unfold read_chunked.
  rewrite existsb_zero_pos by auto.
  rewrite bind_fold_map. cbn [fst snd]. fold (vol new esz).
  apply (bind_fold_ok _ (fun acc c => place new cdims c (ext old cdims c data (zerosN (vol cdims esz))) acc)
                      (fun acc => lenN acc = vol new esz)).
  - apply lenN_zerosN.
  - intros acc c Hin Hacc. rewrite Forall_forall in HL. specialize (HL c Hin).
    rewrite scaled_key_id by (auto; lia).
    rewrite extract_padded_spec by (auto; lia).
    assert (lenN (ext old cdims c data (zerosN (vol cdims esz))) = vol cdims esz)
      by (apply lenN_ext_spec; auto; apply lenN_zerosN).
    split.
    + apply copy_nd_chunk_spec; auto; try lia. destruct new; [destruct old; [congruence|discriminate]|discriminate].
    + apply lenN_place_spec; auto; lia.
Qed.

End Tiling.

Theorem read_after_resize_any_order old new cdims esz data L :
  shape_ok old cdims esz -> length new = length old ->
  lenN data = vol old esz ->
  Permutation L (all_chunk_coords old cdims) ->
  read_chunked new cdims esz
               (map (fun c => (chunk_key cdims c, extract_padded old cdims esz data c)) L)
  = Ok (resize_arr old new esz data).
Proof.
  intros (Hne & Hc & Hpd & Hpc & _) Hn Hd HP.
  rewrite all_chunk_coords_enum in HP by auto.
  rewrite read_chunked_refine; auto.
  - f_equal. apply Rfold_resize; auto.
  - apply Forall_forall. intros c Hin. apply (Permutation_in _ HP) in Hin.
    apply in_coords_length in Hin. rewrite Hin. apply length_num_chunks. auto.
Qed.

Theorem read_after_resize_correct old new cdims esz data :
  shape_ok old cdims esz -> length new = length old -> lenN data = vol old esz ->
  read_after_resize old new cdims esz data = Ok (resize_arr old new esz data).
Proof.
  intros. unfold read_after_resize, write_chunks.
  apply read_after_resize_any_order; auto.
Qed.

Theorem chunk_tiling_any_order dims cdims esz data L :
  shape_ok dims cdims esz -> lenN data = vol dims esz ->
  Permutation L (all_chunk_coords dims cdims) ->
  read_chunked dims cdims esz
               (map (fun c => (chunk_key cdims c, extract_padded dims cdims esz data c)) L)
  = Ok data.
Proof.
  intros. rewrite (read_after_resize_any_order dims dims cdims esz data L); auto.
  f_equal. apply resize_arr_id. auto.
Qed.

Theorem chunk_tiling dims cdims esz data :
  shape_ok dims cdims esz -> lenN data = vol dims esz ->
  read_chunked dims cdims esz (write_chunks dims cdims esz data) = Ok data.
Proof.
  intros. unfold write_chunks. apply chunk_tiling_any_order; auto.
Qed.

Theorem chunk_order_irrelevant dims cdims esz data chunks :
  shape_ok dims cdims esz -> lenN data = vol dims esz ->
  Permutation chunks (write_chunks dims cdims esz data) ->
  read_chunked dims cdims esz chunks = read_chunked dims cdims esz (write_chunks dims cdims esz data).
Proof.
  intros Hs Hd HP. rewrite chunk_tiling by auto.
  unfold write_chunks in HP.
  apply Permutation_map_inv in HP. destruct HP as (L & -> & HP).
  apply chunk_tiling_any_order; auto. apply Permutation_sym. auto.
Qed.

Lemma resize_zeros esz old : forall new, length new = length old ->
  resize_arr old new esz (zerosN (vol old esz)) = zerosN (vol new esz).
Proof.
  induction old as [|o old' IH]; intros [|n new'] Hl; try discriminate.
  - cbn [resize_arr]. rewrite !vol_nil. apply takeN_all. rewrite lenN_zerosN. lia.
  - cbn [resize_arr]. cbn [length] in Hl. rewrite !vol_cons.
    transitivity (concat (map (fun _ => zerosN (vol new' esz)) (rangeN n))); [| apply concat_zeros].
    f_equal. apply map_ext_in. intros k Hk. destruct (k <? o) eqn:E; auto.
    rewrite blk_zeros by lia. apply IH. lia.
Qed.

Lemma mid_covers_length old : forall mid new, mid_covers old mid new ->
  length mid = length old /\ length new = length old.
Proof.
  induction old; intros [|? ?] [|? ?] H; cbn [mid_covers] in H; try contradiction; auto.
  destruct H as [_ H]. destruct (IHold _ _ H). cbn [length]. lia.
Qed.

Lemma resize_arr_compose esz old : forall mid new data,
  mid_covers old mid new -> lenN data = vol old esz ->
  resize_arr mid new esz (resize_arr old mid esz data) = resize_arr old new esz data.
Proof.
  induction old as [|o old' IH]; intros [|m mid'] [|n new'] data Hc Hd; cbn [mid_covers] in Hc; try contradiction.
  - cbn [resize_arr]. rewrite takeN_takeN. f_equal. lia.
  - destruct Hc as [Hm Hc]. rewrite vol_cons in Hd.
    destruct (mid_covers_length _ _ _ Hc) as [Hl1 Hl2].
    cbn [resize_arr]. f_equal. apply map_ext_in. intros k Hk. apply in_rangeN in Hk.
    destruct (k <? m) eqn:Ekm.
    + rewrite blk_concat; [| | lia].
      * destruct (k <? o) eqn:Eko.
        -- apply IH; auto. eapply lenN_blk; [eassumption|lia].
        -- apply resize_zeros. lia.
      * intros i Hi. destruct (i <? o) eqn:E; [| apply lenN_zerosN].
        apply lenN_resize_arr; [lia|]. eapply lenN_blk; [eassumption|lia].
    + replace (k <? o) with false by lia. reflexivity.
Qed.

(* the library's answer after old -> mid -> new (chunk index still the one written for old) is the
   specified one whenever no intermediate extent drops below both outer extents *)
Theorem read_after_two_resizes old mid new cdims esz data :
  shape_ok old cdims esz -> mid_covers old mid new -> lenN data = vol old esz ->
  read_after_resize old new cdims esz data = Ok (resize_twice_spec old mid new esz data).
Proof.
  intros Hs Hc Hd. unfold resize_twice_spec. rewrite resize_arr_compose by auto.
  apply read_after_resize_correct; auto. apply (mid_covers_length _ _ _ Hc).
Qed.

(* ... and differs otherwise: stale data of the first write shows up again *)
Lemma shrink_grow_refuted :
  exists old mid new cdims esz data,
    shape_ok old cdims esz /\ length mid = length old /\ length new = length old /\
    lenN data = vol old esz /\
    read_after_resize old new cdims esz data = Ok [1; 2; 3; 4; 5; 6; 7] /\
    resize_twice_spec old mid new esz data = [1; 2; 3; 0; 0; 0; 0].
Proof.
  exists [8], [3], [7], [4], 1, [1; 2; 3; 4; 5; 6; 7; 8].
  repeat split; try (vm_compute; reflexivity); try discriminate.
  - repeat constructor.
  - repeat constructor.
Qed.
