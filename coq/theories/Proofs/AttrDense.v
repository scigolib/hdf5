(* Dense attribute storage (name index + heap) of Model/Attr.v: representation invariant [dense_rep]
   and its preservation by insertion, same-size overwrite, delete+insert+update and deletion. *)
From HV Require Import Base.Prelude Model.Attr Proofs.AttrBase.
From Coq Require Import Permutation.

Section Dense.
Variable name_hash : bytes -> N.
Variable P : params.
Hypothesis Hcap : p_hcap P <= 65536.      (* heap offsets fit the 2-byte offset field of the heap id *)

Definition rec_ok (hp : heap) (rc : N * hid) (a : attr) : Prop :=
  heap_get hp (snd rc) = Some a /\ fst rc = name_hash (aname a).

Definition offs (ix : idx) : list N := map (fun rc : N * hid => fst (snd rc)) ix.
Definition hkeys (hp : heap) : list N := map fst (hobjs hp).

Definition heap_wf (hp : heap) : Prop :=
  NoDup (hkeys hp) /\ (forall k, In k (hkeys hp) -> k < hfree hp) /\ hfree hp <= p_hcap P.

(* [l] is what the reader lists: the attributes the index records point to, in index order *)
Definition dense_rep (ix : idx) (hp : heap) (l : list attr) : Prop :=
  Forall2 (rec_ok hp) ix l /\ NoDup (map fst ix) /\ NoDup (offs ix) /\ heap_wf hp.

Lemma dense_rep_intro : forall ix hp l,
  Forall2 (rec_ok hp) ix l -> NoDup (map fst ix) -> NoDup (offs ix) -> heap_wf hp -> dense_rep ix hp l.
Proof. intros. unfold dense_rep. tauto. Qed.

Lemma heap_wf_empty : heap_wf heap_empty.
Proof. unfold heap_wf, hkeys, heap_empty. cbn. repeat split; [constructor | tauto | lia]. Qed.

Lemma dense_rep_empty : dense_rep [] heap_empty [].
Proof. apply dense_rep_intro; [constructor | constructor | constructor | apply heap_wf_empty]. Qed.

Lemma read_dense_rep : forall hp ix l, Forall2 (rec_ok hp) ix l -> read_dense hp ix = Some l.
Proof.
  intros hp ix l F. induction F as [|[h id] a ix l [G _] F IH]; cbn [read_dense]; [reflexivity|].
  cbn [snd] in G. rewrite G, IH. reflexivity.
Qed.

Lemma rec_ok_mono : forall hp hp' ix l,
  (forall rc x, In rc ix -> heap_get hp (snd rc) = Some x -> heap_get hp' (snd rc) = Some x) ->
  Forall2 (rec_ok hp) ix l -> Forall2 (rec_ok hp') ix l.
Proof.
  intros hp hp' ix l M F. induction F as [|rc a ix l [G E] F IH]; constructor.
  - split; [apply M; [left; reflexivity | assumption] | assumption].
  - apply IH. intros rc' x HI. apply M. right; assumption.
Qed.

Lemma offs_in_keys : forall hp ix l k, Forall2 (rec_ok hp) ix l -> In k (offs ix) -> In k (hkeys hp).
Proof.
  intros hp ix l k F. induction F as [|rc a ix l [G _] F IH]; cbn [offs map In]; [tauto|].
  intros [E|HI]; [|apply IH; assumption]. subst k. unfold heap_get in G. eapply assoc_get_in_keys; eassumption.
Qed.

Lemma offs_app : forall a b : idx, offs (a ++ b) = offs a ++ offs b.
Proof. intros a b. unfold offs. apply map_app. Qed.

Lemma NoDup_offs_insert : forall (ix1 ix2 : idx) h id,
  NoDup (offs (ix1 ++ ix2)) -> ~ In (fst id) (offs (ix1 ++ ix2)) -> NoDup (offs (ix1 ++ (h, id) :: ix2)).
Proof.
  intros ix1 ix2 h id. rewrite !offs_app. cbn [offs map fst snd]. fold (offs ix2). intros ND NI.
  apply NoDup_Add with (a := fst id) (l := offs ix1 ++ offs ix2); [apply Add_app | split; assumption].
Qed.

Lemma idx_insert_sorted_split : forall rc ix, exists ix1 ix2, ix = ix1 ++ ix2 /\ idx_insert_sorted rc ix = ix1 ++ rc :: ix2.
Proof.
  induction ix as [|x ix IH]; cbn [idx_insert_sorted].
  - exists [], []. split; reflexivity.
  - destruct (fst rc <=? fst x).
    + exists [], (x :: ix). split; reflexivity.
    + destruct IH as [ix1 [ix2 [E1 E2]]]. exists (x :: ix1), ix2. cbn [app]. split; congruence.
Qed.

(* SearchRecord by hash finds the record of the attribute with that NAME when the hash is injective on
   the names involved *)
Lemma search_split : forall hp ix l n,
  Forall2 (rec_ok hp) ix l ->
  (forall m, In m (map aname l) -> name_hash m = name_hash n -> m = n) ->
  match idx_search (name_hash n) ix with
  | None => ~ In n (map aname l)
  | Some id => exists ix1 ix2 l1 l2 a,
      ix = ix1 ++ (name_hash n, id) :: ix2 /\ l = l1 ++ a :: l2 /\ aname a = n /\
      Forall2 (rec_ok hp) ix1 l1 /\ Forall2 (rec_ok hp) ix2 l2 /\ heap_get hp id = Some a /\
      ~ In (name_hash n) (map fst ix1)
  end.
Proof.
  intros hp ix l n F. induction F as [|[h id] a ix l [G E] F IH]; intro Inj; cbn [idx_search].
  - cbn. tauto.
  - cbn [fst snd] in *. destruct (N.eqb_spec h (name_hash n)) as [EQ|NE].
    + exists [], ix, [], l, a. cbn [app map In]. subst h.
      assert (EA : aname a = n) by (apply Inj; [left; reflexivity | congruence]).
      split; [rewrite EQ; reflexivity|]. split; [reflexivity|]. split; [exact EA|]. split; [constructor|].
      split; [exact F|]. split; [exact G|]. tauto.
    + assert (Inj' : forall m, In m (map aname l) -> name_hash m = name_hash n -> m = n)
        by (intros m HI; apply Inj; right; assumption).
      specialize (IH Inj'). destruct (idx_search (name_hash n) ix) as [id'|].
      * destruct IH as [ix1 [ix2 [l1 [l2 [a' [E1 [E2 [E3 [F1 [F2 [G' NI]]]]]]]]]]]. subst ix l.
        exists ((h, id) :: ix1), ix2, (a :: l1), l2, a'. cbn [app map fst In].
        repeat split; try assumption; try reflexivity.
        -- constructor; [split; assumption | assumption].
        -- intros [H1|H1]; [congruence | tauto].
      * cbn [map In]. intros [H1|H1]; [|tauto]. subst n. congruence.
Qed.

Lemma heap_insert_ok : forall hp a hp' id, heap_wf hp -> heap_insert P hp a = HOk hp' id ->
  heap_wf hp' /\ fst id = hfree hp /\ heap_get hp' id = Some a /\
  (forall id0 x, heap_get hp id0 = Some x -> heap_get hp' id0 = Some x) /\
  ~ In (hfree hp) (hkeys hp) /\ hfree hp < hfree hp'.
Proof.
  intros hp a hp' id [ND [LT LE]] H. unfold heap_insert in H.
  destruct (N.eqb_spec (msg_size a) 0) as [|NZ]; [discriminate|].
  destruct (p_maxobj P <? msg_size a); [discriminate|].
  destruct (N.leb_spec (hfree hp + msg_size a) (p_hcap P)) as [FIT|]; [|discriminate].
  inversion H; subst; clear H.
  assert (FR : ~ In (hfree hp) (hkeys hp)) by (intro HI; apply LT in HI; lia).
  assert (W : wrap16 (hfree hp) = hfree hp) by (unfold wrap16; apply N.mod_small; lia).
  unfold heap_wf, hkeys, heap_get. cbn [hobjs hfree fst].
  repeat split.
  - rewrite map_app. cbn [map fst]. apply NoDup_Add with (a := hfree hp) (l := map fst (hobjs hp)).
    + rewrite <- (app_nil_r (map fst (hobjs hp))) at 1. apply Add_app.
    + split; assumption.
  - intros k HI. rewrite map_app in HI. apply in_app_or in HI. destruct HI as [HI|HI].
    + apply LT in HI. lia.
    + cbn in HI. destruct HI as [<-|[]]. lia.
  - lia.
  - exact W.
  - rewrite W. apply assoc_get_app_fresh. exact FR.
  - intros id0 x G. apply assoc_get_app_some. exact G.
  - exact FR.
  - lia.
Qed.

Lemma heap_overwrite_ok : forall hp id a x, heap_wf hp -> heap_get hp id = Some x ->
  exists hp', heap_overwrite hp id a = Some hp' /\ heap_wf hp' /\
    forall id2, heap_get hp' id2 = if fst id2 =? fst id then Some a else heap_get hp id2.
Proof.
  intros hp id a x [ND [LT LE]] G. unfold heap_get in G. destruct (assoc_set_some _ _ _ a _ G) as [l' E].
  unfold heap_overwrite. rewrite E. eexists. split; [reflexivity|].
  destruct (assoc_set_spec _ _ _ _ _ E) as [K S]. split.
  - unfold heap_wf, hkeys. cbn [hobjs hfree]. rewrite K. repeat split; assumption.
  - intro id2. unfold heap_get. cbn [hobjs]. apply S.
Qed.

Lemma heap_delete_ok : forall hp id x, heap_wf hp -> heap_get hp id = Some x ->
  exists hp', heap_delete hp id = Some hp' /\ heap_wf hp' /\ hfree hp' = hfree hp /\
    forall id2, fst id2 <> fst id -> heap_get hp' id2 = heap_get hp id2.
Proof.
  intros hp id x [ND [LT LE]] G. unfold heap_get in G. destruct (assoc_del_some _ _ _ _ G) as [l' E].
  unfold heap_delete. rewrite E. eexists. split; [reflexivity|].
  destruct (assoc_del_spec _ _ _ _ E) as [S [I N']]. repeat split.
  - unfold hkeys. cbn [hobjs]. apply N'. exact ND.
  - unfold hkeys. cbn [hobjs hfree]. intros k HI. apply LT. apply I. exact HI.
  - cbn [hfree]. exact LE.
  - intros id2 NE. unfold heap_get. cbn [hobjs]. apply S. exact NE.
Qed.

(* new name: heap insert + sorted index insert *)
Lemma dense_insert : forall ix hp l a hp' id ix',
  dense_rep ix hp l ->
  heap_insert P hp a = HOk hp' id ->
  idx_insert P (name_hash (aname a), id) ix = Some ix' ->
  exists l1 l2, l = l1 ++ l2 /\ dense_rep ix' hp' (l1 ++ a :: l2).
Proof.
  intros ix hp l a hp' id ix' [F [N1 [N2 W]]] HI II.
  destruct (heap_insert_ok _ _ _ _ W HI) as [W' [Eid [G' [Mono [FR _]]]]].
  unfold idx_insert in II. cbn [fst] in II. pose proof (idx_search_spec (name_hash (aname a)) ix) as S.
  destruct (idx_search (name_hash (aname a)) ix); [discriminate|].
  destruct (p_idxcap P <=? N.of_nat (List.length ix)); [discriminate|]. inversion II; subst ix'; clear II.
  destruct (idx_insert_sorted_split (name_hash (aname a), id) ix) as [ix1 [ix2 [E1 E2]]]. rewrite E2. subst ix.
  apply Forall2_app_inv_l in F. destruct F as [l1 [l2 [F1 [F2 EL]]]]. subst l.
  exists l1, l2. split; [reflexivity|].
  assert (F1' : Forall2 (rec_ok hp') ix1 l1) by (eapply rec_ok_mono; [|exact F1]; intros; apply Mono; assumption).
  assert (F2' : Forall2 (rec_ok hp') ix2 l2) by (eapply rec_ok_mono; [|exact F2]; intros; apply Mono; assumption).
  apply dense_rep_intro.
  - apply Forall2_app; [exact F1'|]. constructor; [|exact F2']. split; [exact G' | reflexivity].
  - rewrite map_app in *. cbn [map fst].
    apply NoDup_Add with (a := name_hash (aname a)) (l := map fst ix1 ++ map fst ix2); [apply Add_app | split; assumption].
  - apply NoDup_offs_insert; [exact N2|]. rewrite Eid. intro HIn. apply FR.
    eapply (offs_in_keys hp (ix1 ++ ix2) (l1 ++ l2)); [apply Forall2_app; assumption | exact HIn].
  - exact W'.
Qed.

Lemma middle_facts : forall (ix1 ix2 : idx) h id,
  NoDup (offs (ix1 ++ (h, id) :: ix2)) ->
  (forall rc, In rc ix1 \/ In rc ix2 -> fst (snd rc) <> fst id) /\ NoDup (offs (ix1 ++ ix2)).
Proof.
  intros ix1 ix2 h id N2. unfold offs in *. rewrite map_app in N2. cbn [map fst snd] in N2. split.
  - intros rc HI E. apply NoDup_remove_2 in N2. apply N2. apply in_or_app.
    destruct HI as [HI|HI]; [left|right]; rewrite <- E; apply (in_map (fun rc : N * hid => fst (snd rc))); exact HI.
  - rewrite map_app. apply NoDup_remove_1 in N2. exact N2.
Qed.

(* same encoded size: OverwriteObject in place *)
Lemma dense_overwrite : forall ix1 ix2 l1 l2 id a a' hp hp',
  Forall2 (rec_ok hp) ix1 l1 -> Forall2 (rec_ok hp) ix2 l2 -> heap_get hp id = Some a ->
  NoDup (map fst (ix1 ++ (name_hash (aname a), id) :: ix2)) ->
  NoDup (offs (ix1 ++ (name_hash (aname a), id) :: ix2)) -> heap_wf hp ->
  aname a' = aname a ->
  heap_overwrite hp id a' = Some hp' ->
  dense_rep (ix1 ++ (name_hash (aname a), id) :: ix2) hp' (l1 ++ a' :: l2).
Proof.
  intros ix1 ix2 l1 l2 id a a' hp hp' F1 F2 G N1 N2 W EN OV.
  destruct (heap_overwrite_ok hp id a' a W G) as [hp'' [OV' [W' S]]]. rewrite OV in OV'. inversion OV'; subst hp''; clear OV'.
  destruct (middle_facts _ _ _ _ N2) as [NE _].
  apply dense_rep_intro; try assumption.
  apply Forall2_app.
  - eapply rec_ok_mono; [|exact F1]. intros rc x HI Gx. rewrite S.
    destruct (N.eqb_spec (fst (snd rc)) (fst id)) as [E|_]; [exfalso; eapply NE; [left; exact HI | exact E] | exact Gx].
  - constructor.
    + split; cbn [fst snd]; [rewrite S, N.eqb_refl; reflexivity | rewrite EN; reflexivity].
    + eapply rec_ok_mono; [|exact F2]. intros rc x HI Gx. rewrite S.
      destruct (N.eqb_spec (fst (snd rc)) (fst id)) as [E|_]; [exfalso; eapply NE; [right; exact HI | exact E] | exact Gx].
Qed.

(* other encoded size: DeleteObject, InsertObject, UpdateRecord *)
Lemma dense_update : forall ix1 ix2 l1 l2 id a a' hp hp1 hp2 id2,
  Forall2 (rec_ok hp) ix1 l1 -> Forall2 (rec_ok hp) ix2 l2 -> heap_get hp id = Some a ->
  NoDup (map fst (ix1 ++ (name_hash (aname a), id) :: ix2)) ->
  NoDup (offs (ix1 ++ (name_hash (aname a), id) :: ix2)) -> heap_wf hp ->
  aname a' = aname a ->
  heap_delete hp id = Some hp1 -> heap_insert P hp1 a' = HOk hp2 id2 ->
  dense_rep (ix1 ++ (name_hash (aname a), id2) :: ix2) hp2 (l1 ++ a' :: l2).
Proof.
  intros ix1 ix2 l1 l2 id a a' hp hp1 hp2 id2 F1 F2 G N1 N2 W EN DL IN.
  destruct (heap_delete_ok hp id a W G) as [hp'' [DL' [W1 [FE S]]]]. rewrite DL in DL'. inversion DL'; subst hp''; clear DL'.
  destruct (heap_insert_ok _ _ _ _ W1 IN) as [W2 [Eid [G2 [Mono [FR _]]]]].
  destruct (middle_facts _ _ _ _ N2) as [NE N2'].
  assert (K : forall ix l, (forall rc, In rc ix -> In rc ix1 \/ In rc ix2) -> Forall2 (rec_ok hp) ix l -> Forall2 (rec_ok hp2) ix l).
  { intros ix l Sub F. eapply rec_ok_mono; [|exact F]. intros rc x HI Gx. apply Mono. rewrite S; [exact Gx|].
    apply NE. apply Sub. exact HI. }
  assert (F1' : Forall2 (rec_ok hp2) ix1 l1) by (apply K; [tauto | exact F1]).
  assert (F2' : Forall2 (rec_ok hp2) ix2 l2) by (apply K; [tauto | exact F2]).
  apply dense_rep_intro.
  - apply Forall2_app; [exact F1'|]. constructor; [|exact F2']. split; cbn [fst snd]; [exact G2 | rewrite EN; reflexivity].
  - rewrite map_app in *. cbn [map fst] in *. exact N1.
  - apply NoDup_offs_insert; [exact N2'|]. rewrite Eid. intro HIn. apply FR.
    eapply (offs_in_keys hp1 (ix1 ++ ix2) (l1 ++ l2)); [|exact HIn].
    apply Forall2_app; [eapply rec_ok_mono; [|exact F1] | eapply rec_ok_mono; [|exact F2]];
      intros rc x HI Gx; (rewrite S; [exact Gx|]); apply NE; tauto.
  - exact W2.
Qed.

(* DeleteRecord + DeleteObject *)
Lemma dense_delete : forall ix1 ix2 l1 l2 id a hp hp',
  Forall2 (rec_ok hp) ix1 l1 -> Forall2 (rec_ok hp) ix2 l2 -> heap_get hp id = Some a ->
  NoDup (map fst (ix1 ++ (name_hash (aname a), id) :: ix2)) ->
  NoDup (offs (ix1 ++ (name_hash (aname a), id) :: ix2)) -> heap_wf hp ->
  heap_delete hp id = Some hp' ->
  dense_rep (ix1 ++ ix2) hp' (l1 ++ l2).
Proof.
  intros ix1 ix2 l1 l2 id a hp hp' F1 F2 G N1 N2 W DL.
  destruct (heap_delete_ok hp id a W G) as [hp'' [DL' [W1 [FE S]]]]. rewrite DL in DL'. inversion DL'; subst hp''; clear DL'.
  destruct (middle_facts _ _ _ _ N2) as [NE N2'].
  apply dense_rep_intro.
  - apply Forall2_app; [eapply rec_ok_mono; [|exact F1] | eapply rec_ok_mono; [|exact F2]];
      intros rc x HI Gx; (rewrite S; [exact Gx|]); apply NE; tauto.
  - rewrite map_app in *. cbn [map fst] in N1. apply NoDup_remove_1 in N1. exact N1.
  - exact N2'.
  - exact W1.
Qed.

End Dense.
