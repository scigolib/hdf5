(* A version 2 file that holds one dataset (Proofs/FileImageData.v v2_blocks): image_v2, image_v2_chunked, image_v2_attr,
   image_v2_dense and image_v2_vlen differ in the superblock's end-of-file field, in the dataset's header and in what follows it.
   For all of them: the dataset's header as p_ohdr returns it, ReadSuperblock, hdf5.Open's loader (which parses the attributes of
   every header it visits and drops them: the attribute parse of the dataset's header must succeed, whatever it returns), and
   Dataset.Read of contiguous data. *)
From HV Require Import Base.Prelude Base.Outcome Base.Bytes Model.IOProg Proofs.IOProg Model.IOProgReader Model.IOProgOpen.
From HV Require Import Model.CodecSuper Model.CodecOhdr Model.CodecMsg Model.CodecType Model.CodecLink Model.GroupWire.
From HV Require Import Proofs.CodecSuper Proofs.CodecOhdr Proofs.CodecMsg Proofs.CodecType.
From HV Require Import Model.FileImage Proofs.FileImage Proofs.FileImageOhdr Proofs.FileImageData Proofs.FileImageGroup
  Proofs.FileImageOpen Proofs.FileImageAttrOhdr.

Lemma reserve_block_len x : chunk_size_v2 (oh_msgs x) <= 255 ->
  blen (enc_ohdr_v2 x ++ zeros (N.to_nat (OHDR_RESERVE - size_ohdr_v2 x))) = OHDR_RESERVE.
Proof. intros H. rewrite blen_app, blen_zeros, ohdr_v2_blen. unfold size_ohdr_v2, OHDR_RESERVE in *. blia. Qed.

Lemma dset_ohdr_ok2 m3 dims sz extra :
  let ms := {| hm_type := 3; hm_data := m3 |} :: {| hm_type := 1; hm_data := enc_dataspace {| ds_dims := dims; ds_maxdims := [] |} |}
            :: {| hm_type := 8; hm_data := enc_layout SBP (LContig sz DATA_ADDR) |} :: extra in
  2 <= blen m3 -> Forall msg_ok2 extra -> chunk_size_v2 ms <= 255 ->
  ohdr_ok2 {| oh_version := 2; oh_flags := 0; oh_refcount := 1; oh_msgs := ms |}.
Proof.
  intros ms H3 He Hc. repeat split; [exact Hc | discriminate |].
  repeat (constructor; [split; [reflexivity | split; [discriminate | cbn [hm_data]]]|]); [exact H3 | rewrite ds_msg_len; blia | | exact He].
  (* the layout message starts with its version and class bytes *)
  unfold enc_layout. discriminate.
Qed.

Lemma basic_dt_decoded c s b : basic_dtype c s b = true ->
  exists dt, dec_datatype (enc_datatype (dtype_msg c s b)) = Ok dt /\ (dt_class dt, dt_size dt, dt_cbf dt) = (c, s, b).
Proof.
  intros H. eexists. split; [exact (datatype_roundtrip _ (wf_dt c s b H))|].
  destruct (dtype_cases c s b H) as [(-> & _)|(-> & _)]; reflexivity.
Qed.

Section OneDataset.
Variable eof : N.
Variables name d : bytes.
Variable x : ohdr.                (* the dataset's header; tail: what follows it in its block *)
Variable tail : bytes.
Variable rest : list bytes.
Hypothesis Hname : link_name_ok name = true.
Hypothesis Heof : eof < 18446744073709551616.

Local Notation blocks := (v2_blocks eof name d (enc_ohdr_v2 x ++ tail) rest).
Local Notation f := (place_all blocks).
Local Notation da := (dset_addr d).
Local Notation dmsgs := (msgs_at_v2 (oh_msgs x) (da + 7)).
Local Notation seg := ((name ++ [0]) ++ zeros (N.to_nat (256 - (blen name + 1)))).

Theorem v2_superblock : run0 f p_superblock = Ok SB'.
Proof using Hname Heof.
  apply (superblock_placed f (v2_sb eof) _ SB' (V2_sb_rest eof name d _ rest Hname)).
  - rewrite v2_sb_len. cbn [skipn v2_blocks app concat]. rewrite blen_app, (heap_block_len name Hname). blia.
  - intros T HT. rewrite v2_sb_len in HT. now rewrite dec_sb_buf_v2 by (auto using wf_v2_sb).
Qed.

Lemma v2_dset_sig : placed f da [79; 72; 68; 82].
Proof using Hname.
  pose proof (V2_dset eof name d (enc_ohdr_v2 x ++ tail) rest Hname) as H. unfold enc_ohdr_v2 in H. rewrite <- !app_assoc in H.
  exact (placed_head _ _ _ _ H).
Qed.

Hypothesis Hx : ohdr_ok2 x.
Hypothesis Hda : dset_addr d + 600 < B63.

Lemma v2_dset_header fuel : (length (oh_msgs x) < fuel)%nat ->
  run0 f (p_ohdr SB' fuel da) = Ok (proj_ohdr_v2 false x da).
Proof using Hname Hx Hda.
  intros Hf. exact (p_ohdr_placed2 SB' fuel f da x tail Hx (V2_dset eof name d _ rest Hname) Hf Hda).
Qed.

Lemma v2_api_read_raw fuel al r : (length (oh_msgs x) < fuel)%nat -> run0 f (p_attrs SB' dmsgs) = Ok al ->
  run0 f (p_dataset_raw SB' fuel dmsgs) = Ok r -> run0 f (api_read_raw SB' fuel da) = Ok r.
Proof using Hname Hx Hda.
  intros Hf Ha Hr. unfold api_read_raw. rewrite run0_bind, (v2_dset_header fuel Hf), run0_swallow. cbn [proj_ohdr_v2 ohp_msgs].
  now rewrite run0_bind, Ha.
Qed.
Lemma v2_api_attributes fuel al : (length (oh_msgs x) < fuel)%nat -> run0 f (p_attrs SB' dmsgs) = Ok al ->
  run0 f (api_attributes SB' fuel da) = Ok al.
Proof using Hname Hx Hda.
  intros Hf Ha. unfold api_attributes. rewrite run0_bind, (v2_dset_header fuel Hf), run0_swallow. cbn [proj_ohdr_v2 ohp_msgs].
  now rewrite run0_bind, Ha.
Qed.

Lemma v2_read_basic class size cbf dims fuel al :
  basic_dtype class size cbf = true -> dims_ok dims = true ->
  blen d = total_elems dims * size -> 0 < blen d -> blen d < 4294967296 ->
  find_msg 3 dmsgs = Some (enc_datatype (dtype_msg class size cbf)) ->
  find_msg 1 dmsgs = Some (enc_dataspace {| ds_dims := dims; ds_maxdims := [] |}) ->
  find_msg 8 dmsgs = Some (enc_layout SBP (LContig (data_size size dims) DATA_ADDR)) ->
  (length (oh_msgs x) < fuel)%nat -> run0 f (p_attrs SB' dmsgs) = Ok al ->
  run0 f (api_read_raw SB' fuel da) = Ok (RawBytes d).
Proof using Hname Hx Hda.
  intros Hdt Hdims Hlen Hpos Hbound E3 E1 E8 Hf Ha. apply (v2_api_read_raw fuel al _ Hf Ha).
  destruct (basic_dt_decoded class size cbf Hdt) as (dt & Ed & Es). injection Es as _ Es _.
  apply (dataset_raw_contig SB' f fuel dmsgs _ dt dims _ DATA_ADDR d E3 Ed E1 (wf_ds dims Hdims) E8 (wf_ly size dims d Hlen Hbound));
    [exact (V2_data eof name d _ rest Hname) | now rewrite Es | exact Hpos | clear - Hbound; unfold MAXI64; change DATA_ADDR with 2195; blia].
Qed.

Section Open.
Variable al : list attr.
Hypothesis Hattrs : run0 f (p_attrs SB' dmsgs) = Ok al.
Hypothesis Hdet : det_type dmsgs = 1.
Variable hfuel : nat.
Hypothesis Hhf : (length (oh_msgs x) < hfuel)%nat.

(* the stages of Proofs/FileImageOpen.v, read off the placed blocks *)
Theorem v2_open n : run0 f (p_open true (blen f) (S (S (S n))) hfuel) = Ok (Grp [47] 2168 [Dset name da]).
Proof using Hname Heof Hx Hda Hattrs Hdet Hhf.
  pose proof (V2_heap eof name d (enc_ohdr_v2 x ++ tail) rest Hname) as Ph. rewrite (heap_block_bytes name Hname) in Ph.
  pose proof (V2_bt eof name d (enc_ohdr_v2 x ++ tail) rest Hname) as Pb. rewrite bt_block_bytes in Pb.
  pose proof (V2_snod eof name d (enc_ohdr_v2 x ++ tail) rest Hname) as Ps. rewrite snod_block_bytes in Ps.
  pose proof (V2_root_rest eof name d (enc_ohdr_v2 x ++ tail) rest Hname) as Pr.
  assert (Hf1 : (1 < hfuel)%nat)
    by (destruct Hx as (_ & _ & _ & Hne & _); destruct (oh_msgs x); [congruence | cbn [length] in Hhf; blia]).
  apply (open_one_dataset SB' f name seg [79; 72; 68; 82] 1624 48 da (proj_ohdr_v2 false root_ohdr 2168) (proj_ohdr_v2 false x da)
           [] al hfuel).
  - exact (placed_head f 0 signature _ (V2_sb_rest eof name d _ rest Hname)).
  - exact v2_superblock.
  - split; [reflexivity|]. pose proof (placed_bound _ _ _ Pr) as Hb. rewrite blen_app, root_block_len in Hb. cbn [spp_root SB']. blia.
  - unfold enc_ohdr_v2 in Pr. rewrite <- !app_assoc in Pr. exact (placed_head _ _ _ _ Pr).
  - split; reflexivity.
  - apply (p_ohdr_placed SB' hfuel f 2168 root_ohdr _ root_ok Pr); [|exact Hf1|reflexivity].
    unfold enc_ohdr_v2. rewrite !blen_app. change (blen [79; 72; 68; 82]) with 4. blia.
  - reflexivity.
  - reflexivity.
  - reflexivity.
  - reflexivity.
  - exact (heap_stage_at SB' eq_refl eq_refl eq_refl f 48 256 1 seg Ph (heap_seg_len name Hname) eq_refl ltac:(discriminate)).
  - exact (heap_name name Hname).
  - exact (bt_sig_placed f 1624 _ Pb).
  - apply (btree_stage_at SB' eq_refl eq_refl f 1624 _ _ 336 _ Pb); [reflexivity | reflexivity |].
    apply (snod_stage_at SB' eq_refl eq_refl f 336 da Ps). unfold B63 in Hda. change (256 ^ 8) with 18446744073709551616. blia.
  - exact v2_dset_sig.
  - exact (v2_dset_header hfuel Hhf).
  - exact Hattrs.
  - exact Hdet.
Qed.
End Open.
End OneDataset.
