(* C05 - the library's densely stored link message (Model/DenseLinkMsg.v) against the specification's link message decoder
   (Spec/FormatMsg.v spec_dec_link) and the walker's decoder of the private layout (Spec/Walk.v dec_link_private), for ALL link names
   of 1 .. 255 bytes and all addresses. *)
From HV Require Import Base.Prelude Base.Outcome Base.Bytes Spec.Parse Spec.FormatMsg Spec.Walk Model.DenseLinkMsg.

Lemma compact_size_small v : 0 < v -> v < 256 -> compact_size v = 1%nat.
Proof.
  intros H0 H. unfold compact_size. destruct (v =? 0) eqn:E; [apply N.eqb_eq in E; lia|].
  cbn [compact_loop]. rewrite E. rewrite (N.div_small v 256) by lia. reflexivity.
Qed.

Lemma p_u_1 x (r : list N) : p_u 1 (x :: r) = Ok (x, r).
Proof. unfold p_u, p_take. cbn [length Nat.leb firstn skipn obind unle]. f_equal. f_equal. lia. Qed.

Lemma le1 v : v < 256 -> le 1 v = [v].
Proof. intros H. cbn [le]. rewrite N.mod_small by lia. reflexivity. Qed.

Lemma enc_small name addr osz : 0 < blen name -> blen name < 256 ->
  enc_dense_link name addr osz = 1 :: 0 :: 4 :: 0 :: blen name :: name ++ le osz addr.
Proof.
  intros H0 H. unfold enc_dense_link. rewrite compact_size_small by assumption. rewrite le1 by assumption. reflexivity.
Qed.

Lemma nbytes_for_small v : 0 < v -> v < 256 -> nbytes_for v = 1.
Proof.
  intros H0 H. unfold nbytes_for. destruct (v =? 0) eqn:E; [apply N.eqb_eq in E; lia|].
  assert (L : N.log2 v < 8) by (apply N.log2_lt_pow2; [lia | exact H]).
  rewrite (N.div_small (N.log2 v) 8) by exact L. reflexivity.
Qed.

Lemma dec_private_enc c name addr : cO c = 8%nat -> 0 < blen name -> blen name < 256 -> addr < 256 ^ 8 ->
  dec_link_private c (enc_dense_link name addr 8) =
    Ok {| ls_flags := 0; ls_corder := None; ls_cset := 0; ls_name := name; ls_value := LHard addr |}.
Proof.
  intros HO H0 H HA. rewrite enc_small by assumption. unfold dec_link_private. rewrite HO.
  cbn [p_byte obind]. change (1 =? 1) with true. change (0 =? 0) with true. change (4 =? 4) with true. change (0 <? 2) with true.
  cbn [guard obind].
  assert (BL : blen (blen name :: name ++ le 8 addr) = 1 + blen name + 8).
  { rewrite blen_cons, blen_app, blen_le. change (N.of_nat 8) with 8. lia. }
  rewrite BL. change (N.of_nat 8) with 8.
  replace (1 + blen name + 8 <? 1 + 256 + 8) with true by (symmetry; apply N.ltb_lt; lia).
  rewrite p_u_1. cbn [obind].
  rewrite nbytes_for_small by assumption. change (N.of_nat 1 =? 1) with true.
  replace (0 <? blen name) with true by (symmetry; apply N.ltb_lt; lia). cbn [andb guard obind].
  rewrite p_take_app by (unfold blen; now rewrite Nat2N.id). cbn [obind].
  rewrite p_u_le_end by exact HA. cbn [obind p_end]. reflexivity.
Qed.

(* read per specification the stored message is never the stored link *)
(* version 1 | flags := the link type byte 0 (1-byte name length, no optional field) | name length := the flags byte 4 |
   name := character set byte, length byte, first two name bytes | address := the next 8 bytes | nothing may follow *)
Lemma spec_dec_enc tol name addr : 0 < blen name -> blen name < 256 ->
  match spec_dec_link tol 8 false (enc_dense_link name addr 8) with
  | Ok (l, _) => blen name = 2 /\ ls_name l = 0 :: 2 :: name
  | _ => True
  end.
Proof.
  intros H0 H. rewrite enc_small by assumption. unfold spec_dec_link.
  cbn [p_byte obind]. change (1 =? 1) with true. change (0 <? 32) with true. cbn [guard obind].
  change (N.testbit 0 3) with false. change (N.testbit 0 2) with false. change (N.testbit 0 4) with false. cbv iota. cbn [obind].
  change (N.to_nat (N.shiftl 1 (N.land 0 3))) with 1%nat. rewrite p_u_1. cbn [obind].
  change (0 <? 4) with true. cbn [guard obind]. change (N.to_nat 4) with 4%nat.
  destruct name as [|n0 [|n1 rest]].
  - cbn in H0. lia.
  - (* one byte: 7 bytes are left for the 8-byte address *)
    cbn [app le]. unfold p_take at 1. cbn [length Nat.leb firstn skipn obind].
    change (0 =? 0) with true. cbv iota.
    unfold p_u, p_take. cbn [length Nat.leb obind]. exact I.
  - cbn [app]. unfold p_take at 1. cbn [length Nat.leb firstn skipn obind].
    change (0 =? 0) with true. cbv iota.
    destruct rest as [|r0 rest'].
    + cbn [app]. rewrite <- (app_nil_r (le 8 addr)). rewrite p_u_le_mod. cbn [obind p_end]. split; reflexivity.
    + unfold p_u, p_take. unfold byte in *.
      assert (E : (8 <=? length ((r0 :: rest') ++ le 8 addr))%nat = true).
      { apply Nat.leb_le. rewrite app_length, length_le. lia. }
      rewrite E. cbn [obind].
      destruct (skipn 8 ((r0 :: rest') ++ le 8 addr)) as [|x xs] eqn:S8.
      * exfalso. assert (L : length (skipn 8 ((r0 :: rest') ++ le 8 addr)) = S (length rest')).
        { rewrite skipn_length, app_length, length_le. cbn [length]. lia. }
        rewrite S8 in L. discriminate.
      * cbn [p_end guard andb obind]. exact I.
Qed.

Lemma spec_never_the_stored_link tol name addr l tg : 0 < blen name -> blen name < 256 ->
  spec_dec_link tol 8 false (enc_dense_link name addr 8) = Ok (l, tg) -> ls_name l <> name.
Proof.
  intros H0 H E. pose proof (spec_dec_enc tol name addr H0 H) as P. rewrite E in P. destruct P as [_ P]. rewrite P.
  intros C. apply (f_equal (@length N)) in C. cbn [length] in C. lia.
Qed.

(* and for every name whose length is not 2 the specification decoder rejects the message, whatever it tolerates *)
Lemma spec_rejects tol name addr : 0 < blen name -> blen name < 256 -> blen name <> 2 ->
  exists e, spec_dec_link tol 8 false (enc_dense_link name addr 8) = e /\ (forall r, e <> Ok r).
Proof.
  intros H0 H H2. eexists; split; [reflexivity|]. intros [l tg] E.
  pose proof (spec_dec_enc tol name addr H0 H) as P. rewrite E in P. destruct P as [P _]. contradiction.
Qed.

(* the hypotheses are satisfiable: the link "x" -> 2199 of the witness file *)
Example dense_link_example :
  enc_dense_link [120] 2199 8 = [1; 0; 4; 0; 1; 120; 151; 8; 0; 0; 0; 0; 0; 0] /\
  spec_dec_link strict 8 false (enc_dense_link [120] 2199 8) = Err.
Proof. split; vm_compute; reflexivity. Qed.
