(* C09 at file level: Dataset.ReadHyperslab as an I/O program on the whole-file image of a contiguous dataset returns the
   selection of the written data; invalid selections and element sizes other than 4 / 8 bytes are errors. *)
From HV Require Import Base.Prelude Base.Outcome Base.Bytes Model.IOProg Proofs.IOProg Model.IOProgReader Model.IOProgSlice.
From HV Require Import Model.CodecSuper Model.CodecType Model.FileImage Proofs.FileImage Proofs.FileImageOhdr Proofs.FileImageData
  Proofs.FileImageProd Proofs.FileImageMain.
From HV Require Import Model.SliceRefine Proofs.SliceRefineBytes Proofs.SliceRefineArith Proofs.SliceRefineValidate
  Proofs.SliceRefineMain Proofs.SliceRefineFile.
From HV Require Proofs.HyperslabBase Proofs.HyperslabValidate Proofs.HyperslabContig.
Module HVa := HV.Proofs.HyperslabValidate.
Module HCo := HV.Proofs.HyperslabContig.

Lemma product_eq dims : product dims = Hs.prodN dims.
Proof.
  unfold product. enough (G : forall acc, fold_left N.mul dims acc = acc * Hs.prodN dims) by (rewrite G; lia).
  induction dims as [|d r IH]; intros acc; cbn [fold_left Hs.prodN]; [lia|]. rewrite IH. lia.
Qed.

Lemma dims_ok_u64 dims : dims_ok dims = true -> Forall Hs.u64 dims.
Proof.
  intros H. unfold dims_ok in H. apply andb_true_iff in H as [_ H]. rewrite forallb_forall in H. apply Forall_forall.
  intros x Hx. specialize (H x Hx). apply andb_true_iff in H as [_ H]. apply N.ltb_lt in H. unfold Hs.u64, Hs.u64max. lia.
Qed.
Lemma dims_ok_ne dims : dims_ok dims = true -> dims <> [].
Proof. intros H E. subst. discriminate. Qed.

(* dataset_read_hyperslab.go:385 lets the 4- and 8-byte integer and float types through *)
Lemma gate_ok class size cbf : basic_dtype class size cbf = true -> size = 4 \/ size = 8 ->
  negb (((class =? 1) || (class =? 0)) && ((size =? 4) || (size =? 8))) = false.
Proof. intros Hdt Hsz. destruct (dtype_cases class size cbf Hdt) as [(-> & _)|(-> & _)]; destruct Hsz; subst; reflexivity. Qed.

Lemma filled_valid size dims (data : bytes) (s : selection) :
  dims_ok dims = true -> blen data = product dims * size -> blen data < 4294967296 -> 0 < size ->
  HVa.u64_sel (hsel_of s) (length dims) -> Hs.valid (hsel_of s) dims ->
  Hs.prodN dims < 4294967296 /\ sel_lens (fill s (length dims)) (length dims) /\
  Hs.axes_valid (axes_of_sel (fill s (length dims))) dims /\ axes_of_sel (fill s (length dims)) <> [] /\
  out_size (fill s (length dims)) <> 0.
Proof.
  intros Hdims Hlen Hbound Hes HU (HLs & HVd). pose proof (dims_ok_ne _ Hdims) as Dne.
  (* the same two facts, spelled with the program's record *)
  change (sel_lens (fill s (length dims)) (length dims)) in HLs.
  change (Hs.axes_valid (axes_of_sel (fill s (length dims))) dims) in HVd.
  assert (HP : Hs.prodN dims < 4294967296) by (rewrite <- product_eq; nia).
  assert (Axne : axes_of_sel (fill s (length dims)) <> []).
  { intros E. pose proof (axes_of_sel_length _ _ HLs) as L. rewrite E in L. destruct dims; [congruence|discriminate]. }
  pose proof (HyperslabBase.out_elems_pos _ _ HVd Axne). rewrite (out_size_eq _ _ HLs HVd HP Dne).
  repeat (split; [assumption|]). lia.
Qed.

Section Top.
Variable name : bytes.
Variables class size cbf : N.
Variable dims : list N.
Variable data : bytes.
Hypothesis Hname : link_name_ok name = true.
Hypothesis Hdt : basic_dtype class size cbf = true.
Hypothesis Hdims : dims_ok dims = true.
Hypothesis Hlen : blen data = product dims * size.
Hypothesis Hbound : blen data < 4294967296.
Local Notation f := (image_v2 name class size cbf dims data).
Local Notation da := (dset_addr data).

Let HL' := Hlen' class size cbf dims data Hdt Hdims Hlen Hbound.

Lemma after_decode_valid (s : selection) : size = 4 \/ size = 8 ->
  HVa.u64_sel (hsel_of s) (length dims) -> Hs.valid (hsel_of s) dims -> Hs.prodN (s_count s) <= Hs.max_hyperslab_elements ->
  exists sd, run0 f (after_decode class size dims DATA_ADDR (fill s (length dims))) = Ok sd /\
    slice_value size dims [] (Hs.axes_of (hsel_of s) (length dims)) sd
    = Hs.select (evals size data) dims (Hs.axes_of (hsel_of s) (length dims)).
Proof.
  intros Hsz HU HVd Hlim.
  pose proof (dims_ok_u64 _ Hdims) as Ud. pose proof (dims_ok_ne _ Hdims) as Dne.
  pose proof (HVa.validate_complete _ _ HU Ud Dne Hlim HVd) as Vok.
  assert (Hes : 0 < size) by (destruct Hsz; subst; lia).
  assert (HlenP : blen data = Hs.prodN dims * size) by (rewrite <- product_eq; exact Hlen).
  destruct (filled_valid size dims data s Hdims Hlen Hbound Hes HU HVd) as (HP & HLs & HVa' & Axne & Hn).
  unfold after_decode. rewrite (gate_ok _ _ _ Hdt Hsz), (proj2 (N.eqb_neq _ _) Hn).
  rewrite (validate_refill s dims Ud HU Vok).
  assert (Hmax : DATA_ADDR + blen data <= MAXI64) by (change DATA_ADDR with 2195; unfold MAXI64; lia).
  destruct (p_slice_contig_refines f DATA_ADDR size data (P_data name class size cbf dims data Hname) Hes Hmax dims HlenP HP
              (fill s (length dims)) HLs HVa' Dne) as (sd & R & Vl).
  exists sd. split; [exact R|]. rewrite axes_of_fill in Vl, Axne. rewrite Vl.
  apply HCo.read_hyperslab_contiguous_correct; [apply HVd|exact Axne|].
  rewrite evals_lenN, HlenP. apply div_exact_mul. exact Hes.
Qed.

Theorem file_hyperslab_contiguous (s : selection) hfuel : (3 < hfuel)%nat -> size = 4 \/ size = 8 ->
  HVa.u64_sel (hsel_of s) (length dims) ->
  (Hs.valid (hsel_of s) dims -> Hs.prodN (s_count s) <= Hs.max_hyperslab_elements ->
   exists sd, run0 f (api_read_hyperslab SB' hfuel da s) = Ok sd /\
     slice_value size dims [] (Hs.axes_of (hsel_of s) (length dims)) sd
     = Hs.select (evals size data) dims (Hs.axes_of (hsel_of s) (length dims))) /\
  (~ Hs.valid (hsel_of s) dims -> run0 f (api_read_hyperslab SB' hfuel da s) = Err).
Proof.
  intros Hf Hsz HU. pose proof (dims_ok_u64 _ Hdims) as Ud. pose proof (dims_ok_ne _ Hdims) as Dne.
  unfold api_read_hyperslab. rewrite (slice_head name class size cbf dims data Hname Hdt Hdims HL' Hbound hfuel _ Hf).
  rewrite (validate_refines s dims Ud HU). split.
  - intros HVd Hlim. rewrite (HVa.validate_complete _ _ HU Ud Dne Hlim HVd). now apply after_decode_valid.
  - intros Hnv. destruct (Hs.validate (hsel_of s) dims) eqn:E; [|reflexivity].
    exfalso. apply Hnv. exact (HVa.validate_sound _ _ HU Ud E).
Qed.

(* element sizes other than 4 and 8 bytes: every request is an error (dataset_read_hyperslab.go:385) *)
Theorem file_hyperslab_small_type (s : selection) hfuel : (3 < hfuel)%nat -> size = 1 \/ size = 2 ->
  run0 f (api_read_hyperslab SB' hfuel da s) = Err.
Proof.
  intros Hf Hsz. unfold api_read_hyperslab. rewrite (slice_head name class size cbf dims data Hname Hdt Hdims HL' Hbound hfuel _ Hf).
  destruct (validate s dims); [|reflexivity]. unfold after_decode.
  replace (negb (((class =? 1) || (class =? 0)) && ((size =? 4) || (size =? 8)))) with true; [reflexivity|].
  destruct Hsz; subst; now rewrite andb_false_r.
Qed.
End Top.

Lemma program_arithmetic : forall s dims,
  sel_lens s (length dims) -> Hs.axes_valid (axes_of_sel s) dims -> Hs.prodN dims < 4294967296 -> dims <> [] ->
  out_size s = Hs.out_elems (axes_of_sel s) /\
  is_contig s dims = Hs.is_contiguous_selection (axes_of_sel s) dims /\
  (forall i, (i < length dims)%nat -> sel_idx s dims i = Hs.axis_idx (nth i (axes_of_sel s) (Hs.mkAxis 0 0 0 0))).
Proof.
  intros s dims HL HV HP Hne.
  exact (conj (out_size_eq s dims HL HV HP Hne) (conj (is_contig_eq s dims HL HV HP) (fun i => sel_idx_eq s dims i HL HV HP))).
Qed.
