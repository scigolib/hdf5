(* C09 at file level: Dataset.ReadSlice(start, count) as an I/O program on the whole-file image of a contiguous dataset:
   the selection of the written data when the request lies inside the dataset and has at most 10^9 elements (a count of 0:
   the empty result without I/O), an error otherwise. *)
From HV Require Import Base.Prelude Base.Outcome Base.Bytes Model.IOProg Proofs.IOProg Model.IOProgReader Model.IOProgSlice.
From HV Require Import Model.CodecSuper Model.CodecType Model.FileImage Proofs.FileImage Proofs.FileImageOhdr Proofs.FileImageData
  Proofs.FileImageProd Proofs.FileImageMain.
From HV Require Import Model.SliceRefine Proofs.SliceRefineBytes Proofs.SliceRefineArith Proofs.SliceRefineValidate
  Proofs.SliceRefineMain Proofs.SliceRefineFile Proofs.SliceRefineTop.
From HV Require Proofs.HyperslabBase Proofs.HyperslabValidate Proofs.HyperslabRefuted Proofs.SliceRefineSliceH Proofs.SliceRefineFit.
Module SH := HV.Proofs.SliceRefineSliceH.

Lemma wrap64_0 : wrap64 0 = 0.
Proof. apply wrap64_small. lia. Qed.

(* calculateHyperslabOutputSize is 0 as soon as one count is 0, whatever wrapped before *)
Lemma osz_fold_from_zero cn bl : forall l,
  fold_left (fun t i => let b := nthN bl i in wrap64 (t * wrap64 (nthN cn i * (if b =? 0 then 1 else b)))) l 0 = 0.
Proof. induction l as [|i l IH]; cbn [fold_left]; [reflexivity|]. cbv zeta. rewrite N.mul_0_l, wrap64_0. exact IH. Qed.
Lemma osz_fold_zero cn bl : forall l t, (exists i, In i l /\ nthN cn i = 0) ->
  fold_left (fun t i => let b := nthN bl i in wrap64 (t * wrap64 (nthN cn i * (if b =? 0 then 1 else b)))) l t = 0.
Proof.
  induction l as [|j l IH]; intros t (i & Hi & Hz); [destruct Hi|]. cbn [fold_left]. destruct Hi as [->|Hi].
  - cbv zeta. rewrite Hz, N.mul_0_l, wrap64_0, N.mul_0_r, wrap64_0. apply osz_fold_from_zero.
  - apply IH. eauto.
Qed.
Lemma out_size_zero_count s : Exists (eq 0) (count s) -> out_size s = 0.
Proof.
  intros H. unfold out_size. destruct (count s) as [|c0 cr] eqn:Ec; [reflexivity|].
  apply osz_fold_zero. apply Exists_exists in H. destruct H as (x & Hx & <-).
  destruct (In_nth _ _ 0 Hx) as (k & Hk & Hn). exists k. split; [|exact Hn].
  unfold idxs. apply in_seq. lia.
Qed.

Section Slice.
Variable name : bytes.
Variables class size cbf : N.
Variable dims : list N.
Variable data : bytes.
Hypothesis Hname : link_name_ok name = true.
Hypothesis Hdt : basic_dtype class size cbf = true.
Hypothesis Hdims : dims_ok dims = true.
Hypothesis Hlen : blen data = product dims * size.
Hypothesis Hbound : blen data < 4294967296.
Local Notation f := (image_v2 name class size cbf dims data).
Local Notation da := (dset_addr data).

Let HL' := Hlen' class size cbf dims data Hdt Hdims Hlen Hbound.

Theorem file_read_slice_contiguous st cn hfuel : (3 < hfuel)%nat -> size = 4 \/ size = 8 ->
  Forall Hs.u64 st -> Forall Hs.u64 cn ->
  (Hs.slice_valid st cn dims -> Hs.prodN cn <= Hs.max_hyperslab_elements ->
   exists sd, run0 f (api_read_slice SB' hfuel da st cn) = Ok sd /\
     slice_value size dims [] (Hs.slice_axes st cn) sd = Hs.select (evals size data) dims (Hs.slice_axes st cn)) /\
  (~ Hs.slice_valid st cn dims -> run0 f (api_read_slice SB' hfuel da st cn) = Err) /\
  (Hs.slice_valid st cn dims -> Hs.max_hyperslab_elements < Hs.prodN cn -> run0 f (api_read_slice SB' hfuel da st cn) = Err).
Proof.
  intros Hf Hsz U1 U2. pose proof (dims_ok_u64 _ Hdims) as Ud. pose proof (dims_ok_ne _ Hdims) as Dne.
  unfold api_read_slice. rewrite (slice_head name class size cbf dims data Hname Hdt Hdims HL' Hbound hfuel _ Hf).
  rewrite (validate_slice_refines st cn dims Ud U1 U2).
  set (s0 := {| s_start := st; s_count := cn; s_stride := None; s_block := None |}).
  pose proof (SH.u64_sel_slice st cn (length dims) U1 U2) as HU.
  change (Hs.mkSel st cn None None) with (hsel_of s0) in HU.
  split; [|split].
  - intros SV Hlim. rewrite (proj2 (HyperslabValidate.slice_validate_ok st cn dims Ud) SV).
    pose proof SV as (L1 & L2 & _).
    destruct (SH.zero_or_pos cn) as [Z|P].
    + exists SlEmpty. split.
      * unfold after_decode. rewrite (gate_ok _ _ _ Hdt Hsz).
        rewrite (out_size_zero_count (fill s0 (length dims))) by exact Z. cbn [N.eqb].
        cbn [fill count s_count s0]. rewrite L2, Nat.ltb_irrefl. reflexivity.
      * cbn [slice_value]. symmetry. apply SH.select_zero_count. apply SH.slice_axes_zero_count; [congruence|exact Z].
    + pose proof (SH.slice_valid_valid st cn dims SV P) as HVd.
      change (Hs.mkSel st cn None None) with (hsel_of s0) in HVd.
      destruct (after_decode_valid name class size cbf dims data Hname Hdt Hdims Hlen Hbound s0 Hsz HU HVd Hlim) as (sd & R & Vl).
      exists sd. split; [exact R|].
      change (hsel_of s0) with (Hs.mkSel st cn None None) in Vl. rewrite (SH.axes_of_slice st cn _ L1) in Vl. exact Vl.
  - intros NV. destruct (Hs.slice_validate st cn dims) eqn:E; [|reflexivity].
    exfalso. apply NV. apply (HyperslabValidate.slice_validate_ok st cn dims Ud). exact E.
  - intros SV Hbig. rewrite (proj2 (HyperslabValidate.slice_validate_ok st cn dims Ud) SV).
    pose proof SV as (L1 & L2 & _).
    assert (P : Forall (fun c => 0 < c) cn) by (apply SH.prod_pos_counts; unfold Hs.max_hyperslab_elements in Hbig; lia).
    pose proof (SH.slice_valid_valid st cn dims SV P) as HVd.
    change (Hs.mkSel st cn None None) with (hsel_of s0) in HVd.
    assert (Hes : 0 < size) by (destruct Hsz; subst; lia).
    destruct (filled_valid size dims data s0 Hdims Hlen Hbound Hes HU HVd) as (_ & _ & _ & _ & Hn).
    unfold after_decode. rewrite (gate_ok _ _ _ Hdt Hsz), (proj2 (N.eqb_neq _ _) Hn).
    set (s1 := refill (fill s0 (length dims))).
    assert (HU1 : HyperslabValidate.u64_sel (hsel_of s1) (length dims)).
    { destruct HU as (A & B & C & D). unfold HyperslabValidate.u64_sel. repeat split; assumption. }
    rewrite (validate_refines s1 dims Ud HU1).
    destruct (Hs.validate (hsel_of s1) dims) eqn:E; [|reflexivity].
    exfalso. apply SH.validate_count_bound in E. cbn in E. lia.
Qed.
End Slice.

Lemma forallb_u64 l : forallb (fun x => x <=? Hs.u64max) l = true -> Forall Hs.u64 l.
Proof. intros H. apply Forall_forall. intros x Hx. rewrite forallb_forall in H. apply N.leb_le. now apply H. Qed.

Definition wit_sel : selection := {| s_start := [0; 1]; s_count := [2; 2]; s_stride := Some [2; 3]; s_block := Some [2; 2] |}.
Definition wit_data : bytes := flat_map (fun i => [i; 0; 0; 0]) (Hs.nrange 24).

(* int32 [4,6] = 0..23, ReadHyperslab(start [0,1], count [2,2], stride [2,3], block [2,2]); ReadSlice([1,2], [2,3]) *)
Example file_slice_witness :
  link_name_ok [100] = true /\ basic_dtype 0 4 8 = true /\ dims_ok [4; 6] = true /\
  blen wit_data = product [4; 6] * 4 /\ blen wit_data < 4294967296 /\
  HyperslabValidate.u64_sel (hsel_of wit_sel) (length [4; 6]) /\ Hs.valid (hsel_of wit_sel) [4; 6] /\
  Hs.prodN (s_count wit_sel) <= Hs.max_hyperslab_elements /\
  Forall Hs.u64 [1; 2] /\ Forall Hs.u64 [2; 3] /\ Hs.slice_valid [1; 2] [2; 3] [4; 6] /\ Hs.prodN [2; 3] <= Hs.max_hyperslab_elements.
Proof.
  split; [vm_compute; reflexivity|]. split; [vm_compute; reflexivity|]. split; [vm_compute; reflexivity|].
  split; [vm_compute; reflexivity|]. split; [vm_compute; reflexivity|].
  split.
  { unfold HyperslabValidate.u64_sel. split; [|split; [|split]]; apply forallb_u64; vm_compute; reflexivity. }
  split; [apply HyperslabRefuted.validb_spec; vm_compute; reflexivity|].
  split; [vm_compute; discriminate|].
  split; [apply forallb_u64; vm_compute; reflexivity|]. split; [apply forallb_u64; vm_compute; reflexivity|].
  split; [|vm_compute; discriminate].
  apply (HyperslabValidate.slice_validate_ok [1; 2] [2; 3] [4; 6]); [apply forallb_u64|]; vm_compute; reflexivity.
Qed.
