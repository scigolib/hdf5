(* C09: list / range / row-major-index lemmas shared by the Hyperslab proofs. *)
From HV Require Import Base.Prelude Base.Bytes Model.Hyperslab.

Lemma fold_left_flat_map {A B S} (f : S -> B -> S) (g : A -> list B) (l : list A) (st : S) :
  fold_left f (flat_map g l) st = fold_left (fun st x => fold_left f (g x) st) l st.
Proof.
  revert st; induction l as [|x l IH]; intros st; cbn [flat_map fold_left]; [reflexivity|].
  rewrite fold_left_app. apply IH.
Qed.

Lemma fold_left_id_in {A S} (f : S -> A -> S) (l : list A) (st : S) :
  (forall st x, In x l -> f st x = st) -> fold_left f l st = st.
Proof.
  revert st; induction l as [|x l IH]; intros st H; cbn [fold_left]; [reflexivity|].
  rewrite H by (left; reflexivity). apply IH. intros; apply H; right; assumption.
Qed.

Lemma flat_map_length_const {A B} (g : A -> list B) (l : list A) (k : nat) :
  (forall x, In x l -> length (g x) = k) -> length (flat_map g l) = (length l * k)%nat.
Proof.
  induction l as [|x l IH]; intros H; cbn [flat_map length]; [reflexivity|].
  rewrite app_length, H by (left; reflexivity). rewrite IH by (intros; apply H; right; assumption).
  lia.
Qed.

Lemma flat_map_map {A B C} (g : B -> list C) (f : A -> B) (l : list A) :
  flat_map g (map f l) = flat_map (fun x => g (f x)) l.
Proof. induction l as [|x l IH]; cbn [flat_map map]; [reflexivity|]. rewrite IH. reflexivity. Qed.

Lemma flat_map_flat_map {A B C} (g : B -> list C) (f : A -> list B) (l : list A) :
  flat_map g (flat_map f l) = flat_map (fun x => flat_map g (f x)) l.
Proof. induction l as [|x l IH]; cbn [flat_map]; [reflexivity|]. rewrite flat_map_app, IH. reflexivity. Qed.

Lemma flat_map_single {A B} (h : A -> B) (l : list A) : flat_map (fun x => [h x]) l = map h l.
Proof. induction l as [|x l IH]; [reflexivity|]. cbn [flat_map map app]. rewrite IH. reflexivity. Qed.

(* sel_coords, all_coords and gen_chunk_coords all prefix every index of one dimension to every tuple of the rest *)
Lemma in_flat_map_cons {A} (I : list A) (L : list (list A)) x :
  In x (flat_map (fun i => map (cons i) L) I) <-> exists i y, x = i :: y /\ In i I /\ In y L.
Proof.
  rewrite in_flat_map. split.
  - intros (i & Hi & H). apply in_map_iff in H. destruct H as (y & <- & Hy). eauto.
  - intros (i & y & -> & Hi & Hy). exists i. split; [assumption|]. apply in_map_iff. eauto.
Qed.

Lemma nseq_length s n : length (nseq s n) = n.
Proof. revert s; induction n; intros; cbn [nseq length]; [reflexivity|]. rewrite IHn; reflexivity. Qed.

Lemma nrange_length n : length (nrange n) = N.to_nat n.
Proof. apply nseq_length. Qed.

Lemma nseq_app s n m : nseq s (n + m) = nseq s n ++ nseq (s + N.of_nat n) m.
Proof.
  revert s; induction n as [|n IH]; intros s.
  - cbn [nseq Nat.add app]. f_equal. lia.
  - cbn [nseq Nat.add app]. rewrite IH.
    replace (s + 1 + N.of_nat n) with (s + N.of_nat (S n)) by lia. reflexivity.
Qed.

Lemma in_nseq x s n : In x (nseq s n) <-> s <= x < s + N.of_nat n.
Proof.
  revert s; induction n as [|n IH]; intros s; cbn [nseq In].
  - lia.
  - rewrite IH. lia.
Qed.

Lemma in_nrange x n : In x (nrange n) <-> x < n.
Proof. unfold nrange. rewrite in_nseq. lia. Qed.

Lemma nth_nseq i s n d : (i < n)%nat -> nth i (nseq s n) d = s + N.of_nat i.
Proof.
  revert i s; induction n as [|n IH]; intros i s H; [lia|].
  destruct i; cbn [nseq nth]; [lia|]. rewrite IH by lia. lia.
Qed.

Lemma map_add_nseq k s n : map (N.add k) (nseq s n) = nseq (k + s) n.
Proof.
  revert s; induction n as [|n IH]; intros s; cbn [nseq map]; [reflexivity|].
  rewrite IH. do 2 f_equal. lia.
Qed.

Lemma NoDup_nseq s n : NoDup (nseq s n).
Proof.
  revert s; induction n as [|n IH]; intros s; cbn [nseq]; constructor; [|apply IH].
  rewrite in_nseq. lia.
Qed.

Lemma flat_map_nseq_runs (base m : N) (s : N) (k : nat) :
  flat_map (fun i => nseq (base + i * m) (N.to_nat m)) (nseq s k)
  = nseq (base + s * m) (k * N.to_nat m).
Proof.
  revert s; induction k as [|k IH]; intros s; cbn [nseq flat_map]; [reflexivity|].
  rewrite IH. replace (S k * N.to_nat m)%nat with (N.to_nat m + k * N.to_nat m)%nat by lia.
  rewrite nseq_app. do 2 f_equal. lia.
Qed.

Lemma upd_nat_length l i v : length (upd_nat l i v) = length l.
Proof. revert i; induction l as [|x l IH]; intros [|i]; cbn [upd_nat length]; auto. Qed.

Lemma upd_length l i v : length (upd l i v) = length l.
Proof. apply upd_nat_length. Qed.

Lemma nth_upd_nat l i v j d :
  nth j (upd_nat l i v) d = if Nat.eqb i j && Nat.ltb i (length l) then v else nth j l d.
Proof.
  revert i j; induction l as [|x l IH]; intros i j.
  - cbn [upd_nat length]. destruct i, j; cbn; try reflexivity; rewrite ?andb_false_r; reflexivity.
  - destruct i as [|i], j as [|j]; cbn [upd_nat nth length]; try reflexivity.
    rewrite IH. cbn [Nat.eqb]. destruct (Nat.eqb i j); cbn [andb]; [|reflexivity].
    change (Nat.ltb (S i) (S (length l))) with (Nat.ltb i (length l)). reflexivity.
Qed.

Lemma zeros_length n : length (zeros n) = N.to_nat n.
Proof. apply repeat_length. Qed.

Lemma nthN_zeros n i : nthN (zeros n) i = 0.
Proof. unfold nthN, zeros. apply nth_repeat. Qed.

Lemma upd_nat_app pre x r v : upd_nat (pre ++ x :: r) (length pre) v = pre ++ v :: r.
Proof. induction pre as [|y pre IH]; cbn [app length upd_nat]; [reflexivity|]. rewrite IH. reflexivity. Qed.

Lemma upd_of_nat l k v : upd l (N.of_nat k) v = upd_nat l k v.
Proof. unfold upd. rewrite Nat2N.id. reflexivity. Qed.

(* outputData[outputIdx] = v; outputIdx++ *)
Definition write (st : list N * N) (v : N) : list N * N := (upd (fst st) (snd st) v, snd st + 1).

Lemma seq_writes (vals : list N) : forall (pre mid post : list N),
  length mid = length vals ->
  fold_left write vals (pre ++ mid ++ post, N.of_nat (length pre))
  = (pre ++ vals ++ post, N.of_nat (length pre + length vals)).
Proof.
  induction vals as [|v vals IH]; intros pre [|m mid] post H; try discriminate H.
  - cbn [fold_left app length]. rewrite Nat.add_0_r. reflexivity.
  - cbn [fold_left]. unfold write at 2. cbn [fst snd app]. rewrite upd_of_nat, upd_nat_app.
    specialize (IH (pre ++ [v]) mid post). rewrite <- !app_assoc, app_length in IH. cbn [app length] in IH.
    replace (N.of_nat (length pre) + 1) with (N.of_nat (length pre + 1)) by lia.
    rewrite IH by (injection H; auto). cbn [length]. do 2 f_equal. lia.
Qed.

Lemma write_all (vals : list N) (n : N) :
  length vals = N.to_nat n -> fst (fold_left write vals (zeros n, 0)) = vals.
Proof.
  intros H. pose proof (seq_writes vals [] (zeros n) []) as W. cbn [app length N.of_nat] in W.
  rewrite app_nil_r in W. rewrite W by (rewrite zeros_length; lia). apply app_nil_r.
Qed.

Lemma lin_go_spec : forall x dims, length x = length dims -> lin_go x dims = (lin dims x, prodN dims).
Proof.
  induction x as [|c cs IH]; intros [|d ds] H; cbn [length] in H; try discriminate; cbn [lin_go lin prodN].
  - reflexivity.
  - rewrite IH by lia. f_equal; lia.
Qed.

Lemma calc_lin_spec x dims : length x = length dims -> calc_lin x dims = lin dims x.
Proof. intros H. unfold calc_lin. rewrite lin_go_spec by assumption. reflexivity. Qed.

Lemma lin_bound : forall dims x, Forall2 N.lt x dims -> lin dims x < prodN dims.
Proof.
  induction dims as [|d ds IH]; intros x H; inversion H; subst; cbn [lin prodN]; [lia|].
  match goal with H : Forall2 _ _ ds |- _ => apply IH in H end. nia.
Qed.

Lemma lin_le_mono : forall dims x y, Forall2 N.le x y -> length x = length dims -> lin dims x <= lin dims y.
Proof.
  induction dims as [|d ds IH]; intros x y H L; inversion H; subst; cbn [lin]; try lia.
  cbn [length] in L.
  match goal with H : Forall2 _ _ _ |- _ => apply IH in H; [|lia] end. nia.
Qed.

Lemma lin_vadd : forall dims x y, length x = length dims -> length y = length dims ->
  lin dims (vadd x y) = lin dims x + lin dims y.
Proof.
  induction dims as [|d ds IH]; intros [|a x] [|b y] Lx Ly; cbn [length] in *; try discriminate; cbn [vadd lin]; try lia.
  rewrite IH by lia. lia.
Qed.

Lemma vadd_length : forall x y, length x = length y -> length (vadd x y) = length x.
Proof. induction x; intros [|b y] H; cbn [length vadd] in *; try discriminate; [reflexivity|]. rewrite IHx by lia. reflexivity. Qed.

Lemma nthN_map_nseq (full : list N) (off : N) (n : nat) :
  (N.to_nat off + n <= length full)%nat ->
  map (nthN full) (nseq off n) = firstn n (skipn (N.to_nat off) full).
Proof.
  intros H. apply nth_ext with (d := nthN full 0) (d' := 0).
  - rewrite map_length, nseq_length, firstn_length, skipn_length. lia.
  - intros i Hi. rewrite map_length, nseq_length in Hi.
    rewrite map_nth, nth_nseq by assumption. rewrite nth_firstn_lt by assumption.
    rewrite nth_skipn. unfold nthN. f_equal. lia.
Qed.

Lemma read_at_spec full off n :
  off + n <= lenN full -> read_at full off n = map (nthN full) (nseq off (N.to_nat n)).
Proof.
  unfold read_at, lenN. intros H.
  rewrite !N.min_l by lia.
  rewrite nthN_map_nseq by lia. reflexivity.
Qed.

Lemma read_at_length full off n : off + n <= lenN full -> length (read_at full off n) = N.to_nat n.
Proof. intros H. rewrite read_at_spec by assumption. rewrite map_length, nseq_length. reflexivity. Qed.

Lemma nthN_read_at full off n k : off + n <= lenN full -> k < n -> nthN (read_at full off n) k = nthN full (off + k).
Proof.
  intros H Hk. rewrite read_at_spec by assumption. unfold nthN at 1.
  rewrite nth_indep with (d' := nthN full 0) by (rewrite map_length, nseq_length; lia).
  rewrite map_nth, nth_nseq by lia. f_equal. lia.
Qed.

Lemma in_axis_idx a x :
  In x (axis_idx a) <-> exists c b, c < a_count a /\ b < a_block a /\ x = a_start a + c * a_stride a + b.
Proof.
  unfold axis_idx. rewrite in_flat_map. split.
  - intros (c & Hc & Hx). apply in_map_iff in Hx. destruct Hx as (b & <- & Hb).
    apply in_nrange in Hc. apply in_nrange in Hb. eauto.
  - intros (c & b & Hc & Hb & ->). exists c. split; [apply in_nrange; assumption|].
    apply in_map_iff. exists b. split; [reflexivity|apply in_nrange; assumption].
Qed.

Lemma axis_idx_bound a d x : axis_valid a d -> In x (axis_idx a) ->
  a_start a <= x /\ x <= a_start a + (a_count a - 1) * a_stride a + a_block a - 1 /\ x < d.
Proof.
  intros (Hc & Hs & Hb & Hd) Hx. apply in_axis_idx in Hx. destruct Hx as (c & b & Hc' & Hb' & ->).
  assert (c * a_stride a <= (a_count a - 1) * a_stride a) by (apply N.mul_le_mono_r; lia).
  lia.
Qed.

Lemma axis_idx_length a : length (axis_idx a) = (N.to_nat (a_count a) * N.to_nat (a_block a))%nat.
Proof.
  unfold axis_idx. rewrite flat_map_length_const with (k := N.to_nat (a_block a)).
  - rewrite nrange_length. reflexivity.
  - intros. rewrite map_length, nrange_length. reflexivity.
Qed.

Definition selN (s : list axis) : N := prodN (map (fun a => a_count a * a_block a) s).

Lemma sel_coords_length s : length (sel_coords s) = N.to_nat (selN s).
Proof.
  induction s as [|a s IH]; [reflexivity|]. cbn [sel_coords].
  rewrite flat_map_length_const with (k := length (sel_coords s)) by (intros; apply map_length).
  rewrite axis_idx_length, IH. unfold selN. cbn [map prodN]. lia.
Qed.

Lemma sel_coords_each_length s x : In x (sel_coords s) -> length x = length s.
Proof.
  revert x; induction s as [|a s IH]; intros x H; cbn [sel_coords] in H.
  - destruct H as [<-|[]]. reflexivity.
  - apply in_flat_map in H. destruct H as (i & _ & H). apply in_map_iff in H. destruct H as (y0 & <- & Hy).
    cbn [length]. rewrite (IH _ Hy). reflexivity.
Qed.

Lemma in_sel_coords_cons a s x :
  In x (sel_coords (a :: s)) <-> exists i y, x = i :: y /\ In i (axis_idx a) /\ In y (sel_coords s).
Proof. apply in_flat_map_cons. Qed.

Lemma sel_coords_inb : forall s dims x, axes_valid s dims -> In x (sel_coords s) -> Forall2 N.lt x dims.
Proof.
  induction s as [|a s IH]; intros dims x V H; inversion V; subst.
  - destruct H as [<-|[]]. constructor.
  - apply in_sel_coords_cons in H. destruct H as (i & z & -> & Hi & Hz).
    constructor; [|eapply IH; eassumption].
    eapply axis_idx_bound; eassumption.
Qed.

(* calculateHyperslabOutputSize treats a zero block as 1 and rank 0 as empty; elsewhere it is selN *)
Lemma out_elems_selN s : s <> [] -> Forall (fun a => 0 < a_block a) s -> out_elems s = selN s.
Proof.
  intros Hne Hb. destruct s as [|a0 s0]; [congruence|]. unfold out_elems.
  enough (G : forall t, fold_left (fun t a => t * (a_count a * (if a_block a =? 0 then 1 else a_block a))) (a0 :: s0) t
                        = t * selN (a0 :: s0)) by (rewrite G; lia).
  clear Hne. induction Hb as [|a s Ha _ IH]; intros t; cbn [fold_left]; [unfold selN; cbn [map prodN]; lia|].
  rewrite IH. unfold selN. cbn [map prodN]. destruct (N.eqb_spec (a_block a) 0); lia.
Qed.

Lemma out_elems_length s : s <> [] -> Forall (fun a => 0 < a_block a) s ->
  out_elems s = N.of_nat (length (sel_coords s)).
Proof. intros Hne Hb. rewrite out_elems_selN, sel_coords_length, N2Nat.id by assumption. reflexivity. Qed.

Lemma prodN_pos l : Forall (fun c => 0 < c) l -> 0 < prodN l.
Proof. induction 1; cbn [prodN]; nia. Qed.

Lemma axes_valid_block s dims : axes_valid s dims -> Forall (fun a => 0 < a_block a) s.
Proof. induction 1 as [|a d s dims H _ IH]; constructor; [apply H|assumption]. Qed.

Lemma axes_valid_length s dims : axes_valid s dims -> length s = length dims.
Proof. apply Forall2_length. Qed.

Lemma out_elems_pos s dims : axes_valid s dims -> s <> [] -> 0 < out_elems s.
Proof.
  intros V Hne. rewrite out_elems_selN by (try assumption; eapply axes_valid_block; eassumption).
  apply prodN_pos. clear Hne. induction V as [|a d s ds (A1 & A2 & A3 & A4) _ IH]; cbn [map]; constructor; [nia|assumption].
Qed.
