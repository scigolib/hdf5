(* C20: the magnitude-level theorems of LowFloatBF16.v and LowFloatFP8.v carried to the full encoders (sign bit plus
   encoded magnitude), and examples across the three formats.  Re-exports the other LowFloat files. *)
From HV Require Import Base.Prelude Model.LowFloat Model.LowFloatTie.
From HV Require Export Proofs.LowFloatBase Proofs.LowFloatBF16 Proofs.LowFloatFP8 Proofs.LowFloatFP8Rne.

Lemma fp8_enc_split F : fmt_ok F -> forall x, x < 4294967296 -> f32_is_nan x = false ->
  fp8_enc F x = f32_sign x * 128 + fp8_enc_mag F (f32_mag x).
Proof.
  intros HF x Hx Hn. unfold f32_is_nan in Hn. apply N.ltb_ge in Hn.
  destruct (N.lt_ge_cases x 2147483648) as [Hp|Hneg].
  - rewrite mag_small in * by exact Hp. rewrite sign_small by exact Hp. rewrite fp8_enc_pos by auto. lia.
  - replace x with (x - 2147483648 + 2147483648) in * by lia.
    rewrite mag_neg in * by lia. rewrite sign_neg by lia. rewrite fp8_enc_neg by auto. lia.
Qed.

Lemma bf16_enc_split x : x < 4294967296 -> f32_is_nan x = false ->
  bf16_enc x = f32_sign x * 32768 + bf16_enc (f32_mag x).
Proof.
  intros Hx Hn.
  destruct (N.lt_ge_cases x 2147483648) as [Hp|Hneg].
  - rewrite mag_small, sign_small by exact Hp. lia.
  - assert (Hn' : f32_is_nan (x - 2147483648) = false).
    { unfold f32_is_nan in *. rewrite mag_small by lia.
      replace x with (x - 2147483648 + 2147483648) in Hn by lia. rewrite mag_neg in Hn by lia. exact Hn. }
    replace x with (x - 2147483648 + 2147483648) by lia.
    rewrite mag_neg, sign_neg by lia. rewrite bf16_sign by (auto; lia). lia.
Qed.

Lemma fp8_enc_correct F : F = E4M3 \/ F = E5M2 -> forall x, x < 4294967296 -> f32_is_nan x = false ->
  exists c, fp8_enc F x = f32_sign x * 128 + c /\ fp8_rne_ok F (f32_mag x) c = true.
Proof.
  intros HF x Hx Hn. apply fmt_ok_std in HF. exists (fp8_enc_mag F (f32_mag x)).
  split; [apply fp8_enc_split; auto|apply enc_mag_rne, HF].
Qed.

Lemma bf16_enc_correct x : x < 4294967296 -> f32_is_nan x = false ->
  exists c, bf16_enc x = f32_sign x * 32768 + c /\ bf16_rne_ok (f32_mag x) c = true.
Proof.
  intros Hx Hn. exists (bf16_enc (f32_mag x)). split; [apply bf16_enc_split; auto|].
  unfold f32_is_nan in Hn. apply N.ltb_ge in Hn. apply bf16_rne, Hn.
Qed.

(* the same float32 in the three formats: -1.5 = 0xBFC00000 *)
Example minus_one_and_a_half :
  fp8_enc E4M3 3217031168 = 188 /\ fp8_enc E5M2 3217031168 = 190 /\ bf16_enc 3217031168 = 49088.
Proof. vm_compute. auto. Qed.
(* hypotheses of the split/correctness lemmas hold for it, and its decoded codes give the value back *)
Example minus_one_and_a_half_back :
  f32_is_nan 3217031168 = false /\ fp8_dec E4M3 188 = 3217031168 /\ fp8_dec E5M2 190 = 3217031168 /\ bf16_dec 49088 = 3217031168.
Proof. vm_compute. auto. Qed.

(* the bfloat16 specification is not vacuous: on the tie 0x3F808000 it accepts the even code 0x3F80 (by
   bf16_rne) and rejects the odd neighbour 0x3F81, which is equally near (shown without enumerating the grid) *)
Lemma forallb_false {A} (f : A -> bool) l x : In x l -> f x = false -> forallb f l = false.
Proof.
  intros Hin Hf. destruct (forallb f l) eqn:E; [|reflexivity].
  rewrite forallb_forall in E. rewrite (E x Hin) in Hf. discriminate.
Qed.

Example bf16_spec_accepts_even_on_tie : bf16_rne_ok 1065385984 16256 = true.
Proof. apply (bf16_rne 1065385984). lia. Qed.

Example bf16_spec_rejects_odd_on_tie : bf16_rne_ok 1065385984 16257 = false.
Proof.
  unfold bf16_rne_ok, rne_spec.
  replace (X32 ((32640 - 1) * 65536) + X32 (32640 * 65536) <=? 2 * X32 1065385984) with false
    by (vm_compute; reflexivity).
  apply andb_false_intro2. apply (forallb_false _ _ 16256).
  - apply codes_below_In. lia.
  - vm_compute. reflexivity.
Qed.
