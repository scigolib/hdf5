(* C03 end to end, depth 1: for every flat history (Model/TreeFlat.v) hdf5.Open on tree_image returns the root with exactly
   flat_nodes: the composition of FlatInv preservation (Proofs/TreeImageFlatStep.v) with the reader theorem
   (Proofs/TreeImageFlatRead.v flat_open, an instance of open_depth1). *)
From HV Require Import Base.Prelude Base.Outcome Base.Bytes Model.GroupWire Model.CodecOhdr.
From HV Require Import Model.IOProg Model.IOProgReader Model.IOProgOpen.
From HV Require Import Model.FileImage Model.TreeImage Model.TreeFlat.
From HV Require Import Proofs.TreeImageOpen Proofs.TreeImagePlaced Proofs.TreeImageFlat Proofs.TreeImageFlatStep Proofs.TreeImageFlatRead.
From HV Require Model.GroupNS.

Local Open Scope N_scope.

Lemma ns_run_fst {S O R} (f : S -> O -> S * R) s o r : fst (NS.run f s (o :: r)) = fst (NS.run f (fst (f s o)) r).
Proof. cbn [NS.run]. destruct (f s o) as [s1 x]. cbn [fst]. destruct (NS.run f s1 r). reflexivity. Qed.
Lemma ns_run_snd {S O R} (f : S -> O -> S * R) s o r : snd (NS.run f s (o :: r)) = snd (f s o) :: snd (NS.run f (fst (f s o)) r).
Proof. cbn [NS.run]. destruct (f s o) as [s1 x]. cbn [fst snd]. destruct (NS.run f s1 r). reflexivity. Qed.

Lemma t_run_is_run st h : t_run st h = NS.run t_step st h.
Proof. revert st. induction h as [|o r IH]; intros st; [reflexivity|]. cbn [t_run NS.run]. destruct (t_step st o). now rewrite IH. Qed.
Lemma t_run_fst st o r : fst (t_run st (o :: r)) = fst (t_run (fst (t_step st o)) r).
Proof. rewrite !t_run_is_run. apply ns_run_fst. Qed.
Lemma t_run_snd st o r : snd (t_run st (o :: r)) = snd (t_step st o) :: snd (t_run (fst (t_step st o)) r).
Proof. rewrite !t_run_is_run. apply ns_run_snd. Qed.
Lemma flat_nodes_cons st o r :
  flat_nodes st (o :: r) = (if snd (t_step st o) then [flat_child st o] else []) ++ flat_nodes (fst (t_step st o)) r.
Proof. reflexivity. Qed.

Lemma flat_step_inv st nodes o : FlatInv st nodes -> flat_step st o ->
  FlatInv (fst (t_step st o)) (nodes ++ (if snd (t_step st o) then [flat_child st o] else [])).
Proof.
  intros HI [E | (Hc & Hroot & Hargs & Hb)].
  - rewrite E. cbn [fst snd]. now rewrite app_nil_r.
  - unfold FLAT_LIM in Hb. destruct o as [p | p code dims data | p q]; [| |discriminate]; cbn [t_step op_parent_name op_extent flat_child] in *.
    + pose proof (flat_group_step st nodes p HI Hroot Hb) as H.
      destruct (snd (t_create_group st p)); [exact H | now rewrite app_nil_r].
    + pose proof (flat_dataset_step st nodes p code dims data HI Hroot Hargs ltac:(unfold LIM; blia)) as H.
      destruct (snd (t_create_dataset st p code dims data)); [exact H | now rewrite app_nil_r].
Qed.

Theorem flat_run h : forall st nodes, FlatInv st nodes -> flat_hist st h ->
  FlatInv (fst (t_run st h)) (nodes ++ flat_nodes st h).
Proof.
  induction h as [|o r IH]; intros st nodes HI HF.
  - cbn [t_run fst flat_nodes]. now rewrite app_nil_r.
  - destruct HF as [H1 H2]. rewrite t_run_fst. cbn [flat_nodes]. rewrite app_assoc.
    apply IH; [|exact H2]. now apply flat_step_inv.
Qed.

Theorem tree_depth1_partial h n hfuel : (4 < hfuel)%nat -> flat_hist t_init h ->
  2197 <= blen (t_file (fst (tree_run h))) -> blen (t_file (fst (tree_run h))) + 4000 < FLAT_LIM ->
  run0 (tree_image h) (p_open true (blen (tree_image h)) (S (S (S (S (S n))))) hfuel) = Ok (Grp [47] 2168 (flat_nodes t_init h)).
Proof.
  intros Hh HF H1 H2. unfold tree_image.
  exact (flat_open hfuel Hh (fst (tree_run h)) (flat_nodes t_init h) n (flat_run h t_init [] flat_init HF) H1 H2).
Qed.

(* whatever makes checkLinkable (prepare_link) refuse - empty name or NUL, unknown parent, duplicate name, full heap, full node -
   the creation returns false and the state (file and fw.groups) is unchanged *)
Theorem group_refused_unchanged st p :
  (forall x, prepare_link st (fst (NS.parse_path (NS.trim_suffix_slash p))) (snd (NS.parse_path (NS.trim_suffix_slash p))) 0 <> Ok x) ->
  t_step st (TGroup p) = (st, false).
Proof.
  intros H. cbn [t_step]. unfold t_create_group. destruct (negb (NS.validate_group_path p)); [reflexivity|].
  destruct (NS.parse_path (NS.trim_suffix_slash p)) as [parent nm]. cbn [fst snd] in H.
  destruct (negb (parent_registered st parent)); [reflexivity|].
  destruct (prepare_link st parent nm 0) as [x| |]; [exfalso; now apply (H x) | reflexivity | reflexivity].
Qed.
Theorem dataset_refused_unchanged st p code dims data :
  (forall x, prepare_link st (fst (NS.parse_path p)) (snd (NS.parse_path p)) 0 <> Ok x) ->
  t_step st (TDataset p code dims data) = (st, false).
Proof.
  intros H. cbn [t_step]. unfold t_create_dataset. destruct (negb (NS.validate_dataset_name p)); [reflexivity|].
  destruct (NS.parse_path p) as [parent nm]. cbn [fst snd] in H.
  destruct (prepare_link st parent nm 0) as [x| |]; [exfalso; now apply (H x) | reflexivity | reflexivity].
Qed.
(* CreateHardLink: an unknown parent, a target that does not resolve, an unreadable target header, a refused link, or a header
   without room for the RefCount message: false, state unchanged (nothing has been written yet) *)
Theorem hardlink_refused_unchanged st p q :
  (forall t, resolve_addr st q <> Ok t) \/
  (forall x, prepare_link st (fst (NS.parse_path p)) (snd (NS.parse_path p)) 0 <> Ok x) ->
  t_step st (THardLink p q) = (st, false).
Proof.
  intros H. cbn [t_step]. unfold t_hard_link.
  destruct (negb (NS.validate_link_path p) || negb (NS.validate_link_path q)); [reflexivity|].
  destruct (NS.parse_path p) as [parent nm]. cbn [fst snd] in H.
  destruct (negb (parent_registered st parent)); [reflexivity|].
  destruct (resolve_addr st q) as [t| |] eqn:ER; cbn [obind]; try reflexivity.
  destruct (dec_ohdr false (t_file st) t) as [h| |]; cbn [obind]; try reflexivity.
  destruct (prepare_link st parent nm 0) as [x| |] eqn:EP; cbn [obind]; try reflexivity.
  destruct H as [H | H]; [exfalso; now apply (H t) | exfalso; now apply (H x)].
Qed.

Lemma tree_empty : run0 (tree_image []) (p_open true (blen (tree_image [])) 5 5) = Ok (Grp [47] 2168 []).
Proof. vm_compute. reflexivity. Qed.

(* the hypotheses of tree_depth1_partial are satisfiable: /g, /d (uint8 [3]), /d again (refused: duplicate), /g/x/y (refused: no
   such parent), hard link /l -> /nothing (refused) *)
Definition flat_ex : list top :=
  [TGroup [47; 103]; TDataset [47; 100] 4 [3] [1; 2; 3]; TDataset [47; 100] 4 [3] [1; 2; 3];
   TGroup [47; 103; 47; 120; 47; 121]; THardLink [47; 108] [47; 110]].
Lemma flat_ex_ok :
  flat_hist t_init flat_ex /\ 2197 <= blen (t_file (fst (tree_run flat_ex))) /\
  blen (t_file (fst (tree_run flat_ex))) + 4000 < FLAT_LIM /\
  tree_oks flat_ex = [true; true; false; false; false] /\
  flat_nodes t_init flat_ex = [Grp [103] 4315 []; Dset [100] 4580].
Proof.
  (* every call is named, so that each check below evaluates a call once however often its result is mentioned; the
     rewriting is by equations, since a conversion between the folded and the unfolded run makes Qed evaluate the calls *)
  unfold tree_oks, tree_run, flat_ex. rewrite !t_run_fst, !t_run_snd, !flat_nodes_cons. cbn [flat_hist]. unfold flat_step.
  set (r1 := t_step t_init _). set (r2 := t_step (fst r1) _). set (r3 := t_step (fst r2) _).
  set (r4 := t_step (fst r3) _). set (r5 := t_step (fst r4) _).
  split.
  { split; [right; vm_compute; repeat split; reflexivity|].
    split; [right; vm_compute; repeat split; reflexivity|].
    split; [left; apply dataset_refused_unchanged; intros x; vm_compute; discriminate|].
    split; [left; apply group_refused_unchanged; intros x; vm_compute; discriminate|].
    split; [left; apply hardlink_refused_unchanged; left; intros t; vm_compute; discriminate|]. exact I. }
  vm_compute. repeat split; try reflexivity; discriminate.
Qed.
