(* C02 at byte level, dense storage: the stages of the reader's dense attribute path (Model/IOProgReader.v p_dense: readBTreeV2HeaderRaw,
   readBTreeV2LeafRecords, readFractalHeapHeaderRaw, parseHeapID, readHeapObject) on the bytes the WRITER's encoder models produce
   (BT2.encode_header / encode_leaf, FHeap.encode_header / encode_dblock, FHeap.encode_id), placed anywhere in a file.
   Generic in the structures' contents; Proofs/FileImageDense.v instantiates them with the blocks of image_v2_dense. *)
From HV Require Import Base.Prelude Base.Outcome Base.Bytes Base.Crc32 Model.IOProg Proofs.IOProg Model.IOProgReader.
From HV Require Import Model.CodecSuper Model.CodecOhdr Model.CodecMsg Model.CodecType Model.CodecLink Model.CodecAttr.
From HV Require Import Proofs.CodecMsg Model.FileImage Proofs.FileImage Proofs.FileImageData.
From HV Require Model.BT2 Proofs.BT2 Model.FHeap Proofs.FHeap.
Module MB := HV.Model.BT2.
Module PB := HV.Proofs.BT2.
Module MF := HV.Model.FHeap.
Module PF := HV.Proofs.FHeap.

Lemma rd_all (b : bytes) n : n = blen b -> rd b 0 n = b.
Proof. intros ->. unfold rd, blen. rewrite Nat2N.id. cbn [N.to_nat skipn]. apply firstn_all. Qed.
Lemma rd_head (b t : bytes) n : n = blen b -> rd (b ++ t) 0 n = b.
Proof.
  intros ->. exact (rd_app_mid [] b t).
Qed.

Lemma read_addr_le8 v : v < 18446744073709551616 -> read_addr_le (le 8 v) 8 = v.
Proof.
  intros Hv. unfold read_addr_le. rewrite blen_le. change (N.min 8 (N.of_nat 8)) with 8. change (N.to_nat 8) with 8%nat.
  assert (E : firstn 8 (le 8 v) = le 8 v) by (apply firstn_all2; rewrite length_le; blia).
  rewrite !E. apply unle_le_small. exact Hv.
Qed.

(* The field-offset arguments below take the buffer apart with file_at (Proofs/CodecMsg.v): every field of a concatenation lies at
   the sum of the widths before it, and the readers return it there. *)
Lemma dec_bt2hdr_enc s :
  MB.h_root (MB.header s) < 18446744073709551616 -> MB.h_nroot (MB.header s) < 65536 ->
  dec_bt2hdr SB' (MB.encode_header 8 s) 38 = Ok (MB.h_root (MB.header s), MB.h_nroot (MB.header s)).
Proof.
  intros Hr Hn. unfold MB.encode_header, MB.hdr_body, MB.enc_addr.
  set (h := MB.header s) in *. set (c := le 4 (crc32 _)). clearbody c. rewrite <- !app_assoc.
  (* signature at 0, root address at 16, number of root records at 24 *)
  match goal with |- dec_bt2hdr _ ?b _ = _ => pose proof (fa_whole b) as F end.
  apply fa_split in F as [Fs F]. do 5 apply fa_app_r in F. apply fa_split in F as [Fr F]. apply fa_app_l in F.
  unfold dec_bt2hdr, rd_end. cbn [SB' spp_offsize spp_lensize spp_bigendian].
  rewrite (fa_slice Fs 0 4), (fa_slice Fr 16 (16 + 8)), (fa_rd_le F (16 + 8) 2) by (try reflexivity; exact Hn).
  cbn [obind]. rewrite read_addr_le8 by exact Hr. reflexivity.
Qed.

Lemma leaf_ids_enc : forall rs buf off, Forall PB.rec_wf rs -> file_at buf off (flat_map MB.enc_rec rs) ->
  leaf_ids buf (length rs) off = Ok (map snd rs).
Proof.
  induction rs as [|r rs IH]; intros buf off HF F; [reflexivity|].
  inversion HF as [|? ? [_ H7] HF']; subst. cbn [flat_map length leaf_ids map] in *.
  change (MB.enc_rec r) with (le 4 (fst r) ++ snd r) in F.
  assert (Lid : blen (snd r) = 7) by (unfold blen; bnorm; rewrite H7; reflexivity).
  pose proof (fa_bound _ _ _ F) as Hb. rewrite !blen_app, blen_le, Lid in Hb.
  apply fa_split in F as [Fr F]. apply fa_app_r in Fr. rewrite blen_app, blen_le, Lid in F.
  rewrite ltb_false, (fa_slice Fr) by (rewrite ?blen_le, ?Lid; blia). cbn [obind].
  rewrite (IH buf (off + 11) HF'); [reflexivity | eapply fa_eq; [exact F | blia]].
Qed.

Lemma dec_bt2leaf_enc s :
  Forall PB.rec_wf (MB.leaf_recs s) ->
  let n := N.of_nat (length (MB.leaf_recs s)) in
  dec_bt2leaf n (MB.encode_leaf s) (6 + n * 11 + 4) = Ok (map snd (MB.leaf_recs s)).
Proof.
  intros HF n. unfold dec_bt2leaf.
  replace ((6 + n * 11 + 4 <? 6 + n * 11) || (6 + n * 11 + 4 <? 10)) with false
    by (symmetry; apply orb_false_iff; split; apply N.ltb_ge; blia).
  unfold MB.encode_leaf, MB.leaf_body. set (c := le 4 (crc32 _)). clearbody c. rewrite <- !app_assoc.
  match goal with |- context [slice ?b 0 4] => pose proof (fa_whole b) as F end.
  apply fa_split in F as [Fs F]. apply fa_app_r, fa_app_l in F.
  rewrite (fa_slice Fs 0 4) by reflexivity. cbn [obind].
  change (bytes_eqb MB.sig_leaf [66; 84; 76; 70]) with true. cbn [negb].
  unfold n. rewrite Nat2N.id. exact (leaf_ids_enc _ _ 6 HF F).
Qed.

Lemma blen_encode_leaf s : Forall PB.rec_wf (MB.leaf_recs s) ->
  blen (MB.encode_leaf s) = 6 + N.of_nat (length (MB.leaf_recs s)) * 11 + 4.
Proof. intros HF. pose proof (PB.encode_leaf_length s HF) as E. unfold blen. bnorm. rewrite E. blia. Qed.

Lemma dec_fheaphdr_enc h (tail : bytes) :
  MF.h_maxdb h = 65536 -> MF.h_root h < 18446744073709551616 -> blen tail = 2 ->
  dec_fheaphdr SB' (MF.header_body h ++ tail) 144 = Ok (MF.h_root h, 2, 3).
Proof.
  intros Hm Hr Ht. unfold MF.header_body. rewrite Hm, <- !app_assoc.
  (* signature at 0, maximum managed object size at 10, maximum direct block size at 120, heap bits at 128, root block at 132 *)
  match goal with |- dec_fheaphdr _ ?b _ = _ => pose proof (fa_whole b) as F end.
  apply fa_split in F as [Fs F]. do 4 apply fa_app_r in F. apply fa_split in F as [Fo F].
  do 14 apply fa_app_r in F. apply fa_split in F as [Fd F]. apply fa_split in F as [Fb F].
  apply fa_app_r, fa_app_l in F.
  unfold dec_fheaphdr, rd_end. cbn [SB' spp_offsize spp_lensize spp_bigendian].
  rewrite (fa_slice Fs 0 4), (fa_rd_le Fo 10 4), (fa_slice Fd (112 + 8) (112 + 8 + 8)), (fa_rd_le Fb (112 + 8 + 8) 2),
    (fa_slice F 132 (132 + 8)) by reflexivity.
  cbn [obind]. rewrite read_addr_le8 by exact Hr. reflexivity.
Qed.

(* the 144 bytes readFractalHeapHeaderRaw reads of the 146-byte header: the 142 body bytes and half of the checksum *)
Lemma rd_fheap_header h : exists tail, blen tail = 2 /\ rd (MF.encode_header h) 0 144 = MF.header_body h ++ tail.
Proof.
  unfold MF.encode_header. set (c := crc32 _). clearbody c.
  exists (firstn 2 (le 4 c)). split; [reflexivity|].
  unfold rd. change (N.to_nat 0) with 0%nat. change (N.to_nat 144) with 144%nat. cbn [skipn].
  rewrite firstn_app. assert (L : length (MF.header_body h) = 142%nat) by reflexivity.
  rewrite L. rewrite firstn_all2 by blia. reflexivity.
Qed.

Lemma parse_heap_id_enc off n : off < 65536 -> n < 16777216 ->
  parse_heap_id (firstn 7 (MF.encode_id 3 off n)) 2 3 = Ok (off, n).
Proof.
  intros Ho Hn. unfold MF.encode_id, parse_heap_id.
  change (N.to_nat 3) with 3%nat. cbn [le app firstn]. rewrite index0. cbn [obind].
  change (N.shiftr (N.land 0 48) 4 =? 0) with true. cbn [negb].
  change (N.min 2 6) with 2. change (N.min 3 (6 - 2)) with 3. change (N.to_nat 2) with 2%nat. change (N.to_nat 3) with 3%nat.
  change (1 + 2)%nat with 3%nat. cbn [skipn firstn].
  f_equal. f_equal.
  - change (unle (le 2 off) = off). apply unle_le_small. exact Ho.
  - change (unle (le 3 n) = n). apply unle_le_small. exact Hn.
Qed.

Lemma dblock_bytes b : 19 <= MF.db_size b -> blen (MF.db_objs b) <= MF.db_size b - 19 ->
  exists c, MF.encode_dblock b =
    ((MF.SIG_FHDB ++ [0]) ++ le 8 (MF.db_hdraddr b) ++ le 2 (MF.db_boff b))
    ++ MF.db_objs b ++ (MF.zeros (MF.db_size b - 19 - blen (MF.db_objs b)) ++ le 4 c).
Proof.
  intros Hs Ho. destruct (PF.encode_dblock_shape b Hs Ho) as [c E]. exists c. rewrite E.
  rewrite <- !app_assoc. reflexivity.
Qed.

Section HeapObject.
Variable f : bytes.
Variable ba : N.                  (* address of the direct block *)
Variable b : MF.dblock.
Hypothesis Hs31 : 31 <= MF.db_size b.
Let Hs : 19 <= MF.db_size b.
Proof using Hs31. blia. Qed.
Hypothesis Ho : blen (MF.db_objs b) <= MF.db_size b - 19.
Hypothesis Hboff : MF.db_boff b = 0.
Hypothesis HP : placed f ba (MF.encode_dblock b).
Hypothesis Hba : ba + MF.db_size b <= MAXI64.

Lemma blen_dblock : blen (MF.encode_dblock b) = MF.db_size b.
Proof using Hs31 Ho. exact (PF.len_encode_dblock b Hs Ho). Qed.

Lemma heap_object_read x m y : MF.db_objs b = x ++ m ++ y -> 0 < blen m ->
  run0 f (p_heap_object SB' ba (blen x) (blen m) 2) = Ok m.
Proof using Hs31 Ho Hboff HP Hba.
  intros E Hm. unfold p_heap_object. cbn [SB' spp_offsize]. change (5 + 8 + 2) with 15. change (15 + 16) with 31.
  destruct (dblock_bytes b Hs Ho) as [c Eb].
  assert (Ltot : blen (MF.encode_dblock b) = MF.db_size b) by exact blen_dblock.
  assert (Lobjs : blen (MF.db_objs b) = blen x + blen m + blen y) by (rewrite E, !blen_app; blia).
  replace ba with (ba + 0) at 1 by blia.
  rewrite (run0_short_placed _ f ba (MF.encode_dblock b) 0 31 _ HP) by (rewrite Ltot; blia).
  set (pre := (MF.SIG_FHDB ++ [0]) ++ le 8 (MF.db_hdraddr b) ++ le 2 (MF.db_boff b)) in *.
  assert (Lpre : blen pre = 15) by reflexivity.
  assert (Hhd : exists t, rd (MF.encode_dblock b) 0 31 = pre ++ t).
  { rewrite Eb. unfold rd. change (N.to_nat 0) with 0%nat. change (N.to_nat 31) with 31%nat. cbn [skipn].
    rewrite firstn_app. assert (L : length pre = 15%nat) by reflexivity. rewrite L.
    rewrite (firstn_all2 (n := 31) pre) by blia. eexists. reflexivity. }
  destruct Hhd as [t Et]. rewrite Et.
  rewrite run0_bind. unfold dec_dblock. cbn [SB' spp_offsize lift]. change (5 + 8 + 2) with 15. change (31 <? 15) with false. cbv iota.
  unfold pre at 1. rewrite <- !app_assoc.
  match goal with |- context [slice ?bb 0 4] => pose proof (fa_whole bb) as F end.
  apply fa_split in F as [Fs F]. do 2 apply fa_app_r in F. apply fa_app_l in F.
  rewrite (fa_slice Fs 0 4), (fa_slice F) by reflexivity. cbn [obind].
  change (bytes_eqb MF.SIG_FHDB [70; 72; 68; 66]) with true. cbn [negb].
  cbn [obind]. rewrite Hboff. change (wrap64 (unle (firstn 8 (le 2 0)))) with 0.
  cbn [lift]. rewrite run0_ret.
  replace (blen x <? 0) with false by (symmetry; apply N.ltb_ge; blia).
  replace (blen x - 0) with (blen x) by blia.
  assert (Hw : wrap64 (ba + 15 + blen x) = ba + 15 + blen x).
  { unfold wrap64. apply N.mod_small. unfold MAXI64 in Hba. blia. }
  rewrite Hw.
  apply run0_read_bytes_at; [| reflexivity | exact Hm | unfold MAXI64 in *; blia].
  rewrite Eb, E in HP.
  replace (pre ++ (x ++ m ++ y) ++ MF.zeros (MF.db_size b - 19 - blen (x ++ m ++ y)) ++ le 4 c)
    with ((pre ++ x) ++ m ++ (y ++ MF.zeros (MF.db_size b - 19 - blen (x ++ m ++ y)) ++ le 4 c)) in HP
    by (rewrite <- !app_assoc; reflexivity).
  apply placed_sub in HP. rewrite blen_app, Lpre in HP.
  replace (ba + 15 + blen x) with (ba + (15 + blen x)) by blia. exact HP.
Qed.
End HeapObject.
