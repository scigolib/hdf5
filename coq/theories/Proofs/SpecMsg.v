(* C05: the writer's message encoders (Model/Codec*.v, tied byte for byte to the Go code by C11) against the
   specification decoders of Spec/FormatMsg.v.  For every encoder: what the strict / tolerant specification decoder
   makes of its output, for all well-formed inputs that also meet the conditions of the specification the encoder does
   not check (maxdims_ok, chunkdims_positive, no creation-order tracking in the attribute info).  That two of these
   conditions are needed is shown by witness here and nowhere else: dataspace_maxdims_unchecked, attrinfo_corder_refuted. *)
From HV Require Import Base.Prelude Base.Outcome Base.Bytes Spec.Parse Spec.Format Spec.FormatMsg
  Model.CodecMsg Model.CodecType Model.CodecLink Model.CodecAttr Model.CodecFilter Proofs.SpecSuper.

Lemma wrap16_small n : n <= 65535 -> wrap16 n = n.
Proof. intros. unfold wrap16. apply N.mod_small. lia. Qed.

Definition logical_dataspace (x : dataspace) : dataspace_spec :=
  {| dss_version := 1; dss_type := 1; dss_dims := ds_dims x;
     dss_maxdims := match ds_maxdims x with [] => None | m => Some m end |}.

(* the specification's own condition the encoder does not check: a maximum is not below the current size *)
Definition maxdims_ok (x : dataspace) : bool :=
  match ds_maxdims x with [] => true | m => forall2b (fun d y => d <=? y) (ds_dims x) m end.

Lemma spec_dataspace x : wf_dataspace x = true -> maxdims_ok x = true ->
  spec_dec_dataspace 8 false (enc_dataspace x) = Ok (logical_dataspace x).
Proof.
  unfold wf_dataspace, encok_dataspace, maxdims_ok. intros W M.
  repeat (apply andb_true_iff in W as [W ?]).
  destruct x as [dims maxd]; cbn [ds_dims ds_maxdims] in *.
  assert (Hn : (length dims <> 0)%nat) by (destruct dims; [discriminate | cbn [length]; lia]).
  assert (Hl : (length dims <= 255)%nat) by (apply Nat.leb_le; assumption).
  unfold enc_dataspace, logical_dataspace, spec_dec_dataspace, enc_dims8. cbn [ds_dims ds_maxdims app].
  rewrite wrap8_small by (unfold blen; lia). bnorm.
  do 3 parse p_byte_cons. parse guard_Ok by now destruct maxd.
  cbn [N.eqb Pos.eqb]. parse (p_zeros_app 5).
  rewrite (proj2 (N.eqb_neq _ 0)) by (unfold blen; lia). parse guard_Ok.
  replace (N.to_nat (blen dims)) with (length dims) by (unfold blen; lia).
  parse p_us_app by (apply forallb_Forall_lt; assumption).
  destruct maxd as [|m0 maxd']; [reflexivity|]. cbn [N.eqb Pos.eqb].
  assert (Hml : length (m0 :: maxd') = length dims).
  { apply orb_true_iff in H2 as [E|E]; [discriminate | now apply Nat.eqb_eq]. }
  rewrite <- Hml, <- (app_nil_r (concat _)).
  parse p_us_app by (apply forallb_Forall_lt; assumption). now rewrite M.
Qed.

(* the encoder does not check the maximum against the current size: a dataspace the specification decoder rejects *)
Definition dataspace_maxdims_witness : dataspace := {| ds_dims := [2]; ds_maxdims := [1] |}.
Lemma dataspace_maxdims_unchecked :
  wf_dataspace dataspace_maxdims_witness = true /\
  spec_dec_dataspace 8 false (enc_dataspace dataspace_maxdims_witness) = Err.
Proof. split; vm_compute; reflexivity. Qed.

(* the superblock parameters the writer uses: 8-byte offsets and lengths, little-endian *)
Definition sb8 (v : N) : sbparams := {| sb_version := v; sb_offsize := 8; sb_lensize := 8; sb_bigendian := false |}.

Definition logical_layout (x : layout) : layout_spec :=
  match x with
  | LContig size addr => LyContiguous addr size
  | LChunked cd addr => LyChunked addr cd
  end.

Definition chunkdims_positive (x : layout) : bool :=
  match x with LContig _ _ => true | LChunked cd _ => forallb (fun d => 0 <? d) cd end.

Lemma map_le4_wrap32 cd : u32_ok cd = true ->
  concat (map (fun d => le 4 (wrap32 d)) cd) = concat (map (le 4) cd).
Proof.
  intros H. f_equal. apply map_ext_in. intros d Hd. unfold u32_ok in H. rewrite forallb_forall in H.
  specialize (H d Hd). apply N.ltb_lt in H. now rewrite wrap32_small.
Qed.

(* As a message the layout is specification-conformant (the listed deviation chunk-dims-no-elem-dim is about WHICH numbers the
   writer passes: the dataset's rank instead of rank+1 dimensions; see the object-level check of the tie). *)
Lemma spec_layout v x : wf_layout (sb8 v) x = true -> chunkdims_positive x = true ->
  spec_dec_layout 8 8 false (enc_layout (sb8 v) x) = Ok (logical_layout x).
Proof.
  unfold wf_layout. intros [[_ E]%andb_true_iff B]%andb_true_iff P.
  destruct x as [size addr | cd addr]; cbn [sb8 sb_offsize sb_lensize sb_bigendian enc_layout logical_layout] in *;
    unfold write_uint, spec_dec_layout; cbn [N.eqb Pos.eqb orb app]; change (N.to_nat 8) with 8%nat.
  - apply andb_true_iff in B as [Ba%N.ltb_lt Bs%N.ltb_lt]. bnorm.
    parse p_byte_cons. parse guard_Ok. parse p_byte_cons. cbn [N.eqb Pos.eqb]. parse p_u_le. now rewrite p_u_le_end.
  - apply N.ltb_lt in B. unfold encok_layout in E. apply andb_true_iff in E as [[E1 E2%Nat.leb_le]%andb_true_iff U].
    assert (Hn : (length cd <> 0)%nat) by (destruct cd; [discriminate | cbn [length]; lia]).
    rewrite wrap8_small, map_le4_wrap32 by (assumption || (unfold blen; lia)). bnorm.
    parse p_byte_cons. parse guard_Ok. do 2 parse p_byte_cons. cbn [N.eqb Pos.eqb].
    parse guard_Ok by (apply N.ltb_lt; unfold blen; lia). parse p_u_le.
    replace (N.to_nat (blen cd)) with (length cd) by (unfold blen; lia).
    rewrite <- (app_nil_r (concat _)). parse p_us_app by apply forallb_Forall_lt, U.
    cbn [chunkdims_positive] in P. now rewrite P.
Qed.

Lemma spec_symtab x : wf_symtab x = true ->
  spec_dec_symtab 8 false (enc_symtab 8 x) = Ok (st_btree x, st_heap x).
Proof.
  unfold wf_symtab. intros [A%N.ltb_lt B%N.ltb_lt]%andb_true_iff.
  unfold enc_symtab, write_uint, spec_dec_symtab. cbn [N.eqb Pos.eqb orb]. change (N.to_nat 8) with 8%nat.
  parse p_u_le. now rewrite p_u_le_end.
Qed.

Definition logical_attrinfo (x : attrinfo) : attrinfo_spec :=
  {| ais_flags := ai_flags x; ais_maxcidx := if N.testbit (ai_flags x) 0 then Some (ai_maxcidx x) else None;
     ais_heap := ai_heap x; ais_btname := ai_btname x;
     ais_btorder := if N.testbit (ai_flags x) 1 then Some (ai_btorder x) else None |}.

(* the writer's message also carries 2 zero bytes after the maximum creation index when flag bit 0 is set (wr16 0), which the
   specification does not have: conformant exactly when creation order is not tracked (the writer always passes flags 0) *)
Lemma spec_attrinfo v x : wf_attrinfo (sb8 v) x = true -> ai_version x = 0 -> ai_flags x < 4 -> N.testbit (ai_flags x) 0 = false ->
  spec_dec_attrinfo 8 false (enc_attrinfo (sb8 v) x) = Ok (logical_attrinfo x).
Proof.
  unfold wf_attrinfo. intros W V F T0. repeat (apply andb_true_iff in W as [W ?]).
  cbn [sb8 sb_offsize sb_bigendian] in *.
  repeat match goal with H : (_ <? 256 ^ 8) = true |- _ => apply N.ltb_lt in H end.
  unfold enc_attrinfo, logical_attrinfo, write_addr, spec_dec_attrinfo.
  cbn [sb8 sb_offsize sb_bigendian N.eqb Pos.eqb orb]. rewrite V, T0. change (N.to_nat 8) with 8%nat. cbn [app]. bnorm.
  parse p_byte_cons. parse guard_Ok. parse p_byte_cons. rewrite T0. parse guard_Ok by now apply N.ltb_lt.
  parse p_u_le.
  destruct (N.testbit (ai_flags x) 1).
  - parse p_u_le. now rewrite p_u_le_end.
  - rewrite app_nil_r. now rewrite p_u_le_end.
Qed.

(* with creation-order tracking the encoder inserts two bytes the specification does not have *)
Definition attrinfo_corder_witness : attrinfo :=
  {| ai_version := 0; ai_flags := 1; ai_heap := 0; ai_btname := 0; ai_maxcidx := 0; ai_btorder := 0 |}.
Lemma attrinfo_corder_refuted :
  wf_attrinfo (sb8 2) attrinfo_corder_witness = true /\
  spec_dec_attrinfo 8 false (enc_attrinfo (sb8 2) attrinfo_corder_witness) = Err.
Proof. split; vm_compute; reflexivity. Qed.

Definition logical_linkinfo (x : linkinfo) : linkinfo_spec :=
  {| lis_flags := li_flags x; lis_maxcidx := if N.testbit (li_flags x) 0 then Some (li_maxcorder x) else None;
     lis_heap := li_heap x; lis_btname := li_btname x;
     lis_btorder := if N.testbit (li_flags x) 1 then Some (li_btorder x) else None |}.

Lemma spec_linkinfo v x : wf_linkinfo (sb8 v) x = true ->
  spec_dec_linkinfo 8 false (enc_linkinfo (sb8 v) x) = Ok (logical_linkinfo x).
Proof.
  unfold wf_linkinfo, encok_linkinfo. intros W. repeat (apply andb_true_iff in W as [W ?]).
  cbn [sb8 sb_offsize sb_bigendian] in *.
  repeat match goal with H : (_ <? _) = true |- _ => apply N.ltb_lt in H end.
  assert (V : li_version x = 0) by now apply N.eqb_eq.
  assert (M8 : li_maxcorder x < 256 ^ N.of_nat 8) by (eapply N.lt_trans; [eassumption | reflexivity]).
  unfold enc_linkinfo, logical_linkinfo, write_uint, spec_dec_linkinfo.
  cbn [sb8 sb_offsize sb_bigendian N.eqb Pos.eqb orb]. rewrite V. change (N.to_nat 8) with 8%nat. cbn [app]. bnorm.
  parse p_byte_cons. parse guard_Ok. parse p_byte_cons. parse guard_Ok by now apply N.ltb_lt.
  destruct (N.testbit (li_flags x) 0); cbn [app]; [parse p_u_le | rewrite obind_Ok]; parse p_u_le;
    (destruct (N.testbit (li_flags x) 1); [parse p_u_le | rewrite app_nil_r]); now rewrite p_u_le_end.
Qed.
