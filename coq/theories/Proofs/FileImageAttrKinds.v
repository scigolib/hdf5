(* C02 at byte level: every value kind of WriteAttribute modelled by Model/FileImageAttr.v attr_of_kind gives a well-formed
   attribute message (the hypothesis wf_attribute of the roundtrip theorem). *)
From HV Require Import Base.Prelude Base.Outcome Base.Bytes.
From HV Require Import Model.CodecMsg Model.CodecType Model.CodecAttr Model.FileImage Model.FileImageAttr.
From HV Require Import Proofs.FileImage Proofs.FileImageOhdr Proofs.FileImageData.

Lemma wf_datatype_encok x : wf_datatype x = true -> encok_datatype x = true.
Proof. unfold wf_datatype. intros H. do 6 (apply andb_true_iff in H as [H _]). exact H. Qed.
Lemma wf_dataspace_encok x : wf_dataspace x = true -> encok_dataspace x = true.
Proof. unfold wf_dataspace. intros H. do 3 (apply andb_true_iff in H as [H _]). exact H. Qed.

Lemma attr_name_ne aname : attr_name_ok aname = true -> negb (length aname =? 0)%nat = true.
Proof. unfold attr_name_ok. intros H. now apply andb_true_iff in H as [H _]. Qed.

Lemma wf_attr_gen aname adt adims adata :
  attr_name_ok aname = true -> blen aname < 65535 -> wf_datatype adt = true -> size_datatype adt < 65536 ->
  wf_dataspace {| ds_dims := adims; ds_maxdims := [] |} = true -> blen adata <= MaxAttributeSize ->
  wf_attribute (attr_msg aname adt adims adata) = true.
Proof.
  intros Hn Hl Hdt Hsz Hds Hd.
  unfold wf_attribute, encok_attribute, attr_msg. cbn [at_name at_dt at_ds at_data].
  rewrite (attr_name_ne _ Hn), (wf_datatype_encok _ Hdt), (wf_dataspace_encok _ Hds), Hdt, Hds.
  replace (blen aname <? 65535) with true by (symmetry; apply N.ltb_lt; blia).
  replace (blen aname <=? 65534) with true by (symmetry; apply N.leb_le; blia).
  replace (size_datatype adt <? 65536) with true by (symmetry; apply N.ltb_lt; blia).
  replace (blen adata <=? MaxAttributeSize) with true by (symmetry; apply N.leb_le; blia).
  reflexivity.
Qed.

Lemma size_basic c s b : basic_dtype c s b = true -> size_datatype (dtype_msg c s b) < 65536.
Proof. intros H. destruct (dtype_cases c s b H) as [(-> & _)|(-> & _)]; reflexivity. Qed.

Lemma wf_attr_basic aname c s b adims adata :
  attr_name_ok aname = true -> blen aname < 65535 -> basic_dtype c s b = true ->
  wf_dataspace {| ds_dims := adims; ds_maxdims := [] |} = true -> blen adata <= MaxAttributeSize ->
  wf_attribute (attr_msg aname (dtype_msg c s b) adims adata) = true.
Proof. intros Hn Hl Hb Hds Hd. apply wf_attr_gen; auto. - now apply wf_dt. - now apply size_basic. Qed.

Lemma wf_string_dt n : 0 < n -> n < 4294967296 -> wf_datatype (string_dt n) = true.
Proof.
  intros H0 H1. unfold wf_datatype, encok_datatype, string_dt. cbn [dt_size dt_class dt_cbf dt_props dt_version].
  replace (n =? 0) with false by (symmetry; apply N.eqb_neq; blia).
  replace (n <? 4294967296) with true by (symmetry; apply N.ltb_lt; blia).
  reflexivity.
Qed.

Lemma dims1_wf d : d < 18446744073709551616 -> wf_dataspace {| ds_dims := [d]; ds_maxdims := [] |} = true.
Proof.
  intros H. unfold wf_dataspace, encok_dataspace, u64_ok. cbn [ds_dims ds_maxdims length forallb Nat.eqb Nat.leb negb andb orb].
  replace (d <? 18446744073709551616) with true by (symmetry; apply N.ltb_lt; exact H). reflexivity.
Qed.

Lemma dtype_of_code_basic k : forall c s b, dtype_of_code k = (c, s, b) -> basic_dtype c s b = true.
Proof.
  destruct k as [|p]; [intros c s b E; injection E as <- <- <-; reflexivity|].
  do 4 (destruct p as [p|p|]; try (intros c s b E; injection E as <- <- <-; reflexivity)).
Qed.

Lemma attr_kinds_wf : forall aname k raw,
  attr_name_ok aname = true -> blen aname < 65535 -> attr_kind_raw_ok k raw = true -> blen raw < MaxAttributeSize ->
  let '(adt, adims, adata) := attr_of_kind k raw in wf_attribute (attr_msg aname adt adims adata) = true.
Proof.
  intros aname k raw Hn Hl Hk Hr. unfold MaxAttributeSize in Hr.
  unfold attr_of_kind, attr_kind_raw_ok in *. apply andb_true_iff in Hk as [_ Hk].
  destruct (k <? 10).
  - destruct (dtype_of_code k) as [[c s] b] eqn:E. pose proof (dtype_of_code_basic k c s b E) as Hb.
    apply wf_attr_basic; [exact Hn | exact Hl | exact Hb | apply dims1_wf; blia | unfold MaxAttributeSize; blia].
  - destruct (k <? 14).
    + destruct (dtype_of_code (slice_elem_code k)) as [[c s] b] eqn:E.
      pose proof (dtype_of_code_basic _ c s b E) as Hb. pose proof (size_pos c s b Hb) as [Hs _].
      apply wf_attr_basic; [exact Hn | exact Hl | exact Hb | | unfold MaxAttributeSize; blia].
      apply dims1_wf. apply N.div_lt_upper_bound; [blia | nia].
    + apply wf_attr_gen; [exact Hn | exact Hl | | | | ].
      * apply wf_string_dt; blia.
      * reflexivity.
      * apply dims1_wf; blia.
      * rewrite blen_app. change (blen [0]) with 1. unfold MaxAttributeSize. blia.
Qed.
