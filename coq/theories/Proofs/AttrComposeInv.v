(* C02 composition, part 3: the link between the abstract index and the abstract heap that the simulation needs
   (every record's id addresses a stored object WITH its length; no two records share an offset) and its
   preservation by the four dense updates of Model/Attr.v.  Statements about the abstract model only; no
   hypothesis on the name hash (the simulation holds with or without hash collisions). *)
From HV Require Import Base.Prelude Model.Attr Model.AttrCompose Proofs.AttrBase Proofs.AttrDense Proofs.AttrComposeHeap.

Definition rec_live (hp : heap) (rc : N * hid) : Prop := exists a, id_live hp (snd rc) a.

Definition DInv (ix : idx) (hp : heap) : Prop := Forall (rec_live hp) ix /\ NoDup (offs ix).

Definition keys_below (hp : heap) : Prop := forall k, In k (map fst (hobjs hp)) -> k < hfree hp.

Lemma DInv_empty : DInv [] heap_empty.
Proof. split; constructor. Qed.

Lemma rec_live_key hp rc : rec_live hp rc -> In (fst (snd rc)) (map fst (hobjs hp)).
Proof. intros [a (G & _)]. unfold heap_get in G. eapply assoc_get_in_keys. exact G. Qed.

Lemma offs_keys hp ix k : Forall (rec_live hp) ix -> In k (offs ix) -> In k (map fst (hobjs hp)).
Proof.
  intros F HI. unfold offs in HI. apply in_map_iff in HI. destruct HI as [rc [E HI]]. subst k.
  rewrite Forall_forall in F. apply rec_live_key. apply F. exact HI.
Qed.

Lemma live_grow hp a rc : rec_live hp rc ->
  rec_live (mkHeap (hobjs hp ++ [(hfree hp, a)]) (hfree hp + msg_size a)) rc.
Proof.
  intros [x (G & S & L)]. exists x. repeat split; try assumption.
  unfold heap_get in *. cbn [hobjs]. apply assoc_get_app_some. exact G.
Qed.

Lemma live_new hp a h : keys_below hp -> hfree hp < 65536 ->
  rec_live (mkHeap (hobjs hp ++ [(hfree hp, a)]) (hfree hp + msg_size a)) (h, (hfree hp, msg_size a)).
Proof.
  intros K Hf. exists a. unfold id_live, heap_get. cbn [snd fst hobjs]. repeat split; [|assumption].
  apply assoc_get_app_fresh. intro HI. apply K in HI. lia.
Qed.

Lemma dinv_add ix1 ix2 hp a h : DInv (ix1 ++ ix2) hp -> keys_below hp -> hfree hp < 65536 ->
  DInv (ix1 ++ (h, (hfree hp, msg_size a)) :: ix2) (mkHeap (hobjs hp ++ [(hfree hp, a)]) (hfree hp + msg_size a)).
Proof.
  intros [F ND] K Hf. split.
  - apply Forall_app in F. destruct F as [F1 F2]. apply Forall_app. split; [|constructor; [apply live_new; assumption|]].
    + eapply Forall_impl; [|exact F1]. intros rc. apply live_grow.
    + eapply Forall_impl; [|exact F2]. intros rc. apply live_grow.
  - apply NoDup_offs_insert; [exact ND|]. cbn [fst]. intro HI. apply (offs_keys hp _ _ F), K in HI. lia.
Qed.

Lemma dinv_insert P ix hp a h ix' : DInv ix hp -> keys_below hp -> hfree hp < 65536 ->
  idx_insert P (h, (hfree hp, msg_size a)) ix = Some ix' ->
  DInv ix' (mkHeap (hobjs hp ++ [(hfree hp, a)]) (hfree hp + msg_size a)).
Proof.
  intros D K Hf Hi. unfold idx_insert in Hi. cbn [fst] in Hi.
  destruct (idx_search h ix); [discriminate|]. destruct (_ <=? _); [discriminate|]. inversion Hi; subst ix'. clear Hi.
  destruct (idx_insert_sorted_split (h, (hfree hp, msg_size a)) ix) as (ix1 & ix2 & E1 & E2). rewrite E2. subst ix.
  apply dinv_add; assumption.
Qed.

Lemma dinv_overwrite ix hp id old a hp' : DInv ix hp -> id_live hp id old -> msg_size a = snd id ->
  heap_overwrite hp id a = Some hp' -> DInv ix hp'.
Proof.
  intros [F ND] (G & S & L) Hs Ho. split; [|exact ND].
  unfold heap_overwrite in Ho. destruct (assoc_set (fst id) a (hobjs hp)) as [l|] eqn:E; [|discriminate].
  inversion Ho; subst hp'. destruct (assoc_set_spec _ _ _ _ _ E) as [_ Hg].
  eapply Forall_impl; [|exact F]. intros rc [x (G' & S' & L')].
  unfold heap_get in *. cbn [hobjs]. destruct (N.eqb_spec (fst (snd rc)) (fst id)) as [Eq|NE].
  - exists a. unfold id_live, heap_get. cbn [hobjs]. rewrite Hg, Eq, N.eqb_refl. repeat split; [|assumption].
    rewrite Eq in G'. rewrite G in G'. inversion G'; subst x. congruence.
  - exists x. unfold id_live, heap_get. cbn [hobjs]. rewrite Hg. apply N.eqb_neq in NE. rewrite NE. auto.
Qed.

Lemma live_del hp hp' id rc : heap_delete hp id = Some hp' -> fst (snd rc) <> fst id -> rec_live hp rc -> rec_live hp' rc.
Proof.
  intros Hd NE [x (G & S & L)]. unfold heap_delete in Hd.
  destruct (assoc_del (fst id) (hobjs hp)) as [l|] eqn:E; [|discriminate]. inversion Hd; subst hp'.
  destruct (assoc_del_spec _ _ _ _ E) as [Hg _]. exists x. unfold id_live, heap_get in *. cbn [hobjs].
  rewrite Hg by assumption. auto.
Qed.

Lemma dinv_delete_middle ix1 ix2 h id hp hp' : DInv (ix1 ++ (h, id) :: ix2) hp -> heap_delete hp id = Some hp' ->
  DInv (ix1 ++ ix2) hp'.
Proof.
  intros [F ND] Hh. destruct (middle_facts _ _ _ _ ND) as [Hne ND']. split; [|exact ND'].
  apply Forall_app in F. destruct F as [F1 F2]. inversion F2 as [|? ? _ F2']; subst.
  rewrite Forall_forall in *. intros rc HI. apply in_app_or in HI.
  eapply live_del; [exact Hh | apply Hne; exact HI | destruct HI; auto].
Qed.

Lemma dinv_delete ix hp h id ix' hp' : DInv ix hp -> idx_search h ix = Some id ->
  idx_delete h ix = Some ix' -> heap_delete hp id = Some hp' -> DInv ix' hp'.
Proof.
  intros D Hs Hd Hh. pose proof (idx_search_spec h ix) as S. rewrite Hs in S. destruct S as (ix1 & ix2 & -> & Hn).
  rewrite (idx_delete_split h id ix1 ix2 Hn) in Hd. inversion Hd; subst ix'.
  eapply dinv_delete_middle; eassumption.
Qed.

Lemma dinv_update ix hp h id hp1 a ix' : DInv ix hp -> idx_search h ix = Some id ->
  heap_delete hp id = Some hp1 -> keys_below hp1 -> hfree hp1 < 65536 ->
  idx_update h (hfree hp1, msg_size a) ix = Some ix' ->
  DInv ix' (mkHeap (hobjs hp1 ++ [(hfree hp1, a)]) (hfree hp1 + msg_size a)).
Proof.
  intros D Hs Hh K Hf Hu. pose proof (idx_search_spec h ix) as S. rewrite Hs in S. destruct S as (ix1 & ix2 & -> & Hn).
  rewrite (idx_update_split h id (hfree hp1, msg_size a) ix1 ix2 Hn) in Hu. inversion Hu; subst ix'.
  apply dinv_add; [eapply dinv_delete_middle; eassumption | assumption | assumption].
Qed.

Lemma dinv_found ix hp h id : DInv ix hp -> idx_search h ix = Some id -> exists a, id_live hp id a.
Proof.
  intros [F _] Hs. pose proof (idx_search_spec h ix) as S. rewrite Hs in S. destruct S as (ix1 & ix2 & -> & _).
  apply Forall_app in F. destruct F as [_ F]. inversion F; subst. assumption.
Qed.

(* what the reader lists: the objects the records address, in index order *)
Lemma dinv_read : forall ix hp, Forall (rec_live hp) ix ->
  exists l, read_dense hp ix = Some l /\ Forall2 (fun rc a => id_live hp (snd rc) a) ix l.
Proof.
  induction ix as [|[h id] ix IH]; intros hp F.
  - exists []. split; [reflexivity | constructor].
  - inversion F as [|? ? [a L] F']; subst. destruct (IH hp F') as (l & R & F2). exists (a :: l).
    cbn [read_dense]. destruct L as (G & S & Lt). cbn [snd] in *. rewrite G, R. split; [reflexivity|].
    constructor; [repeat split; assumption | exact F2].
Qed.
