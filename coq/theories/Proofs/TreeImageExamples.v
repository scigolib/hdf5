(* C03 end to end, evaluated instances (vm_compute): the hypotheses of the stage theorems are satisfiable, the byte-level step
   model specialises to the C01 image, and on a nested history with refused calls and hard links hdf5.Open's loader program run
   on the model's image returns the tree that was built. *)
From HV Require Import Base.Prelude Base.Outcome Base.Bytes Model.IOProg Model.IOProgReader Model.IOProgOpen.
From HV Require Import Model.CodecType Model.GroupWire Model.FileImage Model.TreeImage.
From HV Require Import Proofs.GroupWireSnod Proofs.FileImage Proofs.TreeImageLink.

Local Open Scope N_scope.

(* "/d", uint8, [3], 1 2 3 : the one-dataset history gives exactly the image of Props/C01File.v *)
Lemma one_dataset_is_image_v2 :
  tree_oks [TDataset [47; 100] 4 [3] [1; 2; 3]] = [true] /\
  tree_image [TDataset [47; 100] 4 [3] [1; 2; 3]] = image_v2 [100] DT_FIXED 1 0 [3] [1; 2; 3].
Proof. unfold tree_oks, tree_image. set (r := tree_run _). vm_compute. split; reflexivity. Qed.

(* CreateGroup /g; CreateDataset /g/d; the same again (refused: duplicate); CreateHardLink /x -> /g/d; CreateGroup /g/h;
   CreateHardLink /g/h/y -> /x; CreateGroup /q/r (refused: no parent); CreateHardLink /z -> /nothing (refused: no target) *)
Definition ex_hist : list top :=
  [TGroup [47; 103]; TDataset [47; 103; 47; 100] 4 [3] [1; 2; 3]; TDataset [47; 103; 47; 100] 4 [3] [1; 2; 3];
   THardLink [47; 120] [47; 103; 47; 100]; TGroup [47; 103; 47; 104]; THardLink [47; 103; 47; 104; 47; 121] [47; 120];
   TGroup [47; 113; 47; 114]; THardLink [47; 122] [47; 110]].

Lemma tree_example :
  forallb op_args_ok ex_hist = true /\
  tree_oks ex_hist = [true; true; false; true; true; true; false; false] /\
  blen (tree_image ex_hist) = 7224 /\
  run0 (tree_image ex_hist) (p_open true (blen (tree_image ex_hist)) 12 8) =
    Ok (Grp [47] 2168 [Grp [103] 4315 [Dset [100] 4580; Grp [104] 6962 [Dset [121] 4580]]; Dset [120] 4580]).
Proof.
  (* the run is named so that it is evaluated once, not once for each of the four places that need it *)
  unfold tree_oks, tree_image. set (r := tree_run ex_hist). vm_compute. repeat split; reflexivity.
Qed.

(* the root group of a fresh file is a group_file: the hypotheses of link_both_commutes are satisfiable, and on it the model's
   linkToParent is the composed rewrite *)
Lemma link_example :
  init_file = group_file (firstn 48 init_file) [] (skipn 1624 init_file) (zeros 256) (new_snode 32) /\
  snode_ok (new_snode 32) = true /\
  prepare_link t_init [] [100] 2195 = Ok (48, 336) /\
  link_to_parent t_init [] [100] 2195 = link_both init_file 48 336 [100] 2195.
Proof. vm_compute. repeat split; reflexivity. Qed.
