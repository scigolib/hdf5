(* C13, object-header level: Resize rewrites the stored object header in place (Model/Resize.v).
   The invariant [stored]: the file holds at [addr] a version 2 object header as the library's writer produces it,
   with arbitrary messages [before] (none of type dataspace) and [after] the dataspace message of extents [dims]
   and maxima [maxd]; [pre] / [suf] are the bytes of the file in front of / behind the header.  [room]: the file goes
   on behind the header or the last message has two bytes of data (the reader fetches 6 bytes per message header);
   the header may be the very end of the file, as it is for a dataset created last in a session. *)
From HV Require Import Base.Prelude Base.Outcome Base.Bytes Model.CodecMsg Model.CodecOhdr Model.Resize.
From HV Require Import Proofs.CodecMsg Proofs.CodecOhdr Proofs.ResizeBase.

Record stored (file : bytes) (addr flags : N) (before after : list hmsg) (dims maxd : list N)
              (pre suf : bytes) : Prop := {
  sd_file : file = pre ++ enc_ohdr_v2 (hdr_of flags before dims maxd after) ++ suf;
  sd_addr : addr = blen pre;
  sd_wf : wf_ohdr_v2 (hdr_of flags before dims maxd after) = true;
  sd_ds : wf_dataspace {| ds_dims := dims; ds_maxdims := maxd |} = true;
  sd_nods : no_ds before = true;
  sd_suf : room (before ++ ds_msg dims maxd :: after) suf = true;
  sd_small : blen pre + size_ohdr_v2 (hdr_of flags before dims maxd after) + 8 < 9223372036854775808 }.

Lemma chunk_same flags before dims new maxd after : length new = length dims ->
  chunk_size_v2 (oh_msgs (hdr_of flags before new maxd after))
  = chunk_size_v2 (oh_msgs (hdr_of flags before dims maxd after)).
Proof.
  intros HL. unfold hdr_of. cbn [oh_msgs]. rewrite !chunk_size_v2_app, !chunk_size_v2_cons.
  unfold ds_msg. cbn [hm_data]. rewrite (blen_ds_same dims new maxd HL). reflexivity.
Qed.

Lemma wf_msg_ds dims maxd : wf_msg_v2 (ds_msg dims maxd) = true.
Proof.
  unfold wf_msg_v2, ds_msg. cbn [hm_type hm_data]. rewrite bytes_ok_enc_dataspace, dataspace_blen.
  unfold size_dataspace. change (MSG_DATASPACE <? 256) with true. change (MSG_DATASPACE =? MSG_CONT) with false.
  cbn [negb andb]. rewrite andb_true_r. apply N.leb_le. blia.
Qed.

Lemma wf_hdr_same flags before dims new maxd after : length new = length dims ->
  wf_ohdr_v2 (hdr_of flags before dims maxd after) = true ->
  wf_ohdr_v2 (hdr_of flags before new maxd after) = true.
Proof.
  intros HL H. pose proof (chunk_same flags before dims new maxd after HL) as CS.
  apply wf_ohdr_v2_inv in H as (Hv & Hf & Hm & Hc & Hms).
  unfold wf_ohdr_v2, encok_ohdr_v2. rewrite CS.
  unfold hdr_of in *. cbn [oh_version oh_flags oh_msgs] in *.
  rewrite forallb_app in *. cbn [forallb] in *.
  apply andb_true_iff in Hms as [M1 M2]. apply andb_true_iff in M2 as [_ M3].
  rewrite M1, M3, wf_msg_ds, Hm.
  replace (flags <? 256) with true by lia.
  match goal with |- context [?c <=? 255] => replace (c <=? 255) with true by lia end.
  reflexivity.
Qed.

Lemma room_same before : forall m m' after suf, blen (hm_data m') = blen (hm_data m) ->
  room (before ++ m' :: after) suf = room (before ++ m :: after) suf.
Proof.
  induction before as [|b r IH]; intros m m' after suf Hl.
  - cbn [app room]. destruct after; [rewrite Hl; reflexivity | reflexivity].
  - assert (E : forall l, l <> [] -> room (b :: l) suf = room l suf) by (intros [|x l] H; [congruence|reflexivity]).
    cbn [app]. rewrite !E by (intro H; apply app_eq_nil in H; destruct H; discriminate). apply IH; exact Hl.
Qed.

Lemma size_same flags before dims new maxd after : length new = length dims ->
  size_ohdr_v2 (hdr_of flags before new maxd after) = size_ohdr_v2 (hdr_of flags before dims maxd after).
Proof. intros HL. unfold size_ohdr_v2. rewrite (chunk_same flags before dims new maxd after HL). reflexivity. Qed.

Lemma stored_same file addr flags before after dims maxd pre suf new :
  stored file addr flags before after dims maxd pre suf ->
  length new = length dims -> u64_ok new = true ->
  stored (pre ++ enc_ohdr_v2 (hdr_of flags before new maxd after) ++ suf) addr flags before after new maxd pre suf.
Proof.
  intros [Hfile Haddr Hwf Hds Hno Hsuf Hsmall] HL Hu. constructor; auto.
  - eapply wf_hdr_same; eauto.
  - eapply wf_dataspace_same; eauto.
  - rewrite <- Hsuf. apply room_same. unfold ds_msg. cbn [hm_data]. apply blen_ds_same. exact HL.
  - rewrite (size_same flags before dims new maxd after HL). exact Hsmall.
Qed.

Lemma stored_dec be file addr flags before after dims maxd pre suf :
  stored file addr flags before after dims maxd pre suf ->
  dec_ohdr be file addr = Ok (proj_ohdr_v2 be (hdr_of flags before dims maxd after) addr).
Proof.
  intros [Hfile Haddr Hwf Hds Hno Hsuf Hsmall]. subst file addr. apply ohdr_v2_roundtrip_room; auto.
  unfold hdr_of. cbn [oh_msgs]. intro H. apply app_eq_nil in H. destruct H; discriminate.
Qed.

Lemma stored_shape_of be file addr flags before after dims maxd pre suf :
  stored file addr flags before after dims maxd pre suf -> maxd <> [] ->
  stored_shape be file addr = Ok (dims, Some maxd).
Proof.
  intros S Hne. unfold stored_shape. rewrite (stored_dec be _ _ _ _ _ _ _ _ _ S). cbn [obind].
  destruct S as [Hfile Haddr Hwf Hds Hno Hsuf Hsmall].
  unfold proj_ohdr_v2, hdr_of. cbn [ohp_msgs oh_msgs].
  rewrite (first_dataspace_at before (ds_msg dims maxd) after) by (auto; reflexivity).
  cbn [obind]. unfold ds_msg. cbn [hm_data]. rewrite (dataspace_roundtrip _ Hds). cbn [obind].
  unfold proj_dataspace. cbn [dsp_dims dsp_maxdims ds_dims ds_maxdims]. destruct maxd; [congruence|reflexivity].
Qed.

Definition resized_handle (h : rhandle) (new : list N) (c : option ohdr') : rhandle :=
  {| rh_chunked := rh_chunked h; rh_dims := new; rh_maxdims := rh_maxdims h; rh_chunkdims := rh_chunkdims h;
     rh_esize := rh_esize h; rh_datasize := wrap64 (total_elements new * rh_esize h);
     rh_numchunks := num_chunks new (rh_chunkdims h); rh_cache := c |}.

Lemma blen_eq_length (a b : list N) : blen a = blen b -> length a = length b.
Proof. unfold blen. intros H. apply Nat2N.inj. exact H. Qed.

Lemma resize_accepted be h file addr flags before after dims maxd pre suf new :
  stored file addr flags before after dims maxd pre suf ->
  handle_ok h = true -> length (rh_dims h) = length dims -> rh_maxdims h = maxd ->
  u64_ok new = true -> resize_ok dims maxd new = true ->
  exists c, resize be h file addr new =
    (resized_handle h new c, pre ++ enc_ohdr_v2 (hdr_of flags before new maxd after) ++ suf, ROk).
Proof.
  intros S Hh Hld Hmx Hu Hok.
  pose proof (stored_dec be _ _ _ _ _ _ _ _ _ S) as RT.
  destruct S as [Hfile Haddr Hwf Hds Hno Hsuf Hsmall].
  apply handle_ok_inv in Hh as (Hc & Hnz & Hlm & Hlc & Hcz).
  apply resize_ok_inv in Hok as (Hln & Hpos & Hwm).
  pose proof (wf_dataspace_same dims new maxd Hln Hu Hds) as Hds'.
  pose proof (wf_hdr_same flags before dims new maxd after Hln Hwf) as Hwf'.
  unfold resize. rewrite Hc. cbn [negb].
  replace (length (rh_maxdims h) =? 0)%nat with false by lia.
  replace (length new =? length (rh_dims h))%nat with true by lia.
  cbn [negb].
  rewrite check_max_spec by lia. rewrite Hmx, Hwm.
  rewrite new_coordinator_spec.
  replace (length new =? length (rh_chunkdims h))%nat with true by lia.
  replace (length new =? 0)%nat with false by lia.
  rewrite Hpos, Hcz. cbn [negb andb].
  (* 3: the header as it is on disk *)
  rewrite RT.
  set (oh := proj_ohdr_v2 be (hdr_of flags before dims maxd after) addr).
  assert (Hms : ohp_msgs oh = msgs_at_v2 (before ++ ds_msg dims maxd :: after) (addr + 7)) by reflexivity.
  assert (Hver : ohp_version oh = 2) by reflexivity.
  assert (Hfl : ohp_flags oh = flags) by reflexivity.
  (* 4: the dataspace message is found *)
  rewrite Hms.
  rewrite (find_dataspace_at before (ds_msg dims maxd) after (addr + 7) 0 _ Hno eq_refl (dataspace_roundtrip _ Hds)).
  (* 6: it encodes *)
  assert (He : encok_dataspace {| ds_dims := new; ds_maxdims := maxd |} = true
               /\ (length new <=? 255)%nat = true).
  { unfold wf_dataspace in Hds'. cbn [ds_dims] in Hds'.
    apply andb_true_iff in Hds' as [H _]. apply andb_true_iff in H as [H _].
    apply andb_true_iff in H as [H1 H2]. auto. }
  destruct He as [He1 He2]. rewrite He1, He2. cbn [negb].
  cbn [Nat.add].
  rewrite (set_data_at before (ds_msg dims maxd) after (addr + 7)
             (enc_dataspace {| ds_dims := new; ds_maxdims := maxd |}))
    by (unfold ds_msg; cbn [hm_data]; apply blen_ds_same; exact Hln).
  unfold write_ohdr. cbn [ohp_version ohp_flags ohp_refcount ohp_msgs]. rewrite Hver, Hfl.
  change (2 =? 2) with true. cbn [negb].
  rewrite to_hmsg_msgs_at.
  change ({| hm_type := hm_type (ds_msg dims maxd);
             hm_data := enc_dataspace {| ds_dims := new; ds_maxdims := maxd |} |}) with (ds_msg new maxd).
  assert (Hek : forall rc, encok_ohdr_v2 {| oh_version := 2; oh_flags := flags; oh_refcount := rc;
                                            oh_msgs := before ++ ds_msg new maxd :: after |} = true).
  { intros rc. apply wf_ohdr_v2_inv in Hwf' as (_ & _ & _ & Hcs & _).
    unfold encok_ohdr_v2. cbn [oh_msgs hdr_of] in *. apply N.leb_le. exact Hcs. }
  rewrite Hek. cbn [negb].
  assert (Henc : forall rc, enc_ohdr_v2 {| oh_version := 2; oh_flags := flags; oh_refcount := rc;
                                           oh_msgs := before ++ ds_msg new maxd :: after |}
                            = enc_ohdr_v2 (hdr_of flags before new maxd after)) by reflexivity.
  rewrite Henc.
  rewrite Hfile, Haddr.
  rewrite write_at_mid
    by (apply blen_eq_length; rewrite !ohdr_v2_blen; apply size_same; exact Hln).
  eexists. unfold resized_handle. rewrite Hc, Hmx. reflexivity.
Qed.

Definition same_shape (a b : rhandle) : Prop :=
  rh_chunked a = rh_chunked b /\ rh_dims a = rh_dims b /\ rh_maxdims a = rh_maxdims b /\
  rh_chunkdims a = rh_chunkdims b /\ rh_esize a = rh_esize b /\ rh_datasize a = rh_datasize b /\
  rh_numchunks a = rh_numchunks b.

Lemma same_shape_refl h : same_shape h h.
Proof. unfold same_shape. tauto. Qed.
Lemma same_shape_cache h c : same_shape (set_cache h c) h.
Proof. unfold same_shape, set_cache. cbn. tauto. Qed.

(* what any call returns, whatever the handle and the file are: refused with nothing written and only the cached
   header replaced, or accepted with a request within the declared maximum *)
Definition resize_outcome (h : rhandle) (file : bytes) (new : list N) (x : rhandle * bytes * rres) : Prop :=
  let '(h', file', r) := x in
  (r <> ROk /\ file' = file /\ same_shape h' h) \/
  (r = ROk /\ resize_ok (rh_dims h) (rh_maxdims h) new = true /\ rh_dims h' = new /\ rh_maxdims h' = rh_maxdims h).

Lemma resize_cases be h file addr new : resize_outcome h file new (resize be h file addr new).
Proof.
  assert (R0 : forall c r, r <> ROk -> resize_outcome h file new (set_cache h c, file, r))
    by (intros c r Hr; left; auto using same_shape_cache).
  assert (R1 : forall r, r <> ROk -> resize_outcome h file new (h, file, r))
    by (intros r Hr; left; auto using same_shape_refl).
  unfold resize.
  destruct (negb (rh_chunked h)); [now apply R1|].
  destruct (length (rh_maxdims h) =? 0)%nat; [now apply R1|].
  destruct (length new =? length (rh_dims h))%nat eqn:EL; cbn [negb]; [|now apply R1].
  destruct (check_max new (rh_maxdims h)) eqn:EM; try now apply R1.
  rewrite new_coordinator_spec.
  destruct (forallb (fun d => 0 <? d) new) eqn:EP; [|rewrite andb_false_r; now apply R1].
  destruct (_ && _); [|now apply R1].
  destruct (dec_ohdr be file addr) as [oh| |]; try now apply R1.
  destruct (find_dataspace (ohp_msgs oh) 0) as [idx| |]; try now apply R0.
  destruct (negb (encok_dataspace _)); [now apply R0|].
  destruct (negb (length new <=? 255)%nat); [now apply R0|].
  destruct (write_ohdr _ _ _); [|now apply R0].
  right. unfold resize_ok. rewrite EL, EP, (check_max_sound _ _ EM). auto.
Qed.

(* no assumption at all: a call that does not succeed writes nothing and leaves every field of the handle but
   the cached header unchanged *)
Lemma resize_refused_unchanged be h file addr new h' file' r :
  resize be h file addr new = (h', file', r) -> r <> ROk -> file' = file /\ same_shape h' h.
Proof.
  intros E NR. pose proof (resize_cases be h file addr new) as C. rewrite E in C.
  destruct C as [(_ & C)|(C & _)]; [exact C|contradiction].
Qed.

(* no assumption at all: a call that succeeds was within the declared maximum *)
Lemma resize_accept_sound be h file addr new h' file' :
  resize be h file addr new = (h', file', ROk) ->
  resize_ok (rh_dims h) (rh_maxdims h) new = true /\ rh_dims h' = new /\ rh_maxdims h' = rh_maxdims h.
Proof.
  intros E. pose proof (resize_cases be h file addr new) as C. rewrite E in C.
  destruct C as [(C & _)|(_ & C)]; [contradiction|exact C].
Qed.

(* a handle as CreateDataset builds it: a request outside the maximum (or of another rank, or with a zero
   extent) is refused before the file is even read; handle and file are returned as they were *)
Lemma resize_rejected be h file addr new :
  handle_ok h = true -> resize_ok (rh_dims h) (rh_maxdims h) new = false ->
  resize be h file addr new = (h, file, RErr).
Proof.
  intros Hh Hno. apply handle_ok_inv in Hh as (Hc & Hnz & Hlm & Hlc & Hcz).
  unfold resize. rewrite Hc. cbn [negb].
  replace (length (rh_maxdims h) =? 0)%nat with false by lia.
  unfold resize_ok in Hno.
  destruct (length new =? length (rh_dims h))%nat eqn:EL; cbn [negb andb] in *; [|reflexivity].
  apply Nat.eqb_eq in EL.
  rewrite check_max_spec by lia.
  destruct (within_max new (rh_maxdims h)); [|reflexivity].
  rewrite andb_true_r in Hno.
  rewrite new_coordinator_spec, Hno, andb_false_r. cbn [andb]. reflexivity.
Qed.

Lemma handle_ok_resized h new c : handle_ok h = true -> length new = length (rh_dims h) ->
  handle_ok (resized_handle h new c) = true.
Proof.
  intros Hh HL. apply handle_ok_inv in Hh as (Hc & Hnz & Hlm & Hlc & Hcz).
  unfold handle_ok, resized_handle. cbn [rh_chunked rh_dims rh_maxdims rh_chunkdims].
  rewrite Hc, Hcz, HL, Hlm, Hlc, !Nat.eqb_refl.
  replace (length (rh_dims h) =? 0)%nat with false by lia.
  reflexivity.
Qed.

Lemma hdr_frame flags before dims maxd after :
  enc_ohdr_v2 (hdr_of flags before dims maxd after)
  = frame_front flags before (blen dims) maxd after ++ enc_dims8 dims ++ frame_back maxd after.
Proof.
  unfold enc_ohdr_v2, hdr_of, frame_front, frame_back. cbn [oh_version oh_flags oh_msgs].
  rewrite body_v2_app, body_v2_cons, chunk_size_v2_app, chunk_size_v2_cons.
  unfold enc_msg_v2, ds_msg. cbn [hm_type hm_data]. rewrite dataspace_blen.
  unfold size_dataspace, enc_dataspace. cbn [ds_dims ds_maxdims].
  rewrite <- !app_assoc. cbn [app]. reflexivity.
Qed.

Lemma blen_frame_front flags before rank maxd after :
  blen (frame_front flags before rank maxd after) = 19 + chunk_size_v2 before.
Proof.
  unfold frame_front. rewrite !blen_app, blen_body_v2, blen_le, blen_zeros. unfold blen; cbn [length]. blia.
Qed.

Lemma nth_error_frame (A X Y B : list N) i : length X = length Y ->
  (i < length A \/ length A + length X <= i)%nat ->
  nth_error (A ++ X ++ B) i = nth_error (A ++ Y ++ B) i.
Proof.
  intros HL [Hi|Hi].
  - rewrite !nth_error_app1 by exact Hi. reflexivity.
  - rewrite (nth_error_app2 A) by lia. rewrite (nth_error_app2 A (Y ++ B)) by lia.
    rewrite (nth_error_app2 X) by lia. rewrite (nth_error_app2 Y) by lia. rewrite HL. reflexivity.
Qed.

Lemma last_accepted_cons dims maxd new news :
  last_accepted dims maxd (new :: news)
  = last_accepted (if resize_ok dims maxd new then new else dims) maxd news.
Proof. reflexivity. Qed.

Lemma resizes_spec be news : forall h file addr flags before after dims maxd pre suf,
  stored file addr flags before after dims maxd pre suf ->
  handle_ok h = true -> rh_dims h = dims -> rh_maxdims h = maxd ->
  Forall (fun new => u64_ok new = true) news ->
  exists h' file', resizes be h file addr news = (h', file', expected_results dims maxd news)
    /\ stored file' addr flags before after (last_accepted dims maxd news) maxd pre suf
    /\ handle_ok h' = true /\ rh_dims h' = last_accepted dims maxd news /\ rh_maxdims h' = maxd.
Proof.
  induction news as [|new r IH]; intros h file addr flags before after dims maxd pre suf S Hh Hd Hm Hu.
  - exists h, file. cbn [resizes expected_results]. unfold last_accepted. cbn [fold_left]. auto.
  - inversion Hu as [|? ? Hu1 Hu2]; subst.
    cbn [resizes expected_results]. rewrite last_accepted_cons.
    destruct (resize_ok (rh_dims h) (rh_maxdims h) new) eqn:EOK.
    + destruct (resize_accepted be h file addr flags before after _ _ pre suf new S Hh eq_refl eq_refl Hu1 EOK)
        as (c & ER).
      rewrite ER.
      pose proof (resize_ok_inv _ _ _ EOK) as (Hln & _ & _).
      pose proof (stored_same _ _ _ _ _ _ _ _ _ new S Hln Hu1) as S'.
      destruct (IH (resized_handle h new c) _ addr flags before after new (rh_maxdims h) pre suf S'
                  (handle_ok_resized h new c Hh Hln) eq_refl eq_refl Hu2)
        as (h' & file' & ERS & S'' & Hh' & Hd' & Hm').
      rewrite ERS. exists h', file'. auto.
    + rewrite (resize_rejected be h file addr new Hh EOK).
      destruct (IH h file addr flags before after (rh_dims h) (rh_maxdims h) pre suf S Hh eq_refl eq_refl Hu2)
        as (h' & file' & ERS & S'' & Hh' & Hd' & Hm').
      rewrite ERS. exists h', file'. auto.
Qed.
