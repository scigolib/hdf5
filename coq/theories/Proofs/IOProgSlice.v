(* C17: the remaining read entry points (Model/IOProgSlice.v) lie in the strict fragment, hence truncation / failing
   I/O can only turn their answer into an error (Proofs/IOProg.v strict_refines). *)
From HV Require Import Base.Prelude Base.Outcome Base.Bytes Model.IOProg Proofs.IOProg Model.IOProgReader Proofs.IOProgReader.
From HV Require Import Model.IOProgSlice.
From HV Require Import Model.CodecSuper Model.CodecOhdr Model.CodecMsg Model.CodecType Model.CodecAttr Model.CodecFilter.

Lemma p_elems_strict offs es : strict (p_elems offs es).
Proof. induction offs; cbn [p_elems]; strict_auto. Qed.
#[export] Hint Resolve p_elems_strict : core.

Section WithSuperblock.
Variable sb : superblock'.
Hypothesis Hl : valid_size (spp_lensize sb) = true.

Hint Resolve p_ohdr_strict p_bt1_node_strict p_collect_strict : core.

Lemma p_slice_contig_strict s dims es addr : strict (p_slice_contig s dims es addr).
Proof. unfold p_slice_contig. strict_auto. Qed.
Hint Resolve p_slice_contig_strict : core.

Lemma p_slice_chunks_strict cd ndims ents coords : strict (p_slice_chunks cd ndims ents coords).
Proof. induction coords; cbn [p_slice_chunks]; strict_auto. Qed.
Hint Resolve p_slice_chunks_strict : core.

Lemma p_slice_chunked_strict fuel s dims ly : strict (p_slice_chunked sb fuel s dims ly).
Proof. unfold p_slice_chunked. strict_auto. Qed.
Hint Resolve p_slice_chunked_strict : core.

Lemma p_read_hyperslab_strict fuel s ms : strict (p_read_hyperslab sb fuel s ms).
Proof. unfold p_read_hyperslab. strict_auto. Qed.
Hint Resolve p_read_hyperslab_strict : core.

Lemma api_slice_with_strict fuel addr check : strict (api_slice_with sb fuel addr check).
Proof. apply (ohdr_then_strict sb Hl). intros h. strict_auto. Qed.

Theorem api_read_slice_strict fuel addr st cn : strict (api_read_slice sb fuel addr st cn).
Proof. apply api_slice_with_strict. Qed.
Theorem api_read_hyperslab_strict fuel addr s : strict (api_read_hyperslab sb fuel addr s).
Proof. apply api_slice_with_strict. Qed.

Theorem api_chunk_iterator_strict fuel addr : strict (api_chunk_iterator sb fuel addr).
Proof. apply (ohdr_then_strict sb Hl). intros h. strict_auto. Qed.

Theorem api_chunk_strict fuel addr cd dims coord : strict (api_chunk sb fuel addr cd dims coord).
Proof. apply api_read_slice_strict. Qed.
Hint Resolve api_chunk_iterator_strict api_chunk_strict : core.

Lemma p_chunk_all_strict fuel addr cd dims coords : strict (p_chunk_all sb fuel addr cd dims coords).
Proof. induction coords; cbn [p_chunk_all]; strict_auto. Qed.

Theorem api_chunk_iterate_strict fuel addr : strict (api_chunk_iterate sb fuel addr).
Proof. unfold api_chunk_iterate. strict_auto. apply p_chunk_all_strict. Qed.

Lemma p_steps_strict fuel steps : strict (p_steps sb fuel steps).
Proof.
  induction steps as [|[ref| |] rest IH]; cbn [p_steps]; strict_auto. apply api_vlen_string_strict.
Qed.

Lemma p_dataset_raw_gated_strict fuel ms gate : strict (p_dataset_raw_gated sb fuel ms gate).
Proof. unfold p_dataset_raw_gated. strict_auto. apply p_dataset_raw_strict. Qed.
Hint Resolve p_steps_strict p_dataset_raw_gated_strict : core.

Theorem api_read_strings_strict fuel addr : strict (api_read_strings sb fuel addr).
Proof. apply (ohdr_then_strict sb Hl). auto. Qed.

Theorem api_read_compound_strict fuel addr ctype walk : strict (api_read_compound sb fuel addr ctype walk).
Proof. apply (ohdr_then_strict sb Hl). intros h. strict_auto. Qed.

Theorem api_read_attribute_strict fuel addr walk : strict (api_read_attribute sb fuel addr walk).
Proof. unfold api_read_attribute. strict_auto. apply (api_attributes_strict sb Hl). Qed.

End WithSuperblock.

(* one statement per entry point: on the file cut to its first n bytes, under any fault pattern, the call returns
   the intact answer or an error, and does not panic (unless the intact call does) *)
Definition damage_ok {A} (p : prog A) : Prop :=
  forall (f : bytes) (n : nat) (fl : oracle) (c : nat),
    run0 f p <> Panic ->
    (fst (run (firstn n f) fl c p) = run0 f p \/ fst (run (firstn n f) fl c p) = Err) /\
    fst (run (firstn n f) fl c p) <> Panic.

Lemma strict_damage_ok {A} (p : prog A) : strict p -> damage_ok p.
Proof.
  intros H f n fl c Hp. split; [now apply damage_monotone | now apply no_panic].
Qed.

Lemma damage_ok_fault {A} (p : prog A) : damage_ok p -> forall f k ft, run0 f p <> Panic ->
  fst (run f (fault_at k ft) 0 p) = run0 f p \/ fst (run f (fault_at k ft) 0 p) = Err.
Proof.
  intros H f k ft Hp. destruct (H f (length f) (fault_at k ft) 0%nat Hp) as [E _].
  rewrite firstn_all in E. exact E.
Qed.
Lemma damage_ok_trunc {A} (p : prog A) : damage_ok p -> forall f n, run0 f p <> Panic ->
  run0 (firstn n f) p = run0 f p \/ run0 (firstn n f) p = Err.
Proof. intros H f n Hp. exact (proj1 (H f n nofault 0%nat Hp)). Qed.
