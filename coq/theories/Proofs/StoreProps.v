(* Reachable states satisfy the invariant of StoreInv.v (the theorems of Props/C04.v, C05Store.v, C10.v, C16.v are
   its theorems at reach); refutation witnesses for the unrepaired configurations; non-vacuity examples. *)
From HV Require Import Base.Prelude Model.Store Proofs.Store Proofs.StoreOps Proofs.StoreInv.

Local Open Scope N_scope.

Lemma forallb_false : forall A (f : A -> bool) l, forallb f l = false -> exists x, In x l /\ f x = false.
Proof.
  induction l as [|a r IH]; intros H; [discriminate|]. cbn in H. apply andb_false_iff in H. destruct H as [H|H].
  - exists a. split; [left; reflexivity | exact H].
  - destruct (IH H) as (x & Hx & Hf). exists x. split; [right; exact Hx | exact Hf].
Qed.

(* the state after CreateForWrite (superblock version sb) and the history h; bp / ba = the two error-path
   patches e5d916a (link pre-check) / 8199862 (attribute-info check before the dense storage is written) present or not *)
Definition reach (bp ba : bool) (sb : N) (h : list op) : state := run (init (gcfg bp ba) sb) h.

Lemma reach_ok : forall bp ba sb h, st_ok bp ba (reach bp ba sb h).
Proof. intros. apply run_ok, init_ok. Qed.

Lemma frame_b_false : forall s o, frame_b s o = false ->
  exists e' w, In e' (exts (st s)) /\ targets s o (owner e') (kind_of e') = false /\
               In w (wlog (st (fst (step s o)))) /\ ~ wmisses w e'.
Proof.
  intros s o H. unfold frame_b in H. apply forallb_false in H. destruct H as (w & Hw & H).
  apply forallb_false in H. destruct H as (e' & He & H). apply orb_false_iff in H. destruct H as [H1 H2].
  exists e', w. repeat split; auto. intros D. unfold wmisses in D. unfold misses in H2. apply orb_false_iff in H2. destruct H2 as [A B].
  apply N.leb_gt in A. apply N.leb_gt in B. lia.
Qed.

Fixpoint all_ok_pre (s : state) (h : list op) : bool :=
  match h with [] => true | o :: r => snd (step s o) && all_ok_pre (fst (step s o)) r end.

(* headers allocated at their exact initial size (the code before fix 9ee6197): create a, create b,
   attribute on a -- the rewritten header of a runs into b's data extent *)
Definition hist_exact : list op := [OpMkContig 0 1 false 12 1 8; OpMkContig 0 1 false 12 1 16].
Lemma C04_refuted_exact_size_headers_l :
  let s := run (init cfg_exact_hdr 2) hist_exact in let o := OpAttrSet 1 None 43 true in
  snd (step s o) = true /\
  exists e' w, In e' (exts (st s)) /\ targets s o (owner e') (kind_of e') = false /\
               In w (wlog (st (fst (step s o)))) /\ ~ wmisses w e'.
Proof. intros s o. split; [vm_compute; reflexivity|]. apply frame_b_false. vm_compute. reflexivity. Qed.

(* link object headers allocated at exact size (/repo before fix 0d24a11):
   dataset x, soft link s, dataset b, hard link to s -- the link header with its new reference-count
   message runs into b's data extent *)
Definition hist_link : list op := [OpMkContig 0 1 false 12 1 8; OpMkLink 0 1 false 14; OpMkContig 0 1 false 12 1 16].
Lemma C04_refuted_exact_size_link_headers_l :
  let s := run (init cfg_repo 2) hist_link in let o := OpHardLink 0 1 false 2 in
  snd (step s o) = true /\
  exists e' w, In e' (exts (st s)) /\ targets s o (owner e') (kind_of e') = false /\
               In w (wlog (st (fst (step s o)))) /\ ~ wmisses w e'.
Proof. intros s o. split; [vm_compute; reflexivity|]. apply frame_b_false. vm_compute. reflexivity. Qed.

(* dense group headers allocated at their exact size (/repo before 18bfe7a): dataset a, dense group d with one link,
   dataset b, first hard link to d -- the header of d with its new reference-count message runs into b's data extent *)
Definition hist_dense_group : list op := [OpMkContig 0 1 false 12 1 8; OpMkDense 0 1 false 1 true; OpMkContig 0 1 false 12 1 16].
Lemma C04_refuted_exact_size_dense_group_header_l :
  let s := run (init cfg_exact_dense 2) hist_dense_group in let o := OpHardLink 0 1 false 2 in
  all_ok_pre (init cfg_exact_dense 2) hist_dense_group = true /\ snd (step s o) = true /\
  exists e' w, In e' (exts (st s)) /\ targets s o (owner e') (kind_of e') = false /\
               In w (wlog (st (fst (step s o)))) /\ ~ wmisses w e'.
Proof. intros s o. split; [vm_compute; reflexivity|]. split; [vm_compute; reflexivity|]. apply frame_b_false. vm_compute. reflexivity. Qed.

(* the same history and call with the reservation of 18bfe7a: nothing outside the targets is touched *)
Lemma C04_dense_group_header_reserved_l :
  let s := run (init cfg_fixed 2) hist_dense_group in let o := OpHardLink 0 1 false 2 in
  snd (step s o) = true /\ frame_b s o = true /\
  find_ext (exts (st s)) 2 KHeader = Some (mkExt 531033 max_hdr 2 KHeader).
Proof. intros s o. vm_compute. repeat split; reflexivity. Qed.

(* without the extension step in Close (the code before fix 72cccd1): create a, reopen, create a group --
   the reserved tail of a's header is handed out again and written over *)
Definition hist_noext : list op := [OpMkContig 0 1 false 12 1 8; OpReopen].
Lemma C10_refuted_without_extend_l :
  let s := run (init cfg_no_extend 2) hist_noext in let o := OpMkGroup 0 1 false in
  ~ NoOverlap (exts (st (fst (step s o)))) /\
  exists e' w, In e' (exts (st s)) /\ targets s o (owner e') (kind_of e') = false /\
               In w (wlog (st (fst (step s o)))) /\ ~ wmisses w e'.
Proof.
  intros s o. split.
  - intros H. apply no_overlap_b_spec in H. vm_compute in H. discriminate.
  - apply frame_b_false. vm_compute. reflexivity.
Qed.

(* without the link pre-check a failing creation in a reopened session is not quiet: the file grows by the
   orphan structures *)
Definition hist_sess1 : list op := [OpMkContig 0 1 false 12 1 8; OpClose].
Lemma C10_noop_refuted_failed_creation_l :
  let s := reach false false 2 hist_sess1 in let sess := [OpReopen; OpMkGroup 0 1 false; OpClose] in
  closed s = true /\ snd (step (fst (step s OpReopen)) (OpMkGroup 0 1 false)) = false /\
  fsize (st s) < fsize (st (run s sess)) /\ objs (run s sess) = objs s.
Proof. intros s sess. vm_compute. repeat split; reflexivity. Qed.

(* with the pre-check a reopened session of failing creations and a failing hard link is quiet *)
Lemma C10_failed_creation_quiet_with_precheck_l :
  let s := reach true true 2 hist_sess1 in
  all_quiet s (OpReopen :: [OpMkGroup 0 1 false; OpMkContig 0 1 false 12 1 8; OpHardLink 0 1 false 1] ++ [OpClose]).
Proof. intros s. vm_compute. repeat split; reflexivity. Qed.

(* the exception: a hard link that fails in linkToParent (duplicate name here) leaves the reference-count
   message it added in the target's header *)
Definition hist_hl : list op := [OpMkContig 0 1 false 12 1 8].
Lemma C16_hardlink_residue_l :
  let s := reach false false 2 hist_hl in let o := OpHardLink 0 1 true 1 in
  snd (step s o) = false /\
  option_map o_msgs (get_obj (objs s) 1) = Some [(M_DATATYPE, 12); (M_DATASPACE, 16); (M_LAYOUT, 18)] /\
  option_map o_msgs (get_obj (objs (fst (step s o))) 1)
    = Some [(M_DATATYPE, 12); (M_DATASPACE, 16); (M_LAYOUT, 18); (M_REFCOUNT, 4)] /\
  wlog (st (fst (step s o))) = [(2203, 73); (2203, 73)].
Proof. intros s o. vm_compute. repeat split; reflexivity. Qed.

(* with both patches in, the only failing calls that can leave bytes behind are a contiguous creation whose
   header does not fit one chunk (its data block is allocated first), a chunked write with an empty chunk
   (fixed-size or variable-length elements), and CreateDenseGroup (it has no link pre-check: it looks the parent
   up and links after everything was written) *)
Lemma C16_patched_failing_calls_l : forall o,
  may_leave_bytes true true o = true ->
  (exists p nl dup ldt rank dsize, o = OpMkContig p nl dup ldt rank dsize) \/ (exists x sizes, o = OpWrite x sizes) \/
  (exists x lens sizes, o = OpWriteVL x lens sizes) \/ (exists p nl dup n fit, o = OpMkDense p nl dup n fit).
Proof.
  intros o H. destruct o; cbn in H; try discriminate.
  - left. repeat eexists.
  - right. left. repeat eexists.
  - destruct idx; discriminate.
  - right. right. right. repeat eexists.
  - right. right. left. repeat eexists.
Qed.

(* a dataset whose header leaves no room for the attribute info message (rank 10, resizable): without the
   early check every attribute call fails after allocating and writing the dense storage (5 orphan extents,
   the first one being the allocator advance past the header end); with the check the call is quiet *)
Definition hist_r10 : list op := [OpMkChunked 0 1 false 12 10 true 0].
Lemma C16_transition_orphans_l :
  let o := OpAttrSet 1 None 42 true in
  (let s := reach false false 2 hist_r10 in
   snd (step s o) = false /\ List.length (exts (st (fst (step s o)))) = (List.length (exts (st s)) + 5)%nat /\
   fsize (st s) + 65536 < fsize (st (fst (step s o))) /\ objs (fst (step s o)) = objs s) /\
  (let s := reach true true 2 hist_r10 in
   snd (step s o) = false /\ st (fst (step s o)) = clear_log (st s) /\ objs (fst (step s o)) = objs s).
Proof. intros o. vm_compute. repeat split; reflexivity. Qed.

(* six operations, all succeed: dataset, group, chunked dataset in the group, chunked write,
   attribute on the first dataset, hard link to it from the group *)
Definition hist6 : list op :=
  [OpMkContig 0 1 false 12 1 12; OpMkGroup 0 1 false; OpMkChunked 2 1 false 20 2 false 0;
   OpWrite 3 [64; 64; 64; 64]; OpAttrSet 1 None 43 true; OpHardLink 2 1 false 1].

Fixpoint all_ok (s : state) (h : list op) : bool :=
  match h with [] => true | o :: r => snd (step s o) && all_ok (fst (step s o)) r end.

Example hist6_runs :
  all_ok (init cfg_fixed 2) hist6 = true /\ all_ok (init cfg_head 0) hist6 = true /\
  ovf (st (reach true true 2 hist6)) = false /\ List.length (exts (st (reach true true 2 hist6))) = 17%nat /\
  wlog (st (reach true true 2 hist6)) <> [] /\ store_ok_b (st (reach false false 2 hist6)) = true.
Proof. vm_compute. repeat split; try reflexivity. discriminate. Qed.

(* nine attributes: the ninth triggers the dense transition, which succeeds and allocates four extents *)
Definition hist_dense : list op :=
  OpMkContig 0 1 false 12 1 8 :: repeat (OpAttrSet 1 None 20 true) 9.
Example hist_dense_runs :
  all_ok (init cfg_fixed 2) hist_dense = true /\
  List.length (exts (st (reach true true 2 hist_dense))) = 11%nat /\
  option_map o_nrec (get_obj (objs (reach true true 2 hist_dense)) 1) = Some 9.
Proof. vm_compute. repeat split; reflexivity. Qed.

(* the hypotheses of the failing-call theorem are satisfiable with a non-empty write set *)
Example failing_call_exists :
  let s := reach false false 2 hist_hl in let o := OpMkGroup 0 1 true in
  op_fails s o /\ snd (step s o) = false /\ wlog (st (fst (step s o))) <> [] /\ ovf (st (fst (step s o))) = false.
Proof. intros s o. vm_compute. repeat split; try reflexivity. discriminate. Qed.

(* a quiet session exists: reopen, a refused call, a failing delete, close *)
Example quiet_session_exists :
  let s := reach true true 2 hist_sess1 in
  all_quiet s (OpReopen :: [OpReject; OpAttrDel 1 None] ++ [OpClose]).
Proof. intros s. vm_compute. repeat split; reflexivity. Qed.

(* a variable-length history: two datasets share the file's heap writer; the second write rolls the first collection
   over (flush of an extent allocated by an earlier call), Close flushes the last one *)
Definition hist_vlen : list op :=
  [OpMkContig 0 1 false 32 1 32; OpMkContig 0 1 false 32 1 16;
   OpWriteVL 1 [3000; 0] []; OpWriteVL 2 [2000] []; OpClose].
Example hist_vlen_runs :
  all_ok_pre (init cfg_fixed 2) hist_vlen = true /\
  (let s := reach true true 2 (firstn 3 hist_vlen) in
   gh s = Some (4096, 1048) /\ wlog (st (fst (step s (OpWriteVL 2 [2000] [])))) = [(2489, 16); (2767, 4096)] /\
   frame_b s (OpWriteVL 2 [2000] []) = true) /\
  (let s := reach true true 2 (firstn 4 hist_vlen) in
   gh s = Some (4096, 2064) /\ wlog (st (fst (step s OpClose))) = [(0, 48); (6863, 4096)] /\ frame_b s OpClose = true) /\
  store_ok_b (st (reach true true 2 hist_vlen)) = true.
Proof. vm_compute. repeat split; reflexivity. Qed.

(* dense groups: created with 1 and with 12 links, hard link to one of them, a refused duplicate leaves its
   five extents behind (no pre-check on this path) *)
Definition hist_dg : list op :=
  [OpMkContig 0 1 false 12 1 8; OpMkDense 0 2 false 1 true; OpMkDense 0 2 false 12 true; OpHardLink 0 3 false 2].
Example hist_dg_runs :
  all_ok_pre (init cfg_fixed 2) hist_dg = true /\ store_ok_b (st (reach true true 2 hist_dg)) = true /\
  (let s := reach true true 2 hist_dg in let o := OpMkDense 0 2 true 1 true in
   snd (step s o) = false /\ List.length (exts (st (fst (step s o)))) = (List.length (exts (st s)) + 5)%nat /\
   objs (fst (step s o)) = objs s /\ ovf (st (fst (step s o))) = false).
Proof. vm_compute. repeat split; reflexivity. Qed.
