(* C01: writeChunkedData followed by readChunkedData returns the data - the chunk loop of the writer (allocate at the
   end of file, write, record) composed with the index round trip (Proofs/ChunkIndex.v) and the reader's placement
   (Proofs/ChunkTiling.v), for every rank, grid, element size and data.  Model: Model/ChunkIndex.v (rep = true). *)
From HV Require Import Base.Prelude Model.Chunk Base.Outcome Base.Bytes Model.RobustTerm Model.ChunkIndex.
From HV Require Import Proofs.ChunkLists Proofs.ChunkSpec Proofs.ChunkCoords Proofs.ChunkTiling Proofs.ChunkIndex.

Local Open Scope N_scope.

Theorem chunked_write_refused_unchanged dims cdims esz data f eof :
  MAX_ENTRIES < total_chunks (num_chunks dims cdims) ->
  write_chunked_file_st true dims cdims esz data f eof = (f, eof, Err).
Proof.
  intros H. unfold write_chunked_file_st.
  destruct (negb (lenN data =? vol dims esz)); [reflexivity|].
  replace (MAX_ENTRIES <? total_chunks (num_chunks dims cdims)) with true by lia.
  reflexivity.
Qed.

Lemma Forall2_in_right {A B} (P : A -> B -> Prop) l l' b :
  Forall2 P l l' -> In b l' -> exists a, In a l /\ P a b.
Proof.
  induction 1 as [|x y l l' Hxy _ IH]; intros Hin; [destruct Hin|].
  destruct Hin as [<-|Hin]; [exists x; split; [left; reflexivity|exact Hxy]|].
  destruct (IH Hin) as (a & Ha & Hp). exists a. split; [right; exact Ha|exact Hp].
Qed.

(* reads below the end of file are not disturbed *)
Definition kept_below (f f1 : bytes) (lim : N) : Prop :=
  forall off n b, off + n <= lim -> n <> 0 -> n < 18446744073709551616 ->
    read_bytes_at f off n = Some b -> read_bytes_at f1 off n = Some b.

(* what the loop records for a chunk and leaves in the file f1 *)
Definition recorded (B hi : N) (f1 : bytes) (kd : list N * bytes) (e : wentry) : Prop :=
  w_coord e = fst kd /\ w_nbytes e = B /\ w_addr e + B <= hi /\
  read_bytes_at f1 (w_addr e) B = Some (snd kd).

Lemma read_bytes_at_written f a buf :
  buf <> [] -> a + blen buf <= MAXINT64 -> read_bytes_at (write_at f a buf) a (blen buf) = Some buf.
Proof.
  intros Hne Hm. destruct (write_at_shape f buf a Hne) as (pre & suf & -> & Hp).
  apply read_bytes_at_app; auto.
  destruct buf; [congruence|]. unfold blen. cbn [length]. lia.
Qed.

Lemma chunk_loop_spec B : 0 < B -> B < 4294967296 ->
  forall (cks : list (list N * bytes)) f eof acc,
  Forall (fun kd => blen (snd kd) = B) cks ->
  eof + N.of_nat (length cks) * B <= MAXINT64 ->
  exists f1 es,
    write_chunk_loop_st cks f eof acc = (f1, eof + N.of_nat (length cks) * B, Ok (acc ++ es)) /\
    kept_below f f1 eof /\
    Forall2 (recorded B (eof + N.of_nat (length cks) * B) f1) cks es.
Proof.
  intros HB0 HB32. induction cks as [|[k d] r IH]; intros f eof acc Hl Hm.
  - exists f, []. cbn [write_chunk_loop_st length]. rewrite app_nil_r.
    replace (eof + N.of_nat 0 * B) with eof by lia. split; [reflexivity|]. split; [|constructor].
    intros off n b _ _ _ H. exact H.
  - apply Forall_cons_iff in Hl as [Hd Hr]. cbn [snd] in Hd.
    cbn [length] in Hm. rewrite Nat2N.inj_succ in Hm.
    assert (Hne : d <> []) by (intros ->; unfold blen in Hd; cbn [length] in Hd; lia).
    cbn [write_chunk_loop_st]. unfold alloc. rewrite Hd.
    replace (B =? 0) with false by lia.
    rewrite wrap64_small by (unfold MAXINT64 in Hm; nia).
    assert (Hfit : eof + B + N.of_nat (length r) * B <= MAXINT64) by nia.
    destruct (IH (write_at f eof d) (eof + B) (acc ++ [(k, eof, wrap32 B)]) Hr Hfit) as (f1 & es & E & Hk & Hrec).
    exists f1, ((k, eof, wrap32 B) :: es).
    cbn [length]. rewrite Nat2N.inj_succ.
    replace (eof + N.succ (N.of_nat (length r)) * B) with (eof + B + N.of_nat (length r) * B) by lia.
    split; [rewrite E, <- app_assoc; reflexivity|]. split.
    + intros off n b Ho Hn Hn64 Hrd. apply Hk; auto; [lia|].
      apply read_bytes_at_write_at_before; auto.
    + constructor.
      * unfold recorded, w_coord, w_nbytes, w_addr. cbn [fst snd]. rewrite wrap32_small by lia.
        repeat split; try lia.
        apply Hk; try lia.
        rewrite <- Hd. apply read_bytes_at_written; auto. rewrite Hd. unfold MAXINT64 in *. nia.
      * exact Hrec.
Qed.

Lemma in_coords_lt nc : forall c, In c (coords_of nc) -> Forall2 N.lt c nc.
Proof.
  induction nc as [|n r IH]; intros c H; cbn [coords_of] in H.
  - destruct H as [<-|[]]. constructor.
  - apply in_flat_map in H. destruct H as (c0 & Hc0 & H). apply in_map_iff in H.
    destruct H as (c' & <- & H). apply in_rangeN in Hc0. constructor; auto.
Qed.

Lemma chunk_key_lt dims : forall cdims c, posl cdims ->
  Forall2 N.lt c (num_chunks dims cdims) -> length cdims = length dims ->
  Forall2 N.lt (chunk_key cdims c) dims.
Proof.
  induction dims as [|d ds IH]; intros [|cd cs] c Hp H Hl; try discriminate.
  - inversion H; subst. constructor.
  - rewrite num_chunks_cons in H. inversion H as [|c0 q c' qs Hc0 Hc']; subst.
    inversion Hp; subst. unfold chunk_key. cbn [zipWith]. constructor.
    + pose proof (N.div_mod (d + cd - 1) cd ltac:(lia)) as E.
      pose proof (N.mod_lt (d + cd - 1) cd ltac:(lia)). nia.
    + apply IH; auto.
Qed.

Lemma le_prodN l : posl l -> Forall (fun x => x <= prodN l) l.
Proof.
  induction 1 as [|x l Hx Hl IH]; constructor.
  - rewrite prodN_cons. pose proof (prodN_pos l Hl). nia.
  - eapply Forall_impl; [|exact IH]. intros a Ha. cbv beta in *. rewrite prodN_cons. nia.
Qed.

Lemma Forall2_lt_le_bound (a b : list N) M : Forall2 N.lt a b -> Forall (fun x => x <= M) b -> Forall (fun x => x <= M) a.
Proof. induction 1; intros Hb; constructor; inversion Hb; subst; auto; lia. Qed.

Lemma lenN_extract_padded dims cdims esz data c :
  length cdims = length dims -> length c = length dims -> lenN data = vol dims esz ->
  lenN (extract_padded dims cdims esz data c) = vol cdims esz.
Proof.
  intros. rewrite extract_padded_spec by auto. apply lenN_ext_spec; auto. apply lenN_zerosN.
Qed.

Lemma entry_ok_intro dim co ad nb :
  length co = dim -> Forall (fun x => x <= U64MAX) co -> ad <= U64MAX -> nb < 4294967296 ->
  entry_ok dim (co, ad, nb) = true.
Proof.
  intros H1 H2 H3 H4. unfold entry_ok, w_coord, w_addr, w_nbytes. cbn [fst snd].
  rewrite !andb_true_iff, Nat.eqb_eq, N.leb_le, N.ltb_lt, forallb_forall. repeat split; auto.
  intros x Hx. apply N.leb_le. rewrite Forall_forall in H2. auto.
Qed.

Theorem chunked_end_to_end dims cdims esz data f eof :
  shape_ok dims cdims esz -> lenN data = vol dims esz ->
  total_chunks (num_chunks dims cdims) <= MAX_ENTRIES ->
  vol cdims esz <= MAX_CHUNK -> vol dims esz <= MAX_CHUNK * 1024 ->
  eof + chunked_file_growth dims cdims esz <= MAXINT64 ->
  exists f' eof' root,
    write_chunked_file true dims cdims esz data f eof = Ok (f', eof', root) /\
    read_chunked_file true f' root 8 dims cdims esz = COk data.
Proof.
  intros Hs Hd Hcap HB Hvol Hm.
  pose proof Hs as (Hne & Hc & Hpd & Hpc & Hez).
  set (B := vol cdims esz) in *.
  set (coords := all_chunk_coords dims cdims).
  set (n := total_chunks (num_chunks dims cdims)) in *.
  assert (HB0 : 0 < B) by (unfold B; rewrite vol_prod; pose proof (prodN_pos cdims Hpc); nia).
  assert (Hcl : forall c, In c coords -> length c = length cdims /\ Forall2 N.lt (chunk_key cdims c) dims).
  { intros c Hin. unfold coords in Hin. rewrite all_chunk_coords_enum in Hin by auto.
    pose proof (in_coords_length _ _ Hin) as L. rewrite length_num_chunks in L by auto.
    split; [lia|]. apply chunk_key_lt; auto. apply in_coords_lt; auto. }
  assert (Hlenc : N.of_nat (length coords) = n).
  { unfold coords, all_chunk_coords. rewrite map_length, length_rangeN. fold n. lia. }
  assert (Hn0 : 0 < n).
  { unfold n, total_chunks. apply prodN_pos. apply num_chunks_pos; auto. }
  set (cks := write_chunks dims cdims esz data).
  assert (Hcks : Forall (fun kd => blen (snd kd) = B) cks).
  { unfold cks, write_chunks. fold coords. apply Forall_forall. intros kd Hin.
    apply in_map_iff in Hin as (c & <- & Hin). cbn [snd]. destruct (Hcl c Hin) as [L _].
    apply lenN_extract_padded; auto; lia. }
  assert (Hlck : N.of_nat (length cks) = n).
  { unfold cks, write_chunks. fold coords. rewrite map_length. exact Hlenc. }
  unfold chunked_file_growth in Hm. fold n B in Hm. cbv zeta in Hm.
  assert (HB32 : B < 4294967296) by (unfold MAX_CHUNK in HB; lia).
  assert (Hfit : eof + N.of_nat (length cks) * B <= MAXINT64) by (rewrite Hlck; lia).
  destruct (chunk_loop_spec B HB0 HB32 cks f eof [] Hcks Hfit) as (f1 & es & E & Hk & Hrec).
  rewrite Hlck in E, Hrec. cbn [app] in E.
  set (eof1 := eof + n * B) in *.
  assert (Hles : length es = length cks) by (symmetry; eapply Forall2_length; exact Hrec).
  assert (Hes : Forall (fun e => exists c, In c coords /\ recorded B eof1 f1 (chunk_key cdims c, extract_padded dims cdims esz data c) e) es).
  { apply Forall_forall. intros e Hin.
    destruct (Forall2_in_right _ _ _ _ Hrec Hin) as (kd & Hkd & R).
    unfold cks, write_chunks in Hkd. fold coords in Hkd. apply in_map_iff in Hkd as (c & <- & Hc0). exists c. auto. }
  assert (Hcoords : map w_coord es = map (chunk_key cdims) coords).
  { transitivity (map fst cks).
    - clear - Hrec. induction Hrec as [|kd e l l' R _ IH]; [reflexivity|]. cbn [map]. f_equal; auto. apply R.
    - unfold cks, write_chunks. fold coords. rewrite map_map. reflexivity. }
  assert (Hdmax : Forall (fun x => x <= U64MAX) dims).
  { eapply Forall_impl; [|apply (le_prodN dims Hpd)]. intros a Ha. cbv beta in Ha.
    rewrite vol_prod in Hvol. unfold MAX_CHUNK in Hvol. unfold U64MAX.
    assert (prodN dims <= prodN dims * esz) by (clear - Hez; nia).
    clear - Ha Hvol H. lia. }
  assert (Hok : Forall (fun e => entry_ok (length cdims) e = true) es).
  { eapply Forall_impl; [|exact Hes]. intros [[co ad] nb] (c & Hin & R).
    destruct R as (R1 & R2 & R4 & _). unfold w_coord, w_nbytes, w_addr in *. cbn [fst snd] in *. subst co nb.
    destruct (Hcl c Hin) as [L K]. apply entry_ok_intro.
    - apply length_chunk_key. exact L.
    - eapply Forall2_lt_le_bound; eauto.
    - clear - R4 HB Hm HB0. unfold eof1, U64MAX, MAXINT64, MAX_CHUNK in *.
      assert (0 <= n * (16 + 8 * N.of_nat (length dims))) by lia. lia.
    - clear - HB. unfold MAX_CHUNK in HB. lia. }
  assert (Hnes : N.of_nat (length es) = n) by (rewrite Hles; exact Hlck).
  assert (Hap : all_pos cdims = true) by now apply all_pos_posl.
  assert (Hnil : es <> []) by (intros ->; cbn [length] in Hnes; lia).
  assert (Hser : blen (serialize_leaf (length cdims) es) = 24 + n * (16 + 8 * N.of_nat (length dims)) + (8 + 8 * N.of_nat (length dims))).
  { rewrite blen_serialize_leaf by exact Hok. rewrite Hnes, Hc. reflexivity. }
  destruct (index_roundtrip_core true cdims es f1 eof1 Hnil Hok) as (Hw & Hr); auto.
  { rewrite Hnes. exact Hcap. }
  { rewrite Hser. unfold eof1. clear - Hm. lia. }
  cbv zeta in Hw, Hr.
  exists (write_at f1 eof1 (serialize_leaf (length cdims) (sort_entries es))),
         (eof1 + blen (serialize_leaf (length cdims) es)), eof1. split.
  - unfold write_chunked_file, write_chunked_file_st.
    replace (lenN data =? vol dims esz) with true by lia. cbn [negb].
    fold n. replace (MAX_ENTRIES <? n) with false by lia. cbn [andb].
    fold cks. rewrite E. cbv beta iota.
    change (st_result (write_index_st true (length dims) es f1 eof1)) with (write_index true (length dims) es f1 eof1).
    rewrite <- Hc. exact Hw.
  - apply (read_chunked_file_correct dims cdims esz data Hs Hd true _ eof1 es Hvol).
    + exists (sort_entries es). split; [apply sort_entries_perm|exact Hr].
    + rewrite Hcoords. reflexivity.
    + eapply Forall_impl; [|exact Hes]. intros e (c & Hin & (R1 & R2 & R4 & R5)).
      destruct (Hcl c Hin) as [L _]. cbn [fst snd] in *.
      assert (Hsc : sc_of cdims e = c) by (unfold sc_of; rewrite R1; apply scaled_key_id; auto).
      unfold entry_stored. rewrite Hsc, R2. split.
      * unfold validate_size. apply andb_true_iff. split; [apply negb_true_iff, N.eqb_neq; lia|apply N.leb_le; exact HB].
      * apply read_bytes_at_write_at_before; auto; try lia; unfold MAX_CHUNK in HB; lia.
Qed.
