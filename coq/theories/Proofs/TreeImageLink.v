(* C03 end to end, the writer's step on the FILE: the two in-place rewrites of linkToParent composed.
   For every file that holds a group's local heap (header + segment [seg]) at [blen pre] and its symbol table node [s] further
   behind - with ARBITRARY bytes before, between and behind them (the other objects of the file) -
     link_heap; link_snod  fails exactly when the abstract namespace model's add_string / add_entry fail,
   and otherwise the new file holds the abstract model's new segment and the node with the entry appended AT THE SAME PLACES,
   same lengths, and every other byte of the file is untouched: whatever was placed in [pre], [mid] or [suf] still is. *)
From HV Require Import Base.Prelude Base.Outcome Base.Bytes Model.RobustAlloc Model.RobustGroup Model.GroupWire.
From HV Require Import Proofs.GroupWireHeap Proofs.GroupWireSnod.
From HV Require Import Model.FileImage Model.TreeImage Proofs.FileImage.
From HV Require Model.GroupNS.

Local Open Scope N_scope.

(* what linkToParent does to the file once prepareLink has accepted the call *)
Definition link_both (f : bytes) (ha sa : N) (nm : bytes) (child : N) : outcome bytes :=
  ' (off, f1) <- link_heap f ha nm;; link_snod f1 sa (new_sym off child).

Lemma link_to_parent_eq st parent nm child ha sa :
  prepare_link st parent nm child = Ok (ha, sa) ->
  link_to_parent st parent nm child = link_both (t_file st) ha sa nm child.
Proof. intros H. unfold link_to_parent, link_both. rewrite H. reflexivity. Qed.

(* a file with a group's heap at [blen pre] and its node behind [mid] *)
Definition group_file (pre mid suf seg : list N) (s : snode) : list N :=
  heap_file pre (mid ++ snod_bytes s 32 ++ suf) 1 seg.

Lemma group_file_split (pre mid suf seg : list N) s :
  group_file pre mid suf seg s = (pre ++ heap_header (blen seg) 1 (blen pre + 32) ++ seg ++ mid) ++ snod_bytes s 32 ++ suf.
Proof. unfold group_file, heap_file. now rewrite <- !app_assoc. Qed.

Lemma group_file_snod_addr (pre mid seg : list N) :
  blen (pre ++ heap_header (blen seg) 1 (blen pre + 32) ++ seg ++ mid) = blen pre + 32 + blen seg + blen mid.
Proof. rewrite !blen_app, blen_heap_header. blia. Qed.

Lemma add_string_off_small (h : NS.wheap) nm off h1 : NS.add_string h nm = Some (off, h1) -> off < NS.wh_dss h.
Proof.
  unfold NS.add_string. destruct (NS.wh_dss h <? NS.blen (NS.wh_strings h) + (NS.blen nm + 1)) eqn:E; [discriminate|].
  intros H. inversion H; subst. apply N.ltb_ge in E. blia.
Qed.

Theorem link_both_commutes (pre mid suf seg : list N) s nm child :
  snode_ok s = true -> (length (stn_entries s) <= 32)%nat -> child < 18446744073709551616 ->
  blen pre + 32 + blen seg + blen mid + 8 + 40 * 32 <= MaxInt64 ->
  let sa := blen pre + 32 + blen seg + blen mid in
  match NS.add_string (NS.prepare_for_modification seg) nm with
  | None => link_both (group_file pre mid suf seg s) (blen pre) sa nm child = Err
  | Some (off, h1) =>
      let seg' := snd (NS.write_to h1) in
      blen seg' = blen seg /\
      match NS.add_entry (NS.parse_snod 32 (map abs_sym (stn_entries s))) {| NS.e_off := off; NS.e_obj := child |} with
      | None => link_both (group_file pre mid suf seg s) (blen pre) sa nm child = Err /\ length (stn_entries s) = 32%nat
      | Some n1 =>
          exists s1, snode_ok s1 = true /\ stn_entries s1 = stn_entries s ++ [new_sym off child] /\ abs_snode s1 = n1 /\
            link_both (group_file pre mid suf seg s) (blen pre) sa nm child = Ok (group_file pre mid suf seg' s1)
      end
  end.
Proof.
  intros Hok Hm Hc Hb sa.
  assert (Hb1 : blen pre + 32 + blen seg <= MaxInt64) by blia.
  destruct (link_heap_commutes pre (mid ++ snod_bytes s 32 ++ suf) seg nm Hb1) as [_ LH].
  destruct (NS.add_string (NS.prepare_for_modification seg) nm) as [[off h1]|] eqn:EA.
  - destruct LH as [Hlen LH]. cbn zeta. split; [exact Hlen|].
    pose proof (add_string_off_small _ _ _ _ EA) as Hoff. cbn [NS.prepare_for_modification NS.wh_dss] in Hoff.
    assert (Hoff' : off < 18446744073709551616).
    { rewrite MaxInt64_val in Hb. change (NS.blen seg) with (blen seg) in Hoff. blia. }
    assert (Hsym : sym_ok (new_sym off child) = true).
    { unfold sym_ok, new_sym, u64, u32. cbn [sy_name sy_obj sy_cache sy_res sy_bt sy_heap].
      apply N.ltb_lt in Hoff', Hc. rewrite Hoff', Hc. reflexivity. }
    set (seg' := snd (NS.write_to h1)) in *.
    set (pre' := pre ++ heap_header (blen seg') 1 (blen pre + 32) ++ seg' ++ mid).
    assert (Hpre' : blen pre' = sa).
    { subst pre' sa. rewrite group_file_snod_addr, Hlen. reflexivity. }
    assert (Hb2 : blen pre' + 8 + 40 * 32 <= MaxInt64) by (rewrite Hpre'; subst sa; blia).
    pose proof (link_snod_commutes s (new_sym off child) pre' suf Hok Hsym Hm Hb2) as LS.
    change (abs_sym (new_sym off child)) with {| NS.e_off := off; NS.e_obj := child |} in LS.
    assert (EF : heap_file pre (mid ++ snod_bytes s 32 ++ suf) 1 seg' = pre' ++ snod_bytes s 32 ++ suf).
    { subst pre'. unfold heap_file. now rewrite <- !app_assoc. }
    destruct (NS.add_entry (NS.parse_snod 32 (map abs_sym (stn_entries s))) {| NS.e_off := off; NS.e_obj := child |}) as [n1|].
    + destruct LS as (s1 & H1 & H2 & H3 & H4). exists s1. repeat split; auto.
      unfold link_both, group_file. rewrite LH. cbn [obind]. rewrite EF, <- Hpre'.
      rewrite H4. f_equal. subst pre'. unfold heap_file. now rewrite <- !app_assoc.
    + destruct LS as [LS1 LS2]. split; [|exact LS2].
      unfold link_both, group_file. rewrite LH. cbn [obind]. rewrite EF, <- Hpre'. exact LS1.
  - unfold link_both, group_file. rewrite LH. reflexivity.
Qed.

Lemma placed_app_l (f r : list N) a b : placed f a b -> placed (f ++ r) a b.
Proof. intros (p & q & E & L). exists p, (q ++ r). split; [|exact L]. rewrite E, <- !app_assoc. reflexivity. Qed.
Lemma placed_app_r (p f : list N) a b : placed f a b -> placed (p ++ f) (blen p + a) b.
Proof. intros (p' & q & E & L). exists (p ++ p'), q. split; [now rewrite E, <- app_assoc | rewrite blen_app; blia]. Qed.

Lemma placed_pre_kept (pre rest rest' : list N) a b :
  placed pre a b -> placed (pre ++ rest) a b /\ placed (pre ++ rest') a b.
Proof. intros H. split; now apply placed_app_l. Qed.

Lemma group_file_mid (pre mid suf seg : list N) s a b :
  placed mid a b -> placed (group_file pre mid suf seg s) (blen pre + 32 + blen seg + a) b.
Proof.
  intros H. unfold group_file, heap_file.
  replace (blen pre + 32 + blen seg + a) with (blen pre + (blen (heap_header (blen seg) 1 (blen pre + 32)) + (blen seg + a)))
    by (rewrite blen_heap_header; blia).
  do 3 apply placed_app_r. now apply placed_app_l.
Qed.
Lemma group_file_suf (pre mid suf seg : list N) s a b :
  placed suf a b -> placed (group_file pre mid suf seg s) (blen pre + 32 + blen seg + blen mid + 1288 + a) b.
Proof.
  intros H. unfold group_file, heap_file.
  replace (blen pre + 32 + blen seg + blen mid + 1288 + a)
    with (blen pre + (blen (heap_header (blen seg) 1 (blen pre + 32)) + (blen seg + (blen mid + (blen (snod_bytes s 32) + a)))))
    by (rewrite blen_heap_header, snod_bytes_size; blia).
  now do 5 apply placed_app_r.
Qed.

(* everything else is untouched: a block placed before the heap, between heap and node, or behind the node is still there *)
Theorem group_file_others_kept (pre mid suf seg seg' : list N) s s1 a b :
  blen seg' = blen seg ->
  (placed pre a b -> placed (group_file pre mid suf seg' s1) a b) /\
  (placed mid a b -> placed (group_file pre mid suf seg s) (blen pre + 32 + blen seg + a) b /\
                     placed (group_file pre mid suf seg' s1) (blen pre + 32 + blen seg + a) b) /\
  (placed suf a b -> placed (group_file pre mid suf seg s) (blen pre + 32 + blen seg + blen mid + 1288 + a) b /\
                     placed (group_file pre mid suf seg' s1) (blen pre + 32 + blen seg + blen mid + 1288 + a) b).
Proof.
  intros Hlen. split; [|rewrite <- Hlen; split]; intros H.
  - now apply placed_app_l.
  - split; [rewrite Hlen|]; now apply group_file_mid.
  - split; [rewrite Hlen|]; now apply group_file_suf.
Qed.
