(* C05, node level: the writer's global heap collection encoder (Model/GHeap.v encode_collection, the transcription of
   global_heap_write.go encodeHeapCollection that C12 ties on every run) against the format SPECIFICATION decoder
   Spec/FormatNode.v spec_dec_gcol (III.E).

   For every well-formed collection builder (Proofs/GHeap.v wfc: the invariant of every reachable writer state) of at least
   4096 bytes the specification decoder returns the declared size and exactly the objects the builder holds; the only
   departure is the size field of the free-space object (listed: C05-gcol-free-size), present iff the collection has at
   least 16 free bytes.  Composed with the writer's invariant: after ANY history of WriteToGlobalHeap calls and other
   allocations followed by Flush, every collection on disk decodes that way and every written datum is an object of the
   collection its heap id names. *)
From HV Require Import Base.Prelude Base.Outcome Base.Bytes Spec.Parse Spec.Format Spec.FormatNode.
From HV Require Model.GHeap Proofs.GHeap.
Module MG := HV.Model.GHeap.
Module PG := HV.Proofs.GHeap.

Definition spec_obj (o : MG.gobj) : gobj_spec :=
  {| go_index := MG.o_index o; go_refcount := MG.o_ref o; go_data := MG.o_data o |}.

Definition gcol_tags (c : MG.coll) : list tag := if 16 <=? MG.c_free c then [T_gcol_free_size] else [].

Lemma up8_align8 n : up8 n = MG.align8 n.
Proof. unfold up8, MG.align8. destruct (n mod 8 =? 0) eqn:E; lia. Qed.

Lemma length_mzeros n : length (MG.zeros n) = N.to_nat n.
Proof. unfold MG.zeros. apply repeat_length. Qed.

Lemma all_zero_mzeros n : all_zero (MG.zeros n) = true.
Proof. unfold MG.zeros. induction (N.to_nat n); cbn [repeat all_zero forallb]; auto. Qed.

(* the free-space object (or the few bytes left when there is no room for one) ends the object list *)
Definition tail_res (tol : tolerance) (free : N) : outcome (list gobj_spec * list tag) :=
  if 16 <=? free then (tg <- dev tol T_gcol_free_size;; Ok ([], tg)) else Ok ([], []).

Lemma p_gobjs_tail tol free f seen :
  (1 <= f)%nat -> free < PG.W64 ->
  p_gobjs tol 8 f seen
    ((if 16 <=? free then le 2 0 ++ le 2 0 ++ [0; 0; 0; 0] ++ le 8 (free - 16) else [])
     ++ MG.zeros (if 16 <=? free then free - 16 else free)) = tail_res tol free.
Proof.
  intros Hf Hfree. unfold tail_res. destruct f as [|f]; [lia|]. cbn [p_gobjs]. change (8 + 8)%nat with 16%nat.
  destruct (16 <=? free) eqn:E; [apply N.leb_le in E | apply N.leb_gt in E].
  - rewrite <- !app_assoc, (proj2 (Nat.ltb_ge _ _)) by (rewrite !app_length, !length_le; cbn [length]; lia).
    do 2 parse p_u_le. change (0 :: 0 :: 0 :: 0 :: ?x) with (zeros 4 ++ x). parse p_zeros_app.
    parse p_u_le by (unfold PG.W64 in Hfree; lia). cbn [N.eqb].
    (* the size field is the space after the object's 16-byte header, where the specification counts the header in *)
    unfold blen. rewrite !app_length, !length_le, length_zeros, length_mzeros.
    now rewrite (proj2 (N.eqb_neq _ _)), (proj2 (N.eqb_eq _ _)) by lia.
  - cbn [app]. now rewrite (proj2 (Nat.ltb_lt _ _)) by (rewrite length_mzeros; lia).
Qed.

(* the objects of a builder, one after the other, then a tail [T] whose decoding does not depend on fuel or indices seen *)
Lemma p_gobjs_enc tol (T : bytes) (R : outcome (list gobj_spec * list tag)) :
  (forall f seen, (1 <= f)%nat -> p_gobjs tol 8 f seen T = R) ->
  forall objs k seen fuel,
  PG.objs_from k objs -> 0 < k -> k + N.of_nat (length objs) <= 65536 ->
  PG.total_of objs < PG.W64 ->
  (forall x, In x seen -> x < k) ->
  (length objs < fuel)%nat ->
  p_gobjs tol 8 fuel seen (flat_map MG.enc_obj objs ++ T) =
    ('(rest, tg) <- R;; Ok (map spec_obj objs ++ rest, tg)).
Proof.
  intros HT. induction objs as [|o objs IH]; intros k seen fuel Hf Hk Hn Ht Hseen Hfuel.
  - cbn [flat_map app map]. rewrite HT by (cbn [length] in Hfuel; lia).
    destruct R as [[rest tg]| |]; reflexivity.
  - destruct fuel as [|fuel]; [cbn [length] in Hfuel; lia|].
    cbn [PG.objs_from] in Hf. destruct Hf as (Hi & Hr & Hf).
    cbn [flat_map PG.total_of length map] in *.
    destruct o as [i r d]. cbn [MG.o_index MG.o_ref MG.o_data] in *. subst i r.
    rewrite (PG.enc_obj_unfold k 1 d). rewrite <- !app_assoc.
    pose proof (PG.obj_total_ge (MG.blen d)) as (Ho1 & Ho2 & _).
    assert (Hd : MG.blen d < PG.W64) by lia.
    set (pad := MG.zeros (MG.align8 (MG.blen d) - MG.blen d)).
    set (rest := flat_map MG.enc_obj objs ++ T).
    cbn [p_gobjs]. change (8 + 8)%nat with 16%nat.
    rewrite (proj2 (Nat.ltb_ge _ _)) by (rewrite !app_length, !length_le; cbn [length]; lia).
    do 2 parse p_u_le. change (0 :: 0 :: 0 :: 0 :: ?x) with (zeros 4 ++ x). parse p_zeros_app. parse p_u_le.
    rewrite (proj2 (N.eqb_neq k 0)), (existsb_fresh k seen) by (lia || apply Forall_forall, Hseen). cbn [negb]. parse guard_Ok.
    parse p_take_app by (unfold MG.blen; symmetry; apply Nat2N.id). rewrite up8_align8.
    parse p_take_app by (unfold pad; now rewrite length_mzeros).
    unfold rest. rewrite (IH (k + 1) (k :: seen) fuel); try assumption; try lia.
    + destruct R as [[rs tg]| |]; reflexivity.
    + intros x [<- | Hx]; [lia|]. specialize (Hseen x Hx). lia.
Qed.

Theorem spec_gcol_encoded tol c b :
  PG.wfc c -> 4096 <= MG.c_size c -> MG.encode_collection c = Some b ->
  spec_dec_gcol tol 8 b =
    (tg <- devif (16 <=? MG.c_free c) tol T_gcol_free_size;;
     Ok (MG.c_size c, map spec_obj (MG.c_objs c), tg, [])).
Proof.
  intros Hw Hsz He.
  destruct (PG.encode_wfc c Hw) as (He' & Hlen).
  assert (b = MG.coll_content c ++ MG.zeros (PG.tail_zeros c)) by congruence. subst b. clear He He'.
  pose proof (PG.wfc_bounds c Hw) as (Hfree & Htot & _ & Hcnt).
  destruct Hw as [[Hs Hu Hi Hn Hc Hm] Hl].
  rewrite PG.content_shape in *.
  set (body := flat_map MG.enc_obj (MG.c_objs c) ++ MG.enc_free c ++ MG.zeros (PG.tail_zeros c)) in *.
  assert (Hbody : length body = N.to_nat (MG.c_size c - 16)).
  { unfold MG.blen in Hlen. rewrite !app_length, length_le in Hlen. cbn [length MG.sig_gcol] in Hlen. lia. }
  rewrite <- !app_assoc.
  unfold spec_dec_gcol. change MG.sig_gcol with gcol_sig.
  parse p_expect_app. parse p_byte_cons. parse guard_Ok.
  change (0 :: 0 :: 0 :: ?x) with (zeros 3 ++ x). parse p_zeros_app. parse p_u_le by exact Hl.
  parse guard_Ok by (apply N.leb_le, Hsz). change (8 + N.of_nat 8) with 16. parse p_take_all by exact Hbody.
  unfold body at 2.
  rewrite (p_gobjs_enc tol (MG.enc_free c ++ MG.zeros (PG.tail_zeros c)) (tail_res tol (MG.c_free c))) with (k := 1).
  - unfold tail_res, devif. destruct (16 <=? MG.c_free c); cbn [obind]; [|now rewrite app_nil_r].
    destruct (dev tol T_gcol_free_size); cbn [obind]; [now rewrite app_nil_r | reflexivity | reflexivity].
  - intros f seen Hf1. unfold MG.enc_free, PG.tail_zeros. now apply p_gobjs_tail.
  - exact Hi.
  - lia.
  - lia.
  - exact Htot.
  - intros x [].
  - assert (Hb2 : N.of_nat (length (MG.c_objs c)) * 16 <= MG.c_size c - 16).
    { pose proof (PG.total_of_count (MG.c_objs c)). lia. }
    rewrite Hbody. lia.
Qed.

Corollary spec_gcol_tolerant c b :
  PG.wfc c -> 4096 <= MG.c_size c -> MG.encode_collection c = Some b ->
  spec_dec_gcol tolerant 8 b = Ok (MG.c_size c, map spec_obj (MG.c_objs c), gcol_tags c, []).
Proof.
  intros Hw Hsz He. rewrite (spec_gcol_encoded tolerant c b Hw Hsz He). unfold devif, gcol_tags, dev, tolerant.
  destruct (16 <=? MG.c_free c); reflexivity.
Qed.

(* strict accepts exactly when the tag set is empty *)
Corollary spec_gcol_strict c b :
  PG.wfc c -> 4096 <= MG.c_size c -> MG.encode_collection c = Some b ->
  spec_dec_gcol strict 8 b =
    match gcol_tags c with [] => Ok (MG.c_size c, map spec_obj (MG.c_objs c), [], []) | _ => Err end.
Proof.
  intros Hw Hsz He. rewrite (spec_gcol_encoded strict c b Hw Hsz He). unfold devif, gcol_tags, dev, strict.
  destruct (16 <=? MG.c_free c); reflexivity.
Qed.

(* the listed finding, universally: whenever a free-space object is written the strict decoder rejects the collection *)
Corollary gcol_free_size_refuted c b :
  PG.wfc c -> 4096 <= MG.c_size c -> MG.encode_collection c = Some b -> 16 <= MG.c_free c ->
  spec_dec_gcol strict 8 b = Err /\
  spec_dec_gcol tolerant 8 b = Ok (MG.c_size c, map spec_obj (MG.c_objs c), [T_gcol_free_size], []).
Proof.
  intros Hw Hsz He Hfree. rewrite (spec_gcol_strict c b Hw Hsz He), (spec_gcol_tolerant c b Hw Hsz He).
  unfold gcol_tags. replace (16 <=? MG.c_free c) with true by (symmetry; apply N.leb_le; exact Hfree). auto.
Qed.

Lemma encode_collection_len c b : MG.encode_collection c = Some b -> MG.blen b = MG.c_size c.
Proof.
  unfold MG.encode_collection. destruct (MG.blen (MG.coll_content c) <=? MG.c_size c) eqn:E; [|discriminate].
  apply N.leb_le in E. intros H.
  assert (Hb : b = MG.coll_content c ++ MG.zeros (MG.c_size c - MG.blen (MG.coll_content c))) by congruence.
  rewrite Hb, PG.blen_app, PG.blen_zeros. lia.
Qed.

Section History.
Variables minsz blk : N.
Hypothesis Hblk : 0 < blk.

(* every collection, open or written, has at least the minimum collection size *)
Definition big (st : MG.gstate) : Prop :=
  (forall c, MG.cur st = Some c -> minsz <= MG.c_size c) /\
  (forall a b, In (a, b) (MG.disk st) -> minsz <= MG.blen b).

Lemma new_size_ge tot : minsz <= MG.new_size minsz blk tot.
Proof.
  unfold MG.new_size. cbv zeta. destruct (minsz <? 16 + tot + 16) eqn:E; [|lia].
  set (needed := 16 + tot + 16) in *. nia.
Qed.

Lemma big_write st d st' id : big st -> MG.write_obj minsz blk st d = Some (st', id) -> big st'.
Proof.
  intros [Hc Hd]. unfold MG.write_obj.
  destruct (MG.cur st) as [c|] eqn:Ecur.
  - destruct (MG.has_space c (MG.obj_total (MG.blen d))); cbn [negb].
    + rewrite Ecur. unfold MG.add_object. intros H. inversion H; subst st' id. clear H.
      split; cbn [MG.cur MG.disk].
      * intros c0 E. inversion E; subst c0. cbn [MG.c_size]. now apply Hc.
      * exact Hd.
    + unfold MG.flush. rewrite Ecur. destruct (MG.encode_collection c) as [b|] eqn:Ee; [|discriminate].
      unfold MG.create_heap. cbn [MG.cur MG.eof MG.disk]. unfold MG.add_object.
      intros H. inversion H; subst st' id. clear H.
      split; cbn [MG.cur MG.disk].
      * intros c0 E. inversion E; subst c0. cbn [MG.c_size]. apply new_size_ge.
      * intros a b0 [E | Hin]; [|now apply (Hd a)].
        inversion E; subst a b0. rewrite (encode_collection_len c b Ee). now apply Hc.
  - unfold MG.flush. rewrite Ecur. unfold MG.create_heap. cbn [MG.cur MG.eof MG.disk]. unfold MG.add_object.
    intros H. inversion H; subst st' id. clear H.
    split; cbn [MG.cur MG.disk].
    + intros c0 E. inversion E; subst c0. cbn [MG.c_size]. apply new_size_ge.
    + exact Hd.
Qed.

Lemma big_run ops : forall st st' ids, big st -> MG.run minsz blk st ops = Some (st', ids) -> big st'.
Proof.
  induction ops as [|o r IH]; intros st st' ids Hb; cbn [MG.run].
  - intros H. inversion H; subst. exact Hb.
  - destruct o as [d | n].
    + destruct (MG.write_obj minsz blk st d) as [[st1 id]|] eqn:Ew; [|discriminate].
      destruct (MG.run minsz blk st1 r) as [[st2 ids2]|] eqn:Er; [|discriminate].
      intros H. inversion H; subst. eapply IH; [|exact Er]. eapply big_write; eauto.
    + intros H. eapply IH; [|exact H]. destruct Hb as [Hc Hd]. split; cbn [MG.cur MG.disk]; auto.
Qed.

Lemma big_flush st fin : big st -> MG.flush st = Some fin -> big fin.
Proof.
  intros [Hc Hd]. unfold MG.flush. destruct (MG.cur st) as [c|] eqn:Ecur.
  - destruct (MG.encode_collection c) as [b|] eqn:Ee; [|discriminate].
    intros H. inversion H; subst fin. split; cbn [MG.cur MG.disk].
    + exact Hc.
    + intros a b0 [E | Hin]; [|now apply (Hd a)].
      inversion E; subst a b0. rewrite (encode_collection_len c b Ee). now apply Hc.
  - intros H. inversion H; subst fin. split; [|exact Hd].
    intros c0 E. rewrite Ecur in E. discriminate.
Qed.
End History.

(* What the file holds after a history [ops] that ended in the state [fin] and issued the heap ids [ids]:
   (a) every collection on disk is the encoding of a well-formed builder, the specification decoder accepts it with that
       builder's size and objects and the tag set of gcol_tags, and the strict decoder accepts iff that set is empty;
   (b) every datum written is an object (index = the issued heap id's index, reference count 1, the data) of the decoded
       collection stored at the heap id's address. *)
Definition history_decodes ops fin ids : Prop :=
  (forall a b, In (a, b) (MG.disk fin) ->
     exists c, PG.wfc c /\ MG.c_addr c = a /\ MG.encode_collection c = Some b /\
       spec_dec_gcol tolerant 8 b = Ok (MG.c_size c, map spec_obj (MG.c_objs c), gcol_tags c, []) /\
       spec_dec_gcol strict 8 b =
         match gcol_tags c with [] => Ok (MG.c_size c, map spec_obj (MG.c_objs c), [], []) | _ => Err end) /\
  length ids = length (MG.writes ops) /\
  (forall i d, nth_error (MG.writes ops) i = Some d ->
     exists id b sz objs tg,
       nth_error ids i = Some id /\ In (MG.h_addr id, b) (MG.disk fin) /\
       spec_dec_gcol tolerant 8 b = Ok (sz, objs, tg, []) /\
       In {| go_index := MG.h_idx id; go_refcount := 1; go_data := d |} objs).

(* after ANY history of vlen writes and other allocations, then Flush (Close) *)
Theorem spec_gcol_history minsz blk e0 ops fin ids :
  PG.params_ok minsz blk -> 4096 <= minsz ->
  MG.run_close minsz blk e0 ops = Some (fin, ids) -> MG.eof fin < PG.W64 ->
  history_decodes ops fin ids.
Proof.
  intros Hp Hmin Hrun Hlim. unfold history_decodes, MG.run_close in Hrun |- *.
  destruct (PG.run_inv minsz blk Hp ops _ (PG.Inv_init minsz blk e0)) as (st & ids' & Hr & HI & _ & Hlen & _ & Hnth).
  rewrite Hr in Hrun.
  destruct (PG.flush_final minsz blk st HI) as (fin' & Hf & Heof & Hd & Hcl & Hon). rewrite Hf in Hrun.
  inversion Hrun; subst fin' ids'. clear Hrun.
  assert (Hbig : big minsz fin).
  { eapply big_flush; [|exact Hf]. eapply big_run; [| |exact Hr].
    - destruct Hp as (Hb & _). exact Hb.
    - split; cbn [MG.cur MG.disk]; [discriminate | intros a b []]. }
  assert (Hcoll : forall c b, PG.wfc0 c -> MG.encode_collection c = Some b -> In (MG.c_addr c, b) (MG.disk fin) ->
                    PG.wfc c /\ 4096 <= MG.c_size c).
  { intros c b Hw He Hin.
    destruct (PG.disk_ok_in _ _ _ _ Hd Hin) as (_ & Hb2).
    pose proof (encode_collection_len c b He) as Hb.
    destruct Hbig as (_ & Hbd). specialize (Hbd _ _ Hin).
    split; [split; [exact Hw | lia] | lia]. }
  split; [|split; [exact Hlen|]].
  - intros a b Hin. destruct (Hcl a b Hin) as (c & Hw & Ha & He). subst a.
    destruct (Hcoll c b Hw He Hin) as (Hwc & Hsz).
    exists c. split; [exact Hwc|]. split; [reflexivity|]. split; [exact He|]. split.
    + now apply spec_gcol_tolerant.
    + now apply spec_gcol_strict.
  - intros i d Hi. destruct (Hnth i d Hi) as (id & Hid & Hh).
    destruct (Hon id d Hh) as (c & b & Hw & Ha & He & Hin & Ho).
    destruct (Hcoll c b Hw He Hin) as (Hwc & Hsz).
    exists id, b, (MG.c_size c), (map spec_obj (MG.c_objs c)), (gcol_tags c).
    split; [exact Hid|]. split; [now rewrite <- Ha|]. split; [now apply spec_gcol_tolerant|].
    change {| go_index := MG.h_idx id; go_refcount := 1; go_data := d |} with (spec_obj (MG.mkobj (MG.h_idx id) 1 d)).
    now apply in_map.
Qed.

(* with the shipped parameters (minCollectionSize 4096, 4096-byte rounding) *)
Corollary spec_gcol_history_shipped e0 ops fin ids :
  MG.run_close 4096 4096 e0 ops = Some (fin, ids) -> MG.eof fin < PG.W64 ->
  history_decodes ops fin ids.
Proof. intros. eapply spec_gcol_history; eauto; [apply PG.params_shipped | lia]. Qed.

(* the hypotheses are satisfiable; both tag sets occur *)
(* one 3-byte object in a fresh 4096-byte collection: 4056 free bytes, the free-space object is written *)
Definition ex_coll_free : MG.coll := MG.mkcoll 2048 4096 [MG.mkobj 1 1 [97; 98; 99]] 2 40 4056.
(* a collection filled to the last byte (4080 bytes of data in one object): no free-space object, conformant *)
Definition ex_coll_full : MG.coll := MG.mkcoll 2048 4112 [MG.mkobj 1 1 (MG.zeros 4080)] 2 4112 0.

Lemma ex_coll_free_wfc : PG.wfc ex_coll_free /\ 4096 <= MG.c_size ex_coll_free /\ gcol_tags ex_coll_free = [T_gcol_free_size].
Proof.
  split; [|split; [cbn; lia | reflexivity]].
  split; [constructor|]; cbn; repeat split; try reflexivity; lia.
Qed.

Lemma ex_coll_full_wfc : PG.wfc ex_coll_full /\ 4096 <= MG.c_size ex_coll_full /\ gcol_tags ex_coll_full = [].
Proof.
  split; [|split; [cbn; lia | reflexivity]].
  split; [constructor|]; try (vm_compute; reflexivity); cbn [ex_coll_full MG.c_objs MG.c_next MG.c_size PG.objs_from MG.o_index MG.o_ref];
    repeat split; try reflexivity; unfold PG.W64; lia.
Qed.

Lemma gcol_examples :
  (exists b, MG.encode_collection ex_coll_free = Some b /\ spec_dec_gcol strict 8 b = Err /\
     spec_dec_gcol tolerant 8 b =
       Ok (4096, [{| go_index := 1; go_refcount := 1; go_data := [97; 98; 99] |}], [T_gcol_free_size], [])) /\
  (exists b, MG.encode_collection ex_coll_full = Some b /\
     spec_dec_gcol strict 8 b = Ok (4112, [{| go_index := 1; go_refcount := 1; go_data := MG.zeros 4080 |}], [], [])).
Proof.
  split.
  - destruct ex_coll_free_wfc as (Hw & Hs & Ht).
    destruct (PG.encode_wfc _ Hw) as (He & _). eexists. split; [exact He|].
    rewrite (spec_gcol_strict _ _ Hw Hs He), (spec_gcol_tolerant _ _ Hw Hs He), Ht. split; reflexivity.
  - destruct ex_coll_full_wfc as (Hw & Hs & Ht).
    destruct (PG.encode_wfc _ Hw) as (He & _). eexists. split; [exact He|].
    rewrite (spec_gcol_strict _ _ Hw Hs He), Ht. reflexivity.
Qed.
