(* C13: any number of resizes after a full write (no write in between), and resizes mixed with full writes.
   The chunk index still describes the extents of the last write; the reader places those chunks under the current
   extents (read_after_resize, Model/Chunk.v; read_after_resize_correct, Proofs/ChunkTiling.v).  That is the specified array (resize_arr folded over the
   requested extents) for every data exactly when no extent of the chain is below both the written and the final
   extent in some dimension (chain_covers); otherwise there is data on which it differs. *)
From HV Require Import Base.Prelude Model.Chunk Proofs.ChunkLists Proofs.ChunkSpec Proofs.ChunkCoords Proofs.ChunkTiling.
From HV Require Base.Bytes.

Local Open Scope N_scope.

Lemma last_in_or {A} (l : list A) d : l = [] \/ In (last l d) l.
Proof.
  induction l as [|a l IH]; [left; reflexivity|right].
  rewrite Bytes.last_cons. destruct l as [|b l]; [left; reflexivity|].
  destruct IH as [IH|IH]; [discriminate|]. right. rewrite Bytes.last_cons in IH.
  rewrite Bytes.last_cons. exact IH.
Qed.

Lemma not_Forall_witness {A} (P : A -> Prop) l :
  (forall x, P x \/ ~ P x) -> ~ Forall P l -> exists x, In x l /\ ~ P x.
Proof.
  intros Hdec. induction l as [|a l IH]; intros Hn.
  - exfalso. apply Hn. constructor.
  - destruct (Hdec a) as [Ha|Ha].
    + destruct IH as (x & Hx & Hp).
      * intros H. apply Hn. constructor; auto.
      * exists x. split; [right; exact Hx|exact Hp].
    + exists a. split; [left; reflexivity|exact Ha].
Qed.

Lemma forallb_false_in {A} (p : A -> bool) l x : In x l -> p x = false -> forallb p l = false.
Proof.
  intros Hin Hp. destruct (forallb p l) eqn:E; [|reflexivity].
  rewrite forallb_forall in E. rewrite (E x Hin) in Hp. discriminate.
Qed.

Lemma ext_le_decidable : forall a b, ext_le a b \/ ~ ext_le a b.
Proof.
  induction a as [|x a IH]; intros [|y b]; cbn [ext_le]; [left; exact I|right; intros []|right; intros []|].
  destruct (N.le_gt_cases x y) as [Hxy|Hxy]; [|right; intros [Hc _]; lia].
  destruct (IH b) as [H2|H2]; [left; split; auto|right; intros [_ Hc]; auto].
Qed.

Lemma in_extent_pmin : forall a b m ix,
  ext_le (pmin a b) m -> in_extent a ix = true -> in_extent b ix = true -> in_extent m ix = true.
Proof.
  unfold pmin. induction a as [|x a IH]; intros [|y b] [|z m] [|i ix] H Ha Hb;
    cbn [zipWith ext_le in_extent] in *; try discriminate; try contradiction; auto.
  destruct H as [H1 H2]. apply andb_true_iff in Ha as [Ha1 Ha2]. apply andb_true_iff in Hb as [Hb1 Hb2].
  apply andb_true_iff. split; [apply N.ltb_lt; apply N.ltb_lt in Ha1, Hb1; lia|]. eapply IH; eauto.
Qed.

Lemma in_extent_pmin_inv : forall a b ix,
  in_extent (pmin a b) ix = true -> in_extent a ix = true /\ in_extent b ix = true \/ length a <> length b.
Proof.
  unfold pmin. induction a as [|x a IH]; intros [|y b] ix H; cbn [zipWith in_extent length] in *;
    try (right; discriminate).
  - left. auto.
  - destruct ix as [|i ix]; [discriminate|]. apply andb_true_iff in H as [H1 H2].
    destruct (IH b ix H2) as [[E1 E2]|Hn]; [left|right; lia].
    rewrite E1, E2. apply N.ltb_lt in H1. split; apply andb_true_iff; split; auto; apply N.ltb_lt; lia.
Qed.

Lemma posl_pmin : forall a b, posl a -> posl b -> posl (pmin a b).
Proof.
  unfold pmin. induction a as [|x a IH]; intros [|y b] Ha Hb; cbn [zipWith]; try constructor.
  - inversion Ha; inversion Hb; subst. lia.
  - inversion Ha; inversion Hb; subst. apply IH; auto.
Qed.

Lemma length_pmin : forall a b, length a = length b -> length (pmin a b) = length a.
Proof. intros. now apply length_zipWith. Qed.

Lemma in_extent_origin a : posl a -> in_extent a (map (fun _ => 0) a) = true.
Proof.
  induction 1 as [|x a Hx _ IH]; [reflexivity|]. cbn [map in_extent]. rewrite IH.
  apply andb_true_iff. split; [apply N.ltb_lt; exact Hx|reflexivity].
Qed.

Lemma not_ext_le_witness : forall a b, length a = length b -> posl a -> ~ ext_le a b ->
  exists ix, in_extent a ix = true /\ in_extent b ix = false.
Proof.
  induction a as [|x a IH]; intros [|y b] Hl Hp Hn; try discriminate.
  - exfalso. apply Hn. exact I.
  - inversion Hp as [|? ? Hx Hpa]; subst. cbn [length] in Hl. destruct (N.le_gt_cases x y) as [Hle|Hgt].
    + destruct (IH b) as (ix & H1 & H2); auto.
      { intros H. apply Hn. split; auto. }
      exists (0 :: ix). cbn [in_extent]. rewrite H1, H2. split; [|apply andb_false_r].
      apply andb_true_iff. split; [apply N.ltb_lt; lia|reflexivity].
    + exists (y :: map (fun _ => 0) a). cbn [in_extent]. split.
      * apply andb_true_iff. split; [apply N.ltb_lt; lia|apply in_extent_origin; auto].
      * replace (y <? y) with false by (symmetry; apply N.ltb_irrefl). reflexivity.
Qed.

Section Resizes.
Variable esz : N.

Lemma get_elem_ext dims : forall a b, lenN a = vol dims esz -> lenN b = vol dims esz ->
  (forall ix, in_extent dims ix = true -> get_elem dims esz a ix = get_elem dims esz b ix) -> a = b.
Proof.
  induction dims as [|d ds IH]; intros a b Ha Hb H.
  - specialize (H [] eq_refl). cbn [get_elem] in H. rewrite vol_nil in *.
    rewrite !takeN_all in H by lia. exact H.
  - rewrite vol_cons in *.
    rewrite <- (concat_blocks (vol ds esz) d a Ha), <- (concat_blocks (vol ds esz) d b Hb).
    f_equal. apply map_ext_in. intros k Hk. apply in_rangeN in Hk.
    apply IH; try now apply (lenN_blk _ d).
    intros ix Hix. specialize (H (k :: ix)). cbn [in_extent get_elem] in H. apply H.
    apply andb_true_iff. split; [apply N.ltb_lt; exact Hk|exact Hix].
Qed.

Lemma resize_chain_cons old e r data :
  resize_chain old (e :: r) esz data = resize_chain e r esz (resize_arr old e esz data).
Proof. reflexivity. Qed.

Lemma fst_resize_chain : forall exts old data, fst (resize_chain old exts esz data) = last exts old.
Proof.
  induction exts as [|e r IH]; intros; [reflexivity|]. rewrite resize_chain_cons, IH, Bytes.last_cons. reflexivity.
Qed.

Lemma same_rank_tail (old e : list N) (r : list (list N)) :
  length e = length old -> Forall (fun x => length x = length old) r -> Forall (fun x => length x = length e) r.
Proof. intros He Hr. eapply Forall_impl; [|exact Hr]. intros x Hx. cbv beta in *. lia. Qed.

Lemma lenN_resize_chain : forall exts old data,
  Forall (fun e => length e = length old) exts -> lenN data = vol old esz ->
  lenN (snd (resize_chain old exts esz data)) = vol (last exts old) esz.
Proof.
  induction exts as [|e r IH]; intros old data Hl Hd; [exact Hd|].
  apply Forall_cons_iff in Hl as [He Hr]. rewrite resize_chain_cons, Bytes.last_cons.
  apply IH; [eapply same_rank_tail; eauto|apply lenN_resize_arr; auto].
Qed.

Lemma get_resize_chain : forall exts old data ix,
  Forall (fun e => length e = length old) exts -> lenN data = vol old esz ->
  in_extent (last exts old) ix = true ->
  get_elem (last exts old) esz (snd (resize_chain old exts esz data)) ix
  = if in_extent old ix && forallb (fun e => in_extent e ix) exts then get_elem old esz data ix else zerosN esz.
Proof.
  induction exts as [|e r IH]; intros old data ix Hl Hd Hin.
  - cbn [last] in Hin. cbn [last resize_chain fold_left snd forallb]. rewrite Hin. reflexivity.
  - apply Forall_cons_iff in Hl as [He Hr].
    rewrite Bytes.last_cons in *. rewrite resize_chain_cons.
    rewrite IH; auto; [|eapply same_rank_tail; eauto|apply lenN_resize_arr; auto].
    cbn [forallb]. destruct (in_extent e ix) eqn:Ee; cbn [andb]; [|rewrite andb_false_r; reflexivity].
    destruct (forallb (fun e0 => in_extent e0 ix) r); [|rewrite andb_false_r; reflexivity].
    rewrite get_resize_arr by auto. rewrite andb_true_r. reflexivity.
Qed.

Lemma last_same_rank (old : list N) exts :
  Forall (fun e => length e = length old) exts -> length (last exts old) = length old.
Proof.
  intros Hl. destruct (last_in_or exts old) as [->|Hin]; [reflexivity|].
  rewrite Forall_forall in Hl. apply Hl. exact Hin.
Qed.

Theorem read_after_resizes_correct old exts cdims data :
  shape_ok old cdims esz -> Forall (fun e => length e = length old) exts ->
  chain_covers old exts -> lenN data = vol old esz ->
  read_after_resize old (last exts old) cdims esz data = Ok (snd (resize_chain old exts esz data)).
Proof.
  intros Hs Hl Hc Hd.
  pose proof (last_same_rank old exts Hl) as Hll.
  rewrite read_after_resize_correct by auto. f_equal.
  apply (get_elem_ext (last exts old)).
  - apply lenN_resize_arr; auto.
  - apply lenN_resize_chain; auto.
  - intros ix Hix. rewrite get_resize_arr, get_resize_chain by auto.
    destruct (in_extent old ix) eqn:Eo; cbn [andb]; [|reflexivity].
    replace (forallb (fun e => in_extent e ix) exts) with true; [reflexivity|].
    symmetry. apply forallb_forall. intros m Hm. unfold chain_covers in Hc. rewrite Forall_forall in Hc.
    apply (in_extent_pmin old (last exts old) m ix); auto.
Qed.

Theorem read_after_resizes_tight old exts cdims :
  shape_ok old cdims esz -> Forall (fun e => length e = length old) exts -> Forall posl exts ->
  ~ chain_covers old exts ->
  exists data, lenN data = vol old esz /\
    read_after_resize old (last exts old) cdims esz data <> Ok (snd (resize_chain old exts esz data)).
Proof.
  intros Hs Hl Hpos Hn.
  pose proof Hs as (_ & _ & Hpo & _ & Hez).
  pose proof (last_same_rank old exts Hl) as Hll.
  destruct (not_Forall_witness _ exts (fun m => ext_le_decidable _ m) Hn) as (m & Hm & Hnm).
  assert (Hlm : length m = length old) by (rewrite Forall_forall in Hl; auto).
  assert (Hpl : posl (last exts old)).
  { destruct (last_in_or exts old) as [->|Hin]; [exact Hpo|]. rewrite Forall_forall in Hpos. auto. }
  destruct (not_ext_le_witness (pmin old (last exts old)) m) as (ix & Hi1 & Hi2); auto.
  { rewrite length_pmin; lia. }
  { apply posl_pmin; auto. }
  destruct (in_extent_pmin_inv _ _ _ Hi1) as [[Ho Hla]|Hx]; [|lia].
  set (data := repeat 1 (N.to_nat (vol old esz))).
  assert (Hd : lenN data = vol old esz) by (unfold data, lenN; rewrite repeat_length; lia).
  exists data. split; [exact Hd|].
  rewrite read_after_resize_correct by auto. intros E. injection E as E.
  apply (f_equal (fun a => get_elem (last exts old) esz a ix)) in E.
  rewrite get_resize_arr, get_resize_chain in E by auto.
  rewrite Ho, (forallb_false_in _ exts m Hm Hi2) in E. cbn [andb] in E.
  unfold data in E. rewrite get_elem_const in E by auto.
  unfold zerosN in E. destruct (N.to_nat esz) eqn:En; [lia|]. cbn [repeat] in E. discriminate.
Qed.

Definition run_lib (st : lib_state) (ops : list rop) : lib_state := fold_left (lib_step esz) ops st.
Definition run_spec (st : list N * bytes) (ops : list rop) : list N * bytes := fold_left (spec_step esz) ops st.

Lemma run_same_extents : forall ops (st : lib_state) sp,
  snd st = fst sp -> snd (run_lib st ops) = fst (run_spec sp ops).
Proof.
  induction ops as [|o r IH]; intros [[we wd] cur] [ce sd] H; cbn [snd fst] in H; subst; [reflexivity|].
  unfold run_lib, run_spec in *. cbn [fold_left]. apply IH.
  destruct o as [e|d]; cbn [lib_step spec_step fst snd].
  - destruct (Nat.eqb (length e) (length ce)); reflexivity.
  - destruct (lenN d =? vol ce esz); reflexivity.
Qed.

Lemma run_lib_resizes : forall exts we wd cur, Forall (fun e => length e = length cur) exts ->
  run_lib (we, wd, cur) (map RResize exts) = (we, wd, last exts cur).
Proof.
  induction exts as [|e r IH]; intros we wd cur Hl; [reflexivity|].
  apply Forall_cons_iff in Hl as [He Hr]. unfold run_lib in *. cbn [map fold_left lib_step].
  replace (Nat.eqb (length e) (length cur)) with true by lia.
  rewrite IH by (eapply same_rank_tail; eauto). rewrite Bytes.last_cons. reflexivity.
Qed.

Lemma run_spec_resizes : forall exts cur data, Forall (fun e => length e = length cur) exts ->
  run_spec (cur, data) (map RResize exts) = resize_chain cur exts esz data.
Proof.
  induction exts as [|e r IH]; intros cur data Hl; [reflexivity|].
  apply Forall_cons_iff in Hl as [He Hr]. unfold run_spec in *. cbn [map fold_left spec_step fst snd].
  replace (Nat.eqb (length e) (length cur)) with true by lia.
  rewrite IH by (eapply same_rank_tail; eauto). reflexivity.
Qed.

(* any history (resizes and writes, accepted or refused) that continues with a full write at extents w and then any
   covered chain of resizes: the library returns the specified array.  A full write resets the history: nothing
   before it matters. *)
Theorem read_after_ops_correct pre d exts cdims (st : lib_state) sp :
  snd st = fst sp ->
  let w := fst (run_spec sp pre) in
  shape_ok w cdims esz -> lenN d = vol w esz ->
  Forall (fun e => length e = length w) exts -> chain_covers w exts ->
  lib_read cdims esz (run_lib st (pre ++ RWrite d :: map RResize exts))
  = Ok (snd (run_spec sp (pre ++ RWrite d :: map RResize exts))).
Proof.
  intros Hst w Hs Hd Hl Hc. subst w.
  pose proof (run_same_extents pre st sp Hst) as Hw.
  assert (RL : forall s a b, run_lib s (a ++ b) = run_lib (run_lib s a) b) by (intros; apply fold_left_app).
  assert (RS : forall s a b, run_spec s (a ++ b) = run_spec (run_spec s a) b) by (intros; apply fold_left_app).
  rewrite RL, RS.
  remember (run_lib st pre) as sl eqn:El. remember (run_spec sp pre) as ss eqn:Es.
  destruct sl as [[we wd] cur]. destruct ss as [ce sd]. cbn [snd fst] in *. subst cur.
  change (run_lib (we, wd, ce) (RWrite d :: map RResize exts))
    with (run_lib (lib_step esz (we, wd, ce) (RWrite d)) (map RResize exts)).
  change (run_spec (ce, sd) (RWrite d :: map RResize exts))
    with (run_spec (spec_step esz (ce, sd) (RWrite d)) (map RResize exts)).
  cbn [lib_step spec_step fst snd].
  replace (lenN d =? vol ce esz) with true by lia.
  rewrite run_lib_resizes, run_spec_resizes by auto.
  cbn [lib_read]. apply read_after_resizes_correct; auto.
Qed.

End Resizes.

(* the hypotheses are satisfiable: grow then shrink in one dimension, shrink in the other, three resizes *)
Example read_after_resizes_example :
  let old := [4; 4] in let exts := [[6; 4]; [5; 3]; [3; 3]] in let cdims := [3; 2] in
  let data := rangeN 16 in
  shape_ok old cdims 1 /\ Forall (fun e => length e = length old) exts /\ chain_covers old exts /\
  lenN data = vol old 1 /\
  read_after_resize old (last exts old) cdims 1 data = Ok [0; 1; 2; 4; 5; 6; 8; 9; 10].
Proof.
  cbv zeta. split; [|split; [|split; [|split]]].
  - repeat split; try discriminate; repeat constructor.
  - repeat constructor.
  - unfold chain_covers. cbn [last pmin zipWith]. repeat constructor; cbn; lia.
  - reflexivity.
  - vm_compute. reflexivity.
Qed.

(* ... and a chain outside them: [8] -> [3] -> [7] *)
Example chain_not_covered : ~ chain_covers [8] [[3]; [7]].
Proof.
  unfold chain_covers. intros H. apply Forall_cons_iff in H as [H _]. cbn in H. destruct H as [H _]. lia.
Qed.
