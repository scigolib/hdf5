(* C05: the writer's superblock encoder (Model/CodecSuper.v enc_superblock, tied byte for byte to the Go code
   by C11) against the specification decoder Spec/Format.v spec_dec_superblock. *)
From HV Require Import Base.Prelude Base.Outcome Base.Bytes Base.Crc32 Spec.Lookup3 Spec.Parse Spec.Format
  Model.CodecSuper.

(* the writer's CRC (CodecSuper.crc32_ieee, transcribed from Go) is the CRC-32 of Base/Crc32.v *)
Lemma crc_bits_S n r : crc_bits (S n) r = crc_bits n (crc_bit r).
Proof. cbn [crc_bits]. unfold crc_bit, crc_poly. now rewrite N.bit0_odd. Qed.

Lemma crc32_update_eq bs r : CodecSuper.crc32_update r bs = Crc32.crc32_update r bs.
Proof.
  unfold CodecSuper.crc32_update, Crc32.crc32_update. revert r.
  induction bs as [|b bs IH]; intros r; cbn [fold_left]; auto.
  rewrite IH. f_equal. now rewrite !crc_bits_S.
Qed.

Lemma crc32_ieee_eq bs : crc32 bs = wrap32 (crc32_ieee bs).
Proof. unfold crc32, crc32_ieee, crc_ones. now rewrite crc32_update_eq. Qed.

Lemma crc32_ieee_mod bs : crc32_ieee bs mod 256 ^ N.of_nat 4 = crc32 bs.
Proof. symmetry. apply crc32_ieee_eq. Qed.

Definition logical_superblock (x : superblock) : superblock_spec :=
  if sp_version x =? 0 then
    {| sbs_version := 0; sbs_O := 8; sbs_L := 8; sbs_leafK := 4; sbs_intK := 16; sbs_istoreK := 32;
       sbs_flags := 0; sbs_base := sp_base x; sbs_ext := undef 8; sbs_eof := sp_eof x; sbs_driver := undef 8;
       sbs_root := sp_root x;
       sbs_root_entry := Some {| se_name_off := 0; se_obj := sp_root x; se_cache := 1;
                                 se_btree := sp_rootbtree x; se_heap := sp_rootheap x; se_link_off := 0 |} |}
  else
    {| sbs_version := sp_version x; sbs_O := 8; sbs_L := 8; sbs_leafK := 4; sbs_intK := 16; sbs_istoreK := 32;
       sbs_flags := 0; sbs_base := sp_base x;
       sbs_ext := (if sp_superext x =? 0 then undef 8 else sp_superext x);
       sbs_eof := sp_eof x; sbs_driver := undef 8; sbs_root := sp_root x; sbs_root_entry := None |}.

Definition superblock_covered (x : superblock) : bytes :=
  signature ++ [sp_version x; 8; 8; 0] ++ le 8 (sp_base x)
  ++ le 8 (if sp_superext x =? 0 then UNDEF else sp_superext x) ++ le 8 (sp_eof x) ++ le 8 (sp_root x).

Lemma u64_lt v : u64 v = true -> v < 256 ^ N.of_nat 8.
Proof. apply N.ltb_lt. Qed.

Lemma wf_superblock_fields x : wf_superblock x = true ->
  ((sp_version x = 0 \/ sp_version x = 2 \/ sp_version x = 3)) /\
  sp_base x < 256 ^ N.of_nat 8 /\ sp_root x < 256 ^ N.of_nat 8 /\ sp_superext x < 256 ^ N.of_nat 8 /\
  sp_rootbtree x < 256 ^ N.of_nat 8 /\ sp_rootheap x < 256 ^ N.of_nat 8 /\ sp_eof x < 256 ^ N.of_nat 8.
Proof.
  unfold wf_superblock, encok_superblock. intros H.
  repeat (apply andb_true_iff in H as [H ?]).
  repeat split; try (apply u64_lt; assumption).
  apply orb_true_iff in H as [H|H]; [apply orb_true_iff in H as [H|H]|]; apply N.eqb_eq in H; auto.
Qed.

(* version 0: the encoding is specification-conformant *)
Lemma spec_superblock_v0 tol x : wf_superblock x = true -> sp_version x = 0 ->
  spec_dec_superblock tol (enc_superblock x) = Ok (logical_superblock x, [], []).
Proof.
  intros W V. destruct (wf_superblock_fields x W) as (_ & Hb & Hr & He & Hbt & Hhp & Heof).
  unfold enc_superblock, logical_superblock, spec_dec_superblock. rewrite V. cbn [N.eqb].
  change signature with hdf5_sig. parse p_expect_app. do 8 parse p_byte_cons. cbn [orb].
  do 2 parse guard_Ok. do 2 parse p_u_le. parse guard_Ok. parse p_u_le. parse guard_Ok.
  cbn [N.eqb Pos.eqb]. rewrite obind_Ok.
  do 4 parse p_u_le. parse guard_Ok.
  unfold spec_dec_sym_entry. do 3 parse p_u_le. parse (p_zeros_app 4).
  parse p_take_all by (now rewrite app_length, !length_le). cbn [N.eqb Pos.eqb].
  parse p_u_le. now rewrite p_u_le_end.
Qed.

(* versions 2 and 3: everything but the checksum algorithm is specification-conformant; the stored checksum is
   the CRC-32 of the covered bytes where the specification demands their lookup3 hash *)
Lemma spec_superblock_v2 tol x : wf_superblock x = true -> sp_version x <> 0 ->
  spec_dec_superblock tol (enc_superblock x) =
    (tg <- check_sum tol T_sb_crc32 (superblock_covered x) (crc32 (superblock_covered x));;
     Ok (logical_superblock x, tg, [])).
Proof.
  intros W V. destruct (wf_superblock_fields x W) as (Hv & Hb & Hr & He & Hbt & Hhp & Heof).
  assert (Hext : (if sp_superext x =? 0 then UNDEF else sp_superext x) < 256 ^ N.of_nat 8)
    by now destruct (sp_superext x =? 0).
  unfold enc_superblock, logical_superblock. rewrite (proj2 (N.eqb_neq _ _) V). fold (superblock_covered x).
  set (ck := le 4 (crc32_ieee (superblock_covered x))).
  unfold spec_dec_superblock. set (bs := superblock_covered x ++ ck) at 2.
  unfold superblock_covered at 1. change signature with hdf5_sig. rewrite <- !app_assoc.
  parse p_expect_app. parse p_byte_cons.
  destruct Hv as [Hv|[Hv|Hv]]; [easy| |]; rewrite Hv; cbn [N.eqb Pos.eqb orb];
    do 3 parse p_byte_cons; do 2 parse guard_Ok; do 4 parse p_u_le;
    unfold bs, ck; rewrite consumed_app, <- (app_nil_r (le 4 _)), p_u_le_mod, obind_Ok, crc32_ieee_mod; reflexivity.
Qed.

(* what the strict decoder demands of a stored checksum: Jenkins lookup3 (hashlittle, initial value 0) of the covered bytes *)
Lemma check_sum_strict t covered stored tg :
  check_sum strict t covered stored = Ok tg -> stored = hashlittle covered 0 /\ tg = [].
Proof.
  unfold check_sum, spec_checksum. destruct (stored =? hashlittle covered 0) eqn:E.
  - intros H. inversion H. apply N.eqb_eq in E. auto.
  - destruct (stored =? crc32 covered); cbn [dev strict]; discriminate.
Qed.

(* a tolerated checksum is the CRC-32 (IEEE) of the covered bytes and differs from the specification's *)
Lemma check_sum_tolerated tol t covered stored :
  check_sum tol t covered stored = Ok [t] -> stored = crc32 covered /\ stored <> hashlittle covered 0.
Proof.
  unfold check_sum, spec_checksum. destruct (stored =? hashlittle covered 0) eqn:E; [discriminate|].
  destruct (stored =? crc32 covered) eqn:E2; [|discriminate].
  apply N.eqb_eq in E2. apply N.eqb_neq in E. auto.
Qed.

Lemma check_sum_of_crc tol t covered :
  check_sum tol t covered (crc32 covered) = if crc32 covered =? hashlittle covered 0 then Ok [] else dev tol t.
Proof. unfold check_sum, spec_checksum. rewrite N.eqb_refl. reflexivity. Qed.

Definition sb_witness : superblock :=
  {| sp_version := 2; sp_offsize := 8; sp_lensize := 8; sp_base := 0; sp_root := 0; sp_superext := 0;
     sp_rootbtree := 0; sp_rootheap := 0; sp_eof := 0 |}.

Lemma sb_crc32_refuted :
  wf_superblock sb_witness = true /\
  spec_dec_superblock strict (enc_superblock sb_witness) = Err /\
  spec_dec_superblock tolerant (enc_superblock sb_witness) = Ok (logical_superblock sb_witness, [T_sb_crc32], []).
Proof. repeat split; vm_compute; reflexivity. Qed.

(* versions 2/3 with the tolerant decoder: the deviation is exactly the checksum algorithm *)
Lemma spec_superblock_v2_tolerant x : wf_superblock x = true -> sp_version x <> 0 ->
  spec_dec_superblock tolerant (enc_superblock x) =
    Ok (logical_superblock x,
        if crc32 (superblock_covered x) =? hashlittle (superblock_covered x) 0 then [] else [T_sb_crc32], []).
Proof.
  intros W V. rewrite spec_superblock_v2, check_sum_of_crc by assumption.
  now destruct (crc32 (superblock_covered x) =? hashlittle (superblock_covered x) 0).
Qed.

Lemma spec_superblock_v2_strict x : wf_superblock x = true -> sp_version x <> 0 ->
  spec_dec_superblock strict (enc_superblock x) =
    if crc32 (superblock_covered x) =? hashlittle (superblock_covered x) 0 then Ok (logical_superblock x, [], []) else Err.
Proof.
  intros W V. rewrite spec_superblock_v2, check_sum_of_crc by assumption.
  now destruct (crc32 (superblock_covered x) =? hashlittle (superblock_covered x) 0).
Qed.
