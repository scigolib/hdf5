(* C18 - the discipline is neither vacuous nor trivially true: a program that follows it (and runs to
   completion), one that does not (a race is reachable), and the same for access tables. *)
From HV Require Import Base.Prelude Model.Conc Proofs.Conc.
From Coq Require Import Arith.
Local Open Scope nat_scope.

Lemma run_sched_reachable s0 sch : forall s s', reachable s0 s -> run_sched s sch = Some s' -> reachable s0 s'.
Proof.
  induction sch as [|i sch IH]; intros s s' Hr H; cbn [run_sched] in H.
  - inversion H; subst; exact Hr.
  - destruct (step_fn s i) as [s1|] eqn:E; [|discriminate]. eapply IH; [|exact H]. econstructor; eauto.
Qed.

Lemma race_witness s i j thi thj :
  i <> j -> nth_error (s_pool s) i = Some thi -> nth_error (s_pool s) j = Some thj ->
  race_pairb thi thj = true -> race s.
Proof.
  intros Hij Hi Hj Hb. unfold race_pairb in Hb.
  destruct (next_access thi) as [[x k1]|] eqn:Ni; [|discriminate].
  destruct (next_access thj) as [[y k2]|] eqn:Nj; [|discriminate].
  apply andb_true_iff in Hb. destruct Hb as [Hx Hc]. apply N.eqb_eq in Hx. subst y.
  exists i, j, thi, thj, x, k1, k2. repeat split; auto.
Qed.

Lemma race_after_sched s0 sch i j s thi thj :
  run_sched s0 sch = Some s -> i <> j -> nth_error (s_pool s) i = Some thi -> nth_error (s_pool s) j = Some thj ->
  race_pairb thi thj = true -> exists s, reachable s0 s /\ race s.
Proof.
  intros Hrun Hij Hi Hj Hb. exists s. split.
  - eapply run_sched_reachable; [constructor | exact Hrun].
  - eapply race_witness; eauto.
Qed.

(* location 1 protected by mutex 0; location 2 only touched by the thread labelled 1; location 3 atomic *)
Definition ex_P : pmap := fun x =>
  if N.eqb x 1 then Some (PLock 0%N) else if N.eqb x 2 then Some (PConfined 1)
  else if N.eqb x 3 then Some PAtomic else None.

Definition ex_good : list (bool * nat * list action) :=
  [ (true, 0, [ALock 0%N; AWrite 1%N; AUnlock 0%N; AAtomic 3%N; ASpawn 2]);
    (true, 1, [ARLock 0%N; ARead 1%N; ARUnlock 0%N; AWrite 2%N; AAtomic 3%N]);
    (false, 2, [ALock 0%N; ARead 1%N; AWrite 1%N; AUnlock 0%N]) ].

Lemma ex_good_well_locked : well_locked ex_P ex_good.
Proof.
  split; [|split].
  - intros run lab p Hin. cbn in Hin.
    destruct Hin as [H|[H|[H|[]]]]; inversion H; subst; vm_compute; reflexivity.
  - intros x t _. apply NoDup_unique_label. exact (seq_NoDup 3 0).
  - intros x ip ic Hp. unfold ex_P in Hp.
    destruct (N.eqb x 1); [discriminate|]. destruct (N.eqb x 2); [discriminate|].
    destruct (N.eqb x 3); discriminate.
Qed.

Theorem ex_good_race_free : forall s, reachable (init_state ex_good) s -> ~ race s.
Proof. apply (lockset_sound ex_P). exact ex_good_well_locked. Qed.

(* ... and race freedom is not due to the program being stuck: one schedule runs every thread to the end *)
Theorem ex_good_runs : exists s,
  run_sched (init_state ex_good) [0;0;0;1;1;1;0;0;2;2;1;2;2;1] = Some s /\
  forallb (fun th => match t_prog th with [] => true | _ => false end) (s_pool s) = true /\ s_panic s = false.
Proof. eexists. split; [vm_compute; reflexivity|]. split; reflexivity. Qed.

(* the reader forgets the lock *)
Definition ex_bad : list (bool * nat * list action) :=
  [ (true, 0, [ALock 0%N; AWrite 1%N; AUnlock 0%N]);
    (true, 1, [ARead 1%N]) ].

Theorem ex_bad_race_reachable : exists s, reachable (init_state ex_bad) s /\ race s.
Proof. eapply (race_after_sched _ [0] 0 1); [vm_compute; reflexivity | discriminate | reflexivity..]. Qed.

Theorem ex_bad_not_well_locked : forall P, ~ well_locked P ex_bad.
Proof.
  intros P Hwl. destruct ex_bad_race_reachable as [s [Hr Hrace]].
  exact (lockset_sound P ex_bad Hwl s Hr Hrace).
Qed.

(* the constructor pattern: thread 0 initialises location 7 without any lock, then starts thread 1
   (go f()), which from then on is the only one to touch it; thread 2 never does *)
Definition ex_hb_P : pmap := fun x => if N.eqb x 7 then Some (PHandoff 0 1) else None.
Definition ex_hb_good : list (bool * nat * list action) :=
  [ (true, 0, [AWrite 7%N; ARead 7%N; ASpawn 1; ASkip]);
    (false, 1, [ARead 7%N; AWrite 7%N]);
    (true, 2, [ASkip]) ].

Lemma ex_hb_good_well_locked : well_locked ex_hb_P ex_hb_good.
Proof.
  split; [|split].
  - intros run lab p Hin. cbn in Hin.
    destruct Hin as [H|[H|[H|[]]]]; inversion H; subst; vm_compute; reflexivity.
  - intros x t Hp. unfold ex_hb_P in Hp. destruct (N.eqb x 7); discriminate.
  - intros x ip ic Hp. unfold ex_hb_P in Hp. destruct (N.eqb x 7) eqn:E; [|discriminate].
    apply N.eqb_eq in E. inversion Hp; subst. vm_compute. reflexivity.
Qed.

Theorem ex_hb_good_race_free : forall s, reachable (init_state ex_hb_good) s -> ~ race s.
Proof. apply (lockset_sound ex_hb_P). exact ex_hb_good_well_locked. Qed.

(* the same with one more write by the parent AFTER the go statement: rejected, and it does race *)
Definition ex_hb_bad : list (bool * nat * list action) :=
  [ (true, 0, [AWrite 7%N; ASpawn 1; AWrite 7%N]);
    (false, 1, [ARead 7%N]) ].

Theorem ex_hb_bad_rejected : handoff_ok 7%N 0 1 ex_hb_bad = false.
Proof. vm_compute. reflexivity. Qed.

Theorem ex_hb_bad_races : exists s, reachable (init_state ex_hb_bad) s /\ race s.
Proof. eapply (race_after_sched _ [0; 0] 0 1); [vm_compute; reflexivity | discriminate | reflexivity..]. Qed.

(* role 1 = foreground API, role 2 = a background loop; mutex 0 *)
Definition ex_table_good : table :=
  [ mkA 1%N KW 0 [] [];                 (* constructor initialises the field *)
    mkA 1%N KW 1 [0%N] [];              (* foreground writes under the lock *)
    mkA 1%N KR 2 [] [0%N];              (* background reads under the read lock *)
    mkA 2%N KR 1 [] []; mkA 2%N KR 2 [] [];   (* never written after construction *)
    mkA 3%N KA 1 [] []; mkA 3%N KA 2 [] [] ]. (* atomic counter *)

Definition ex_table_bad : table :=
  [ mkA 1%N KW 1 [0%N] []; mkA 1%N KW 2 [] [] ].   (* the background loop writes without the lock *)

Theorem ex_table_good_ok : locktable_ok (fun _ => false) ex_table_good = true.
Proof. vm_compute. reflexivity. Qed.

Theorem ex_table_good_race_free ths :
  conforms (fun _ => false) ex_table_good ths -> forall s, reachable (init_state ths) s -> ~ race s.
Proof. apply table_sound. exact ex_table_good_ok. Qed.

Theorem ex_table_bad_rejected : locktable_ok (fun _ => false) ex_table_bad = false.
Proof. vm_compute. reflexivity. Qed.

(* the rejected table really describes a racy program: its canonical program reaches a race *)
Theorem ex_table_bad_races : exists s, reachable (init_state (program_of ex_table_bad)) s /\ race s.
Proof. eapply (race_after_sched _ [0] 0 1); [vm_compute; reflexivity | discriminate | reflexivity..]. Qed.

(* let thread i run alone until `stop` holds of it *)
Fixpoint advance (stop : thread -> bool) (i : nat) (fuel : nat) (s : state) : option state :=
  match nth_error (s_pool s) i with
  | None => None
  | Some th =>
      if stop th then Some s else
      match fuel with
      | O => None
      | S f => match step_fn s i with Some s' => advance stop i f s' | None => None end
      end
  end.

Lemma advance_reachable s0 stop i fuel : forall s s',
  reachable s0 s -> advance stop i fuel s = Some s' -> reachable s0 s'.
Proof.
  induction fuel as [|f IH]; intros s s' Hr H; cbn [advance] in H;
    destruct (nth_error (s_pool s) i) as [th|]; try discriminate;
    destruct (stop th); try (inversion H; subst; exact Hr); try discriminate.
  destruct (step_fn s i) as [s1|] eqn:E; [|discriminate].
  eapply IH; [|exact H]. econstructor; eauto.
Qed.

Definition at_access (x : N) (k : option akind) (th : thread) : bool :=
  match next_access th with
  | Some (y, k') => N.eqb x y && match k with None => true | Some k0 => akind_eqb k0 k' end
  | None => false
  end.

(* thread i runs alone to a write of x, then thread j runs alone to any access of x: if both succeed the
   resulting state is a race *)
Definition race_by_running (x : N) (i j : nat) (fuel : nat) (s0 : state) : bool :=
  match advance (at_access x (Some KW)) i fuel s0 with
  | Some s1 =>
      match advance (at_access x None) j fuel s1 with
      | Some s2 => match nth_error (s_pool s2) i, nth_error (s_pool s2) j with
                   | Some thi, Some thj => negb (Nat.eqb i j) && race_pairb thi thj
                   | _, _ => false end
      | None => false
      end
  | None => false
  end.

Lemma race_by_running_sound x i j fuel s0 :
  race_by_running x i j fuel s0 = true -> exists s, reachable s0 s /\ race s.
Proof.
  unfold race_by_running.
  destruct (advance (at_access x (Some KW)) i fuel s0) as [s1|] eqn:E1; [|discriminate].
  destruct (advance (at_access x None) j fuel s1) as [s2|] eqn:E2; [|discriminate].
  destruct (nth_error (s_pool s2) i) as [thi|] eqn:Hi; [|discriminate].
  destruct (nth_error (s_pool s2) j) as [thj|] eqn:Hj; [|discriminate].
  intros H. apply andb_true_iff in H. destruct H as [Hne Hb].
  apply negb_true_iff in Hne. apply Nat.eqb_neq in Hne.
  exists s2. split.
  - eapply advance_reachable; [|exact E2]. eapply advance_reachable; [constructor | exact E1].
  - eapply race_witness; eauto.
Qed.
