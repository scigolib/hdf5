(* C02 composition, part 5: one attribute call of the composed model (Model/AttrCompose.v: dispatch + detailed
   B-tree v2 + detailed fractal heap, both re-read from and written back to bytes on every call) is simulated by
   one call of the abstract model (Model/Attr.v); hence every history gives the same answers and the same
   listing.  No hypothesis on the name hash: the simulation holds with or without collisions. *)
From HV Require Import Base.Prelude Model.Attr Model.AttrCompose Proofs.AttrBase Proofs.AttrDense.
From HV Require Import Proofs.AttrComposeIdx Proofs.AttrComposeHeap Proofs.AttrComposeInv Proofs.AttrComposeBt.
From HV Require Model.BT2 Proofs.BT2 Model.FHeap Proofs.FHeap.

Section Main.
Variable P : params.
Variable enc : attr -> bytes.
Variables rebalance delay : bool.
Variable pick : FHeap.heap -> bytes -> nat.
Hypothesis PM : params_match P.
Hypothesis enc_len : forall a sz, encode_attr a = EncOk sz -> FHeap.len (enc a) = sz.

Notation HSim := (HSim enc).
Notation jh := BT2.jenkins.

(* the bytes of the two regions load into an index / a heap that stand for the abstract (ix, hp) *)
Definition DSim (bf : BT2.file) (bn ba : N) (hfs : FHeap.fstate) (ha : N) (ix : idx) (hp : heap) : Prop :=
  ha = 2048 /\ ba <> 0 /\
  exists s h,
    BT2.load_from OSZ (BT2.new_bt NODE) bf ba = BT2.LOk s /\ ISim s ix /\ WInv bf bn s /\ BT2.loaded_hdr s = ba /\
    FHeap.load BLOCK (FHeap.f_bytes hfs) 2048 = FHeap.Ok h /\ HSim h hfs hp /\
    (forall id a, id_live hp id a -> FHeap.core_read (FHeap.f_bytes hfs) 2048 (id7 id) = FHeap.Ok (enc a)) /\
    DInv ix hp.

Definition Sim (cst : cstate) (st : state) : Prop :=
  match cst, st with
  | CCompact l, Compact l' => l = l'
  | CDense bf bn ba hfs ha, Dense ix hp => DSim bf bn ba hfs ha ix hp
  | _, _ => False
  end.

Definition Agree {A} (x : cstate * A) (y : state * A) : Prop := snd x = snd y /\ Sim (fst x) (fst y).

Lemma keys_below_sim h fs hp : HSim h fs hp -> keys_below hp.
Proof. intros HS k HI. eapply (HSim_key_lt enc enc_len); eassumption. Qed.

Lemma idxcap bf bn s : WInv bf bn s -> p_idxcap P = BT2.max_records (BT2.node_size s).
Proof. intro W. rewrite (WInv_node _ _ _ W). apply PM. Qed.

Lemma ovf_refused : p_ovf_err P = true.
Proof. apply PM. Qed.

Lemma DSim_stored bf' bn' ba bt s' h fs' ix hp :
  ISim bt ix -> BT2.load_from OSZ (BT2.new_bt NODE) bf' ba = BT2.LOk s' -> BT2.recs s' = BT2.recs bt ->
  WInv bf' bn' s' -> BT2.loaded_hdr s' = ba -> ba <> 0 ->
  FHeap.load BLOCK (FHeap.f_bytes fs') 2048 = FHeap.Ok (FHeap.reloaded BLOCK h) -> HSim (FHeap.reloaded BLOCK h) fs' hp ->
  (forall id a, id_live hp id a -> FHeap.core_read (FHeap.f_bytes fs') 2048 (id7 id) = FHeap.Ok (enc a)) ->
  DInv ix hp -> DSim bf' bn' ba fs' 2048 ix hp.
Proof.
  intros [E F] Hlo Hr HW' Hl' Hz Hld HH' Hcr HD. split; [reflexivity|]. split; [exact Hz|].
  exists s', (FHeap.reloaded BLOCK h). split; [exact Hlo|]. split; [split; [rewrite Hr; exact E | exact F]|]. tauto.
Qed.

Lemma c_store_ok bf bn ba hfs bt h ix hp :
  ISim bt ix -> WInv bf bn bt -> BT2.loaded_hdr bt = ba -> ba <> 0 -> HSim h hfs hp -> DInv ix hp ->
  Agree (c_store bf bn ba hfs 2048 bt h) (Dense ix hp, ROk).
Proof.
  intros HI HW Hl Hz HH HD.
  destruct (store_load_sim enc h hfs hp HH) as (fs' & Hst & Hld & HH' & Hcr).
  destruct (bt_store bf bn ba bt HW Hl Hz) as (f' & Hw & s' & Hlo & Hr & HW' & Hl').
  unfold c_store. rewrite Hst, Hw. split; [reflexivity|]. eapply DSim_stored; eassumption.
Qed.

Lemma c_store_full bf bn ba hfs ha bt h : FHeap.h_ind h <> None ->
  c_store bf bn ba hfs ha bt h = (CDense bf bn ba hfs ha, RErr).
Proof. intro H. unfold c_store. rewrite (store_ind h hfs H). reflexivity. Qed.

Lemma heap_add_sim h fs hp a sz pk : HSim h fs hp -> encode_attr a = EncOk sz ->
  match heap_insert P hp a with
  | HErr => FHeap.insert FHeap.cap_new h (enc a) pk = (h, FHeap.Err)
  | HFull => FHeap.h_ind (fst (FHeap.insert FHeap.cap_new h (enc a) pk)) <> None
  | HOk hp' id =>
    exists h', FHeap.insert FHeap.cap_new h (enc a) pk = (h', FHeap.Ok (id8 id)) /\ HSim h' fs hp' /\ id_ok id /\
               hp' = mkHeap (hobjs hp ++ [(hfree hp, a)]) (hfree hp + msg_size a) /\ id = (hfree hp, msg_size a) /\
               hfree hp < 65536
  end.
Proof.
  intros HH He. destruct (heap_insert P hp a) as [hp' id| |] eqn:Hi.
  - destruct (insert_sim_ok enc enc_len P PM h fs hp a sz hp' id pk HH He Hi) as (h' & Hins & HH' & Hok & Eid & Eo & Ef).
    exists h'. rewrite (msg_size_enc _ _ He). destruct hp' as [o f]. cbn [hobjs hfree] in Eo, Ef. subst.
    pose proof (HSim_hfree _ _ _ _ HH). split; [exact Hins|]. split; [exact HH'|]. split; [exact Hok|]. repeat split. lia.
  - eapply (insert_sim_err enc enc_len P PM); eassumption.
  - eapply (insert_sim_full enc enc_len P); eassumption.
Qed.

Lemma add_sim bf bn bt h fs ix hp a sz pk :
  ISim bt ix -> WInv bf bn bt -> HSim h fs hp -> DInv ix hp -> encode_attr a = EncOk sz ->
  match heap_insert P hp a with
  | HErr => FHeap.insert FHeap.cap_new h (enc a) pk = (h, FHeap.Err)
  | HFull => FHeap.h_ind (fst (FHeap.insert FHeap.cap_new h (enc a) pk)) <> None
  | HOk hp' id =>
    exists h', FHeap.insert FHeap.cap_new h (enc a) pk = (h', FHeap.Ok (id8 id)) /\ HSim h' fs hp' /\
      match idx_insert P (jh (aname a), id) ix with
      | None => BT2.insert_record bt (aname a) (unle (id8 id)) = (bt, false)
      | Some ix' => exists bt', BT2.insert_record bt (aname a) (unle (id8 id)) = (bt', true) /\
                      ISim bt' ix' /\ WInv bf bn bt' /\ BT2.loaded_hdr bt' = BT2.loaded_hdr bt /\ DInv ix' hp'
      end
  end.
Proof.
  intros HI HW HH HD He. pose proof (heap_add_sim h fs hp a sz pk HH He) as S.
  destruct (heap_insert P hp a) as [hp' id| |]; [|exact S|exact S].
  destruct S as (h' & Hins & HH' & Hok & -> & -> & Hf). exists h'. split; [exact Hins|]. split; [exact HH'|].
  pose proof (insert_sim P bt ix (aname a) _ HI Hok (idxcap _ _ _ HW)) as S.
  destruct (idx_insert P _ ix) as [ix'|] eqn:Ei; [|exact S].
  destruct S as (bt' & Hb & HI' & _). exists bt'. split; [exact Hb|]. split; [exact HI'|].
  destruct (winv_insert bf bn bt (aname a) (unle (id8 (hfree hp, msg_size a))) HW) as [W' L']. rewrite Hb in W', L'.
  split; [exact W'|]. split; [exact L'|].
  eapply dinv_insert; [exact HD | eapply keys_below_sim; exact HH | exact Hf | exact Ei].
Qed.

Definition LoopInv (bt : BT2.bt2) (h : FHeap.heap) (ix : idx) (hp : heap) : Prop :=
  ISim bt ix /\ WInv [] 64 bt /\ HSim h FHeap.fs0 hp /\ DInv ix hp.

Lemma add_all_ind : forall l seen bt h, FHeap.h_ind h <> None ->
  match c_add_all enc pick seen bt h l with None => True | Some (_, h') => FHeap.h_ind h' <> None end.
Proof.
  induction l as [|a r IH]; intros seen bt h Hi; cbn [c_add_all]; [exact Hi|].
  unfold c_add. destruct (aname a); [exact I|]. destruct (existsb _ _); [exact I|].
  destruct (encode_attr a); [|exact I].
  pose proof (insert_ind FHeap.cap_new h (enc a) (pick h (enc a)) Hi) as Hi'.
  destruct (FHeap.insert FHeap.cap_new h (enc a) (pick h (enc a))) as [h1 [id|]]; [|exact I]. cbn [fst] in Hi'.
  destruct (negb _); [exact I|]. destruct (BT2.insert_record _ _ _) as [bt' [|]]; [|exact I].
  apply IH. exact Hi'.
Qed.

Lemma add_all_sim : forall l seen bt h ix hp, LoopInv bt h ix hp ->
  match daw_add_all jh P seen ix hp l with
  | TOk ix' hp' => exists bt' h', c_add_all enc pick seen bt h l = Some (bt', h') /\ LoopInv bt' h' ix' hp'
  | TErr => c_add_all enc pick seen bt h l = None
  | TFull => match c_add_all enc pick seen bt h l with None => True | Some (_, h') => FHeap.h_ind h' <> None end
  end.
Proof.
  induction l as [|a r IH]; intros seen bt h ix hp L; cbn [daw_add_all c_add_all].
  - exists bt, h. split; [reflexivity | exact L].
  - destruct L as (HI & HW & HH & HD). unfold c_add.
    destruct (aname a) as [|c0 nm] eqn:En; [reflexivity|]. rewrite <- En.
    destruct (existsb (bytes_eqb (aname a)) seen); [reflexivity|].
    destruct (encode_attr a) as [sz|] eqn:He; [|reflexivity].
    pose proof (add_sim [] 64 bt h FHeap.fs0 ix hp a sz (pick h (enc a)) HI HW HH HD He) as S.
    destruct (heap_insert P hp a) as [hp' id| |].
    + destruct S as (h' & -> & HH' & S). replace (FHeap.len (id8 id)) with 8 by reflexivity. cbn [N.eqb Pos.eqb negb].
      destruct (idx_insert P (jh (aname a), id) ix) as [ix'|].
      * destruct S as (bt' & -> & HI' & HW' & _ & HD'). apply IH. split; [exact HI'|]. split; [exact HW'|]. split; [exact HH' | exact HD'].
      * rewrite S. reflexivity.
    + rewrite S. reflexivity.
    + destruct (FHeap.insert FHeap.cap_new h (enc a) (pick h (enc a))) as [h1 [id|]]; [|exact I]. cbn [fst] in S.
      destruct (negb _); [exact I|]. destruct (BT2.insert_record _ _ _) as [bt' [|]]; [|exact I].
      apply add_all_ind. exact S.
Qed.

Lemma LoopInv_init : LoopInv (BT2.new_bt NODE) (FHeap.new_heap BLOCK) [] heap_empty.
Proof. split; [apply ISim_new|]. split; [apply WInv_new|]. split; [apply HSim_new | apply DInv_empty]. Qed.

Lemma transition_sim attrs a : Agree (c_transition P enc pick attrs a) (transition jh P attrs a).
Proof.
  assert (Same : Agree (CCompact attrs, RErr) (Compact attrs, RErr)) by (split; reflexivity).
  unfold c_transition, transition.
  pose proof (add_all_sim (attrs ++ [a]) [] _ _ _ _ LoopInv_init) as S.
  destruct (daw_add_all jh P [] [] heap_empty (attrs ++ [a])) as [ix hp| |].
  - destruct S as (bt' & h' & -> & HI & HW & HH & HD).
    destruct (p_limit P <? p_base P + (4 + p_info P)); [exact Same|].
    destruct (store_load_sim enc h' FHeap.fs0 hp HH) as (fs' & Hst & Hld & HH' & Hcr). rewrite Hst.
    destruct (bt_store_fresh bt' HW) as (f' & nx & ba & Hw & Hz & s' & Hlo & Hr & HW' & Hl'). rewrite Hw.
    split; [reflexivity|]. eapply DSim_stored; eassumption.
  - rewrite S. exact Same.
  - rewrite ovf_refused.
    destruct (c_add_all enc pick [] (BT2.new_bt NODE) (FHeap.new_heap BLOCK) (attrs ++ [a])) as [[bt' h']|]; [|exact Same].
    destruct (p_limit P <? p_base P + (4 + p_info P)); [exact Same|].
    rewrite (store_ind h' FHeap.fs0 S). exact Same.
Qed.

Lemma write_dense_sim bf bn ba hfs ha ix hp a : DSim bf bn ba hfs ha ix hp ->
  Agree (c_write_dense enc pick bf bn ba hfs ha a) (write_dense jh P ix hp a).
Proof.
  intros D. pose proof D as (-> & Hz & s & h & Hlo & HI & HW & Hl & Hld & HH & Hcr & HD).
  assert (Same : Agree (CDense bf bn ba hfs 2048, RErr) (Dense ix hp, RErr)) by (split; [reflexivity | exact D]).
  unfold c_write_dense, write_dense, c_load. rewrite Hld, Hlo.
  destruct (encode_attr a) as [sz|] eqn:He; [|exact Same].
  rewrite (search_sim s ix (aname a) HI).
  destruct (idx_search (jh (aname a)) ix) as [id|] eqn:Es; cbn [option_map].
  - (* the name hash is in the index: ModifyDenseAttribute *)
    destruct (dinv_found ix hp _ id HD Es) as [old L]. pose proof L as (G & Sz & Lt). rewrite G.
    unfold c_modify. destruct (aname a) as [|c0 nm] eqn:En; [destruct (proj1 (enc_ok_name _ _ He) En)|]. rewrite <- En in *.
    rewrite (search_sim s ix (aname a) HI), Es. cbn [option_map].
    rewrite (get_sim enc h hfs hp id old HH L). rewrite (enc_len _ _ He).
    assert (Hold : FHeap.len (enc old) = snd id).
    { destruct (id_live_enc enc h hfs hp id old HH L) as [so Ho]. rewrite (enc_len _ _ Ho), Sz. symmetry. apply msg_size_enc. exact Ho. }
    rewrite Hold. replace (sz =? 0) with false by (pose proof (enc_ok_pos _ _ He); symmetry; apply N.eqb_neq; lia).
    destruct (sz =? snd id) eqn:Eq.
    + (* same size: OverwriteObject *)
      apply N.eqb_eq in Eq.
      destruct (assoc_set_some _ (hobjs hp) (fst id) a old G) as [l' El].
      assert (Ho : heap_overwrite hp id a = Some (mkHeap l' (hfree hp))) by (unfold heap_overwrite; rewrite El; reflexivity).
      rewrite Ho.
      destruct (overwrite_sim enc enc_len h hfs hp id old a sz _ HH L He Eq Ho) as (h' & -> & HH').
      apply c_store_ok; try assumption.
      eapply dinv_overwrite; [exact HD | exact L | rewrite (msg_size_enc _ _ He); exact Eq | exact Ho].
    + (* different size: DeleteObject, InsertObject, UpdateRecord *)
      destruct (assoc_del_some _ (hobjs hp) (fst id) old G) as [l1 El].
      assert (Hd : heap_delete hp id = Some (mkHeap l1 (hfree hp))) by (unfold heap_delete; rewrite El; reflexivity).
      rewrite Hd. set (hp1 := mkHeap l1 (hfree hp)) in *.
      destruct (delete_sim enc h hfs hp id old hp1 HH L Hd) as (h1 & -> & HH1).
      pose proof (heap_add_sim h1 hfs hp1 a sz (pick h1 (enc a)) HH1 He) as S.
      destruct (heap_insert P hp1 a) as [hp2 id2| |].
      * destruct S as (h2 & -> & HH2 & Hok & -> & -> & Hf).
        replace (FHeap.len (id8 (hfree hp1, msg_size a))) with 8 by reflexivity. cbn [N.eqb Pos.eqb negb].
        pose proof (update_sim s ix (aname a) _ HI Hok) as U.
        destruct (idx_update (jh (aname a)) _ ix) as [ix'|] eqn:Eu; [|rewrite U; exact Same].
        destruct U as (s' & Hu & HI' & _). rewrite Hu.
        destruct (winv_update bf bn s (aname a) (unle (id8 (hfree hp1, msg_size a))) HW) as [W' L']. rewrite Hu in W', L'.
        apply c_store_ok; try assumption; [exact (eq_trans L' Hl)|].
        eapply dinv_update; [exact HD | exact Es | exact Hd | eapply keys_below_sim; exact HH1 | exact Hf | exact Eu].
      * rewrite S. exact Same.
      * rewrite ovf_refused.
        destruct (FHeap.insert FHeap.cap_new h1 (enc a) (pick h1 (enc a))) as [h2 [id2|]]; cbn [fst] in S; [|exact Same].
        destruct (negb _); [exact Same|].
        destruct (BT2.update_record s (aname a) (unle id2)) as [s' [|]]; [|exact Same].
        rewrite (c_store_full bf bn ba hfs 2048 s' h2 S). exact Same.
  - (* a new name hash: InsertObject, InsertRecord *)
    pose proof (add_sim bf bn s h hfs ix hp a sz (pick h (enc a)) HI HW HH HD He) as S.
    destruct (heap_insert P hp a) as [hp' id| |].
    + destruct S as (h' & -> & HH' & S). replace (FHeap.len (id8 id)) with 8 by reflexivity. cbn [N.eqb Pos.eqb negb].
      destruct (idx_insert P (jh (aname a), id) ix) as [ix'|]; [|rewrite S; exact Same].
      destruct S as (bt' & -> & HI' & HW' & L' & HD'). apply c_store_ok; try assumption. exact (eq_trans L' Hl).
    + rewrite S. exact Same.
    + rewrite ovf_refused.
      destruct (FHeap.insert FHeap.cap_new h (enc a) (pick h (enc a))) as [h2 [id2|]]; cbn [fst] in S; [|exact Same].
      destruct (negb _); [exact Same|].
      destruct (BT2.insert_record s (aname a) (unle id2)) as [s' [|]]; [|exact Same].
      rewrite (c_store_full bf bn ba hfs 2048 s' h2 S). exact Same.
Qed.

Lemma delete_dense_sim bf bn ba hfs ha ix hp n : DSim bf bn ba hfs ha ix hp ->
  Agree (c_delete_dense rebalance delay bf bn ba hfs ha n) (delete_attr jh (Dense ix hp) n).
Proof.
  intros D. pose proof D as (-> & Hz & s & h & Hlo & HI & HW & Hl & Hld & HH & Hcr & HD).
  assert (Same : Agree (CDense bf bn ba hfs 2048, RErr) (Dense ix hp, RErr)) by (split; [reflexivity | exact D]).
  unfold c_delete_dense, delete_attr, c_load. rewrite Hld, Hlo.
  destruct n as [|c0 nm] eqn:En; [exact Same|]. rewrite <- En. clear En.
  rewrite (search_sim s ix n HI).
  destruct (idx_search (jh n) ix) as [id|] eqn:Es; cbn [option_map]; [|exact Same].
  rewrite (WInv_lazy _ _ _ HW).
  replace (if rebalance then BT2.delete_with_rebalancing s n else BT2.delete_record s n)
    with (BT2.delete_with_rebalancing s n) by (destruct rebalance; reflexivity).
  pose proof (AttrComposeIdx.delete_sim s ix n HI) as U.
  destruct (idx_delete (jh n) ix) as [ix'|] eqn:Ed; [|rewrite U; exact Same].
  destruct U as (s' & Hu & HI'). rewrite Hu.
  destruct (winv_delete bf bn s n HW) as [W' L']. rewrite Hu in W', L'.
  destruct (dinv_found ix hp _ id HD Es) as [old L]. pose proof L as (G & Sz & Lt).
  destruct (assoc_del_some _ (hobjs hp) (fst id) old G) as [l1 El].
  assert (Hd : heap_delete hp id = Some (mkHeap l1 (hfree hp))) by (unfold heap_delete; rewrite El; reflexivity).
  rewrite Hd.
  destruct (AttrComposeHeap.delete_sim enc h hfs hp id old _ HH L Hd) as (h1 & -> & HH1).
  apply c_store_ok; try assumption; [exact (eq_trans L' Hl) | eapply dinv_delete; eassumption].
Qed.

Notation c_step := (c_step P enc rebalance delay pick).
Notation c_run := (c_run P enc rebalance delay pick).

Lemma step_sim cst st o : Sim cst st -> Agree (c_step cst o) (step jh P st o).
Proof.
  intro S. destruct cst as [l|bf bn ba hfs ha]; destruct st as [l'|ix hp|]; cbn [Sim] in S; try contradiction.
  - subst l'. destruct o as [n [v|]|n]; cbn [AttrCompose.c_step step c_write_attr write_attr c_delete_attr delete_attr].
    + destruct (N.of_nat (List.length l) <? p_maxc P); [|apply transition_sim].
      unfold c_write_compact, write_compact. destruct (encode_attr (mkAttr n v)) as [sz|]; [|split; reflexivity].
      destruct (replace_name (aname (mkAttr n v)) (mkAttr n v) l) as [l2|].
      * destruct (p_limit P <? hdr_size P l2); split; reflexivity.
      * destruct (p_limit P <? hdr_size P l + (4 + sz)); [apply transition_sim | split; reflexivity].
    + split; reflexivity.
    + destruct (remove_name n l); split; reflexivity.
  - destruct o as [n [v|]|n]; cbn [AttrCompose.c_step step c_write_attr write_attr c_delete_attr].
    + apply write_dense_sim. exact S.
    + split; [reflexivity | exact S].
    + apply delete_dense_sim. exact S.
Qed.

Lemma run_sim : forall h cst st, Sim cst st -> Agree (c_run cst h) (run jh P st h).
Proof.
  induction h as [|o r IH]; intros cst st S; cbn [AttrCompose.c_run run]; [split; [reflexivity | exact S]|].
  destruct (step_sim cst st o S) as [E1 S1].
  destruct (c_step cst o) as [cst1 x']. destruct (step jh P st o) as [st1 x]. cbn [fst snd] in E1, S1. subst x'.
  destruct (IH cst1 st1 S1) as [E2 S2].
  destruct (c_run cst1 r) as [cst2 xs']. destruct (run jh P st1 r) as [st2 xs]. cbn [fst snd] in *. subst xs'.
  split; [reflexivity | exact S2].
Qed.

Lemma read_msgs_recs_sim f hp : (forall id a, id_live hp id a -> FHeap.core_read f 2048 (id7 id) = FHeap.Ok (enc a)) ->
  forall ix l, Forall2 (fun rc a => id_live hp (snd rc) a) ix l ->
  c_read_msgs_recs f 2048 (map conc_rec ix) = Some (map enc l).
Proof.
  intros Hcr ix l F. induction F as [|rc a ix l L F IH]; [reflexivity|].
  cbn [map c_read_msgs_recs conc_rec snd]. rewrite (Hcr _ _ L), IH. reflexivity.
Qed.

Lemma read_msgs_sim cst st : Sim cst st -> c_read_msgs enc cst = option_map (map enc) (read_attrs st).
Proof.
  intro S. destruct cst as [l|bf bn ba hfs ha]; destruct st as [l'|ix hp|]; cbn [Sim] in S; try contradiction.
  - subst. reflexivity.
  - destruct S as (-> & Hz & s & h & Hlo & HI & HW & Hl & Hld & HH & Hcr & HD).
    cbn [c_read_msgs read_attrs]. rewrite Hlo. destruct HI as [E _]. rewrite E.
    destruct (dinv_read ix hp (proj1 HD)) as (l & R & F2). rewrite R. cbn [option_map].
    eapply read_msgs_recs_sim; [exact Hcr | exact F2].
Qed.

Section Parsed.
Variable dec : bytes -> option attr.
Hypothesis dec_enc : forall a sz, encode_attr a = EncOk sz -> dec (enc a) = Some a.

Lemma read_recs_sim f hp : (forall id a, id_live hp id a -> FHeap.core_read f 2048 (id7 id) = FHeap.Ok (enc a)) ->
  (forall id a, id_live hp id a -> exists sz, encode_attr a = EncOk sz) ->
  forall ix l, Forall2 (fun rc a => id_live hp (snd rc) a) ix l ->
  c_read_recs dec f 2048 (map conc_rec ix) = Some l.
Proof.
  intros Hcr Henc ix l F. induction F as [|rc a ix l L F IH]; [reflexivity|].
  cbn [map c_read_recs conc_rec snd]. rewrite (Hcr _ _ L), IH. destruct (Henc _ _ L) as [sz He].
  rewrite (dec_enc _ _ He). reflexivity.
Qed.

Lemma read_sim cst st : Sim cst st -> c_read_attrs dec cst = read_attrs st.
Proof.
  intro S. destruct cst as [l|bf bn ba hfs ha]; destruct st as [l'|ix hp|]; cbn [Sim] in S; try contradiction.
  - subst. reflexivity.
  - destruct S as (-> & Hz & s & h & Hlo & HI & HW & Hl & Hld & HH & Hcr & HD).
    cbn [c_read_attrs read_attrs]. rewrite Hlo. destruct HI as [E _]. rewrite E.
    destruct (dinv_read ix hp (proj1 HD)) as (l & R & F2). rewrite R.
    eapply read_recs_sim; [exact Hcr | | exact F2].
    intros id a L. eapply id_live_enc; eassumption.
Qed.

End Parsed.

End Main.

From HV Require Import Proofs.AttrStep Proofs.Attr.

Lemma params_match_go base : params_match (go_params base).
Proof. repeat split. Qed.

Lemma params_match_hcap P : params_match P -> p_hcap P <= 65536.
Proof. intros (_ & Ph & _). rewrite Ph, block_cap. lia. Qed.

(* answers and listing of the composed model = answers and listing of the abstract model, every history *)
Theorem compose_simulation P enc rebalance delay pick : params_match P ->
  (forall a sz, encode_attr a = EncOk sz -> FHeap.len (enc a) = sz) ->
  forall h cst rs, c_run P enc rebalance delay pick cinit h = (cst, rs) ->
  rs = snd (run BT2.jenkins P init h) /\
  c_read_msgs enc cst = option_map (map enc) (read_attrs (fst (run BT2.jenkins P init h))).
Proof.
  intros PM EL h cst rs Hr.
  destruct (run_sim P enc rebalance delay pick PM EL h cinit init eq_refl) as [E S]. rewrite Hr in E, S.
  split; [exact E | apply read_msgs_sim; assumption].
Qed.

(* hence the composed model refines the finite map (C02_refines_map for the composed model) *)
Theorem compose_refines_map P enc rebalance delay pick : params_match P ->
  (forall a sz, encode_attr a = EncOk sz -> FHeap.len (enc a) = sz) ->
  forall h cst rs, NoHashCollision BT2.jenkins (names h) ->
  c_run P enc rebalance delay pick cinit h = (cst, rs) ->
  exists l, c_read_msgs enc cst = Some (map enc l) /\ NoDup (map aname l) /\
            (forall n, attr_get l n = sp_get (run_spec [] h rs) n) /\ results_ok [] h rs.
Proof.
  intros PM EL h cst rs NC Hr. destruct (compose_simulation P enc rebalance delay pick PM EL h cst rs Hr) as [-> R].
  destruct (run BT2.jenkins P init h) as [st rs0] eqn:Ea. cbn [fst snd] in *.
  destruct (refines_map_repaired BT2.jenkins P (proj2 (proj2 (proj2 PM))) h st rs0 (params_match_hcap P PM))
    as (l & Hl & ND & G & RO); try assumption.
  exists l. rewrite R, Hl. repeat split; assumption.
Qed.

Theorem compose_refines_map_go base enc rebalance delay pick :
  (forall a sz, encode_attr a = EncOk sz -> FHeap.len (enc a) = sz) ->
  forall h cst rs, NoHashCollision BT2.jenkins (names h) ->
  c_run (go_params base) enc rebalance delay pick cinit h = (cst, rs) ->
  exists l, c_read_msgs enc cst = Some (map enc l) /\ NoDup (map aname l) /\
            (forall n, attr_get l n = sp_get (run_spec [] h rs) n) /\ results_ok [] h rs.
Proof. intros. eapply compose_refines_map; eauto using params_match_go. Qed.

(* with ParseAttributeMessage applied by the reader: the parsed listing, under the round trip of the message codec *)
Theorem compose_simulation_parsed P enc dec rebalance delay pick : params_match P ->
  (forall a sz, encode_attr a = EncOk sz -> FHeap.len (enc a) = sz) ->
  (forall a sz, encode_attr a = EncOk sz -> dec (enc a) = Some a) ->
  forall h cst rs, c_run P enc rebalance delay pick cinit h = (cst, rs) ->
  rs = snd (run BT2.jenkins P init h) /\ c_read_attrs dec cst = read_attrs (fst (run BT2.jenkins P init h)).
Proof.
  intros PM EL DE h cst rs Hr.
  destruct (run_sim P enc rebalance delay pick PM EL h cinit init eq_refl) as [E S]. rewrite Hr in E, S.
  split; [exact E | apply (read_sim enc); assumption].
Qed.

(* the hypothesis on the encoder is satisfiable (any encoder with the right lengths; the real one: C11) *)
Definition enc_zeros (a : attr) : bytes := FHeap.zeros (msg_size a).
Lemma enc_zeros_len : forall a sz, encode_attr a = EncOk sz -> FHeap.len (enc_zeros a) = sz.
Proof. intros a sz H. unfold enc_zeros. rewrite FHeap.len_zeros. apply msg_size_enc. exact H. Qed.
