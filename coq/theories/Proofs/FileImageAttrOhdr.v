(* C02 at byte level, object header stage without slack: the reader program p_ohdr on a placed version 2 header whose messages
   all carry at least TWO data bytes needs nothing behind the header (the 6 bytes fetched for the last 4-byte message prefix stay
   inside the header): the case of Proofs/FileImageOhdr.v p_ohdr_placed_last needed for the dataset header that fills its
   7+255-byte reserve completely after WriteAttribute. *)
From HV Require Import Base.Prelude Base.Outcome Base.Bytes Model.IOProg Proofs.IOProg Model.IOProgReader.
From HV Require Import Model.CodecSuper Model.CodecOhdr Model.FileImage Proofs.FileImage Proofs.FileImageOhdr.

Definition msg_ok2 (m : hmsg) : Prop := hm_type m < 256 /\ hm_type m <> MSG_CONT /\ 2 <= blen (hm_data m).
Lemma ok2_ok ms : Forall msg_ok2 ms -> Forall msg_ok ms.
Proof. apply Forall_impl. intros m (H1 & H2 & H3). repeat split; auto. blia. Qed.

Section Ohdr2.
Variable sb : superblock'.

Definition ohdr_ok2 (x : ohdr) : Prop :=
  oh_version x = 2 /\ oh_flags x = 0 /\ chunk_size_v2 (oh_msgs x) <= 255 /\ oh_msgs x <> [] /\ Forall msg_ok2 (oh_msgs x).

Lemma p_ohdr_placed2 fuel f a x tail :
  ohdr_ok2 x -> placed f a (enc_ohdr_v2 x ++ tail) -> (length (oh_msgs x) < fuel)%nat ->
  a + 600 < B63 ->
  run0 f (p_ohdr sb fuel a) = Ok (proj_ohdr_v2 (spp_bigendian sb) x a).
Proof.
  intros (Hv & Hfl & Hc & Hne & HF) HP.
  apply (p_ohdr_placed_last sb fuel f a x tail {| hm_type := 0; hm_data := [0; 0] |}); [repeat split; auto using ok2_ok | exact HP |].
  assert (H2 : 2 <= blen (hm_data (last (oh_msgs x) {| hm_type := 0; hm_data := [0; 0] |}))); [|blia].
  clear - HF. induction HF as [|m r (_ & _ & H) _ IH]; [reflexivity|]. destruct r; [exact H | exact IH].
Qed.
End Ohdr2.
