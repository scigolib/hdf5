(* C06, reader against specification: the superblock (versions 0, 2, 3).
   REFUTATIONS, for the code before notes/fixes/c06-superblock-sizes.patch (Model/CodecSuper.v dec_superblock_gen false; the
   ties of C11/C07 compare the Go code with the variant the source tree under test implements).  That ReadSuperblock takes the fields of
   a version 0 superblock from fixed file positions (64, 80, 88: right only for 8-byte offsets), and in a version 2/3
   superblock reads byte 9 (the specification's size of offsets) as a flags byte, byte 10 (the specification's size of
   lengths) as the size of offsets, and sets the size of lengths to 8.  So a specification-conformant superblock whose
   sizes are not both 8 is decoded WITHOUT error to different values.  Witnesses below; each is accepted by the strict
   specification decoder (checksum = lookup3) and decoded by the reader model to a different root address / sizes. *)
From HV Require Import Base.Prelude Base.Outcome Base.Bytes Spec.Parse Spec.Format Model.CodecSuper.

(* a version 2 superblock: size of offsets [o], size of lengths [l], base 0, no extension, end of file [eof], root
   group object header at [root]; checksum as the specification prescribes *)
Definition sb2_body (v o l eof root : N) : bytes :=
  hdf5_sig ++ [v; o; l; 0] ++ le (N.to_nat o) 0 ++ le (N.to_nat o) (undef (N.to_nat o))
           ++ le (N.to_nat o) eof ++ le (N.to_nat o) root.
Definition sb2 (v o l eof root : N) : bytes :=
  let b := sb2_body v o l eof root in b ++ le 4 (spec_checksum b) ++ zeros 64.

Definition spec_view (bs : bytes) : outcome (N * N * N * N * N) :=
  '(s, _, _) <- spec_dec_superblock strict bs;;
  Ok (sbs_version s, sbs_O s, sbs_L s, sbs_base s, sbs_root s).
Definition reader_view (bs : bytes) : outcome (N * N * N * N * N) :=
  s <- dec_superblock_gen false bs;;
  Ok (spp_version s, spp_offsize s, spp_lensize s, spp_base s, spp_root s).

(* 8-byte offsets, 4-byte lengths (H5Pset_sizes(fcpl, 8, 4)), root group at 48: the reader reports 4-byte offsets,
   8-byte lengths and root address 0xFFFFFFFF *)
Definition sb2_witness_8_4 : bytes := sb2 2 8 4 2048 48.
Lemma superblock_v2_sizes_refuted :
  spec_view sb2_witness_8_4 = Ok (2, 8, 4, 0, 48) /\
  reader_view sb2_witness_8_4 = Ok (2, 4, 8, 0, 4294967295).
Proof. split; vm_compute; reflexivity. Qed.

(* 4-byte offsets and lengths (H5Pset_sizes(fcpl, 4, 4)): addresses agree, the size of lengths does not (8 instead
   of 4), so every length field read afterwards is taken 8 bytes wide *)
Definition sb2_witness_4_4 : bytes := sb2 3 4 4 2048 48.
Lemma superblock_v2_lensize_refuted :
  spec_view sb2_witness_4_4 = Ok (3, 4, 4, 0, 48) /\
  reader_view sb2_witness_4_4 = Ok (3, 4, 8, 0, 48).
Proof. split; vm_compute; reflexivity. Qed.

(* a version 0 superblock with size of offsets / lengths [o]: root symbol table entry with cached B-tree / heap *)
Definition sb0 (o : N) (eof root bt hp : N) : bytes :=
  let n := N.to_nat o in
  hdf5_sig ++ [0; 0; 0; 0; 0; o; o; 0] ++ le 2 4 ++ le 2 16 ++ le 4 0
    ++ le n 0 ++ le n (undef n) ++ le n eof ++ le n (undef n)
    ++ le n 0 ++ le n root ++ le 4 1 ++ le 4 0 ++ le n bt ++ le n hp ++ zeros (16 - 2 * n) ++ zeros 64.

(* 4-byte offsets: the object header address is at file position 44, the reader reads position 64 *)
Definition sb0_witness_4 : bytes := sb0 4 2048 96 136 680.
Lemma superblock_v0_offsets_refuted :
  spec_view sb0_witness_4 = Ok (0, 4, 4, 0, 96) /\
  reader_view sb0_witness_4 = Ok (0, 4, 4, 0, 0).
Proof. split; vm_compute; reflexivity. Qed.
