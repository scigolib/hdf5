(* C01 end to end, composition: hdf5.Open's loader program (p_open, Model/IOProgOpen.v) run on a file whose root group has one
   symbol table entry, a dataset, returns the tree "/" with exactly that child.  The loader's path: loadGroup(root) reads the
   signature at the root address (an object header, not "SNOD") -> loadModernGroup -> the symbol table message of the root
   header -> loadChildren -> loadObject(dataset).  What each reader stage returns on the file is a hypothesis here, so the
   argument is the same for every layout. *)
From HV Require Import Base.Prelude Base.Outcome Base.Bytes Model.IOProg Proofs.IOProg Model.IOProgReader Model.IOProgOpen.
From HV Require Import Model.CodecSuper Model.CodecOhdr Model.CodecMsg Model.CodecType Model.CodecLink Model.GroupWire.
From HV Require Import Model.FileImage Proofs.FileImage Proofs.FileImageOhdr Proofs.FileImageData Proofs.FileImageGroup.

Section Loader.
Variable sb : superblock'.
Variables f name seg rsig : bytes.
Variables bt hp da : N.
Variables rh dh : ohdr'.
Variables rattrs dattrs : list attr.
Variable hfuel : nat.
Local Notation ra := (spp_root sb).
Local Notation B := (blen f / 8 + 1024).
Hypothesis Psig : placed f 0 signature.
Hypothesis Hsb : run0 f p_superblock = Ok sb.
Hypothesis Hra : 0 < ra < blen f.
Hypothesis Prsig : placed f ra rsig.
Hypothesis Hrsig : blen rsig = 4 /\ bytes_eqb rsig SNOD = false.
Hypothesis Hrh : run0 f (p_ohdr sb hfuel ra) = Ok rh.
Hypothesis Hrattrs : run0 f (p_attrs sb (ohp_msgs rh)) = Ok rattrs.
Hypothesis Hrdet : det_type (ohp_msgs rh) = 0.
Hypothesis Hrlinks : existsb (fun m => hmp_type m =? 6) (ohp_msgs rh) = false.
Hypothesis Hrstab : last_symtab sb (ohp_msgs rh) = Some (bt, hp).
Hypothesis Hheap : run0 f (p_local_heap sb hp) = Ok seg.
Hypothesis Hname : heap_string seg 0 = Ok name.
Hypothesis Pbtsig : placed f bt [84; 82; 69; 69].
Hypothesis Hbt : run0 f (p_group_btree sb bt) = Ok [(0, da, 0, 0, 0)].
Hypothesis Pdsig : placed f da [79; 72; 68; 82].
Hypothesis Hdh : run0 f (p_ohdr sb hfuel da) = Ok dh.
Hypothesis Hdattrs : run0 f (p_attrs sb (ohp_msgs dh)) = Ok dattrs.
Hypothesis Hddet : det_type (ohp_msgs dh) = 1.

(* the attributes read along with a header are not looked at *)
Lemma with_header_ok A a h l (k : ohdr' -> prog A) :
  run0 f (p_ohdr sb hfuel a) = Ok h -> run0 f (p_attrs sb (ohp_msgs h)) = Ok l -> run0 f (with_header sb hfuel a k) = run0 f (k h).
Proof using. intros H1 H2. unfold with_header. rewrite run0_bind, H1, run0_swallow, run0_bind, H2. reflexivity. Qed.

Lemma object_stage rec v :
  run0 f (p_object true sb B hfuel rec da name {| vbt := v; loading := []; cnt := 0 |})
  = Ok (Dset name da, {| vbt := v; loading := []; cnt := 1 |}).
Proof.
  unfold p_object, enter. cbn [loading cnt vbt mem existsb lenN' length N.of_nat].
  change (1024 <=? 0) with false. change (0 + 1) with 1.
  replace (B <? 1) with false by (symmetry; apply N.ltb_ge, (N.le_trans _ 1024), N.le_add_l; discriminate). cbv iota.
  unfold p_sig. rewrite (run0_read_exact _ f da [79; 72; 68; 82] 4 _ Pdsig eq_refl).
  change (bytes_eqb [79; 72; 68; 82] SNOD) with false. cbv iota.
  rewrite (with_header_ok _ da dh _ _ Hdh Hdattrs), Hddet.
  change (1 =? 0) with false. change (1 =? 1) with true. cbv iota.
  unfold leave. cbn [fst snd vbt loading cnt filter]. rewrite N.eqb_refl. reflexivity.
Qed.

Lemma children_stage n :
  run0 f (p_children true sb (p_load true sb B hfuel (S n)) bt hp {| vbt := []; loading := []; cnt := 0 |})
  = Ok ([Dset name da], {| vbt := [bt]; loading := []; cnt := 1 |}).
Proof.
  unfold p_children. cbn [mem existsb vbt loading cnt].
  rewrite run0_bind, Hheap.
  unfold p_sig. rewrite (run0_read_exact _ f bt [84; 82; 69; 69] 4 _ Pbtsig eq_refl).
  change (bytes_eqb [84; 82; 69; 69] [84; 82; 69; 69]) with true. cbv iota.
  rewrite run0_bind, Hbt.
  cbn [children_loop is_soft]. change (0 =? 2) with false. cbv iota.
  unfold p_sig. rewrite (run0_read_exact _ f da [79; 72; 68; 82] 4 _ Pdsig eq_refl).
  change (bytes_eqb [79; 72; 68; 82] SNOD) with false. rewrite andb_false_r.
  rewrite run0_bind. unfold load_entry.
  rewrite (run0_lift_ok _ _ _ _ f name Hname).
  change (0 =? 1) with false. cbn [andb].
  cbn [p_load dispatch]. rewrite object_stage. reflexivity.
Qed.

Lemma modern_stage n :
  run0 f (p_modern true sb hfuel (p_load true sb B hfuel (S n)) ra {| vbt := []; loading := []; cnt := 0 |})
  = Ok (Grp (ohp_name rh) ra [Dset name da], {| vbt := [bt]; loading := []; cnt := 1 |}).
Proof.
  unfold p_modern. rewrite (with_header_ok _ ra rh _ _ Hrh Hrattrs), Hrdet, Hrlinks, Hrstab.
  change (0 =? 0) with true. cbn [orb negb]. cbv iota.
  rewrite run0_bind, children_stage. reflexivity.
Qed.

Theorem open_one_dataset n :
  run0 f (p_open true (blen f) (S (S (S n))) hfuel) = Ok (Grp [47] ra [Dset name da]).
Proof.
  unfold p_open. rewrite (run0_read_exact _ f 0 signature 8 _ Psig eq_refl).
  change (bytes_eqb signature signature) with true. cbn [negb].
  rewrite run0_bind, Hsb.
  replace (blen f <=? ra) with false by (symmetry; apply N.leb_gt; apply Hra).
  rewrite run0_bind. cbn [p_load dispatch]. unfold p_group.
  replace (ra =? 0) with false by (symmetry; apply N.eqb_neq; blia). cbv iota.
  unfold p_sig. rewrite (run0_read_exact _ f ra rsig 4 _ Prsig (eq_sym (proj1 Hrsig))).
  rewrite (proj2 Hrsig). cbn [p_load dispatch].
  change (fun (r : req) (st : lstate) => dispatch true sb B hfuel (p_load true sb B hfuel n) r st) with (p_load true sb B hfuel (S n)).
  rewrite modern_stage. reflexivity.
Qed.
End Loader.
