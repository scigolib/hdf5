(* C07, symbol-table group walk (Model/RobustGroup.v): for ALL byte strings and ALL addresses
     - no decoder panics (checked slicing),
     - every allocation request is bounded: transient buffers by constants that follow from the 16-bit counts,
       the collected entries (repaired code, capped = true) by 4 * |file|,
     - the unrepaired code (capped = false) multiplies: n child pointers to one node of m entries give n * m entries. *)
From HV Require Import Base.Prelude Base.Outcome Base.Bytes Model.RobustAlloc Model.RobustGroup.
From HV Require Import Proofs.RobustNoPanicBase Proofs.RobustAlloc.

Lemma read_at_cases file off n :
  read_at file off n = Err \/
  exists s, read_at file off n = Ok s /\ blen s = n /\ off + n <= blen file /\ (bytes_ok file = true -> bytes_ok s = true).
Proof.
  unfold read_at, MaxInt64. dif; [auto|]. right.
  destruct (slice_ok file off (off + n)) as (s & Hs & Hl); [lia|lia|]. rewrite Hs.
  exists s. split; [reflexivity|]. split; [lia|]. split; [lia|]. intros Hb. eapply slice_bytes_ok; eauto.
Qed.
Lemma read_at_ok file off n :
  off <= MaxInt64 -> off + n <= blen file -> exists s, read_at file off n = Ok s /\ blen s = n.
Proof.
  intros Ho Hn. unfold read_at. replace ((MaxInt64 <? off) || (blen file <? off + n)) with false by lia.
  destruct (slice_ok file off (off + n)) as (s & -> & Hl); [lia|lia|]. exists s. split; [reflexivity|lia].
Qed.

Lemma read_address_ok data size : exists v, read_address data size = Ok v.
Proof.
  unfold read_address. set (sz := if blen data <? size then blen data else size).
  assert (Hsz : sz <= blen data) by (unfold sz; dif; lia).
  dif. { destruct (index_ok data 0) as (b & ->); [lia|eauto]. }
  dif. { destruct (rd_le_ok data 0 sz) as (v & ->); [lia|eauto]. }
  destruct (slice_ok data 0 sz) as (s & -> & _); [lia|lia|]. cbn [obind]. eauto.
Qed.
Lemma read_address_8 data : 8 <= blen data -> read_address data 8 = rd_le data 0 8.
Proof. intros H. unfold read_address. replace (blen data <? 8) with false by lia. reflexivity. Qed.

Lemma get_buffer_le n b : n <= b -> 2048 <= b -> get_buffer n <= 2 * b.
Proof. unfold get_buffer. intros. dif; lia. Qed.

Lemma gnode_children_spec n : forall data pos O, pos + 2 * O * N.of_nat n <= blen data ->
  exists kids, gnode_children n data pos O = Ok kids /\ (length kids <= n)%nat.
Proof.
  induction n as [|n IH]; intros data pos O H; cbn [gnode_children].
  - exists []. split; [reflexivity|cbn [length]; lia].
  - rewrite Nat2N.inj_succ in H.
    destruct (slice_from_ok data (pos + O)) as (d & -> & _); [nia|]. cbn [obind].
    destruct (read_address_ok d O) as (a & ->). cbn [obind].
    destruct (IH data (pos + O + O) O) as (rest & -> & Hl); [nia|]. cbn [obind].
    eexists; split; [reflexivity|]. dif; cbn [length]; lia.
Qed.

Lemma gnode_children_repeat key a : blen key = 8 -> a <> 0 -> a < MaxUint64 -> forall n pre suf pos, pos = blen pre ->
  gnode_children n (pre ++ concat (repeat (key ++ le 8 a) n) ++ suf) pos 8 = Ok (repeat a n).
Proof.
  intros Hk H0 Hm. induction n as [|n IH]; intros pre suf pos ->; cbn [repeat concat gnode_children]; [reflexivity|].
  replace (pre ++ ((key ++ le 8 a) ++ concat (repeat (key ++ le 8 a) n)) ++ suf)
    with ((pre ++ key) ++ le 8 a ++ concat (repeat (key ++ le 8 a) n) ++ suf) by (rewrite <- !app_assoc; reflexivity).
  rewrite slice_from_app by (rewrite blen_app; lia). cbn [obind].
  rewrite read_address_8 by (rewrite blen_app, blen_le; lia).
  rewrite (rd_le_head 8 8) by (try reflexivity; unfold MaxUint64 in Hm; change (256 ^ 8) with 18446744073709551616; lia).
  cbn [obind]. rewrite (app_assoc (pre ++ key)), IH by (rewrite !blen_app, blen_le; lia). cbn [obind].
  replace ((a =? 0) || (a =? MaxUint64)) with false by lia. reflexivity.
Qed.

Lemma gnode_read_spec file addr O :
  bytes_ok file = true -> O <= 8 ->
  fst (gnode_read file addr O) <> Panic /\
  alloc_bounded 0 2097136 file (snd (gnode_read file addr O)) /\
  forall kids, fst (gnode_read file addr O) = Ok kids -> N.of_nat (length kids) <= 65535.
Proof.
  intros Hb HO. unfold gnode_read.
  assert (B0 : alloc_bounded 0 2097136 file [get_buffer (8 + 2 * O)]).
  { apply ab_one. unfold get_buffer. dif; lia. }
  destruct (read_at_cases file addr (8 + 2 * O)) as [->|(h & -> & Hl & Hle & Hbh)]; [err_leaf|]. specialize (Hbh Hb).
  dif; [err_leaf|].
  destruct (index_ok h 4) as (ty & ->); [lia|]. destruct (index_ok h 5) as (lv & ->); [lia|].
  destruct (rd_le_ok_lt h 6 2 Hbh) as (used & -> & Hu); [lia|]. change (256 ^ 2) with 65536 in Hu.
  dif; [err_leaf|]. dif; [err_leaf|]. dif. { cbn [fst snd]. split; [discriminate|split; [auto|]]. intros k [= <-]. cbn [length]. lia. }
  assert (B1 : alloc_bounded 0 2097136 file [get_buffer (used * 2 * O + O)]).
  { apply ab_one. unfold get_buffer. dif; nia. }
  destruct (read_at_cases file (addr + (8 + 2 * O)) (used * 2 * O + O)) as [->|(data & -> & Hl2 & _ & _)]; [err_leaf|].
  destruct (gnode_children_spec (N.to_nat used) data 0 O) as (kids & -> & Hk); [rewrite N2Nat.id; nia|].
  cbn [fst snd]. split; [discriminate|split].
  - repeat apply ab_app; auto. apply ab_one; lia.
  - intros k [= <-]. lia.
Qed.

Lemma gnode_read_leaf file addr O h used data :
  read_at file addr (8 + 2 * O) = Ok h -> firstn 4 h = sigTREE -> index h 4 = Ok 0 -> index h 5 = Ok 0 ->
  rd_le h 6 2 = Ok used -> used <> 0 -> read_at file (addr + (8 + 2 * O)) (used * 2 * O + O) = Ok data ->
  fst (gnode_read file addr O) = gnode_children (N.to_nat used) data 0 O.
Proof.
  intros Hh Hs Ht Hv Hu H0 Hd. unfold gnode_read. rewrite Hh, Hs, Ht, Hv, Hu.
  change (negb (bytes_eqb sigTREE sigTREE)) with false. change (negb (0 =? 0)) with false. cbv iota.
  replace (used =? 0) with false by lia. rewrite Hd. now destruct (gnode_children (N.to_nat used) data 0 O).
Qed.

(* every read of an entry lies inside the 2 * O + 24 bytes the guard has seen *)
Lemma snod_entries_ok n : forall data offset O, O <= 8 -> offset + N.of_nat n * (2 * O + 24) <= blen data ->
  exists es, snod_entries n data offset O = Ok es /\ length es = n.
Proof.
  induction n as [|n IH]; intros data offset O HO H; cbn [snod_entries]; [exists []; auto|].
  rewrite Nat2N.inj_succ in H. replace (blen data <? offset + (2 * O + 24)) with false by lia.
  destruct (slice_from_ok data offset) as (d0 & -> & _); [lia|]. cbn [obind].
  destruct (read_address_ok d0 O) as (name & ->). cbn [obind].
  destruct (slice_from_ok data (offset + O)) as (d1 & -> & _); [lia|]. cbn [obind].
  destruct (read_address_ok d1 O) as (obj & ->). cbn [obind].
  destruct (rd_le_ok data (offset + 2 * O) 4) as (ct & ->); [lia|]. cbn [obind].
  destruct (rd_le_ok data (offset + 2 * O + 4) 4) as (rsv & ->); [lia|]. cbn [obind].
  assert (Hc : exists bt hp, (if ct =? 1
                then d2 <- slice_from data (offset + 2 * O + 8);; bt <- read_address d2 O;;
                     d3 <- slice_from data (offset + 2 * O + 8 + O);; hp <- read_address d3 O;; Ok (bt, hp)
                else Ok (0, 0)) = Ok (bt, hp)).
  { dif; [|eauto].
    destruct (slice_from_ok data (offset + 2 * O + 8)) as (d2 & -> & _); [lia|]. cbn [obind].
    destruct (read_address_ok d2 O) as (bt & ->). cbn [obind].
    destruct (slice_from_ok data (offset + 2 * O + 8 + O)) as (d3 & -> & _); [lia|]. cbn [obind].
    destruct (read_address_ok d3 O) as (hp & ->). cbn [obind]. eauto. }
  destruct Hc as (bt & hp & ->). cbn [obind]. cbv beta iota zeta.
  destruct (IH data (offset + (2 * O + 24)) O HO) as (rest & -> & Hl); [lia|]. cbn [obind].
  eexists; split; [reflexivity|]. cbn [length]. now rewrite Hl.
Qed.

Lemma snod_parse_spec file addr O :
  bytes_ok file = true -> O <= 8 ->
  fst (snod_parse file addr O) <> Panic /\
  alloc_bounded 0 5242800 file (snd (snod_parse file addr O)) /\
  forall es, fst (snod_parse file addr O) = Ok es ->
             addr + 8 + N.of_nat (length es) * (2 * O + 24) <= blen file /\ N.of_nat (length es) <= 65535.
Proof.
  intros Hb HO. unfold snod_parse.
  assert (B0 : alloc_bounded 0 5242800 file [get_buffer 8]) by (apply ab_one; unfold get_buffer; dif; lia).
  destruct (read_at_cases file addr 8) as [->|(h & -> & Hl & Hle & Hbh)]; [err_leaf|]. specialize (Hbh Hb).
  dif; [err_leaf|].
  destruct (index_ok h 4) as (ver & ->); [lia|].
  destruct (rd_le_ok_lt h 6 2 Hbh) as (nsym & -> & Hu); [lia|]. change (256 ^ 2) with 65536 in Hu.
  dif; [err_leaf|].
  assert (B1 : alloc_bounded 0 5242800 file [48 * (if 32 <? nsym then nsym else 32)]) by (apply ab_one; dif; lia).
  dif. { cbn [fst snd]. split; [discriminate|split; [auto using ab_app|]]. intros es [= <-]. cbn [length]. lia. }
  assert (B2 : alloc_bounded 0 5242800 file [get_buffer (nsym * (2 * O + 24))]).
  { apply ab_one. unfold get_buffer. dif; nia. }
  destruct (read_at_cases file (addr + 8) (nsym * (2 * O + 24))) as [->|(data & -> & Hl2 & Hle2 & _)]; [err_leaf|].
  destruct (snod_entries_ok (N.to_nat nsym) data 0 O HO) as (es & -> & Hes); [rewrite N2Nat.id; lia|].
  cbn [fst snd]. split; [discriminate|split; [auto using ab_app|]]. intros ? [= <-]. rewrite Hes, N2Nat.id. split; lia.
Qed.

Lemma snod_parse_ok file addr O h nsym :
  read_at file addr 8 = Ok h -> firstn 4 h = sigSNOD -> index h 4 = Ok 1 -> rd_le h 6 2 = Ok nsym -> nsym <> 0 ->
  O <= 8 -> addr + 8 <= MaxInt64 -> addr + 8 + nsym * (2 * O + 24) <= blen file ->
  exists es l, snod_parse file addr O = (Ok es, l) /\ length es = N.to_nat nsym.
Proof.
  intros Hh Hs Hv Hn H0 HO Ha He. unfold snod_parse. rewrite Hh, Hs, Hv, Hn. change (negb (bytes_eqb sigSNOD sigSNOD)) with false.
  change (negb (1 =? 1)) with false. cbv iota. replace (nsym =? 0) with false by lia.
  destruct (read_at_ok file (addr + 8) (nsym * (2 * O + 24))) as (data & -> & Hl); [lia|lia|].
  destruct (snod_entries_ok (N.to_nat nsym) data 0 O HO) as (es & -> & Hes); [rewrite N2Nat.id; lia|]. eauto.
Qed.

Lemma gwalk_no_panic capped file O : bytes_ok file = true -> O <= 8 ->
  forall kids total spanEnd, fst (gwalk capped file O kids total spanEnd) <> Panic.
Proof.
  intros Hb HO. induction kids as [|a r IH]; intros total spanEnd; cbn [gwalk]; [cbn; discriminate|].
  destruct (snod_parse_spec file a O Hb HO) as (Hnp & _ & _).
  destruct (snod_parse file a O) as [[es| |] l]; cbn [fst] in *; [|discriminate|congruence].
  dif; [cbn; discriminate|].
  specialize (IH (total + N.of_nat (length es)) (N.max spanEnd (wrap64 (a + 8 + N.of_nat (length es) * (2 * O + 24))))).
  destruct (gwalk capped file O r _ _) as [res l2]. cbn [fst] in *. exact IH.
Qed.

Lemma gwalk_capped_spec file O : bytes_ok file = true -> O <= 8 ->
  forall kids total spanEnd, spanEnd <= blen file -> total * (2 * O + 24) <= blen file ->
  alloc_bounded 4 5242800 file (snd (gwalk true file O kids total spanEnd)) /\
  forall t, fst (gwalk true file O kids total spanEnd) = Ok t -> total <= t /\ t * (2 * O + 24) <= blen file.
Proof.
  intros Hb HO. induction kids as [|a r IH]; intros total spanEnd Hs Ht; cbn [gwalk].
  - cbn [fst snd]. split; [apply ab_nil|]. intros t [= <-]. lia.
  - destruct (snod_parse_spec file a O Hb HO) as (_ & Hab & Hok). apply (ab_weaken 4 5242800) in Hab; [|lia..].
    destruct (snod_parse file a O) as [[es| |] l]; cbn [fst snd] in *; [|split; [auto|intros; discriminate]..].
    destruct (Hok es eq_refl) as (Hle & Hm). set (m := N.of_nat (length es)) in *.
    set (sp := N.max spanEnd (wrap64 (a + 8 + m * (2 * O + 24)))).
    assert (Hsp : sp <= blen file) by (unfold sp, wrap64; lia).
    cbn [andb]. dif; [cbn [fst snd]; split; [auto|intros; discriminate]|].
    assert (Hfit : (total + m) * (2 * O + 24) <= blen file) by lia.
    destruct (IH (total + m) sp Hsp Hfit) as [I1 I2].
    destruct (gwalk true file O r (total + m) sp) as [res l2]. cbn [fst snd] in *. split.
    + apply ab_app; [auto|]. apply ab_cons; [nia|exact I1].
    + intros t Hr. destruct (I2 t Hr). split; lia.
Qed.

Lemma group_btree_entries_spec file addr O :
  bytes_ok file = true -> O <= 8 ->
  fst (group_btree_entries true file addr O) <> Panic /\
  alloc_bounded 4 5242800 file (snd (group_btree_entries true file addr O)) /\
  forall t, fst (group_btree_entries true file addr O) = Ok t -> t * (2 * O + 24) <= blen file.
Proof.
  intros Hb HO. unfold group_btree_entries.
  destruct (gnode_read_spec file addr O Hb HO) as (Hnp & Hab & _). apply (ab_weaken 4 5242800) in Hab; [|lia..].
  destruct (gnode_read file addr O) as [[kids| |] l]; cbn [fst snd] in *; [|err_leaf|congruence].
  pose proof (gwalk_no_panic true file O Hb HO kids 0 0) as Gnp.
  destruct (gwalk_capped_spec file O Hb HO kids 0 0) as [G1 G2]; [lia|lia|].
  destruct (gwalk true file O kids 0 0) as [r l2]. cbn [fst snd] in *.
  split; [auto|split; [apply ab_app; auto|]]. intros t Hr. now apply G2.
Qed.

Lemma group_btree_entries_no_panic capped file addr O :
  bytes_ok file = true -> O <= 8 -> fst (group_btree_entries capped file addr O) <> Panic.
Proof.
  intros Hb HO. unfold group_btree_entries.
  destruct (gnode_read_spec file addr O Hb HO) as (Hnp & _ & _).
  destruct (gnode_read file addr O) as [[kids| |] l]; cbn [fst] in *; [|discriminate|congruence].
  pose proof (gwalk_no_panic capped file O Hb HO kids 0 0) as Gnp.
  destruct (gwalk capped file O kids 0 0) as [r l2]. exact Gnp.
Qed.

Lemma gwalk_uncapped_repeat file O a es l : snod_parse file a O = (Ok es, l) ->
  forall n total spanEnd,
  fst (gwalk false file O (repeat a n) total spanEnd) = Ok (total + N.of_nat n * N.of_nat (length es)) /\
  (n <> 0%nat -> In (96 * (total + N.of_nat n * N.of_nat (length es))) (snd (gwalk false file O (repeat a n) total spanEnd))).
Proof.
  intros Hp. induction n as [|n IH]; intros total spanEnd; cbn [repeat gwalk].
  - cbn [fst snd]. split; [f_equal; lia|congruence].
  - rewrite Hp. cbn [andb].
    specialize (IH (total + N.of_nat (length es)) (N.max spanEnd (wrap64 (a + 8 + N.of_nat (length es) * (2 * O + 24))))).
    destruct (gwalk false file O (repeat a n) _ _) as [res l2]. cbn [fst snd] in *. destruct IH as [I1 I2].
    split; [rewrite I1; f_equal; lia|]. intros _.
    apply in_or_app. right. destruct n as [|n'].
    + left. f_equal. lia.
    + right. replace (total + N.of_nat (S (S n')) * N.of_nat (length es))
        with (total + N.of_nat (length es) + N.of_nat (S n') * N.of_nat (length es)) by lia.
      apply I2. congruence.
Qed.

(* witness: a 14 KiB image, one leaf node whose 256 child pointers all name one symbol table node of 256 entries *)
Definition amp_snod_addr (n : nat) : N := 24 + 16 * N.of_nat n + 8.
Definition amp_file (n m : nat) : bytes :=
  sigTREE ++ [0; 0] ++ le 2 (N.of_nat n) ++ repeat 255 16
  ++ concat (repeat (le 8 0 ++ le 8 (amp_snod_addr n)) n) ++ le 8 0
  ++ sigSNOD ++ [1; 0] ++ le 2 (N.of_nat m) ++ repeat 0 (40 * m).

(* The witness is not evaluated as a whole: the two headers and the block of child pointers are read off the image, the
   256 pointers and the 256 entries behind them are handled by [gnode_children_repeat] and [snod_parse_ok]. *)
Lemma group_uncapped_refuted :
  exists file, bytes_ok file = true /\ blen file = 14376 /\
               fst (group_btree_entries false file 0 8) = Ok 65536 /\
               ~ alloc_bounded 4 5242800 file (snd (group_btree_entries false file 0 8)).
Proof.
  set (a := amp_snod_addr 256). set (file := amp_file 256 256).
  assert (Hl : blen file = 14376) by (vm_compute; reflexivity).
  exists file. split; [vm_compute; reflexivity|]. split; [exact Hl|].
  assert (Hk : fst (gnode_read file 0 8) = Ok (repeat a 256)).
  { rewrite (gnode_read_leaf file 0 8 (sigTREE ++ [0; 0; 0; 1] ++ repeat 255 16) 256
               ([] ++ concat (repeat (le 8 0 ++ le 8 a) 256) ++ le 8 0)); [|vm_compute; reflexivity..|discriminate|vm_compute; reflexivity].
    change (N.to_nat 256) with 256%nat. apply gnode_children_repeat; [reflexivity|discriminate|reflexivity|reflexivity]. }
  destruct (snod_parse_ok file a 8 (sigSNOD ++ [1; 0; 0; 1]) 256) as (es & l & Hp & Hlen);
    [vm_compute; reflexivity..|discriminate|discriminate|discriminate|rewrite Hl; discriminate|].
  unfold group_btree_entries. destruct (gnode_read file 0 8) as [r lg]. cbn [fst] in Hk. subst r.
  destruct (gwalk_uncapped_repeat file 8 a es l Hp 256 0 0) as [G1 G2].
  destruct (gwalk false file 8 (repeat a 256) 0 0) as [r l2]. cbn [fst snd] in *.
  rewrite Hlen in *. split; [rewrite G1; reflexivity|].
  intros Hab. unfold alloc_bounded in Hab. rewrite Forall_forall, Hl in Hab.
  specialize (Hab _ (in_or_app lg l2 _ (or_intror (G2 ltac:(discriminate))))). vm_compute in Hab. congruence.
Qed.

(* hypotheses are satisfiable, and the repaired walk refuses the witness *)
Example group_capped_witness : fst (group_btree_entries true (amp_file 8 8) 0 8) = Err.
Proof. vm_compute. reflexivity. Qed.
Example group_ok_example :
  fst (group_btree_entries true (amp_file 1 8) 0 8) = Ok 8 /\ fst (group_btree_entries false (amp_file 3 8) 0 8) = Ok 24.
Proof. vm_compute. split; reflexivity. Qed.
