(* C09 at file level, base: element views of byte strings (Model/SliceRefine.v elem / elems / evals) against slices of
   the data block (rd) and against the element-level file read of C09 (Hs.read_at). *)
From HV Require Import Base.Prelude Base.Outcome Base.Bytes Model.IOProg Proofs.IOProg Model.IOProgReader Model.IOProgSlice.
From HV Require Import Model.SliceRefine Proofs.FileImage.
From HV Require Proofs.HyperslabBase.
Module HB := HV.Proofs.HyperslabBase.

Lemma rd_rd (b : bytes) o l o' l' : o' + l' <= l -> o + l <= blen b -> rd (rd b o l) o' l' = rd b (o + o') l'.
Proof.
  intros H1 H2. unfold rd. unfold blen in H2.
  rewrite skipn_firstn_comm, firstn_firstn, skipn_skipn. f_equal; [blia|f_equal; blia].
Qed.

Lemma elems_length es b : length (elems es b) = N.to_nat (blen b / es).
Proof. unfold elems. now rewrite map_length, HB.nrange_length. Qed.
Lemma evals_lenN es b : Hs.lenN (evals es b) = blen b / es.
Proof. unfold Hs.lenN, evals. rewrite map_length, elems_length. blia. Qed.

Lemma evals_spec es b : evals es b = map (fun i => unle (elem es b i)) (Hs.nrange (blen b / es)).
Proof. unfold evals, elems. now rewrite map_map. Qed.

Lemma nthN_evals es b i : i < blen b / es -> Hs.nthN (evals es b) i = unle (elem es b i).
Proof.
  intros H. rewrite evals_spec. unfold Hs.nthN. set (g := fun i => unle (elem es b i)).
  rewrite nth_indep with (d' := g 0) by (rewrite map_length, HB.nrange_length; blia).
  rewrite map_nth. unfold Hs.nrange. rewrite HB.nth_nseq by blia. unfold g. f_equal. f_equal. blia.
Qed.

Lemma div_exact_mul n es : 0 < es -> n * es / es = n.
Proof. intros H. apply N.div_mul. blia. Qed.

Lemma elem_rd es data off n i : 0 < es -> (off + n) * es <= blen data -> i < n ->
  elem es (rd data (off * es) (n * es)) i = elem es data (off + i).
Proof.
  intros He Hb Hi. unfold elem. rewrite rd_rd by nia. f_equal. nia.
Qed.

Lemma evals_rd es data off n : 0 < es -> (off + n) * es <= blen data ->
  evals es (rd data (off * es) (n * es)) = map (fun i => unle (elem es data (off + i))) (Hs.nrange n).
Proof.
  intros He Hb. rewrite evals_spec. rewrite blen_rd by nia. rewrite div_exact_mul by assumption.
  apply map_ext_in. intros i Hi. apply HB.in_nrange in Hi. now rewrite (elem_rd es data off n i).
Qed.

Lemma le_div_of_mul a es b : 0 < es -> a * es <= b -> a <= b / es.
Proof. intros He H. apply N.div_le_lower_bound; [blia|nia]. Qed.

Lemma read_at_evals es data off n : 0 < es -> (off + n) * es <= blen data ->
  Hs.read_at (evals es data) off n = map (fun i => unle (elem es data (off + i))) (Hs.nrange n).
Proof.
  intros He Hb. pose proof (le_div_of_mul _ _ _ He Hb) as Hd.
  rewrite HB.read_at_spec by (rewrite evals_lenN; exact Hd).
  unfold Hs.nrange.
  assert (E : Hs.nseq off (N.to_nat n) = map (N.add off) (Hs.nseq 0 (N.to_nat n))).
  { rewrite HB.map_add_nseq. f_equal. blia. }
  rewrite E, map_map.
  apply map_ext_in. intros i Hi. apply HB.in_nseq in Hi. apply nthN_evals. blia.
Qed.

Lemma evals_rd_read_at es data off n : 0 < es -> (off + n) * es <= blen data ->
  evals es (rd data (off * es) (n * es)) = Hs.read_at (evals es data) off n.
Proof. intros He Hb. now rewrite evals_rd, read_at_evals. Qed.

Lemma evals_length_rd es data off n : 0 < es -> (off + n) * es <= blen data ->
  length (evals es (rd data (off * es) (n * es))) = N.to_nat n.
Proof. intros He Hb. rewrite evals_rd by assumption. now rewrite map_length, HB.nrange_length. Qed.
