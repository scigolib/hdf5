(* C11, Model/CodecLink.v: round trips of the symbol-table, link-info and attribute-info messages (optional fields read
   one at a time: present and read back, or absent and 0), then the link message piece by piece: header, name length,
   name, value, and their composition. *)
From HV Require Import Base.Prelude Base.Outcome Base.Bytes Model.CodecMsg Model.CodecLink Proofs.CodecMsg.

Lemma uint_after (pre : list N) v s b (suf : list N) off :
  off = blen pre -> size1248 s -> v < 256 ^ s ->
  (d <- slice_from (pre ++ write_uint v s b ++ suf) off;; read_uint d s b) = Ok v.
Proof.
  intros -> Hs Hv. rewrite slice_from_app by reflexivity. cbn [obind]. now apply read_write_uint.
Qed.

(* a field the flags switch off must hold its default *)
Lemma absent_zero (b : bool) v : b || (v =? 0) = true -> b = false -> v = 0.
Proof. intros H ->. now apply N.eqb_eq. Qed.

Lemma size1248_pos s : size1248 s -> 1 <= s.
Proof. intros [-> | [-> | [-> | ->]]]; blia. Qed.

Lemma symtab_blen x : blen (enc_symtab 8 x) = 16.
Proof. unfold enc_symtab, write_uint. cbn [N.eqb Pos.eqb orb]. rewrite blen_app, !blen_le. reflexivity. Qed.

Lemma symtab_roundtrip x : wf_symtab x = true ->
  dec_symtab false (enc_symtab 8 x) = Ok x.
Proof.
  unfold wf_symtab. intros H. autorewrite with bool_prop in H. destruct H as [Hb Hh].
  unfold dec_symtab. rewrite symtab_blen. change (16 <? 16) with false. cbv iota.
  destruct x as [b h]. pose proof (fa_whole (enc_symtab 8 {| st_btree := b; st_heap := h |})) as F.
  apply fa_split in F as [Fb Fh]. rewrite (fa_rd_le Fb), (fa_rd_le Fh) by auto. reflexivity.
Qed.

Lemma flags_lt4 f : f < 4 -> f = 0 \/ f = 1 \/ f = 2 \/ f = 3.
Proof. lia. Qed.

Lemma wf_linkinfo_inv sb x : wf_linkinfo sb x = true ->
  size1248 (sb_offsize sb) /\ li_version x = 0 /\ li_flags x < 4 /\
  li_maxcorder x < 9223372036854775808 /\ (N.testbit (li_flags x) 0 = false -> li_maxcorder x = 0) /\
  li_heap x < 256 ^ sb_offsize sb /\ li_btname x < 256 ^ sb_offsize sb /\
  li_btorder x < 256 ^ sb_offsize sb /\ (N.testbit (li_flags x) 1 = false -> li_btorder x = 0).
Proof.
  unfold wf_linkinfo, encok_linkinfo. intros H. autorewrite with bool_prop in H.
  destruct H as ((((((((Hsb & ?) & ?) & ?) & ?) & ?) & ?) & ?) & ?).
  apply sb_ok_inv in Hsb as (? & _). repeat split; eauto using absent_zero.
Qed.

Lemma linkinfo_blen sb x : wf_linkinfo sb x = true -> blen (enc_linkinfo sb x) = size_linkinfo sb x.
Proof.
  intros H. apply wf_linkinfo_inv in H as (Ho & _).
  unfold enc_linkinfo, size_linkinfo.
  destruct (N.testbit (li_flags x) 0), (N.testbit (li_flags x) 1); bnorm;
    rewrite !blen_app, ?blen_le, !blen_write_uint, !blen_cons, !blen_nil by auto; blia.
Qed.

Lemma linkinfo_roundtrip sb x : wf_linkinfo sb x = true ->
  dec_linkinfo sb (enc_linkinfo sb x) = Ok x.
Proof.
  intros Hwf. apply wf_linkinfo_inv in Hwf as (Ho & Hv & Hf & Hm & Hm0 & Hh & Hn & Hb & Hb0).
  destruct x as [ver f mco h n bo]; cbn [li_version li_flags li_maxcorder li_heap li_btname li_btorder] in *.
  subst ver. pose proof (size1248_pos _ Ho) as Ho1.
  assert (Hf252 : N.land f 252 = 0) by (destruct (flags_lt4 f Hf) as [-> | [-> | [-> | ->]]]; reflexivity).
  unfold enc_linkinfo. cbn [li_version li_flags li_maxcorder li_heap li_btname li_btorder]. bnorm.
  set (os := sb_offsize sb) in *. set (en := sb_bigendian sb).
  set (A := if N.testbit f 0 then _ else _).
  set (B := if N.testbit f 1 then _ else _).
  match goal with |- dec_linkinfo sb ?d = _ =>
    pose proof (fa_whole d) as F;
    assert (Hlen : blen d = 2 + blen A + os + os + blen B)
      by (rewrite !blen_app, !blen_write_uint by auto; change (blen [0; f]) with 2; blia)
  end.
  apply fa_split in F as [_ F]. apply fa_split in F as [FA F].
  apply fa_split in F as [Fh F]. apply fa_split in F as [Fn FB].
  rewrite !blen_write_uint in Fn, FB by auto. change (0 + blen [0; f]) with 2 in *.
  unfold dec_linkinfo. fold os en. bnorm. rewrite Hlen. clear Hlen.
  cbn [app] in *. rewrite index0, index1, ltb_false by blia. cbn [obind]. rewrite Hf252. cbn [N.eqb negb].
  (* the optional creation-order field is read back, or absent and 0 *)
  match goal with |- obind ?e _ = _ => assert (E : e = Ok (mco, 2 + blen A)) end.
  { subst A. destruct (N.testbit f 0); [|now rewrite (Hm0 eq_refl)].
    rewrite blen_le in *. rewrite ltb_false, (fa_rd_le FA) by (auto; blia). cbn [obind].
    now rewrite (proj2 (N.leb_gt _ _)). }
  rewrite E. cbn [obind]. cbv beta iota.
  rewrite ltb_false, (fa_read_uint Fh) by (auto; blia).
  rewrite ltb_false, (fa_read_uint Fn) by (auto; blia).
  subst B. destruct (N.testbit f 1); [|now rewrite (Hb0 eq_refl)].
  rewrite blen_write_uint in * by auto. rewrite ltb_false, (fa_read_uint FB) by (auto; blia). reflexivity.
Qed.

Lemma write_addr_uint v s : size1248 s -> write_addr v s false = write_uint v s false.
Proof. intros [-> | [-> | [-> | ->]]]; reflexivity. Qed.

Lemma fa_read_addr {file off v s} (F : file_at file off (write_uint v s false)) o :
  o = off -> size1248 s -> v < 256 ^ s -> read_addr file o s = Ok v.
Proof.
  intros -> Hs Hv. unfold read_addr. rewrite (fa_slice F) by (auto; now rewrite blen_write_uint).
  cbn [obind]. rewrite <- (app_nil_r (write_uint v s false)). now apply read_write_uint.
Qed.

Lemma read_addr_at (pre : list N) v s (suf : list N) off :
  off = blen pre -> size1248 s -> v < 256 ^ s ->
  read_addr (pre ++ write_uint v s false ++ suf) off s = Ok v.
Proof. intros ->. apply (fa_read_addr (fa_here pre _ suf)). reflexivity. Qed.

Lemma wf_attrinfo_inv sb x : wf_attrinfo sb x = true ->
  size1248 (sb_offsize sb) /\ sb_bigendian sb = false /\ ai_version x < 256 /\ ai_flags x < 256 /\
  ai_maxcidx x < 65536 /\ (N.testbit (ai_flags x) 0 = false -> ai_maxcidx x = 0) /\
  ai_heap x < 256 ^ sb_offsize sb /\ ai_btname x < 256 ^ sb_offsize sb /\
  ai_btorder x < 256 ^ sb_offsize sb /\ (N.testbit (ai_flags x) 1 = false -> ai_btorder x = 0).
Proof.
  unfold wf_attrinfo. intros H. autorewrite with bool_prop in H.
  destruct H as (((((((((Hsb & ?) & ?) & ?) & ?) & ?) & ?) & ?) & ?) & ?).
  apply sb_ok_inv in Hsb as (? & _). repeat split; eauto using absent_zero.
Qed.

Lemma attrinfo_shape sb x : wf_attrinfo sb x = true ->
  enc_attrinfo sb x =
  [ai_version x; ai_flags x]
  ++ (if N.testbit (ai_flags x) 0 then le 2 (ai_maxcidx x) ++ le 2 0 else [])
  ++ write_uint (ai_heap x) (sb_offsize sb) false
  ++ write_uint (ai_btname x) (sb_offsize sb) false
  ++ (if N.testbit (ai_flags x) 1 then write_uint (ai_btorder x) (sb_offsize sb) false else []).
Proof.
  intros H. apply wf_attrinfo_inv in H as (Ho & Hbe & _ & _ & Hm & _).
  unfold enc_attrinfo. rewrite Hbe. unfold wr16. rewrite !write_addr_uint, !wrap16_small by (auto; blia).
  reflexivity.
Qed.

Lemma attrinfo_blen sb x : wf_attrinfo sb x = true -> blen (enc_attrinfo sb x) = size_attrinfo sb x.
Proof.
  intros H. rewrite attrinfo_shape by auto. apply wf_attrinfo_inv in H as (Ho & _).
  unfold size_attrinfo.
  destruct (N.testbit (ai_flags x) 0), (N.testbit (ai_flags x) 1); bnorm;
    rewrite !blen_app, ?blen_le, !blen_write_uint, !blen_cons, !blen_nil by auto; blia.
Qed.

Lemma attrinfo_roundtrip sb x : wf_attrinfo sb x = true ->
  dec_attrinfo sb (enc_attrinfo sb x) = Ok x.
Proof.
  intros Hwf. rewrite (attrinfo_shape sb x Hwf).
  apply wf_attrinfo_inv in Hwf as (Ho & Hbe & Hv & Hf & Hm & Hm0 & Hh & Hn & Hb & Hb0).
  destruct x as [ver f h n mci bo]; cbn [ai_version ai_flags ai_heap ai_btname ai_maxcidx ai_btorder] in *.
  pose proof (size1248_pos _ Ho) as Ho1. set (os := sb_offsize sb) in *. bnorm.
  set (A := if N.testbit f 0 then _ else _).
  set (B := if N.testbit f 1 then _ else _).
  match goal with |- dec_attrinfo sb ?d = _ =>
    pose proof (fa_whole d) as F;
    assert (Hlen : blen d = 2 + blen A + os + os + blen B)
      by (rewrite !blen_app, !blen_write_uint by auto; change (blen [ver; f]) with 2; blia)
  end.
  apply fa_split in F as [_ F]. apply fa_split in F as [FA F].
  apply fa_split in F as [Fh F]. apply fa_split in F as [Fn FB].
  rewrite !blen_write_uint in Fn, FB by auto. change (0 + blen [ver; f]) with 2 in *.
  unfold dec_attrinfo. bnorm. rewrite Hlen, Hbe. fold os. clear Hlen.
  cbn [app] in *. rewrite index0, index1, ltb_false by blia. cbn [obind].
  match goal with |- obind ?e _ = _ => assert (E : e = Ok (mci, 2 + blen A)) end.
  { subst A. destruct (N.testbit f 0); [|now rewrite (Hm0 eq_refl)].
    rewrite blen_app, !blen_le in *. apply fa_app_l in FA.
    now rewrite ltb_false, (fa_rd_le FA) by (auto; blia). }
  rewrite E. cbn [obind]. cbv beta iota.
  rewrite ltb_false, (fa_read_addr Fh) by (auto; blia). cbn [obind].
  rewrite ltb_false, (fa_read_addr Fn) by (auto; blia). cbn [obind].
  subst B. destruct (N.testbit f 1); [|now rewrite (Hb0 eq_refl)].
  rewrite blen_write_uint in * by auto. now rewrite ltb_false, (fa_read_addr FB) by (auto; blia).
Qed.

(* big-endian superblocks: the encoder writes the addresses big-endian, the decoder reads them little-endian *)
Lemma attrinfo_be_refuted :
  exists sb x, sb_bigendian sb = true /\ sb_ok sb = true /\
    dec_attrinfo sb (enc_attrinfo sb x) <> Ok x.
Proof.
  exists {| sb_version := 2; sb_offsize := 8; sb_lensize := 8; sb_bigendian := true |}.
  exists {| ai_version := 0; ai_flags := 0; ai_heap := 1; ai_btname := 2; ai_maxcidx := 0; ai_btorder := 0 |}.
  repeat split. vm_compute. discriminate.
Qed.

Definition link_hdr (f ty co cs : N) : list N :=
  [1; f] ++ (if lk_has_type f then [ty] else [])
         ++ (if lk_has_corder f then le 8 co else [])
         ++ (if lk_has_charset f then [cs] else []).

Lemma opt_byte_dec (data : list N) off (b : bool) (v : N) :
  file_at data off (if b then [v] else []) -> (b = false -> v = 0) ->
  (if b then if blen data <? off + 1 then Err else t <- index data off;; Ok (t, off + 1) else Ok (0, off))
  = Ok (v, off + blen (if b then [v] else [])).
Proof.
  intros F H0. destruct b.
  - pose proof (fa_bound _ _ _ F). change (blen [v]) with 1 in *. now rewrite ltb_false, (fa_index F) by blia.
  - rewrite (H0 eq_refl), blen_nil. do 2 f_equal. blia.
Qed.

Lemma link_header_dec f ty co cs (rest : list N) :
  co < 256 ^ 8 ->
  (lk_has_type f = false -> ty = 0) -> (lk_has_corder f = false -> co = 0) ->
  (lk_has_charset f = false -> cs = 0) ->
  dec_link_header (link_hdr f ty co cs ++ rest) = Ok (f, ty, co, cs, blen (link_hdr f ty co cs)).
Proof.
  intros Hco Ht Hc Hs. unfold link_hdr.
  set (T := if lk_has_type f then _ else _). set (C := if lk_has_corder f then _ else _).
  set (S := if lk_has_charset f then _ else _).
  match goal with |- dec_link_header ?d = _ => pose proof (fa_whole d) as F end.
  apply fa_app_l, fa_split in F as [_ F]. apply fa_split in F as [FT F]. apply fa_split in F as [FC FS].
  pose proof (fa_bound _ _ _ FS) as B. rewrite !blen_app. change (blen [1; f]) with 2 in *.
  unfold dec_link_header. cbn [app] in *. bnorm. rewrite index0, index1, ltb_false by blia. cbn [obind].
  change (negb (1 =? 1)) with false. cbv iota.
  rewrite (opt_byte_dec _ 2 _ ty) by auto. fold T. cbn [obind]. cbv beta iota.
  match goal with |- obind ?e _ = _ => assert (E : e = Ok (co, 2 + blen T + blen C)) end.
  { subst C. destruct (lk_has_corder f).
    - rewrite blen_le in *. now rewrite ltb_false, (fa_rd_le FC) by (auto; blia).
    - rewrite (Hc eq_refl), blen_nil. do 2 f_equal. blia. }
  rewrite E. cbn [obind]. cbv beta iota.
  rewrite (opt_byte_dec _ _ _ cs) by auto. fold S. cbn [obind].
  do 2 f_equal. blia.
Qed.

Lemma land3_cases f : N.land f 3 = 0 \/ N.land f 3 = 1 \/ N.land f 3 = 2 \/ N.land f 3 = 3.
Proof.
  change 3 with (N.ones 2). rewrite N.land_ones. apply flags_lt4, N.mod_lt. discriminate.
Qed.

Lemma lensize_cases f : let ls := lk_lensize f in ls = 1 \/ ls = 2 \/ ls = 4 \/ ls = 8.
Proof. unfold lk_lensize. destruct (land3_cases f) as [-> | [-> | [-> | ->]]]; cbn; auto. Qed.

Lemma link_namelen_dec (data : list N) off f n :
  file_at data off (le (N.to_nat (lk_lensize f)) n) -> n < 256 ^ lk_lensize f ->
  dec_link_namelen data off f = Ok (n, off + lk_lensize f).
Proof.
  intros F Hn. unfold dec_link_namelen. pose proof (fa_bound _ _ _ F) as B. rewrite blen_le in B.
  now rewrite ltb_false, (fa_rd_le F) by blia.
Qed.

Lemma link_name_dec (data : list N) off name :
  file_at data off name -> blen name <= 1048576 ->
  dec_link_name data off (blen name) = Ok (name, off + blen name).
Proof.
  intros F H. unfold dec_link_name. pose proof (fa_bound _ _ _ F).
  now rewrite !ltb_false, (fa_slice F) by blia.
Qed.

Lemma link_value_dec os (data pre v : list N) off ty :
  data = pre ++ v -> off = blen pre -> link_value_ok os ty v = true ->
  dec_link_value os data off ty = Ok (if ty =? 1 then skipn 2 v else v).
Proof.
  unfold link_value_ok, dec_link_value. intros -> -> H. rewrite blen_app. bnorm.
  destruct (ty =? 0) eqn:T0; [|destruct (ty =? 1) eqn:T1; [|destruct (ty =? 64); [|discriminate]]];
    autorewrite with bool_prop in H.
  - apply N.eqb_eq in T0. subst ty os. change (0 =? 1) with false. cbv iota. rewrite ltb_false by blia.
    apply slice_app_end; reflexivity.
  - destruct H as [H2 Hn].
    rewrite ltb_false, (rd_le_mid pre v _ 0 2) by blia. cbn [obind].
    change (firstn (N.to_nat 2) (skipn (N.to_nat 0) v)) with (firstn 2 v).
    rewrite Hn, ltb_false, (slice_mid_firstn pre v _ 2) by blia.
    f_equal. apply firstn_all2. change (N.to_nat 2) with 2%nat. unfold blen in *. rewrite skipn_length. blia.
  - destruct H as (H4 & Hfl & Hpl). set (fl := unle (firstn 2 v)) in *.
    rewrite ltb_false, (rd_le_mid pre v _ 0 2) by blia. cbn [obind].
    change (firstn (N.to_nat 2) (skipn (N.to_nat 0) v)) with (firstn 2 v). fold fl.
    rewrite ltb_false, (rd_le_mid pre v _ (2 + fl) 2) by blia. cbn [obind].
    change (N.to_nat 2) with 2%nat. rewrite Hpl, ltb_false by blia.
    replace (2 + fl + 2 + (blen v - (2 + fl + 2))) with (blen v) by blia.
    apply slice_app_end; reflexivity.
Qed.

Lemma wf_link_inv os x : wf_link os x = true ->
  lk_version x = 1 /\ lk_corder x < 256 ^ 8 /\ blen (lk_name x) <= 1048576 /\
  blen (lk_name x) < 256 ^ lk_lensize (lk_flags x) /\
  (lk_has_type (lk_flags x) = false -> lk_type x = 0) /\
  (lk_has_corder (lk_flags x) = false -> lk_corder x = 0) /\
  (lk_has_charset (lk_flags x) = false -> lk_charset x = 0) /\
  link_value_ok os (lk_type x) (lk_value x) = true.
Proof.
  unfold wf_link, encok_link. intros H. autorewrite with bool_prop in H.
  destruct H as (((((((((((Hv & Hl) & ?) & ?) & ?) & ?) & ?) & ?) & ?) & ?) & ?) & ?).
  repeat split; eauto using absent_zero.
  apply orb_true_iff in Hl as [E|E]; [apply N.eqb_eq in E; rewrite E|apply N.ltb_lt in E; exact E].
  change (256 ^ 8) with 18446744073709551616. blia.
Qed.

Lemma enc_link_shape x : lk_version x = 1 ->
  enc_link x = link_hdr (lk_flags x) (lk_type x) (lk_corder x) (lk_charset x)
               ++ le (N.to_nat (lk_lensize (lk_flags x))) (blen (lk_name x)) ++ lk_name x ++ lk_value x.
Proof. intros E. unfold enc_link, link_hdr. rewrite E. rewrite <- !app_assoc. reflexivity. Qed.

Lemma link_roundtrip os x : wf_link os x = true ->
  dec_link os (enc_link x) = Ok (proj_link x).
Proof.
  intros Hwf. apply wf_link_inv in Hwf as (Hv & Hco & Hnl & Hnf & Ht & Hc & Hs & Hval).
  rewrite enc_link_shape by auto.
  destruct x as [ver f ty co cs name v]; cbn [lk_version lk_flags lk_type lk_corder lk_charset lk_name lk_value] in *.
  subst ver. unfold dec_link, proj_link.
  cbn [lk_version lk_flags lk_type lk_corder lk_charset lk_name lk_value].
  set (Hd := link_hdr f ty co cs). set (L := le (N.to_nat (lk_lensize f)) (blen name)).
  pose proof (fa_here Hd (L ++ name) v) as F. rewrite <- app_assoc in F. apply fa_split in F as [FL Fn].
  unfold L in Fn at 2. rewrite blen_le, N2Nat.id in Fn.
  bnorm. subst Hd. rewrite link_header_dec by auto. cbn [obind]. cbv beta iota.
  rewrite (link_namelen_dec _ _ _ _ FL) by auto. cbn [obind]. cbv beta iota.
  rewrite (link_name_dec _ _ _ Fn) by auto. cbn [obind]. cbv beta iota.
  rewrite (link_value_dec os _ (link_hdr f ty co cs ++ L ++ name) v) by (subst L; rewrite <- ?app_assoc, ?blen_app, ?blen_le; auto; blia).
  reflexivity.
Qed.

Lemma link_blen x : lk_version x = 1 -> blen (enc_link x) = size_link x.
Proof.
  intros E. rewrite enc_link_shape by auto. unfold link_hdr, size_link.
  destruct (lk_has_type (lk_flags x)), (lk_has_corder (lk_flags x)), (lk_has_charset (lk_flags x)); bnorm;
    rewrite !blen_app, ?blen_le, !blen_cons, !blen_nil; blia.
Qed.

(* decode followed by encode is not the identity on soft links: the decoded value lacks the length field,
   so re-encoding what the parser returned produces a different (malformed) message *)
Definition soft_link_witness : linkmsg :=
  {| lk_version := 1; lk_flags := 24; lk_type := 1; lk_corder := 0; lk_charset := 0;
     lk_name := [108]; lk_value := le 2 2 ++ [47; 97] |}.
Lemma link_soft_reencode_refuted :
  wf_link 8 soft_link_witness = true /\
  match dec_link 8 (enc_link soft_link_witness) with
  | Ok y => bytes_eqb (enc_link y) (enc_link soft_link_witness) = false /\
            bytes_eqb (lk_value y) (lk_value soft_link_witness) = false
  | _ => False
  end.
Proof. vm_compute. repeat split. Qed.
