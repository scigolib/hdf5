(* C08 - shuffle filter: the writer's Remove inverts its Apply, the reader's applyShuffle equals the writer's Remove. *)
From HV Require Import Base.Prelude Model.Filters.

Local Open Scope nat_scope.

Lemma length_upd {A} (i : nat) (v : A) l : length (upd i v l) = length l.
Proof. revert i; induction l as [|h t IH]; intros [|i]; cbn [upd length]; auto. Qed.

Lemma nth_upd_same {A} (i : nat) (v d : A) l : i < length l -> nth i (upd i v l) d = v.
Proof.
  revert i; induction l as [|h t IH]; intros [|i] H; cbn [upd nth length] in *; try lia; auto.
  apply IH; lia.
Qed.

Lemma nth_upd_other {A} (i j : nat) (v d : A) l : i <> j -> nth j (upd i v l) d = nth j l d.
Proof.
  revert i j; induction l as [|h t IH]; intros [|i] [|j] H; cbn [upd nth]; auto; try lia.
Qed.

Lemma upd_app_l {A} (a b : list A) i v : i < length a -> upd i v (a ++ b) = upd i v a ++ b.
Proof.
  revert i; induction a as [|h t IH]; intros [|i] H; cbn [length] in H; try lia; cbn [upd app]; auto.
  f_equal. apply IH. lia.
Qed.

Lemma upd_app_r {A} (a b : list A) i v : length a <= i -> upd i v (a ++ b) = a ++ upd (i - length a) v b.
Proof.
  revert i; induction a as [|h t IH]; intros i H; cbn [length app] in *.
  - now rewrite Nat.sub_0_r.
  - destruct i; [lia|]. cbn [upd Nat.sub]. f_equal. apply IH. lia.
Qed.

Lemma bytes_ok_upd (x : bytes) (i : nat) (b : byte) : bytes_ok x -> (b < 256)%N -> bytes_ok (upd i b x).
Proof.
  intros Hx Hb. revert i. induction Hx as [|a r Ha Hr IH]; intros [|i]; cbn [upd]; constructor; auto.
  apply IH.
Qed.

Section Scatter.
  Variables (dst src : nat * nat -> nat) (data : bytes).
  Let step := fun (acc : bytes) (p : nat * nat) => upd (dst p) (nth (src p) data 0%N) acc.

  Lemma length_fold_upd idx acc : length (fold_left step idx acc) = length acc.
  Proof.
    revert acc; induction idx as [|q r IH]; intro acc; cbn [fold_left]; auto.
    rewrite IH. apply length_upd.
  Qed.

  Lemma fold_upd_untouched idx acc j :
    (forall r, In r idx -> dst r <> j) -> nth j (fold_left step idx acc) 0%N = nth j acc 0%N.
  Proof.
    revert acc; induction idx as [|q r IH]; intros acc H; cbn [fold_left]; auto.
    rewrite IH by (intros; apply H; now right).
    apply nth_upd_other. apply H. now left.
  Qed.

  Lemma fold_upd_written (inv : nat -> nat * nat) idx acc :
    (forall p, In p idx -> dst p < length acc) ->
    (forall p, In p idx -> inv (dst p) = p) ->
    forall p, In p idx -> nth (dst p) (fold_left step idx acc) 0%N = nth (src p) data 0%N.
  Proof.
    revert acc; induction idx as [|q r IH]; intros acc Hb Hi p Hp; [destruct Hp|].
    cbn [fold_left].
    assert (Hr : forall p, In p r -> nth (dst p) (fold_left step r (step acc q)) 0%N = nth (src p) data 0%N).
    { apply IH.
      - intros p' H'. unfold step. rewrite length_upd. apply Hb. now right.
      - intros p' H'. apply Hi. now right. }
    destruct Hp as [<-|Hp]; [|now apply Hr].
    assert (Hdec : forall a b : nat * nat, {a = b} + {a <> b}) by (decide equality; apply Nat.eq_dec).
    destruct (in_dec Hdec q r) as [Hin|Hnin]; [now apply Hr|].
    rewrite fold_upd_untouched.
    - unfold step. apply nth_upd_same. apply Hb. now left.
    - intros r' Hr' Heq. apply Hnin.
      assert (r' = q) as -> by (rewrite <- (Hi r') by (now right); rewrite Heq; apply Hi; now left).
      exact Hr'.
  Qed.
End Scatter.

Lemma length_scatter len dst src idx data : length (scatter len dst src idx data) = len.
Proof. unfold scatter. rewrite length_fold_upd. apply repeat_length. Qed.

Lemma scatter_nth len dst src idx data (inv : nat -> nat * nat) j :
  (forall p, In p idx -> dst p < len) ->
  (forall p, In p idx -> inv (dst p) = p) ->
  In (inv j) idx -> dst (inv j) = j ->
  nth j (scatter len dst src idx data) 0%N = nth (src (inv j)) data 0%N.
Proof.
  intros Hb Hi Hin Hj. unfold scatter.
  rewrite <- Hj at 1.
  apply (fold_upd_written dst src data inv); auto.
  intros p Hp. rewrite repeat_length. now apply Hb.
Qed.

Lemma in_loop2 a b p : In p (loop2 a b) <-> fst p < a /\ snd p < b.
Proof.
  destruct p as [x y]. unfold loop2. rewrite in_prod_iff, !in_seq. cbn [fst snd]. lia.
Qed.

Lemma divmod_major n b k : k < n -> (b * n + k) / n = b /\ (b * n + k) mod n = k.
Proof.
  intros Hk.
  assert (n <> 0) by lia.
  split.
  - rewrite Nat.div_add_l by lia. rewrite Nat.div_small by lia. lia.
  - rewrite Nat.add_comm, Nat.mod_add by lia. apply Nat.mod_small; lia.
Qed.

Lemma divmod_bound e n j : j < e * n -> j / n < e /\ j mod n < n.
Proof.
  intro H. assert (n <> 0) by (destruct n; lia).
  split.
  - apply Nat.div_lt_upper_bound; lia.
  - apply Nat.mod_upper_bound; lia.
Qed.

Lemma divmod_recompose n j : n <> 0 -> (j / n) * n + j mod n = j.
Proof. intro H. pose proof (Nat.div_mod j n H). lia. Qed.

(* gather form of the writer's Apply:  out[j] = data[(j mod n)*e + j/n];  with e and n exchanged it is the
   reader's applyShuffle, whose loops are nested the other way round *)
Lemma shuffle_scatter_nth len e n data j :
  len = e * n -> j < len ->
  nth j (scatter len (fun p => fst p * n + snd p) (fun p => snd p * e + fst p) (loop2 e n) data) 0%N
  = nth ((j mod n) * e + j / n) data 0%N.
Proof.
  intros -> Hj. destruct (divmod_bound e n j Hj) as [H1 H2].
  assert (Hn : n <> 0) by lia.
  rewrite (scatter_nth _ _ _ _ _ (fun j => (j / n, j mod n))); cbn [fst snd]; auto.
  - intros p Hp. apply in_loop2 in Hp. nia.
  - intros [b k] Hp. apply in_loop2 in Hp. cbn [fst snd] in *.
    destruct (divmod_major n b k) as [-> ->]; tauto.
  - apply in_loop2. cbn [fst snd]. tauto.
  - now apply divmod_recompose.
Qed.

(* gather form of the writer's Remove:  out[j] = data[(j mod e)*n + j/e] *)
Lemma unshuffle_scatter_nth len e n data j :
  len = e * n -> j < len ->
  nth j (scatter len (fun p => snd p * e + fst p) (fun p => fst p * n + snd p) (loop2 e n) data) 0%N
  = nth ((j mod e) * n + j / e) data 0%N.
Proof.
  intros -> Hj. assert (Hj' : j < n * e) by lia.
  destruct (divmod_bound n e j Hj') as [H1 H2].
  assert (He : e <> 0) by lia.
  rewrite (scatter_nth _ _ _ _ _ (fun j => (j mod e, j / e))); cbn [fst snd]; auto.
  - intros p Hp. apply in_loop2 in Hp. nia.
  - intros [b k] Hp. apply in_loop2 in Hp. cbn [fst snd] in *.
    destruct (divmod_major e k b) as [-> ->]; tauto.
  - apply in_loop2. cbn [fst snd]. tauto.
  - now apply divmod_recompose.
Qed.

Lemma shuffle_dims (esz : N) (len : nat) :
  (0 < esz)%N -> (N.of_nat len mod esz = 0)%N -> len <> 0 ->
  let e := N.to_nat esz in let n := len / e in e <> 0 /\ n <> 0 /\ len = e * n.
Proof.
  intros He Hm Hl e n. subst e n.
  assert (H0 : N.to_nat esz <> 0) by lia.
  assert (Hmod : len mod N.to_nat esz = 0).
  { apply Nat2N.inj. rewrite Nat2N.inj_mod by lia. rewrite N2Nat.id. exact Hm. }
  pose proof (Nat.div_mod len (N.to_nat esz) H0) as Hd.
  rewrite Hmod in Hd.
  repeat split; auto; try lia.
Qed.

Lemma shuffle_apply_ok esz x :
  (0 < esz)%N -> (N.of_nat (length x) mod esz = 0)%N ->
  exists y, shuffle_apply esz x = Ok y /\ length y = length x.
Proof.
  intros He Hm. unfold shuffle_apply. destruct x as [|a x']; [eexists; split; eauto|].
  set (x := a :: x') in *.
  replace (esz =? 0)%N with false by (symmetry; apply N.eqb_neq; lia).
  rewrite Hm. cbn [N.eqb negb].
  eexists; split; [reflexivity|]. apply length_scatter.
Qed.

Lemma shuffle_ok_inv e x y :
  shuffle_apply e x = Ok y -> (x = [] /\ y = []) \/ (x <> [] /\ (0 < e)%N /\ (N.of_nat (length x) mod e = 0)%N).
Proof.
  unfold shuffle_apply. destruct x as [|a x']; [intro H; inversion H; auto|].
  destruct (N.eqb_spec e 0); [discriminate|].
  destruct (N.eqb_spec (N.of_nat (length (a :: x')) mod e) 0); cbn [negb]; [|discriminate].
  intros _. right. repeat split; auto; try lia. discriminate.
Qed.

Theorem shuffle_inv esz x :
  (0 < esz)%N -> (N.of_nat (length x) mod esz = 0)%N ->
  bind (shuffle_apply esz x) (shuffle_remove esz) = Ok x.
Proof.
  intros He Hm. unfold shuffle_apply. destruct x as [|a x']; [reflexivity|].
  set (x := a :: x') in *.
  replace (esz =? 0)%N with false by (symmetry; apply N.eqb_neq; lia).
  rewrite Hm. cbn [N.eqb negb bind].
  assert (Hl : length x <> 0) by (subst x; cbn [length]; lia).
  destruct (shuffle_dims esz (length x) He Hm Hl) as (He0 & Hn0 & Hlen).
  set (e := N.to_nat esz) in *. set (n := length x / e) in *.
  set (y := scatter _ _ _ _ _).
  assert (Hly : length y = length x) by apply length_scatter.
  unfold shuffle_remove.
  destruct y as [|b y'] eqn:Ey; [cbn [length] in Hly; lia|]. rewrite <- Ey in *. clear Ey b y'.
  replace (esz =? 0)%N with false by (symmetry; apply N.eqb_neq; lia).
  rewrite Hly, Hm. cbn [N.eqb negb]. fold e. fold n.
  f_equal. apply (nth_ext _ _ 0%N 0%N); [apply length_scatter|].
  intros j Hj. rewrite length_scatter in Hj.
  rewrite (unshuffle_scatter_nth _ e n) by assumption.
  assert (Hj2 : j < n * e) by lia.
  destruct (divmod_bound n e j Hj2) as [H1 H2].
  unfold y. rewrite (shuffle_scatter_nth _ e n) by (auto; nia).
  destruct (divmod_major n (j mod e) (j / e)) as [-> ->]; auto.
  f_equal. pose proof (divmod_recompose e j He0). lia.
Qed.

(* the reader's applyShuffle computes the same function as the writer's Remove - also the same errors *)
Theorem reader_unshuffle_eq esz y :
  (0 < esz)%N -> reader_unshuffle [esz] y = shuffle_remove esz y.
Proof.
  intro He. unfold reader_unshuffle, shuffle_remove.
  destruct y as [|b y']; [reflexivity|]. set (y := b :: y') in *.
  replace (esz =? 0)%N with false by (symmetry; apply N.eqb_neq; lia).
  cbn [orb].
  destruct (N.of_nat (length y) mod esz =? 0)%N eqn:Hm; cbn [negb].
  2:{ now destruct (N.of_nat (length y) <? esz)%N. }
  apply N.eqb_eq in Hm.
  assert (Hl : length y <> 0) by (subst y; cbn [length]; lia).
  destruct (shuffle_dims esz (length y) He Hm Hl) as (He0 & Hn0 & Hlen).
  set (e := N.to_nat esz) in *. set (n := length y / e) in *.
  replace (N.of_nat (length y) <? esz)%N with false.
  2:{ symmetry. apply N.ltb_ge. subst e. nia. }
  f_equal. apply (nth_ext _ _ 0%N 0%N); [now rewrite !length_scatter|].
  intros j Hj. rewrite length_scatter in Hj.
  rewrite (shuffle_scatter_nth _ n e), (unshuffle_scatter_nth _ e n) by lia. reflexivity.
Qed.

(* lengths that are not a multiple of the element size: an error, never a pass-through *)
Theorem shuffle_nonmultiple esz x :
  (0 < esz)%N -> (N.of_nat (length x) mod esz <> 0)%N ->
  shuffle_apply esz x = Err /\ shuffle_remove esz x = Err /\ reader_unshuffle [esz] x = Err.
Proof.
  intros He Hm.
  assert (Hx : x <> []) by (intros ->; cbn [length] in Hm; rewrite N.mod_0_l in Hm; lia).
  assert (R : shuffle_remove esz x = Err).
  { unfold shuffle_remove. destruct x; [congruence|].
    replace (esz =? 0)%N with false by (symmetry; apply N.eqb_neq; lia).
    apply N.eqb_neq in Hm. now rewrite Hm. }
  repeat split; auto.
  - unfold shuffle_apply. destruct x; [congruence|].
    replace (esz =? 0)%N with false by (symmetry; apply N.eqb_neq; lia).
    apply N.eqb_neq in Hm. now rewrite Hm.
  - rewrite reader_unshuffle_eq; auto.
Qed.

(* element size 0: an error on every entry point (the model transcribes the tree with /repo b6934a2, where
   ShuffleFilter.Apply checks for it before dividing) *)
Lemma shuffle_esz0_err x : x <> [] -> shuffle_apply 0%N x = Err /\ shuffle_remove 0%N x = Err /\ reader_unshuffle [0%N] x = Err.
Proof. destruct x; [congruence|]. repeat split; reflexivity. Qed.
