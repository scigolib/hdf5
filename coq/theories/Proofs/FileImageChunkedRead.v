(* C01 end to end, chunked: on image_v2_chunked the dataset read program (api_read_raw, Model/IOProgReader.v) returns chunks
   that, scattered as readChunkedData does, are exactly the written data: the image from 2457 on is what the writer model
   appends (Proofs/FileImageChunked.v), on that file the reader's function model returns the data (chunked_end_to_end), and the
   reader program refines the function model (chunked_branch_refines). *)
From HV Require Import Base.Prelude Model.Chunk Base.Outcome Base.Bytes Model.RobustTerm Model.ChunkIndex.
From HV Require Import Model.IOProg Proofs.IOProg Model.IOProgReader.
From HV Require Import Model.CodecSuper Model.CodecOhdr Model.CodecMsg Model.CodecType Model.CodecLink Model.GroupWire.
From HV Require Import Proofs.CodecSuper Proofs.CodecOhdr Proofs.CodecMsg Proofs.CodecType.
From HV Require Import Proofs.ChunkLists Proofs.ChunkSpec Proofs.ChunkCoords Proofs.ChunkTiling Proofs.ChunkIndex Proofs.ChunkEndToEnd.
From HV Require Import Model.FileImage Proofs.FileImage Proofs.FileImageOhdr Proofs.FileImageAttrOhdr Proofs.FileImageData Proofs.FileImageGroup Proofs.FileImageOpen
  Proofs.FileImageGenOpen Proofs.FileImageProd
  Model.FileImageChunked Proofs.ChunkRefine Proofs.FileImageChunked.

From Coq Require Import Permutation.
Local Open Scope N_scope.

Lemma parse_node_level0 f a n cd nd k X :
  placed f a (node_header k ++ X) -> parse_node true f a 8 n cd = Ok nd -> n_level nd = 0.
Proof.
  intros HP H. unfold parse_node in H. change (8 + 8 * 2) with 24 in H.
  destruct (read_at f a 24) as [h|] eqn:Eh; [|discriminate].
  apply read_at_some in Eh as [_ ->].
  assert (Eh : rd f a 24 = node_header k).
  { apply placed_head in HP. rewrite <- (placed_rd_exact _ _ _ HP). now rewrite blen_node_header. }
  rewrite Eh in H. set (h := node_header k) in *.
  assert (I5 : index h 5 = Ok 0) by reflexivity.
  destruct (slice h 0 4) as [sg| |]; cbn [obind] in H; try discriminate.
  destruct (negb (bytes_eqb sg SIG_TREE)); try discriminate.
  destruct (index h 4) as [ty| |]; cbn [obind] in H; try discriminate. rewrite I5 in H. cbn [obind] in H.
  destruct (rd_le h 6 2) as [eu| |]; cbn [obind] in H; try discriminate.
  destruct (slice_from h 8) as [t1| |]; cbn [obind] in H; try discriminate.
  destruct (slice_from h (8 + 8)) as [t2| |]; cbn [obind] in H; try discriminate.
  destruct (eu =? 0); [injection H as <-; reflexivity|].
  destruct (read_bytes_at f _ _); [|discriminate].
  destruct (parse_entries _ _ _ _ _ _ _ _); cbn [obind] in H; try discriminate.
  injection H as <-. reflexivity.
Qed.

Lemma chunks_blen dims cdims esz data : length cdims = length dims -> lenN data = vol dims esz ->
  forall L, Forall (fun c => length c = length dims) L ->
  blen (concat (map snd (map (fun c => (chunk_key cdims c, extract_padded dims cdims esz data c)) L)))
  = N.of_nat (length L) * vol cdims esz.
Proof.
  intros Hc Hd. induction 1 as [|c L Hl _ IH]; [reflexivity|].
  cbn [map snd concat length]. rewrite blen_app, IH.
  pose proof (lenN_extract_padded dims cdims esz data c Hc Hl Hd) as E. unfold lenN in E. unfold blen at 1. bnorm. rewrite E. blia.
Qed.

Lemma cdims_ok_facts : forall dims cdims, cdims_ok dims cdims = true ->
  length cdims = length dims /\ posl cdims /\ Forall2 N.le cdims dims.
Proof.
  induction dims as [|d ds IH]; intros [|c cs] H; cbn [cdims_ok] in H; try discriminate.
  - repeat split; constructor.
  - apply andb_true_iff in H as [H H3]. apply andb_true_iff in H as [H1 H2].
    apply N.ltb_lt in H1. apply N.leb_le in H2. destruct (IH _ H3) as (L & P & F).
    cbn [length]. repeat split; [blia | constructor; auto | constructor; auto].
Qed.

Lemma Forall2_le_bound (a b : list N) M : Forall2 N.le a b -> Forall (fun x => x <= M) b -> Forall (fun x => x <= M) a.
Proof. induction 1; intros Hb; constructor; inversion Hb; subst; auto; blia. Qed.

Lemma loop_entries_spec dim : forall cks eof, Forall (fun kd : list N * bytes => length (fst kd) = dim) cks ->
  Forall (fun e => length (w_coord e) = dim) (loop_entries cks eof) /\ length (loop_entries cks eof) = length cks.
Proof.
  induction cks as [|[k d] r IH]; intros eof H; cbn [loop_entries]; [split; [constructor|reflexivity]|].
  inversion H; subst. destruct (IH (wrap64 (eof + blen d)) ltac:(assumption)) as [F L]. split; [constructor; auto|cbn [length]; blia].
Qed.

Lemma fold_mul_prodN : forall l a, fold_left N.mul l a = a * prodN l.
Proof. induction l as [|x l IH]; intros a; cbn [fold_left prodN fold_right]; [blia|]. rewrite IH. fold (prodN l). blia. Qed.

Section ImageC.
Variable name : bytes.
Variables class size cbf : N.
Variables dims cdims : list N.
Variable data : bytes.
Hypothesis Hname : link_name_ok name = true.
Hypothesis Hdt : basic_dtype class size cbf = true.
Hypothesis Hdims : dims_ok_chunked dims = true.
Hypothesis Hcd : cdims_ok dims cdims = true.
Hypothesis Hlen : blen data = prodN dims * size.
Hypothesis Hbound : blen data < 4294967296.
Hypothesis Hchunk : prodN cdims * size <= 1073741824.
Hypothesis Hcap : total_chunks (num_chunks dims cdims) <= 65535.

Local Notation f := (image_v2_chunked name class size cbf dims cdims data).
Local Notation dso := (c_dset_ohdr class size cbf dims cdims data).
Local Notation dsb := (c_dset_block class size cbf dims cdims data).
Local Notation cb := (c_chunk_bytes size dims cdims data).
Local Notation leaf := (c_leaf size dims cdims data).
Local Notation pre := (c_prefix name class size cbf dims cdims data).
Local Notation bta := (c_btree_addr size dims cdims data).

Lemma Hdims' : dims_ok dims = true.
Proof using Hdims. clear - Hdims. unfold dims_ok_chunked in Hdims. now apply andb_true_iff in Hdims as [H _]. Qed.
Lemma rank17 : (1 <= length dims <= 17)%nat.
Proof using Hdims. clear - Hdims. pose proof (rank_bounds dims Hdims'). unfold dims_ok_chunked in Hdims.
  apply andb_true_iff in Hdims as [_ H17]. apply Nat.leb_le in H17. blia. Qed.
Lemma c_shape : shape_ok dims cdims size.
Proof using Hdt Hdims Hcd. clear - Hdt Hdims Hcd.
  destruct (cdims_ok_facts _ _ Hcd) as (L & P & _). pose proof rank17. pose proof (size_pos _ _ _ Hdt).
  repeat split; auto; try blia.
  - intros ->. cbn [length] in *. blia.
  - exact (dims_ok_pos dims Hdims').
Qed.
Lemma c_lenN : lenN data = vol dims size.
Proof using Hlen. clear - Hlen. unfold lenN, vol. exact Hlen. Qed.
Lemma cdims_u32 : u32_ok cdims = true.
Proof using Hdt Hdims Hcd Hlen Hbound. clear - Hdt Hdims Hcd Hlen Hbound.
  destruct (cdims_ok_facts _ _ Hcd) as (_ & _ & F). pose proof (le_prodN dims (dims_ok_pos dims Hdims')) as HP.
  pose proof (size_pos _ _ _ Hdt) as [S1 _]. unfold u32_ok. apply forallb_forall. intros x Hx. apply N.ltb_lt.
  pose proof (Forall2_le_bound _ _ _ F HP) as HC. rewrite Forall_forall in HC. specialize (HC x Hx). cbv beta in HC. nia.
Qed.

Lemma chunks_len : blen cb = total_chunks (num_chunks dims cdims) * vol cdims size.
Proof using Hdt Hdims Hcd Hlen. clear - Hdt Hdims Hcd Hlen.
  pose proof c_shape as (Hne & Hc & Hpd & Hpc & Hez).
  unfold c_chunk_bytes, c_chunks, write_chunks. rewrite (chunks_blen dims cdims size data Hc c_lenN).
  - unfold all_chunk_coords. rewrite map_length, length_rangeN. blia.
  - apply Forall_forall. intros c Hin. rewrite all_chunk_coords_enum in Hin by auto.
    pose proof (in_coords_length _ _ Hin) as L. rewrite length_num_chunks in L by auto. exact L.
Qed.

Lemma c_leaf_len : blen leaf = 24 + total_chunks (num_chunks dims cdims) * (16 + 8 * N.of_nat (length dims)) + (8 + 8 * N.of_nat (length dims)).
Proof using Hdt Hdims Hcd. clear - Hdt Hdims Hcd.
  pose proof c_shape as (Hne & Hc & Hpd & Hpc & Hez).
  assert (Hck : Forall (fun kd : list N * bytes => length (fst kd) = length dims) (c_chunks size dims cdims data)).
  { unfold c_chunks, write_chunks. apply Forall_forall. intros kd Hin. apply in_map_iff in Hin as (c & <- & Hin). cbn [fst].
    rewrite all_chunk_coords_enum in Hin by auto. pose proof (in_coords_length _ _ Hin) as L. rewrite length_num_chunks in L by auto.
    rewrite length_chunk_key; blia. }
  destruct (loop_entries_spec _ _ CHUNKS_ADDR Hck) as [F L]. fold (c_entries size dims cdims data) in F, L.
  pose proof (sort_entries_perm (c_entries size dims cdims data)) as P.
  unfold c_leaf, serialize_leaf. rewrite !blen_app, blen_node_header, blen_enc_key, repeat_length.
  rewrite (blen_enc_entries (length dims)) by (eapply Permutation_Forall; [apply Permutation_sym, P|exact F]).
  rewrite (Permutation_length P), L. unfold c_chunks, write_chunks, all_chunk_coords. rewrite !map_length, length_rangeN. blia.
Qed.

Lemma leaf_shape : exists X, leaf = node_header (N.of_nat (length (sort_entries (c_entries size dims cdims data)))) ++ X.
Proof using. clear. unfold c_leaf, serialize_leaf. eexists. reflexivity. Qed.

(* the file ends 2457 + (chunks + leaf) bytes from its start; at most 65535 chunks of at most 2^30 bytes, rank at most 17 *)
Lemma c_eof_eq : c_eof size dims cdims data = 2457 + chunked_file_growth dims cdims size.
Proof using Hdt Hdims Hcd Hlen. clear - Hdt Hdims Hcd Hlen.
  unfold c_eof, c_btree_addr, chunked_file_growth. rewrite chunks_len, c_leaf_len. change CHUNKS_ADDR with 2457. blia.
Qed.
Lemma c_eof_bound : 2457 + 24 <= c_eof size dims cdims data <= MAXI64.
Proof using Hdt Hdims Hcd Hlen Hchunk Hcap. clear - Hdt Hdims Hcd Hlen Hchunk Hcap.
  pose proof rank17 as R. rewrite c_eof_eq. unfold chunked_file_growth, MAXI64, vol.
  set (n := total_chunks (num_chunks dims cdims)) in *.
  assert (n * (prodN cdims * size) <= 65535 * 1073741824) by (apply N.mul_le_mono; auto).
  assert (n * (16 + 8 * N.of_nat (length dims)) <= 65535 * 152) by (apply N.mul_le_mono; blia). blia.
Qed.

Lemma wf_cly : wf_layout SBP (LChunked cdims bta) = true.
Proof using Hdt Hdims Hcd Hlen Hbound Hchunk Hcap. clear - Hdt Hdims Hcd Hlen Hbound Hchunk Hcap.
  destruct (cdims_ok_facts _ _ Hcd) as (L & _ & _). pose proof rank17.
  unfold wf_layout. cbn [sb_ok SBP sb_offsize sb_lensize sb_version encok_layout]. rewrite cdims_u32.
  replace (length cdims =? 0)%nat with false by (symmetry; apply Nat.eqb_neq; blia).
  replace (length cdims <=? 255)%nat with true by (symmetry; apply Nat.leb_le; blia).
  replace (bta <? 256 ^ 8) with true; [reflexivity|]. symmetry. apply N.ltb_lt.
  pose proof c_eof_bound as B. unfold c_eof, MAXI64 in B. change (256 ^ 8) with 18446744073709551616. blia.
Qed.
Lemma cly_msg_len : blen (enc_layout SBP (LChunked cdims bta)) = 11 + 4 * blen cdims.
Proof using Hdt Hdims Hcd Hlen Hbound Hchunk Hcap. clear - Hdt Hdims Hcd Hlen Hbound Hchunk Hcap.
  rewrite layout_blen by exact wf_cly. cbn [size_layout SBP sb_offsize]. blia. Qed.
Lemma c_dso_chunk : chunk_size_v2 (oh_msgs dso) = (if class =? DT_FIXED then 12 else 20) + 12 * blen dims + 31.
Proof using Hdt Hdims Hcd Hlen Hbound Hchunk Hcap. clear - Hdt Hdims Hcd Hlen Hbound Hchunk Hcap.
  destruct (cdims_ok_facts _ _ Hcd) as (L & _ & _).
  unfold c_dset_ohdr. cbn [oh_msgs chunk_size_v2 fold_right hm_data].
  rewrite (dt_msg_len _ _ _ Hdt), ds_msg_len, cly_msg_len. unfold blen. rewrite L. blia.
Qed.
Lemma c_dso_bound : chunk_size_v2 (oh_msgs dso) <= 255.
Proof using Hdt Hdims Hcd Hlen Hbound Hchunk Hcap. clear - Hdt Hdims Hcd Hlen Hbound Hchunk Hcap.
  rewrite c_dso_chunk. pose proof rank17. unfold blen. destruct (class =? DT_FIXED); blia. Qed.
Lemma c_dso_ok : ohdr_ok2 dso.
Proof using Hdt Hdims Hcd Hlen Hbound Hchunk Hcap. clear - Hdt Hdims Hcd Hlen Hbound Hchunk Hcap.
  unfold ohdr_ok2. split; [reflexivity|]. split; [reflexivity|]. split; [exact c_dso_bound|]. split; [discriminate|].
  unfold c_dset_ohdr. cbn [oh_msgs]. repeat constructor; cbn [hm_type hm_data]; unfold MSG_CONT; try blia; try discriminate.
  - rewrite (dt_msg_len _ _ _ Hdt). destruct (class =? DT_FIXED); blia.
  - rewrite ds_msg_len. blia.
  - rewrite cly_msg_len. blia.
Qed.

(* the image is a one-dataset file without data: the dataset's header sits at 2195, chunks and leaf follow it *)
Local Notation inst L :=
  (L (c_eof size dims cdims data) name (@nil N) dso (zeros (N.to_nat (OHDR_RESERVE - size_ohdr_v2 dso)))
     (map snd (c_chunks size dims cdims data) ++ [leaf])) (only parsing).

Lemma c_dset_header fuel : (3 < fuel)%nat -> run0 f (p_ohdr SB' fuel 2195) = Ok (proj_ohdr_v2 false dso 2195).
Proof using Hname Hdt Hdims Hcd Hlen Hbound Hchunk Hcap. exact (inst v2_dset_header Hname c_dso_ok eq_refl fuel). Qed.

Lemma model_read : read_chunked_file true f bta 8 dims cdims size = COk data.
Proof using Hname Hdt Hdims Hcd Hlen Hbound Hchunk Hcap.
  pose proof c_shape as Hs. pose proof Hs as (Hne & Hc & Hpd & Hpc & Hez). pose proof rank17 as R.
  pose proof (pre_len name class size cbf dims cdims data Hname c_dso_bound) as PL.
  assert (HB : vol cdims size <= MAX_CHUNK) by (unfold vol, MAX_CHUNK; exact Hchunk).
  assert (HV : vol dims size <= MAX_CHUNK * 1024) by (unfold vol, MAX_CHUNK; rewrite <- Hlen; blia).
  assert (HG : 2457 + chunked_file_growth dims cdims size <= MAXINT64) by (rewrite <- c_eof_eq; apply c_eof_bound).
  destruct (chunked_end_to_end dims cdims size data pre 2457 Hs c_lenN Hcap HB HV HG) as (f' & eof' & root & Hw & Hr).
  rewrite <- PL in Hw.
  apply write_chunked_file_appends in Hw.
  - cbv zeta in Hw. destruct Hw as [-> ->]. rewrite PL in Hr.
    rewrite (image_split name class size cbf dims cdims data). exact Hr.
  - rewrite PL. fold (c_chunks size dims cdims data). fold cb.
    pose proof c_eof_bound as B. unfold c_eof, c_btree_addr, MAXI64 in B. change CHUNKS_ADDR with 2457 in B. blia.
Qed.

Theorem dataset_read_chunked fuel : (3 < fuel)%nat ->
  exists cs, run0 f (api_read_raw SB' fuel 2195) = Ok (RawChunks cs) /\ assemble_chunks dims cdims size cs = COk data.
Proof using Hname Hdt Hdims Hcd Hlen Hbound Hchunk Hcap.
  intros Hf. pose proof c_shape as (Hne & Hc & Hpd & Hpc & Hez). pose proof rank17 as R.
  assert (Hf63 : blen f <= MAXI64) by (rewrite (image_c_len name class size cbf dims cdims data Hname c_dso_bound); apply c_eof_bound).
  assert (Hap : all_pos cdims = true).
  { unfold all_pos. apply forallb_forall. intros x Hx. apply N.ltb_lt. rewrite Forall_forall in Hpc. auto. }
  assert (Hlv : forall nd, parse_node true f bta 8 (length cdims) cdims = Ok nd -> n_level nd = 0).
  { intros nd Hnd. destruct leaf_shape as (X & EX).
    pose proof (PC_leaf name class size cbf dims cdims data Hname c_dso_bound) as PL. rewrite EX in PL.
    exact (parse_node_level0 _ _ _ _ _ _ _ PL Hnd). }
  destruct (chunked_branch_refines SB' eq_refl f bta dims cdims size data fuel Hf63 Hap ltac:(blia) Hlv model_read) as (cs & Erun & Has).
  exists cs. split; [|exact Has].
  unfold api_read_raw. rewrite run0_bind, (c_dset_header fuel Hf). rewrite run0_swallow.
  unfold proj_ohdr_v2, c_dset_ohdr. cbn [oh_msgs oh_flags msgs_at_v2 ohp_msgs hm_type hm_data].
  rewrite dset_attrs. cbn [bind]. rewrite run0_ret.
  unfold p_dataset_raw. cbn [find_msg fold_left hmp_type hmp_data N.eqb Pos.eqb].
  rewrite (datatype_roundtrip _ (wf_dt _ _ _ Hdt)), (dataspace_roundtrip _ (wf_ds _ Hdims')).
  change (sbp SB') with SBP. rewrite (layout_roundtrip _ _ wf_cly).
  cbn [obind lift bind fst snd proj_dataspace proj_layout dsp_type dsp_dims ds_dims ly_class ly_addr ly_compact ly_chunk N.eqb Pos.eqb].
  fold (total_elements dims).
  rewrite (proj_dtype_size class size cbf Hdt).
  assert (Htot : total_elements dims = prodN dims).
  { apply total_elements_prod; [|exact Hpd]. pose proof (size_pos _ _ _ Hdt). nia. }
  assert (Hp0 : 0 < prodN dims) by (apply ChunkCoords.prodN_pos; exact Hpd).
  replace (total_elements dims =? 0) with false by (symmetry; apply N.eqb_neq; rewrite Htot; blia).
  replace (length cdims <? length dims)%nat with false by (symmetry; apply Nat.ltb_ge; blia).
  unfold chunked_branch in Erun. exact Erun.
Qed.
End ImageC.
