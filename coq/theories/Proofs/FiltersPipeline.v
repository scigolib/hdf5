(* C08 - pipelines of any filters in any order: Remove inverts Apply (pipeline_roundtrip), the reader decodes what the
   writer stored (reader_decodes_writer), one altered byte under an outermost Fletcher-32 is detected (pipeline_detects);
   the description message parses back to the descriptors (msg_roundtrip_wf_gen); Fletcher-32 under LZF is refuted. *)
From HV Require Import Base.Prelude Model.Filters Proofs.FiltersShuffle Proofs.FiltersFletcher Proofs.FiltersLzf.
From HV Require Base.Bytes.

Lemma fold_bind_not_ok {A B} (step : B -> A -> outcome A) (l : list B) (o : outcome A) :
  (forall a, o <> Ok a) -> fold_left (fun acc f => bind acc (step f)) l o = o.
Proof.
  revert o; induction l as [|f l IH]; intros o H; cbn [fold_left]; auto.
  destruct o as [a| | |]; [exfalso; eapply H; reflexivity| | |]; cbn [bind]; apply IH; intros; discriminate.
Qed.

Lemma fold_bind_inv {A B} (step : B -> A -> outcome A) (l : list B) (o : outcome A) y :
  fold_left (fun acc f => bind acc (step f)) l o = Ok y -> exists a, o = Ok a.
Proof.
  intro H. destruct o as [a| | |]; eauto;
    rewrite fold_bind_not_ok in H by (intros; discriminate); discriminate.
Qed.

Lemma reader_verify_spec s :
  fletcher_verify s = if (length s <? 4)%nat then Err
                      else if reader_verify s then Ok (firstn (length s - 4) s) else Err.
Proof. unfold fletcher_verify, reader_verify. destruct (length s <? 4)%nat; reflexivity. Qed.


Section WithDeflate.
  Variable deflate : N -> bytes -> bytes.
  Variable inflate : bytes -> option bytes.
  Hypothesis inflate_deflate : forall l x, inflate (deflate l x) = Some x.

  Notation apply1 := (apply1 deflate).
  Notation remove1 := (remove1 inflate).
  Notation pipeline_apply := (pipeline_apply deflate).
  Notation pipeline_remove := (pipeline_remove inflate).
  Notation reader_step := (reader_step inflate).
  Notation reader_apply := (reader_apply inflate).

  Lemma remove1_apply1 f x y : apply1 f x = Ok y -> remove1 f y = Ok x.
  Proof.
    destruct f as [l|e| |]; cbn [Filters.apply1 Filters.remove1]; intro H.
    - inversion H; subst. unfold inflate_o. now rewrite inflate_deflate.
    - destruct (shuffle_ok_inv e x y H) as [[-> ->]|(Hx & He & Hm)]; [reflexivity|].
      pose proof (shuffle_inv e x He Hm) as R. rewrite H in R. exact R.
    - inversion H; subst. apply fletcher_roundtrip.
    - unfold lzf_apply in H. inversion H; subst. apply lzf_roundtrip.
  Qed.

  Lemma apply1_accepts f x : filter_pre f x -> exists y, apply1 f x = Ok y.
  Proof.
    destruct f as [l|e| |]; cbn [Filters.apply1 filter_pre]; intro H; eauto.
    - destruct H as [->|[He Hm]]; [eexists; reflexivity|].
      destruct (shuffle_apply_ok e x He Hm) as (y & Hy & _). eauto.
    - unfold lzf_apply. eauto.
  Qed.

  (* the reader refuses an inflated chunk above utils.MaxChunkSize: deflate stages must stay below it *)
  Definition stage_small (f : filter) (x : bytes) : Prop :=
    match f with FDeflate _ => N.of_nat (length x) <= max_chunk_size | _ => True end.

  Lemma reader_step_apply1 f x y : stage_small f x -> apply1 f x = Ok y -> reader_step (descr1 f) y = Ok x.
  Proof.
    destruct f as [l|e| |]; cbn [Filters.apply1 stage_small]; intros Hs H; unfold Filters.reader_step, reader_apply1;
      cbn [descr1 fid fcd fflags]; cbn [N.eqb Pos.eqb andb negb].
    - inversion H; subst. unfold reader_inflate_o. rewrite inflate_deflate.
      now replace (max_chunk_size <? N.of_nat (length x)) with false by (symmetry; apply N.ltb_ge; exact Hs).
    - destruct (shuffle_ok_inv e x y H) as [[-> ->]|(Hx & He & Hm)]; [reflexivity|].
      rewrite reader_unshuffle_eq by exact He.
      pose proof (shuffle_inv e x He Hm) as R. rewrite H in R. cbn [bind] in R. now rewrite R.
    - inversion H; subst.
      pose proof (fletcher_roundtrip x) as R. rewrite reader_verify_spec in R.
      destruct (length (fletcher_apply x) <? 4)%nat; [discriminate|].
      destruct (reader_verify (fletcher_apply x)); [|discriminate].
      cbn [negb]. exact R.
    - unfold lzf_apply in H. inversion H; subst.
      cbn [length Nat.leb nth N.ltb N.compare andb].
      unfold lzf_remove. now rewrite lzf_roundtrip.
  Qed.

  Lemma pipeline_apply_cons f fs x : pipeline_apply (f :: fs) x = bind (apply1 f x) (pipeline_apply fs).
  Proof.
    unfold Filters.pipeline_apply. cbn [fold_left bind].
    destruct (apply1 f x) eqn:E; cbn [bind]; auto; apply fold_bind_not_ok; intros; discriminate.
  Qed.

  Lemma pipeline_remove_cons f fs y : pipeline_remove (f :: fs) y = bind (pipeline_remove fs y) (remove1 f).
  Proof. unfold Filters.pipeline_remove. cbn [rev]. rewrite fold_left_app. reflexivity. Qed.

  Lemma reader_apply_cons d ds y : reader_apply (d :: ds) y = bind (reader_apply ds y) (reader_step d).
  Proof. unfold Filters.reader_apply. cbn [rev]. rewrite fold_left_app. reflexivity. Qed.

  Theorem pipeline_roundtrip : forall fs x y,
    pipeline_apply fs x = Ok y -> pipeline_remove fs y = Ok x.
  Proof.
    induction fs as [|f fs IH]; intros x y H.
    - cbv in H. inversion H. reflexivity.
    - rewrite pipeline_apply_cons in H. destruct (apply1 f x) as [x1| | |] eqn:E; try discriminate.
      cbn [bind] in H. rewrite pipeline_remove_cons, (IH x1 y H). cbn [bind].
      now apply remove1_apply1.
  Qed.

  Fixpoint stages_small (fs : list filter) (x : bytes) : Prop :=
    match fs with
    | [] => True
    | f :: r => stage_small f x /\ forall y, apply1 f x = Ok y -> stages_small r y
    end.

  Theorem reader_decodes_writer : forall fs x y,
    stages_small fs x -> pipeline_apply fs x = Ok y -> reader_apply (descr fs) y = Ok x.
  Proof.
    induction fs as [|f fs IH]; intros x y Hs H.
    - cbv in H. inversion H. reflexivity.
    - rewrite pipeline_apply_cons in H. destruct (apply1 f x) as [x1| | |] eqn:E; try discriminate.
      destruct Hs as [Hs1 Hs2].
      cbn [bind] in H. cbn [descr map]. rewrite reader_apply_cons. fold (descr fs). rewrite (IH x1 y (Hs2 x1 E) H). cbn [bind].
      now apply reader_step_apply1.
  Qed.

  (* every filter's precondition holds on its input (the input of the next filter is whatever the
     previous one produced) *)
  Fixpoint pipeline_pre (fs : list filter) (x : bytes) : Prop :=
    match fs with
    | [] => True
    | f :: r => filter_pre f x /\ forall y, apply1 f x = Ok y -> pipeline_pre r y
    end.

  Theorem pipeline_accepts : forall fs x, pipeline_pre fs x -> exists y, pipeline_apply fs x = Ok y.
  Proof.
    induction fs as [|f fs IH]; intros x H; [eexists; reflexivity|].
    destruct H as [Hf Hr]. destruct (apply1_accepts f x Hf) as [x1 E].
    destruct (IH x1 (Hr x1 E)) as [y Hy]. exists y.
    rewrite pipeline_apply_cons, E. exact Hy.
  Qed.

End WithDeflate.

(* corruption: Fletcher-32 as the outermost (last applied) filter *)

Theorem pipeline_detects (inflate : bytes -> option bytes) pre (z : bytes) (i : nat) (b : byte) :
  bytes_ok z -> b < 256 -> (i < length (fletcher_apply z))%nat -> b <> nth i (fletcher_apply z) 0 ->
  Filters.pipeline_remove inflate (pre ++ [FFletcher]) (upd i b (fletcher_apply z)) = Err /\
  Filters.reader_apply inflate (descr (pre ++ [FFletcher])) (upd i b (fletcher_apply z)) = Err.
Proof.
  intros Hz Hb Hi Hne.
  pose proof (fletcher_detects_single_byte z i b Hz Hb Hi Hne) as D.
  split.
  - unfold Filters.pipeline_remove. rewrite rev_app_distr. cbn [rev app fold_left bind Filters.remove1].
    rewrite D. apply fold_bind_not_ok. intros; discriminate.
  - unfold Filters.reader_apply, descr. rewrite map_app, rev_app_distr. cbn [map rev app fold_left bind descr1].
    assert (St : Filters.reader_step inflate (mk_fdesc 3 10 0 0 name_fletcher []) (upd i b (fletcher_apply z)) = Err).
    { rewrite reader_verify_spec in D.
      assert (L : (length (upd i b (fletcher_apply z)) <? 4)%nat = false).
      { apply Nat.ltb_ge. rewrite length_upd. unfold fletcher_apply. rewrite app_length, Bytes.length_le. lia. }
      rewrite L in D.
      destruct (reader_verify (upd i b (fletcher_apply z))) eqn:V; [discriminate|].
      unfold Filters.reader_step. cbn [fid fflags fcd]. cbn [N.eqb Pos.eqb andb]. rewrite V. reflexivity. }
    rewrite St. apply fold_bind_not_ok. intros; discriminate.
Qed.

(* what the message round trip needs of a descriptor.  The name bound keeps encodeFilter's uint16 padding arithmetic
   (nameLen + 7) from wrapping; any bound up to 65528 would do *)
Definition desc_wf (d : fdesc) : Prop :=
  fid d < 65536 /\ fflags d < 65536 /\
  fnamelen d = N.of_nat (length (fname d)) /\ N.of_nat (length (fname d)) < 65000 /\ Forall (fun b => b <> 0) (fname d) /\
  fncd d = N.of_nat (length (fcd d)) /\ N.of_nat (length (fcd d)) < 65536 /\ Forall (fun v => v < 4294967296) (fcd d).

Lemma firstn_le_app n v r : firstn n (le n v ++ r) = le n v.
Proof. rewrite <- (Bytes.length_le n v) at 1. apply Bytes.firstn_length_app. Qed.

Lemma skipn_le_app n v r : skipn n (le n v ++ r) = r.
Proof. rewrite <- (Bytes.length_le n v) at 1. apply Bytes.skipn_length_app. Qed.

Lemma until_nul_nonzero b : Forall (fun x => x <> 0) b -> until_nul b = b.
Proof.
  induction 1 as [|x r Hx Hr IH]; cbn [until_nul]; auto.
  destruct (N.eqb_spec x 0); [congruence|]. now rewrite IH.
Qed.

Lemma name_of_nonzero b : Forall (fun x => x <> 0) b -> name_of b = b.
Proof. intro H. unfold name_of. rewrite until_nul_nonzero by exact H. now destruct b. Qed.

Lemma read_u32s_encoded : forall (cd : list N) (D : bytes),
  Forall (fun v => v < 4294967296) cd ->
  read_u32s (length cd) (concat (map (le 4) cd) ++ D) = cd /\
  skipn (4 * length cd) (concat (map (le 4) cd) ++ D) = D.
Proof.
  induction cd as [|c cd IH]; intros D H; [split; reflexivity|].
  inversion H as [|? ? Hc Hcd]; subst.
  cbn [map concat length read_u32s]. rewrite <- app_assoc.
  rewrite firstn_le_app, skipn_le_app, (Bytes.unle_le_small 4) by exact Hc.
  destruct (IH D Hcd) as [R Sk]. split; [now rewrite R|].
  replace (4 * S (length cd))%nat with (4 + 4 * length cd)%nat by lia.
  rewrite <- Bytes.skipn_skipn, skipn_le_app. exact Sk.
Qed.

Lemma length_concat_le4 (cd : list N) : length (concat (map (le 4) cd)) = (4 * length cd)%nat.
Proof. induction cd; cbn [map concat length]; auto. rewrite app_length, Bytes.length_le, IHcd. lia. Qed.

(* for both variants of the version 2 filter name switch: in the version 1 layout, which the writer uses, every filter has a
   name-length field in either *)
Lemma parse_filters_step rep d k D :
  desc_wf d ->
  parse_filters_gen rep (S k) true 2 (encode_filter d ++ D)
  = bind (parse_filters_gen rep k true 2 D) (fun rest => Ok (d :: rest)).
Proof.
  intros (Hid & Hfl & Hnl & Hnlen & Hnz & Hncd & Hcdlen & Hcd).
  destruct d as [id nl flags ncd name cd]. cbn [fid fnamelen fflags fncd fname fcd] in *.
  unfold encode_filter. cbn [fid fnamelen fflags fncd fname fcd].
  set (NL := wrap16 (N.of_nat (length name))).
  assert (ENL : NL = nl) by (subst NL; unfold wrap16; lia).
  set (NCD := wrap16 (N.of_nat (length cd))).
  assert (ENCD : NCD = ncd) by (subst NCD; unfold wrap16; lia).
  set (padded := if 0 <? NL then wrap16 (wrap16 (NL + 7) / 8 * 8) else 0).
  set (namepart := if 0 <? NL then name ++ repeat 0 (N.to_nat padded - length name) else []).
  set (cdpart := concat (map (le 4) cd)).
  rewrite <- !app_assoc.
  cbn [parse_filters_gen orb].
  replace (length (le 2 id ++ le 2 NL ++ le 2 flags ++ le 2 NCD ++ namepart ++ cdpart ++ D) <? 8)%nat with false.
  2:{ symmetry. apply Nat.ltb_ge. rewrite !app_length, !Bytes.length_le. lia. }
  repeat (rewrite firstn_le_app || rewrite skipn_le_app).
  rewrite !(Bytes.unle_le_small 2) by (subst NL NCD; unfold wrap16; lia).
  cbn [andb].
  rewrite ENL, ENCD in *.
  set (ppad := if nl mod 8 =? 0 then nl else nl + (8 - nl mod 8)).
  assert (Hpad : 0 < nl -> padded = ppad /\ N.of_nat (length name) <= padded).
  { intro Hpos. subst padded ppad. rewrite ENL. replace (0 <? nl) with true by (symmetry; apply N.ltb_lt; lia).
    unfold wrap16. rewrite (N.mod_small (nl + 7)) by lia. rewrite (N.mod_small ((nl + 7) / 8 * 8)) by lia.
    destruct (N.eqb_spec (nl mod 8) 0); [split; lia|].
    split; lia. }
  (* the client data, the same whether or not there is a name *)
  destruct (read_u32s_encoded cd D Hcd) as [Rcd Scd]. fold cdpart in Rcd, Scd.
  assert (Tcd : (0 <? ncd) && (N.of_nat (length (cdpart ++ D)) <? 4 * ncd) = false).
  { apply andb_false_iff. right. apply N.ltb_ge. rewrite app_length. subst cdpart. rewrite length_concat_le4. lia. }
  replace (N.to_nat ncd) with (length cd) by lia.
  replace ((0 <? ncd) && (2 =? 1) && negb ((4 * ncd) mod 8 =? 0)) with false by (now rewrite andb_false_r).
  destruct (N.ltb_spec 0 nl) as [Hpos|Hzero].
  - destruct (Hpad Hpos) as [Epad Hle].
    assert (Enp : namepart = name ++ repeat 0 (N.to_nat padded - length name)).
    { subst namepart. rewrite ENL. now replace (0 <? nl) with true by (symmetry; apply N.ltb_lt; lia). }
    assert (Lnp : length namepart = N.to_nat padded).
    { rewrite Enp, app_length, repeat_length. lia. }
    replace (N.of_nat (length (namepart ++ cdpart ++ D)) <? ppad) with false.
    2:{ symmetry. apply N.ltb_ge. rewrite app_length, Lnp. lia. }
    cbn [andb].
    assert (Efn : firstn (N.to_nat nl) (namepart ++ cdpart ++ D) = name).
    { rewrite Enp, <- app_assoc. replace (N.to_nat nl) with (length name) by lia. apply Bytes.firstn_length_app. }
    assert (Esn : skipn (N.to_nat ppad) (namepart ++ cdpart ++ D) = cdpart ++ D).
    { rewrite <- Epad, <- Lnp. apply Bytes.skipn_length_app. }
    now rewrite Efn, Esn, name_of_nonzero, Tcd, Rcd, Scd by exact Hnz.
  - assert (Hn0 : nl = 0) by lia.
    assert (Enp : namepart = []).
    { subst namepart. rewrite ENL, Hn0. reflexivity. }
    assert (name = []) by (destruct name; [reflexivity|cbn [length] in Hnl; lia]). subst name.
    rewrite Enp, Hn0. cbn [N.ltb N.compare andb app]. now rewrite Tcd, Rcd, Scd.
Qed.

Lemma parse_filters_encoded rep : forall ds,
  Forall desc_wf ds -> parse_filters_gen rep (length ds) true 2 (concat (map encode_filter ds)) = Ok ds.
Proof.
  induction ds as [|d ds IH]; intro H; [reflexivity|].
  inversion H as [|? ? Hd Hds]; subst.
  cbn [length map concat]. rewrite parse_filters_step by exact Hd.
  rewrite IH by exact Hds. reflexivity.
Qed.

Theorem msg_roundtrip_wf_gen rep ds :
  Forall desc_wf ds -> (0 < length ds < 256)%nat ->
  bind (encode_msg ds) (parse_msg_gen rep) = Ok (2, N.of_nat (length ds), ds).
Proof.
  intros Hwf Hlen. unfold encode_msg.
  destruct ds as [|d0 ds0] eqn:E; [cbn [length] in Hlen; lia|]. rewrite <- E in *. clear E d0 ds0.
  cbn [bind app parse_msg_gen].
  assert (W : wrap8 (N.of_nat (length ds)) = N.of_nat (length ds)) by (unfold wrap8; lia).
  rewrite W.
  cbn [N.ltb N.compare Pos.compare Pos.compare_cont orb N.eqb Pos.eqb andb].
  replace (0 <? N.of_nat (length ds)) with true by (symmetry; apply N.ltb_lt; lia).
  cbn [length Nat.leb firstn all_zero forallb N.eqb andb skipn].
  rewrite Nat2N.id.
  rewrite parse_filters_encoded by exact Hwf. reflexivity.
Qed.

Theorem msg_roundtrip_wf ds :
  Forall desc_wf ds -> (0 < length ds < 256)%nat ->
  bind (encode_msg ds) parse_msg = Ok (2, N.of_nat (length ds), ds).
Proof. apply msg_roundtrip_wf_gen. Qed.

(* the writer's own filters give well-formed descriptors: four fixed names without NUL, at most three client values *)
Lemma descr1_wf f : filter_wf f -> desc_wf (descr1 f).
Proof.
  destruct f as [l|e| |]; cbn [filter_wf descr1]; intro H; unfold desc_wf;
    cbn [fid fflags fnamelen fname fncd fcd name_deflate name_shuffle name_fletcher name_lzf length];
    repeat split; try lia; repeat constructor; try lia; try discriminate.
  unfold norm_level. destruct ((1 <=? l) && (l <=? 9)) eqn:E; lia.
Qed.

Theorem msg_roundtrip_gen rep fs :
  Forall filter_wf fs -> (0 < length fs < 256)%nat ->
  bind (encode_msg (descr fs)) (parse_msg_gen rep) = Ok (2, N.of_nat (length fs), descr fs).
Proof.
  intros Hwf Hlen.
  replace (length fs) with (length (descr fs)) by (unfold descr; apply map_length).
  apply msg_roundtrip_wf_gen.
  - unfold descr. apply Forall_map. eapply Forall_impl; [|exact Hwf]. apply descr1_wf.
  - unfold descr. rewrite map_length. exact Hlen.
Qed.

Theorem msg_roundtrip fs :
  Forall filter_wf fs -> (0 < length fs < 256)%nat ->
  bind (encode_msg (descr fs)) parse_msg = Ok (2, N.of_nat (length fs), descr fs).
Proof. apply msg_roundtrip_gen. Qed.

(* Fletcher-32 NOT outermost: refuted.
   A checksum only protects the bytes it is computed over.  With an LZF stage applied after it, one
   altered stored byte changes the LENGTH of the decoded all-zero data, and Fletcher-32 of zeros is 0
   for every length: the decoder returns 36 zeros instead of the 40 that were written. *)
Definition refuted_fs : list filter := [FFletcher; FLzf].
Definition refuted_x : bytes := repeat 0 40.
Definition refuted_stored : bytes := [1; 0; 0; 224; 33; 0].

Lemma fletcher_inner_refuted :
  pipeline_apply (fun _ x => x) refuted_fs refuted_x = Ok refuted_stored /\
  nth 4 refuted_stored 0 = 33 /\
  pipeline_remove (fun x => Some x) refuted_fs (upd 4 29 refuted_stored) = Ok (repeat 0 36) /\
  reader_apply (fun x => Some x) (descr refuted_fs) (upd 4 29 refuted_stored) = Ok (repeat 0 36).
Proof. vm_compute. repeat split; reflexivity. Qed.
