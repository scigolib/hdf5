(* C01 end to end, superblock version 0, composition: hdf5.Open's loader program (p_open, Model/IOProgOpen.v) run on image_v0
   returns the tree "/" with exactly one child, the dataset `name` at the address of its object header: the stages of
   Proofs/FileImageOpen.v with the version 1 root header at 96, whose symbol table message names the B-tree 136 and the heap 1480
   (the same addresses as the superblock's cached scratch pad), the symbol table node at 192. *)
From HV Require Import Base.Prelude Base.Outcome Base.Bytes Model.IOProg Proofs.IOProg Model.IOProgReader Model.IOProgOpen.
From HV Require Import Model.CodecSuper Model.CodecOhdr Model.CodecMsg Model.CodecType Model.CodecLink Model.GroupWire.
From HV Require Import Model.FileImage Proofs.FileImage Proofs.FileImageOhdr Proofs.FileImageData Proofs.FileImageGroup
  Proofs.FileImageOpen.
From HV Require Import Model.FileImageV0 Proofs.FileImageV0 Proofs.FileImageV0Group.

Section Image.
Variable name : bytes.
Variables class size cbf : N.
Variable dims : list N.
Variable data : bytes.
Hypothesis Hname : link_name_ok name = true.
Hypothesis Hdt : basic_dtype class size cbf = true.
Hypothesis Hdims : dims_ok dims = true.
Hypothesis Hlen : blen data = total_elems dims * size.
Hypothesis Hbound : blen data < 4294967296.

Local Notation f := (image_v0 name class size cbf dims data).
Local Notation da := (dset_addr0 data).
Local Notation seg := ((name ++ [0]) ++ zeros (N.to_nat (256 - (blen name + 1)))).

Theorem open_image0 n hfuel : (3 < hfuel)%nat ->
  run0 f (p_open true (blen f) (S (S (S n))) hfuel) = Ok (Grp [47] 96 [Dset name da]).
Proof.
  intros Hhf.
  pose proof (P0_heap name class size cbf dims data Hname) as Ph. rewrite (heap_image_at name Hname HEAP0_ADDR eq_refl) in Ph.
  pose proof (P0_bt name class size cbf dims data Hname) as Pb. rewrite bt0_block_bytes in Pb.
  pose proof (P0_snod name class size cbf dims data Hname) as Ps. rewrite snod0_block_bytes in Ps.
  pose proof (P0_dset name class size cbf dims data Hname) as Pd. unfold dset_block0, enc_ohdr_v2 in Pd. rewrite <- !app_assoc in Pd.
  apply (open_one_dataset SB0' f name seg [1; 0; 1; 0] 136 1480 da root0_hdr (proj_ohdr_v2 false (dset_ohdr0 class size cbf dims) da) [] [] hfuel).
  - exact (placed_head f 0 signature _ (P0_sb_rest name class size cbf dims data Hname)).
  - exact (superblock_stage0 name class size cbf dims data Hname Hbound).
  - split; [reflexivity|]. rewrite (image0_len name class size cbf dims data Hname Hdt Hdims Hlen Hbound).
    unfold eof_addr0, dset_addr0. change DATA0_ADDR with 1768. cbn [spp_root SB0']. blia.
  - exact (P0_root_sig name class size cbf dims data Hname).
  - split; reflexivity.
  - exact (root0_header name class size cbf dims data Hname hfuel ltac:(blia)).
  - reflexivity.
  - reflexivity.
  - reflexivity.
  - reflexivity.
  - exact (heap_stage_at SB0' eq_refl eq_refl eq_refl f 1480 256 1 seg Ph (heap_seg_len name Hname) eq_refl ltac:(discriminate)).
  - exact (heap_name name Hname).
  - exact (bt_sig_placed f 136 _ Pb).
  - apply (btree_stage_at SB0' eq_refl eq_refl f 136 _ _ 192 _ Pb); [reflexivity | reflexivity |].
    apply (snod_stage_at SB0' eq_refl eq_refl f 192 da Ps).
    unfold dset_addr0. change DATA0_ADDR with 1768. change (256 ^ 8) with 18446744073709551616. blia.
  - exact (placed_head _ _ _ _ Pd).
  - exact (dset_header0 name class size cbf dims data Hname Hdt Hdims Hlen Hbound hfuel Hhf).
  - reflexivity.
  - reflexivity.
Qed.
End Image.
