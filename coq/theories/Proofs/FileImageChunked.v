(* C01 end to end, chunked: (A) what the writer model write_chunked_file (Model/ChunkIndex.v) appends to a file whose allocator
   stands at its end is the concatenation of the chunks and the B-tree leaf: the part of image_v2_chunked from 2457 on;
   (B) image_v2_chunked is its first 2457 bytes, the chunks and the leaf. *)
From HV Require Import Base.Prelude Model.Chunk Base.Outcome Base.Bytes Model.RobustTerm Model.ChunkIndex.
From HV Require Import Model.IOProg Proofs.IOProg Model.IOProgReader.
From HV Require Import Model.CodecSuper Model.CodecOhdr Model.CodecMsg Model.CodecType Model.CodecLink Model.GroupWire.
From HV Require Import Proofs.CodecSuper Proofs.CodecOhdr Proofs.CodecMsg Proofs.CodecType.
From HV Require Import Model.FileImage Proofs.FileImage Proofs.FileImageOhdr Proofs.FileImageData Model.FileImageChunked.

Local Open Scope N_scope.

Lemma write_at_end (f buf : bytes) : buf <> [] -> ChunkIndex.write_at f (blen f) buf = f ++ buf.
Proof.
  intros Hne. unfold ChunkIndex.write_at. destruct buf as [|b0 br]; [congruence|]. set (buf := b0 :: br).
  replace (blen f + blen buf - blen f) with (blen buf) by blia.
  unfold blen. rewrite !Nat2N.id.
  rewrite firstn_app, firstn_all, Nat.sub_diag. cbn [firstn]. rewrite app_nil_r. f_equal.
  rewrite skipn_all2; [now rewrite app_nil_r|]. rewrite app_length. unfold zeros. rewrite repeat_length. blia.
Qed.

Lemma chunk_loop_appends : forall cks f acc f1 eof1 es,
  blen f + blen (concat (map snd cks)) < 18446744073709551616 ->
  write_chunk_loop_st cks f (blen f) acc = (f1, eof1, Ok es) ->
  f1 = f ++ concat (map snd cks) /\ eof1 = blen f + blen (concat (map snd cks)) /\ es = acc ++ loop_entries cks (blen f).
Proof.
  induction cks as [|[k d] r IH]; intros f acc f1 eof1 es Hb H.
  - cbn [write_chunk_loop_st] in H. injection H as <- <- <-. cbn [map concat loop_entries]. rewrite !app_nil_r.
    change (blen []) with 0. repeat split. blia.
  - cbn [write_chunk_loop_st map snd concat loop_entries] in *. rewrite blen_app in Hb.
    unfold alloc in *. destruct (blen d =? 0) eqn:Z; [discriminate|].
    assert (Hne : d <> []) by (intros ->; discriminate).
    rewrite (write_at_end f d Hne) in H.
    assert (Hw : wrap64 (blen f + blen d) = blen (f ++ d)).
    { rewrite blen_app. unfold wrap64. apply N.mod_small. blia. }
    rewrite Hw in *.
    destruct (IH (f ++ d) _ _ _ _ ltac:(rewrite blen_app; blia) H) as (-> & -> & ->).
    rewrite <- !app_assoc, !blen_app. repeat split. blia.
Qed.

Lemma write_chunked_file_appends dims cdims esz data f f' eof' root :
  blen f + blen (concat (map snd (write_chunks dims cdims esz data))) < 18446744073709551616 ->
  write_chunked_file true dims cdims esz data f (blen f) = Ok (f', eof', root) ->
  let cks := write_chunks dims cdims esz data in
  f' = f ++ concat (map snd cks) ++ serialize_leaf (length dims) (sort_entries (loop_entries cks (blen f))) /\
  root = blen f + blen (concat (map snd cks)).
Proof.
  intros Hb H cks. unfold write_chunked_file, write_chunked_file_st in H.
  destruct (negb (lenN data =? vol dims esz)); [discriminate|].
  destruct (true && (MAX_ENTRIES <? total_chunks (num_chunks dims cdims))); [discriminate|].
  fold cks in H, Hb.
  destruct (write_chunk_loop_st cks f (blen f) []) as [[f1 eof1] [es| |]] eqn:El; try discriminate.
  destruct (chunk_loop_appends _ _ _ _ _ _ Hb El) as (-> & -> & ->). cbn [app] in H.
  unfold write_index_st in H.
  destruct (negb (forallb (fun e => Nat.eqb (length (w_coord e)) (length dims)) (loop_entries cks (blen f)))); [discriminate|].
  destruct (loop_entries cks (blen f)) as [|e0 er] eqn:Ee; [discriminate|]. rewrite <- Ee in *.
  destruct (true && (MAX_ENTRIES <? N.of_nat (length (loop_entries cks (blen f))))); [discriminate|].
  unfold alloc in H.
  destruct (blen (serialize_leaf (length dims) (sort_entries (loop_entries cks (blen f)))) =? 0) eqn:Z; [discriminate|].
  assert (Hne : serialize_leaf (length dims) (sort_entries (loop_entries cks (blen f))) <> [])
    by (intros E0; rewrite E0 in Z; discriminate).
  pose proof (write_at_end (f ++ concat (map snd cks)) _ Hne) as W. rewrite blen_app in W. bnorm. rewrite W in H.

  cbn [st_result] in H. injection H as <- _ <-.
  rewrite <- app_assoc. split; reflexivity.
Qed.

Section ImageC.
Variable name : bytes.
Variables class size cbf : N.
Variables dims cdims : list N.
Variable data : bytes.
Hypothesis Hname : link_name_ok name = true.

Local Notation f := (image_v2_chunked name class size cbf dims cdims data).
Local Notation dso := (c_dset_ohdr class size cbf dims cdims data).
Local Notation dsb := (c_dset_block class size cbf dims cdims data).
Local Notation cb := (c_chunk_bytes size dims cdims data).
Local Notation leaf := (c_leaf size dims cdims data).
Local Notation pre := (c_prefix name class size cbf dims cdims data).
Hypothesis Hcs : chunk_size_v2 (oh_msgs dso) <= 255.

Lemma c_dsb_len : blen dsb = 262.
Proof using Hcs. clear - Hcs.
  unfold c_dset_block. rewrite blen_app, blen_zeros, Proofs.CodecOhdr.ohdr_v2_blen.
  unfold size_ohdr_v2, OHDR_RESERVE in *. blia.
Qed.

Lemma image_split : f = pre ++ cb ++ leaf.
Proof using. clear.
  unfold image_v2_chunked, blocks_v2_chunked, c_prefix, place_all. rewrite !concat_app. cbn [concat].
  now rewrite app_nil_r.
Qed.
Lemma pre_len : blen pre = 2457.
Proof using Hname Hcs. clear - Hname Hcs.
  apply (place_all_len _ [48; 288; 1288; 544; 27; 262]). cbn [c_prefix_blocks map].
  change (c_sb size dims cdims data) with (v2_sb (c_eof size dims cdims data)). change c_snod_block with (snod_block []).
  now rewrite v2_sb_len, (heap_block_len name Hname), snod_block_len, bt_block_len, root_block_len, c_dsb_len.
Qed.

Lemma PC_leaf : placed f (c_btree_addr size dims cdims data) leaf.
Proof using Hname Hcs.
  exists (pre ++ cb), []. split; [now rewrite image_split, app_nil_r, <- app_assoc|].
  rewrite blen_app, pre_len. reflexivity.
Qed.
Lemma image_c_len : blen f = c_eof size dims cdims data.
Proof using Hname Hcs. clear - Hname Hcs.
  rewrite image_split, !blen_app, pre_len. unfold c_eof, c_btree_addr. change CHUNKS_ADDR with 2457. blia.
Qed.
End ImageC.
