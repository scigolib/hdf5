(* Concrete instances: refutation witnesses (computed by vm_compute on the model) and non-vacuity
   examples for the C14 theorems. *)
From HV Require Import Base.Prelude Base.Crc32 Spec.Lookup3 Model.BT2 Proofs.Lookup3 Proofs.BT2.

Local Open Scope N_scope.

Ltac le_compute := vm_compute; first [reflexivity | (let H := fresh in intro H; discriminate H)].

(* published lookup3 vectors through the Go-shaped loop *)
Example jenkins_empty : jenkins [] = 3735928559.                                       (* 0xdeadbeef *)
Proof. vm_compute. reflexivity. Qed.
Example jenkins_four_score : jenkins (ascii_bytes "Four score and seven years ago") = 393676113.   (* 0x17770551 *)
Proof. vm_compute. reflexivity. Qed.
Example jenkins_len12 : jenkins (ascii_bytes "abcdefghijkl") = hashlittle (ascii_bytes "abcdefghijkl") 0.
Proof. vm_compute. reflexivity. Qed.
Example jenkins_len24 : jenkins (repeat 255 24) = hashlittle (repeat 255 24) 0.
Proof. vm_compute. reflexivity. Qed.

(* the collision: "ayou" and "cpxv" (corpus/C14/collision.json) *)
Definition n_a : bytes := ascii_bytes "ayou".
Definition n_b : bytes := ascii_bytes "cpxv".
Definition coll_cfg : cfg := mkCfg MImmediate 8 4096.
Definition coll_ops : list op :=
  [OInsert n_a 1; OHas n_b; OSearch n_b; OUpdate n_b 2; OSearch n_a; ODelete n_b; OHas n_a].

Lemma coll_cfg_ok : cfg_ok coll_cfg.
Proof. split; [do 3 right; reflexivity|repeat split; le_compute]. Qed.

Lemma collision_pair : n_a <> n_b /\ jenkins n_a = jenkins n_b /\ jenkins n_a = 3167425818.
Proof. split; [intro H; vm_compute in H; discriminate H|split; vm_compute; reflexivity]. Qed.

(* after insert("ayou"): has("cpxv") = true, search("cpxv") finds ayou's id, update("cpxv") overwrites
   it, delete("cpxv") removes it -- the map says false / not found / error / unchanged / error / true *)
Lemma collision_run :
  snd (run coll_cfg coll_ops)
  = [ROk; RBool true; RFound [1;0;0;0;0;0;0;0]; ROk; RFound [2;0;0;0;0;0;0;0]; ROk; RBool false]
  /\ snd (spec_run coll_cfg coll_ops)
  = [ROk; RBool false; RNotFound; RErr; RFound [1;0;0;0;0;0;0;0]; RErr; RBool true].
Proof. split; vm_compute; reflexivity. Qed.

(* the hypothesis "no two names of the history collide" of C14_refines_map cannot be dropped *)
Theorem collision_refuted :
  ~ (forall c ops, cfg_ok c -> addr_ok c ops -> snd (run c ops) = snd (spec_run c ops)).
Proof.
  intro H. specialize (H coll_cfg coll_ops coll_cfg_ok ltac:(le_compute)).
  destruct collision_run as [A B]. rewrite A, B in H. discriminate H.
Qed.

Lemma collision_detected : has_collision (names_of coll_ops) = true.
Proof. vm_compute. reflexivity. Qed.

(* node sizes below 10: the capacity computation wraps, the leaf outgrows its allocation *)
Definition tiny_cfg : cfg := mkCfg MOff 8 5.
Lemma tiny_node_run :
  max_records 5 = 390451571
  /\ snd (run tiny_cfg [OInsert [97] 1; OStoreLoad]) = [ROk; RErr]
  /\ snd (spec_run tiny_cfg [OInsert [97] 1; OStoreLoad]) = [ROk; ROk].
Proof. vm_compute. repeat split. Qed.

(* the hypothesis 10 <= node size of cfg_ok cannot be dropped either *)
Theorem node_size_precondition_needed :
  ~ (forall c ops, osz_ok (c_osz c) -> addr_ok c ops -> has_collision (names_of ops) = false ->
       snd (run c ops) = snd (spec_run c ops)).
Proof.
  intro H. specialize (H tiny_cfg [OInsert [97] 1; OStoreLoad]
                         ltac:(right; right; right; reflexivity) ltac:(le_compute) ltac:(vm_compute; reflexivity)).
  destruct tiny_node_run as (_ & A & B). rewrite A, B in H. discriminate H.
Qed.

(* a history that satisfies every hypothesis of the C14 theorems, in lazy mode, capacity 2 *)
Definition ex_cfg : cfg := mkCfg (MLazy 50 false) 8 32.
Definition ex_ops : list op :=
  [OInsert [97] 1; OInsert [98] 2; OInsert [99] 3; OStoreLoad; OUpdate [98] 7; ODelete [97];
   ORewrite; OSearch [98]; OHas [97]; OInsert [99] 4; OHas [99]].

Lemma ex_cfg_ok : cfg_ok ex_cfg.
Proof. split; [do 3 right; reflexivity|repeat split; le_compute]. Qed.
Lemma ex_addr_ok : addr_ok ex_cfg ex_ops.
Proof. le_compute. Qed.
Lemma ex_no_collision : has_collision (names_of ex_ops) = false.
Proof. vm_compute. reflexivity. Qed.

Example ex_results :
  snd (run ex_cfg ex_ops)
  = [ROk; ROk; RErr (* full *); ROk; ROk; ROk; ROk; RFound [7;0;0;0;0;0;0;0]; RBool false; ROk; RBool true].
Proof. vm_compute. reflexivity. Qed.

Example ex_final :
  let s := bt (fst (run ex_cfg ex_ops)) in
  hashes (recs s) = [jenkins [99]; jenkins [98]] /\ jenkins [99] <= jenkins [98]
  /\ h_nroot (header s) = 2 /\ h_total (header s) = 2 /\ List.length (leaf_recs s) = 2%nat.
Proof. vm_compute. repeat split. discriminate. Qed.

(* capacity: node size 32 holds (32-10)/11 = 2 records; the third insert is refused, nothing changes *)
Example ex_capacity :
  let w := fst (run ex_cfg [OInsert [97] 1; OInsert [98] 2]) in
  max_records (node_size (bt w)) = 2 /\ N.of_nat (List.length (recs (bt w))) = 2
  /\ step ex_cfg w (OInsert [99] 3) = (w, RErr).
Proof. vm_compute. repeat split. Qed.

(* persistence on bytes: header and leaf of a two-record index, stored and loaded back *)
Example ex_persist :
  let w := fst (run ex_cfg [OInsert [97] 1; OInsert [98] 2]) in
  let '(w1, a) := write_to_file 8 w in
  a = 96 /\ List.length (fil w1) = 134%nat
  /\ match load_from 8 (new_bt 32) (fil w1) a with
     | LOk s' => recs s' = recs (bt w) /\ h_nroot (header s') = 2 /\ encode_leaf s' = encode_leaf (bt w)
     | LErr _ => False
     end.
Proof. vm_compute. repeat split; reflexivity. Qed.

(* a flipped bit in the stored leaf is rejected by the checksum *)
Example ex_corrupt_rejected :
  let w := fst (run ex_cfg [OInsert [97] 1; OInsert [98] 2]) in
  let '(w1, a) := write_to_file 8 w in
  load_from 8 (new_bt 32) (write_at (fil w1) 71 [N.lxor (nth 71 (fil w1) 0) 1]) a = LErr 4.
Proof. vm_compute. reflexivity. Qed.

(* One loaded handle written in place several times (OWriteAt: WriteAt without reload):
   load -> insert -> WriteAt -> delete -> WriteAt -> update -> WriteAt -> load.  The record count goes
   2 -> 3 -> 2: at the second WriteAt the in-memory header is again equal to the header that was loaded,
   while the header in the file is the one written by the first WriteAt. *)
Definition wa_cfg : cfg := mkCfg (MLazy 50 false) 8 64.          (* capacity (64-10)/11 = 4 *)
Definition wa_ops : list op :=
  [OInsert [97] 1; OInsert [98] 2; OStoreLoad;       (* a loaded handle with two records *)
   OInsert [99] 3; OWriteAt;                         (* three records, written in place *)
   ODelete [99]; OWriteAt;                           (* two records again, second write on the same handle *)
   OUpdate [97] 9; OWriteAt;                         (* update only: header bytes unchanged *)
   OSearch [97]; OHas [99]].

Lemma wa_cfg_ok : cfg_ok wa_cfg.
Proof. split; [do 3 right; reflexivity|repeat split; le_compute]. Qed.
Lemma wa_addr_ok k : addr_ok wa_cfg (firstn k wa_ops).
Proof.
  do 12 (destruct k as [|k]; [le_compute|]). le_compute.
Qed.

Example wa_results :
  snd (run wa_cfg wa_ops)
  = [ROk; ROk; ROk; ROk; ROk; ROk; ROk; ROk; ROk; RFound [9;0;0;0;0;0;0;0]; RBool false].
Proof. vm_compute. reflexivity. Qed.

(* the handle is the same object across the three writes: its loaded addresses never change and the
   lazy counters of the object survive (PendingDeletes = 1 from the lazy delete; a reload would reset it) *)
Example wa_same_handle :
  let w3 := fst (run wa_cfg (firstn 3 wa_ops)) in
  let w9 := fst (run wa_cfg (firstn 9 wa_ops)) in
  loaded_hdr (bt w9) = loaded_hdr (bt w3) /\ loaded_leaf (bt w9) = loaded_leaf (bt w3) /\ next w9 = next w3
  /\ loaded_hdr (bt w3) = 128 /\ loaded_leaf (bt w3) = 64
  /\ option_map lz_pending (lazy (bt w9)) = Some 1 /\ option_map lz_nodes (lazy (bt w9)) = Some 1.
Proof. vm_compute. repeat split; reflexivity. Qed.

(* after the store + load (k = 3) and after each of the three in-place writes (k = 5, 7, 9), LoadFromFile of
   the file at the loaded header address gives
   the in-memory index: records, counts, header, addresses (everything but the lazy state) *)
Example wa_image_after_each_write :
  Forall (fun k =>
    let w := fst (run wa_cfg (firstn k wa_ops)) in
    load_from 8 (new_bt 64) (fil w) (loaded_hdr (bt w)) = LOk (strip_bt (bt w))
    /\ h_nroot (header (bt w)) = N.of_nat (List.length (recs (bt w)))) [3; 5; 7; 9]%nat.
Proof. repeat (apply Forall_cons; [vm_compute; split; reflexivity|]). apply Forall_nil. Qed.

(* ... as the general theorem says (its hypotheses are satisfiable: instance for the second write) *)
Example wa_image_by_theorem :
  let w := fst (run wa_cfg (firstn 7 wa_ops)) in
  load_from 8 (new_bt 64) (fil w) (loaded_hdr (bt w)) = LOk (with_lazy (bt w) None).
Proof.
  exact (image_after_write wa_cfg (firstn 6 wa_ops) OWriteAt (new_bt 64) wa_cfg_ok (wa_addr_ok 7)
           eq_refl ltac:(vm_compute; reflexivity)).
Qed.

(* the final load reproduces exactly the live keys with their latest values: a -> 9, b -> 2 *)
Example wa_final_load :
  let w := fst (run wa_cfg wa_ops) in
  match load_from 8 (new_bt 64) (fil w) (loaded_hdr (bt w)) with
  | LOk s' => recs s' = recs (bt w) /\ h_nroot (header s') = 2 /\ h_total (header s') = 2
              /\ search_record s' [97] = Some [9;0;0;0;0;0;0;0] /\ search_record s' [98] = Some [2;0;0;0;0;0;0;0]
              /\ has_key s' [99] = false
  | LErr _ => False
  end.
Proof. vm_compute. repeat split; reflexivity. Qed.

(* what the theorem excludes: if the second WriteAt rewrote the leaf but left the header of the first
   WriteAt in the file (record count 3), the image would not load: the header asks for 3 records, the leaf
   checksum sits after 2 *)
Example wa_stale_header_would_not_load :
  let w := fst (run wa_cfg (firstn 6 wa_ops)) in
  let f := write_at (fil w) (loaded_leaf (bt w)) (encode_leaf (bt w)) in
  load_from 8 (new_bt 64) f (loaded_hdr (bt w)) = LErr 4.
Proof. vm_compute. reflexivity. Qed.

(* WriteToFile on a loaded handle (OStore) does not move the handle: a following WriteAt still goes to the
   loaded addresses, and both images load *)
Example wa_store_keeps_loaded_addresses :
  let w := fst (run wa_cfg [OInsert [97] 1; OStoreLoad; OInsert [98] 2; OStore; ODelete [97]; OWriteAt]) in
  loaded_hdr (bt w) = 128 /\ loaded_leaf (bt w) = 64 /\ h_root (header (bt w)) = 64
  /\ match load_from 8 (new_bt 64) (fil w) 128, load_from 8 (new_bt 64) (fil w) 230 with
     | LOk s1, LOk s2 => hashes (recs s1) = [jenkins [98]] /\ List.length (recs s2) = 2%nat /\ h_root (header s2) = 166
     | _, _ => False
     end.
Proof. vm_compute. repeat split; reflexivity. Qed.
