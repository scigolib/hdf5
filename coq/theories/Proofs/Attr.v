(* History-level theorems of property C02 over Model/Attr.v.  [outcome] / [step_cases]: a call changes nothing, or
   succeeds and the stored volume grows by at most the size written, or ends in Broken, which takes a heap overflow
   that is not refused; hence [err_unchanged], and [run_broken_cause]: a history ends in Broken only with
   p_ovf_err = false and more volume than the heap holds.  [run_refines] (one call refines one step of the map, by
   Proofs/AttrStep.step_post) gives [refines_map]; its corollaries follow, with the side condition st <> Broken
   discharged by [run_broken_cause] in [refines_map_repaired] and [refines_map_volume]. *)
From HV Require Import Base.Prelude Model.Attr Proofs.AttrBase Proofs.AttrDense Proofs.AttrStep.
From Coq Require Import Permutation.

(* what the specification demands of the answer [r] of one call when the map is [m]:
   DeleteAttribute succeeds exactly on present names; a value the API cannot encode is refused;
   WriteAttribute may be refused (capacity limits: Proofs/AttrRefusal.v) *)
Definition res_ok (m : smap) (o : op) (r : res) : Prop :=
  match o with
  | ODelete n => r = snd (spec_delete m n)
  | OWrite n None => r = RErr
  | OWrite n (Some v) => r = ROk \/ r = RErr
  end.

Fixpoint results_ok (m : smap) (h : list op) (rs : list res) : Prop :=
  match h, rs with
  | [], [] => True
  | o :: h', r :: rs' => res_ok m o r /\ results_ok (spec_step m o r) h' rs'
  | _, _ => False
  end.

Lemma NoHashCollision_incl : forall f l1 l2, incl l1 l2 -> NoHashCollision f l2 -> NoHashCollision f l1.
Proof. intros f l1 l2 I H a b Ha Hb E. apply H; [apply I; exact Ha | apply I; exact Hb | exact E]. Qed.

(* the encoded size of all values a history writes, and of the values a state holds: in dense storage the
   heap never reuses space, so what counts there is the next free offset *)
Definition op_volume (o : op) : N :=
  match o with OWrite n (Some v) => msg_size (mkAttr n v) | _ => 0 end.
Fixpoint volume (h : list op) : N := match h with [] => 0 | o :: r => op_volume o + volume r end.

Fixpoint msgs_total (l : list attr) : N := match l with [] => 0 | a :: r => msg_size a + msgs_total r end.
Definition vol (st : state) : N :=
  match st with Compact attrs => msgs_total attrs | Dense _ hp => hfree hp | Broken => 0 end.

Lemma msgs_total_app : forall l1 l2, msgs_total (l1 ++ l2) = msgs_total l1 + msgs_total l2.
Proof. induction l1 as [|a l1 IH]; intro l2; cbn [app msgs_total]; [lia | rewrite IH; lia]. Qed.

Lemma replace_name_total : forall l n a l', replace_name n a l = Some l' -> msgs_total l' <= msgs_total l + msg_size a.
Proof.
  intros l n a l' H. pose proof (replace_name_spec n a l) as S. rewrite H in S.
  destruct S as (l1 & x & l2 & -> & _ & _ & ->).
  rewrite !msgs_total_app. cbn [msgs_total]. lia.
Qed.

Lemma remove_name_total : forall l n l', remove_name n l = Some l' -> msgs_total l' <= msgs_total l.
Proof.
  intros l n l' H. pose proof (remove_name_spec n l) as S. rewrite H in S.
  destruct S as (l1 & x & l2 & -> & _ & _ & ->).
  rewrite !msgs_total_app. cbn [msgs_total]. lia.
Qed.

Lemma heap_delete_hfree : forall hp id hp1, heap_delete hp id = Some hp1 -> hfree hp1 = hfree hp.
Proof. intros hp id hp1 H. unfold heap_delete in H. destruct (assoc_del (fst id) (hobjs hp)); inversion H; reflexivity. Qed.
Lemma heap_overwrite_hfree : forall hp id a hp1, heap_overwrite hp id a = Some hp1 -> hfree hp1 = hfree hp.
Proof. intros hp id a hp1 H. unfold heap_overwrite in H. destruct (assoc_set (fst id) a (hobjs hp)); inversion H; reflexivity. Qed.

Section Cases.
Variable name_hash : bytes -> N.
Variable P : params.

Notation run := (run name_hash P).
Notation step := (step name_hash P).

(* nothing; or it succeeds and the stored volume grows by at most [v]; or it succeeds with the storage
   damaged, which takes a heap overflow that is not refused *)
Definition outcome (st : state) (v : N) (st' : state) (r : res) : Prop :=
  st' = st \/
  r = ROk /\ match st' with
             | Broken => p_ovf_err P = false /\ p_hcap P < vol st + v
             | _ => vol st' <= vol st + v
             end.

Lemma daw_hfree : forall todo seen ix hp,
  match daw_add_all name_hash P seen ix hp todo with
  | TOk _ hp' => hfree hp' = hfree hp + msgs_total todo
  | TFull => p_hcap P < hfree hp + msgs_total todo
  | TErr => True
  end.
Proof.
  induction todo as [|a r IH]; intros seen ix hp; cbn [daw_add_all msgs_total]; [lia|].
  destruct (aname a) as [|b t] eqn:EN; [exact I|]. rewrite <- EN.
  destruct (existsb (bytes_eqb (aname a)) seen); [exact I|]. destruct (encode_attr a); [|exact I].
  pose proof (heap_insert_cases P hp a) as C. destruct (heap_insert P hp a) as [hp1 id| |]; [|exact I|lia].
  destruct C as (_ & F & _). destruct (idx_insert P (name_hash (aname a), id) ix) as [ix1|]; [|exact I].
  specialize (IH (aname a :: seen) ix1 hp1). destruct (daw_add_all name_hash P (aname a :: seen) ix1 hp1 r); [lia | exact I | lia].
Qed.

Lemma transition_cases : forall attrs a st' r,
  transition name_hash P attrs a = (st', r) -> outcome (Compact attrs) (msg_size a) st' r.
Proof.
  intros attrs a st' r H. unfold transition in H. pose proof (daw_hfree (attrs ++ [a]) [] [] heap_empty) as D.
  rewrite msgs_total_app in D. cbn [msgs_total heap_empty hfree] in D.
  destruct (daw_add_all name_hash P [] [] heap_empty (attrs ++ [a])) as [ix hp| |].
  - destruct (p_limit P <? p_base P + (4 + p_info P)); inversion H; subst; [left; reflexivity | right].
    cbn [vol]. split; [reflexivity | lia].
  - left; congruence.
  - destruct (p_ovf_err P) eqn:O; [left; congruence|].
    destruct (p_limit P <? p_base P + (4 + p_info P)); inversion H; subst; [left; reflexivity | right].
    cbn [vol]. split; [reflexivity|]. split; [exact O | lia].
Qed.

(* InsertObject and what both dense write paths do with its answer ([k]: InsertRecord or UpdateRecord) *)
Lemma insert_cases : forall st hp0 a (k : hid -> option idx) st' r, hfree hp0 = vol st ->
  match heap_insert P hp0 a with
  | HErr => (st, RErr)
  | HFull => if p_ovf_err P then (st, RErr) else (Broken, ROk)
  | HOk hp2 id2 => match k id2 with Some ix' => (Dense ix' hp2, ROk) | None => (st, RErr) end
  end = (st', r) ->
  outcome st (msg_size a) st' r.
Proof.
  intros st hp0 a k st' r E H. pose proof (heap_insert_cases P hp0 a) as C. unfold outcome. rewrite <- E.
  destruct (heap_insert P hp0 a) as [hp2 id2| |].
  - destruct C as (_ & F & _). destruct (k id2); inversion H; subst; [right | left; reflexivity].
    cbn [vol]. split; [reflexivity | lia].
  - left; congruence.
  - destruct (p_ovf_err P); inversion H; subst; [left; reflexivity | right]. repeat split; assumption.
Qed.

Lemma step_cases : forall st o st' r, step st o = (st', r) -> outcome st (op_volume o) st' r.
Proof.
  intros st o st' r H. destruct o as [n [v|]|n]; cbn [Attr.step write_attr op_volume] in *.
  - destruct st as [attrs|ix hp|]; [| |left; congruence].
    + destruct (N.of_nat (List.length attrs) <? p_maxc P); [|apply transition_cases; exact H].
      unfold write_compact in H. destruct (encode_attr (mkAttr n v)) as [sz|]; [|left; congruence].
      cbn [aname] in H. pose proof (replace_name_total attrs n (mkAttr n v)) as RT.
      destruct (replace_name n (mkAttr n v) attrs) as [attrs'|].
      * destruct (p_limit P <? hdr_size P attrs'); inversion H; subst; [left; reflexivity | right].
        split; [reflexivity | apply RT; reflexivity].
      * destruct (p_limit P <? hdr_size P attrs + (4 + sz)); [apply transition_cases; exact H|].
        inversion H; subst. right. split; [reflexivity|]. cbn [vol]. rewrite msgs_total_app. cbn [msgs_total]. lia.
    + unfold write_dense in H. destruct (encode_attr (mkAttr n v)) as [sz|]; [|left; congruence].
      cbn [aname] in H.
      destruct (idx_search (name_hash n) ix) as [id|]; [|eapply insert_cases; [reflexivity | exact H]].
      destruct (heap_get hp id); [|left; congruence]. destruct (sz =? snd id).
      * destruct (heap_overwrite hp id (mkAttr n v)) as [hp'|] eqn:OV; inversion H; subst; [right | left; reflexivity].
        apply heap_overwrite_hfree in OV. cbn [vol]. split; [reflexivity | lia].
      * destruct (heap_delete hp id) as [hp1|] eqn:DL; [|left; congruence].
        apply heap_delete_hfree in DL. eapply insert_cases; [exact DL | exact H].
  - left; congruence.
  - destruct st as [attrs|ix hp|]; cbn [delete_attr] in H; [| |left; congruence].
    + pose proof (remove_name_total attrs n) as RT.
      destruct (remove_name n attrs) as [attrs'|]; inversion H; subst; [right | left; reflexivity].
      specialize (RT _ eq_refl). cbn [vol]. split; [reflexivity | lia].
    + destruct n as [|b t]; [left; congruence|].
      destruct (idx_search (name_hash (b :: t)) ix) as [id|]; [|left; congruence].
      destruct (idx_delete (name_hash (b :: t)) ix); [|left; congruence].
      destruct (heap_delete hp id) as [hp1|] eqn:DL; inversion H; subst; [right | left; reflexivity].
      apply heap_delete_hfree in DL. cbn [vol]. split; [reflexivity | lia].
Qed.

(* a call that does not succeed changes nothing (C16 for attributes) *)
Theorem err_unchanged : forall st o st' r, step st o = (st', r) -> r <> ROk -> st' = st.
Proof. intros st o st' r H NR. destruct (step_cases st o st' r H) as [E|[E _]]; [exact E | contradiction]. Qed.

Lemma run_broken_cause : forall h st rs, st <> Broken -> run st h = (Broken, rs) ->
  p_ovf_err P = false /\ p_hcap P < vol st + volume h.
Proof.
  induction h as [|o h IH]; intros st rs NB H; cbn [Attr.run volume] in H |- *; [congruence|].
  destruct (step st o) as [st1 x] eqn:S. destruct (run st1 h) as [st2 xs] eqn:R. inversion H; subst st2.
  destruct (step_cases st o st1 x S) as [->|[_ C]].
  - destruct (IH st xs NB R). split; [assumption | lia].
  - specialize (IH st1 xs). destruct st1 as [attrs|ix hp|]; [| |split; [tauto | lia]];
      (destruct (IH ltac:(discriminate) R); split; [assumption | lia]).
Qed.

Lemma run_broken : forall h st rs, run Broken h = (st, rs) -> st = Broken.
Proof.
  induction h as [|o h IH]; intros st rs H; cbn [Attr.run] in H; [congruence|].
  replace (step Broken o) with (Broken, RErr) in H by (destruct o as [n [v|]|n]; reflexivity).
  destruct (run Broken h) as [st2 xs]. inversion H; subst. eapply IH; reflexivity.
Qed.

End Cases.

Section Main.
Variable name_hash : bytes -> N.
Variable P : params.
Hypothesis Hcap : p_hcap P <= 65536.

Notation Rep := (Rep name_hash P).
Notation run := (run name_hash P).
Notation step := (step name_hash P).

Lemma spec_step_tracks : forall l l' m o r,
  (forall n, attr_get l n = sp_get m n) -> eff l l' o r ->
  (forall n, attr_get l' n = sp_get (spec_step m o r) n) /\ res_ok m o r.
Proof.
  intros l l' m o r T E. destruct r; cbn [eff] in E.
  - destruct o as [n [v|]|n]; cbn [spec_step res_ok].
    + split; [|left; reflexivity]. intro k. rewrite E, sp_get_set, T. reflexivity.
    + destruct E.
    + destruct E as [NN E]. split.
      * intro k. rewrite E, sp_get_del, T. reflexivity.
      * unfold spec_delete. rewrite <- T. destruct (attr_get l n); [reflexivity | congruence].
  - destruct E as [-> E]. split.
    + intro k. destruct o as [n [v|]|n]; cbn [spec_step]; apply T.
    + destruct o as [n [v|]|n]; cbn [res_ok]; [right; reflexivity | reflexivity|].
      unfold spec_delete. rewrite <- T, E. reflexivity.
Qed.

Lemma run_refines : forall h st l m st' rs,
  Rep st l -> NoDup (map aname l) -> EncAll l -> (forall n, attr_get l n = sp_get m n) ->
  NoHashCollision name_hash (map aname l ++ names h) ->
  run st h = (st', rs) -> st' <> Broken ->
  exists l', Rep st' l' /\ NoDup (map aname l') /\ EncAll l' /\
             (forall n, attr_get l' n = sp_get (run_spec m h rs) n) /\ results_ok m h rs.
Proof.
  induction h as [|o h IH]; intros st l m st' rs R ND EA T NC H NB; cbn [Attr.run] in H.
  - inversion H; subst. exists l. cbn [run_spec results_ok]. tauto.
  - destruct (step st o) as [st1 x] eqn:S. destruct (run st1 h) as [st2 xs] eqn:RN. inversion H; subst st' rs.
    assert (NB1 : st1 <> Broken) by (intro E; subst st1; apply run_broken in RN; contradiction).
    assert (Inj : forall k, In k (map aname l) -> name_hash k = name_hash (op_name o) -> k = op_name o).
    { intros k HI E. apply NC; [apply in_or_app; left; exact HI | apply in_or_app; right; left; reflexivity | exact E]. }
    destruct (step_post name_hash P Hcap st l o st1 x R ND EA Inj S NB1) as [l1 [R1 [ND1 [EA1 [IN1 E1]]]]].
    destruct (spec_step_tracks l l1 m o x T E1) as [T1 RO].
    assert (NC1 : NoHashCollision name_hash (map aname l1 ++ names h)).
    { eapply NoHashCollision_incl; [|exact NC]. intros k HI. apply in_app_or in HI. destruct HI as [HI|HI].
      - apply IN1 in HI. destruct HI as [<-|HI]; apply in_or_app; [right; left; reflexivity | left; exact HI].
      - apply in_or_app. right. right. exact HI. }
    destruct (IH st1 l1 (spec_step m o x) st2 xs R1 ND1 EA1 T1 NC1 RN NB) as [l2 [R2 [ND2 [EA2 [T2 RO2]]]]].
    exists l2. cbn [run_spec results_ok]. tauto.
Qed.

Theorem refines_map : forall h st rs,
  NoHashCollision name_hash (names h) ->
  run init h = (st, rs) -> st <> Broken ->
  exists l, read_attrs st = Some l /\ NoDup (map aname l) /\
            (forall n, attr_get l n = sp_get (run_spec [] h rs) n) /\
            results_ok [] h rs.
Proof.
  intros h st rs NC H NB.
  destruct (run_refines h init [] [] st rs) as [l [R [ND [_ [T RO]]]]]; try assumption.
  - reflexivity.
  - constructor.
  - intros x [].
  - reflexivity.
  - exists l. split; [eapply rep_read; exact R | tauto].
Qed.

(* the specification map keeps unique keys, so "same look-up function" is "same set of bindings" *)
Lemma run_spec_keys : forall h rs m, NoDup (keys m) -> NoDup (keys (run_spec m h rs)).
Proof.
  induction h as [|o h IH]; intros rs m ND; cbn [run_spec]; [exact ND|].
  destruct rs as [|r rs]; [exact ND|]. apply IH.
  destruct o as [n [v|]|n]; destruct r; cbn [spec_step]; try exact ND.
  - apply sp_set_keys_nodup. exact ND.
  - apply sp_del_keys_nodup. exact ND.
Qed.

Theorem refines_map_set : forall h st rs,
  NoHashCollision name_hash (names h) ->
  run init h = (st, rs) -> st <> Broken ->
  exists l, read_attrs st = Some l /\
            forall n v, In (mkAttr n v) l <-> In (n, v) (bindings (run_spec [] h rs)).
Proof.
  intros h st rs NC H NB. destruct (refines_map h st rs NC H NB) as [l [RD [ND [T _]]]].
  exists l. split; [exact RD|]. intros n v. unfold bindings.
  rewrite <- (sp_get_in (run_spec [] h rs) n v) by (apply run_spec_keys; constructor). rewrite <- T. split.
  - apply attr_get_in. exact ND.
  - apply attr_get_some_in.
Qed.

Theorem names_unique : forall h st rs l,
  NoHashCollision name_hash (names h) ->
  run init h = (st, rs) -> read_attrs st = Some l -> NoDup (map aname l).
Proof.
  intros h st rs l NC H RD.
  assert (NB : st <> Broken) by (intro E; subst st; discriminate).
  destruct (refines_map h st rs NC H NB) as [l' [RD' [ND _]]]. congruence.
Qed.

Theorem transition_preserves : forall attrs a ix hp,
  transition name_hash P attrs a = (Dense ix hp, ROk) ->
  exists l, read_attrs (Dense ix hp) = Some l /\ Permutation l (attrs ++ [a]).
Proof.
  intros attrs a ix hp H. unfold transition in H.
  destruct (daw_add_all name_hash P [] [] heap_empty (attrs ++ [a])) as [ix0 hp0| |] eqn:D; try discriminate.
  - destruct (p_limit P <? p_base P + (4 + p_info P)); inversion H; subst.
    destruct (daw_ok name_hash P Hcap _ _ _ _ [] _ _ (dense_rep_empty name_hash P Hcap)
                (fun m => conj (fun x => x) (fun x => x)) D) as [l [R [PM _]]].
    exists l. split; [|exact PM]. destruct R as [F _]. eapply read_dense_rep. exact F.
  - destruct (p_ovf_err P); [discriminate|]. destruct (p_limit P <? p_base P + (4 + p_info P)); discriminate.
Qed.

End Main.

(* the thresholds (hence which storage form is in use when) do not matter *)
Theorem storage_irrelevant : forall name_hash P1 P2 h st1 st2 rs l1 l2,
  p_hcap P1 <= 65536 -> p_hcap P2 <= 65536 ->
  NoHashCollision name_hash (names h) ->
  run name_hash P1 init h = (st1, rs) -> run name_hash P2 init h = (st2, rs) ->
  read_attrs st1 = Some l1 -> read_attrs st2 = Some l2 ->
  forall n, attr_get l1 n = attr_get l2 n.
Proof.
  intros f P1 P2 h st1 st2 rs l1 l2 C1 C2 NC H1 H2 R1 R2 n.
  assert (NB1 : st1 <> Broken) by (intro E; subst st1; discriminate).
  assert (NB2 : st2 <> Broken) by (intro E; subst st2; discriminate).
  destruct (refines_map f P1 C1 h st1 rs NC H1 NB1) as [k1 [E1 [_ [T1 _]]]].
  destruct (refines_map f P2 C2 h st2 rs NC H2 NB2) as [k2 [E2 [_ [T2 _]]]].
  assert (k1 = l1) by congruence. assert (k2 = l2) by congruence. subst. rewrite T1, T2. reflexivity.
Qed.

(* when the heap overflow is refused (p_ovf_err = true mirrors the Go code from 5ec600b on) the storage can never be
   damaged, so the refinement needs no side condition on the volume *)
Section Repaired.
Variable name_hash : bytes -> N.
Variable P : params.
Hypothesis Hovf : p_ovf_err P = true.

Theorem refines_map_repaired : forall h st rs,
  p_hcap P <= 65536 ->
  NoHashCollision name_hash (names h) ->
  run name_hash P init h = (st, rs) ->
  exists l, read_attrs st = Some l /\ NoDup (map aname l) /\
            (forall n, attr_get l n = sp_get (run_spec [] h rs) n) /\
            results_ok [] h rs.
Proof.
  intros h st rs C NC H. apply (refines_map name_hash P C h st rs NC H). intro E. subst st.
  destruct (run_broken_cause name_hash P h init rs ltac:(discriminate) H). congruence.
Qed.

End Repaired.

(* a closed-form side condition whatever [p_ovf_err] is: the heap cannot overflow while the total
   encoded size of all values ever written to the object stays within one direct block *)
Section Volume.
Variable name_hash : bytes -> N.
Variable P : params.

Theorem refines_map_volume : forall h st rs,
  p_hcap P <= 65536 ->
  NoHashCollision name_hash (names h) ->
  volume h <= p_hcap P ->
  run name_hash P init h = (st, rs) ->
  exists l, read_attrs st = Some l /\ NoDup (map aname l) /\
            (forall n, attr_get l n = sp_get (run_spec [] h rs) n) /\
            results_ok [] h rs.
Proof.
  intros h st rs C NC V H. apply (refines_map name_hash P C h st rs NC H). intro E. subst st.
  destruct (run_broken_cause name_hash P h init rs ltac:(discriminate) H) as [_ O]. cbn [vol init msgs_total] in O. lia.
Qed.

End Volume.

(* the statement for [go_params] (the constants of the Go code from 5ec600b on): the only hypothesis left is that
   the names used do not collide under the hash *)
Theorem refines_map_go : forall name_hash base h st rs,
  NoHashCollision name_hash (names h) ->
  run name_hash (go_params base) init h = (st, rs) ->
  exists l, read_attrs st = Some l /\ NoDup (map aname l) /\
            (forall n, attr_get l n = sp_get (run_spec [] h rs) n) /\
            results_ok [] h rs.
Proof.
  intros f base h st rs NC H. apply (refines_map_repaired f (go_params base) eq_refl h st rs); try assumption.
  cbn. lia.
Qed.
