(* C11, object headers (Model/CodecOhdr.v).  Version 2: the message loop over [file_at], the round trip under the weakest
   condition on what follows the header (ohdr_v2_roundtrip_spare), with the one-byte form and C13's [room] form
   (Model/Resize.v, imported for that lemma only) as corollaries; the end-of-file quirk and the version 1 size-field
   witness.  Version 1 with the repaired size field: loop and round trip. *)
From HV Require Import Base.Prelude Base.Outcome Base.Bytes Model.CodecOhdr Model.Resize Proofs.CodecMsg.

Lemma land_bit_false f k mask : N.land f mask = 0 -> N.testbit mask k = true -> N.testbit f k = false.
Proof.
  intros H Hm. assert (T : N.testbit (N.land f mask) k = false) by (rewrite H; apply N.bits_0).
  rewrite N.land_spec, Hm, andb_true_r in T. exact T.
Qed.

Lemma blen_enc_msg_v2 m : blen (enc_msg_v2 m) = 4 + blen (hm_data m).
Proof. unfold enc_msg_v2. rewrite !blen_app, blen_le, !blen_cons, blen_nil. blia. Qed.

Lemma chunk_size_v2_cons m r : chunk_size_v2 (m :: r) = 4 + blen (hm_data m) + chunk_size_v2 r.
Proof. reflexivity. Qed.

Lemma blen_body_v2 ms : blen (body_v2 ms) = chunk_size_v2 ms.
Proof.
  induction ms as [|m r IH]; [reflexivity|].
  rewrite chunk_size_v2_cons, <- IH. unfold body_v2. cbn [map concat]. now rewrite blen_app, blen_enc_msg_v2.
Qed.

Lemma length_le_chunk ms : N.of_nat (length ms) <= chunk_size_v2 ms.
Proof. induction ms as [|m r IH]; [cbn; blia|]. rewrite chunk_size_v2_cons. cbn [length]. blia. Qed.

Lemma enc_msg_v2_shape ty (data : bytes) : ty < 256 -> blen data < 65536 ->
  enc_msg_v2 {| hm_type := ty; hm_data := data |} = [ty] ++ le 2 (blen data) ++ [0] ++ data.
Proof. intros. unfold enc_msg_v2. cbn [hm_type hm_data]. now rewrite wrap8_small, wrap16_small. Qed.

Lemma wf_msg_v2_inv m : wf_msg_v2 m = true -> hm_type m < 256 /\ 1 <= blen (hm_data m) /\ (hm_type m =? MSG_CONT) = false.
Proof.
  unfold wf_msg_v2. intros H. apply andb_true_iff in H as [H _]. apply andb_true_iff in H as [H H2].
  apply andb_true_iff in H as [H1 H3].
  apply N.ltb_lt in H1. apply N.leb_le in H2. apply negb_true_iff in H3. auto.
Qed.

(* The reader fetches 6 bytes for every message header, and a message with one byte of data is 5 bytes long:
   what must be readable beyond the messages depends on the data length of the last one (2 if there is none:
   then nothing is asked). *)
Fixpoint last_data (ms : list hmsg) : N :=
  match ms with
  | [] => 2
  | m :: r => match r with [] => blen (hm_data m) | _ => last_data r end
  end.

Lemma chunk_size_v2_ge5 m r : forallb wf_msg_v2 (m :: r) = true -> 5 <= chunk_size_v2 (m :: r).
Proof.
  cbn [forallb]. intros H. apply andb_true_iff in H as [Hm _]. apply wf_msg_v2_inv in Hm as (_ & Hd & _).
  rewrite chunk_size_v2_cons. blia.
Qed.

Lemma last_data_pos ms : forallb wf_msg_v2 ms = true -> 1 <= last_data ms.
Proof.
  induction ms as [|m [|m' r] IH]; intros H; [cbn; blia| |];
    cbn [forallb] in H; apply andb_true_iff in H as [Hm Hr]; [|now apply IH].
  now apply wf_msg_v2_inv in Hm as (_ & Hd & _).
Qed.

Lemma v2_loop_msgs (ms : list hmsg) : forall file cur (fuel : nat) (E : N),
  file_at file cur (body_v2 ms) ->
  forallb wf_msg_v2 ms = true ->
  Forall (fun m => blen (hm_data m) < 65536) ms ->
  cur + chunk_size_v2 ms + 2 <= blen file + last_data ms ->
  (length ms < fuel)%nat ->
  E + 4 = cur + chunk_size_v2 ms ->
  cur + chunk_size_v2 ms + 8 < 18446744073709551616 ->
  v2_loop fuel file false 4 cur E = Ok (msgs_at_v2 ms cur).
Proof.
  induction ms as [|m r IH]; intros file cur fuel E F Hwf Hlen Hb Hfuel HE Hsmall;
    (destruct fuel as [|fuel]; [cbn [length] in Hfuel; blia|]).
  - change (chunk_size_v2 []) with 0 in HE. cbn [v2_loop msgs_at_v2]. now rewrite ltb_false by blia.
  - cbn [forallb] in Hwf. apply andb_true_iff in Hwf as [Hm Hr].
    apply wf_msg_v2_inv in Hm as (Hty & Hd1 & Hnc).
    inversion Hlen as [|? ? Hd2 Hlr]; subst.
    pose proof (fa_bound _ _ _ F) as B. rewrite blen_body_v2 in B.
    assert (H6 : cur + 6 <= blen file /\
                 cur + 4 + blen (hm_data m) + chunk_size_v2 r + 2 <= blen file + last_data r).
    { rewrite chunk_size_v2_cons in *. destruct r as [|m' r']; [cbn in *; blia|].
      pose proof (chunk_size_v2_ge5 m' r' Hr). change (last_data (m :: m' :: r')) with (last_data (m' :: r')) in Hb.
      blia. }
    destruct H6 as [H6 Hb']. clear Hb.
    destruct m as [ty data]; rewrite chunk_size_v2_cons in *; cbn [hm_type hm_data] in *.
    unfold body_v2 in F. cbn [map concat] in F. fold (body_v2 r) in F. rewrite enc_msg_v2_shape in F by blia.
    apply fa_split in F as [F Fr]. rewrite !blen_app, blen_le in Fr.
    apply fa_split in F as [Ft F]. apply fa_split in F as [Fs F]. apply fa_app_r in F.
    rewrite blen_le in F. change (blen [ty]) with 1 in *. change (blen [0]) with 1 in *.
    cbn [v2_loop msgs_at_v2 hm_type hm_data]. unfold readable.
    rewrite (proj2 (N.ltb_lt _ _)), leb_true, (fa_index Ft), (fa_rd_le Fs) by (auto; blia). cbn [negb obind].
    rewrite (proj2 (N.eqb_neq _ _)), !wrap64_small, leb_true, (fa_slice F) by blia. cbn [negb obind].
    rewrite Hnc, (IH file (cur + 4 + blen data) fuel E); auto; try (cbn [length] in Hfuel; blia).
    eapply fa_eq; [exact Fr|blia].
Qed.

Lemma wf_ohdr_v2_inv x : wf_ohdr_v2 x = true ->
  oh_version x = 2 /\ oh_flags x < 256 /\ N.land (oh_flags x) 55 = 0 /\
  chunk_size_v2 (oh_msgs x) <= 255 /\ forallb wf_msg_v2 (oh_msgs x) = true.
Proof.
  unfold wf_ohdr_v2, encok_ohdr_v2. intros H. autorewrite with bool_prop in H. tauto.
Qed.

Lemma chunk_bound_each ms : chunk_size_v2 ms <= 255 -> Forall (fun m => blen (hm_data m) < 65536) ms.
Proof.
  induction ms as [|m r IH]; intros H; constructor; rewrite chunk_size_v2_cons in H; [|apply IH]; blia.
Qed.

Lemma ohdr_v2_blen x : blen (enc_ohdr_v2 x) = size_ohdr_v2 x.
Proof.
  unfold enc_ohdr_v2, size_ohdr_v2. rewrite !blen_app, blen_body_v2, !blen_cons, blen_nil. blia.
Qed.

(* The header is read back when its first 8 bytes and the 6 bytes of its last message header are in the file. *)
Lemma ohdr_v2_roundtrip_spare x (pre suf : list N) sbBE :
  wf_ohdr_v2 x = true ->
  1 <= chunk_size_v2 (oh_msgs x) + blen suf -> 2 <= blen suf + last_data (oh_msgs x) ->
  blen pre + size_ohdr_v2 x + 8 < 9223372036854775808 ->
  dec_ohdr sbBE (pre ++ enc_ohdr_v2 x ++ suf) (blen pre) = Ok (proj_ohdr_v2 sbBE x (blen pre)).
Proof.
  intros Hwf Hsuf Hlast Hsmall.
  apply wf_ohdr_v2_inv in Hwf as (Hv & Hf & Hmask & Hcs & Hms).
  destruct x as [ver flags refc ms]; cbn [oh_version oh_flags oh_refcount oh_msgs] in *. subst ver.
  unfold size_ohdr_v2 in Hsmall. cbn [oh_msgs] in Hsmall.
  pose proof (length_le_chunk ms) as Hn. pose proof (blen_body_v2 ms) as Hbody.
  set (cs := chunk_size_v2 ms) in *.
  unfold enc_ohdr_v2. cbn [oh_version oh_flags oh_msgs]. fold cs. rewrite wrap8_small by blia.
  unfold dec_ohdr, readable. rewrite !blen_app, !blen_cons, !blen_nil, Hbody.
  rewrite (proj2 (N.leb_gt _ _)), leb_true, (slice_mid_firstn pre _ _ 0 8) by (rewrite ?blen_app, ?blen_cons, ?Hbody; blia).
  change (N.to_nat 8) with 8%nat. change (N.to_nat 0) with 0%nat. cbn [negb obind app skipn firstn].
  change (bytes_eqb [79; 72; 68; 82] OHDR) with true. cbv iota. unfold index.
  change (N.to_nat 4) with 4%nat. change (N.to_nat 5) with 5%nat. cbn [nth_error obind N.eqb Pos.eqb].
  (* where the chunk size byte and the messages lie *)
  set (file := pre ++ _).
  assert (F : file_at file (blen pre) (([79; 72; 68; 82] ++ [2; flags]) ++ le 1 cs ++ body_v2 ms))
    by (rewrite le1_small by blia; exact (fa_here pre (([79; 72; 68; 82] ++ [2; flags]) ++ [cs] ++ body_v2 ms) suf)).
  assert (Hfl : blen file = blen pre + 7 + cs + blen suf)
    by (unfold file; rewrite blen_app, !blen_cons, blen_app, Hbody; blia).
  apply fa_split in F as [_ F]. apply fa_split in F as [Fc Fb].
  change (blen ([79; 72; 68; 82] ++ [2; flags])) with 6 in *. change (blen (le 1 cs)) with 1 in Fb.
  unfold parse_v2, readable.
  rewrite (land_bit_false flags 5 55 Hmask), (land_bit_false flags 4 55 Hmask), (land_bit_false flags 2 55 Hmask)
    by reflexivity.
  replace (N.land flags 3) with 0 by (change 3 with (N.land 55 3); now rewrite N.land_assoc, Hmask).
  change (N.shiftl 1 0) with 1. rewrite !wrap64_small, Hfl by blia.
  rewrite leb_true, (fa_rd_le Fc) by (auto; blia). cbn [negb andb obind].
  rewrite !wrap64_small, sub64_small by blia.
  rewrite (v2_loop_msgs ms file (blen pre + 6 + 1) _ (blen pre + 6 + 1 + cs - 4)); auto using chunk_bound_each;
    fold cs; try blia; [|unfold blen in Hfl; blia].
  cbn [obind]. unfold proj_ohdr_v2. cbn [oh_flags oh_msgs].
  now replace (blen pre + 6 + 1) with (blen pre + 7) by blia.
Qed.

Lemma ohdr_v2_roundtrip x (pre suf : list N) sbBE :
  wf_ohdr_v2 x = true -> 1 <= blen suf ->
  blen pre + size_ohdr_v2 x + 8 < 9223372036854775808 ->
  dec_ohdr sbBE (pre ++ enc_ohdr_v2 x ++ suf) (blen pre) = Ok (proj_ohdr_v2 sbBE x (blen pre)).
Proof.
  intros Hwf Hsuf. apply ohdr_v2_roundtrip_spare; auto; [blia|].
  apply wf_ohdr_v2_inv in Hwf as (_ & _ & _ & _ & Hms). pose proof (last_data_pos _ Hms). blia.
Qed.

(* C13: [room ms suf] (Model/Resize.v) says what ohdr_v2_roundtrip_spare asks of the bytes [suf] after the header:
   one byte, or a last message with at least two bytes of data - the situation of a dataset created last in a file
   that has not been closed yet (the header is the end of the file; the last message is the layout message or an
   attribute). *)
Lemma room_last_data ms suf : room ms suf = true -> 2 <= blen suf + last_data ms.
Proof.
  induction ms as [|m [|m' r] IH]; cbn [room last_data]; intros H; [blia| |now apply IH]. apply N.leb_le in H. blia.
Qed.

Lemma ohdr_v2_roundtrip_room x (pre suf : list N) sbBE :
  wf_ohdr_v2 x = true -> oh_msgs x <> [] -> room (oh_msgs x) suf = true ->
  blen pre + size_ohdr_v2 x + 8 < 9223372036854775808 ->
  dec_ohdr sbBE (pre ++ enc_ohdr_v2 x ++ suf) (blen pre) = Ok (proj_ohdr_v2 sbBE x (blen pre)).
Proof.
  intros Hwf Hne Hroom. apply ohdr_v2_roundtrip_spare; auto using room_last_data.
  apply wf_ohdr_v2_inv in Hwf as (_ & _ & _ & _ & Hms).
  destruct (oh_msgs x) as [|m r]; [congruence|]. pose proof (chunk_size_v2_ge5 m r Hms). blia.
Qed.

(* with nothing after the header in the file, a header whose last message has one byte of data is
   rejected: the reader always fetches 6 bytes for a message header *)
Lemma ohdr_v2_eof_quirk :
  exists x, wf_ohdr_v2 x = true /\ dec_ohdr false (enc_ohdr_v2 x) 0 = Err.
Proof.
  exists {| oh_version := 2; oh_flags := 0; oh_refcount := 1;
            oh_msgs := [ {| hm_type := 1; hm_data := [7] |} ] |}.
  vm_compute. split; reflexivity.
Qed.

(* version 1: the size field counts 16 + 8 per message instead of the message bytes, so the reader stops
   early: the second message of the witness is lost *)
Lemma ohdr_v1_refuted :
  exists x, oh_version x = 1 /\
    dec_ohdr false (enc_ohdr_v1_gen false x ++ [0]) 0 <> Ok (proj_ohdr_v1 x 0).
Proof.
  exists ohdr_v1_witness. split; [reflexivity|]. vm_compute. discriminate.
Qed.

(* the same witness under the repaired size field *)
Lemma ohdr_v1_witness_repaired :
  dec_ohdr false (enc_ohdr_v1_gen true ohdr_v1_witness ++ [0]) 0 = Ok (proj_ohdr_v1 ohdr_v1_witness 0).
Proof. vm_compute. reflexivity. Qed.

Lemma pad_to8_ge n : n <= pad_to8 n.
Proof. unfold pad_to8. destruct (n mod 8 =? 0); blia. Qed.
Lemma pad_to8_lt n : pad_to8 n < n + 8.
Proof.
  unfold pad_to8. destruct (N.eqb_spec (n mod 8) 0); [blia|].
  assert (n mod 8 < 8) by (apply N.mod_lt; discriminate). blia.
Qed.

Lemma blen_enc_msg_v1 m : blen (enc_msg_v1 m) = pad_to8 (8 + blen (hm_data m)).
Proof.
  unfold enc_msg_v1. rewrite !blen_app, !blen_le, blen_zeros, !blen_cons, blen_nil.
  pose proof (pad_to8_ge (8 + blen (hm_data m))). blia.
Qed.

Lemma msgs_size_v1_cons m r : msgs_size_v1 (m :: r) = pad_to8 (8 + blen (hm_data m)) + msgs_size_v1 r.
Proof. reflexivity. Qed.

Lemma blen_body_v1 ms : blen (body_v1 ms) = msgs_size_v1 ms.
Proof.
  induction ms as [|m r IH]; [reflexivity|].
  rewrite msgs_size_v1_cons, <- IH. unfold body_v1. cbn [map concat]. now rewrite blen_app, blen_enc_msg_v1.
Qed.

Lemma length_le_size_v1 ms : N.of_nat (length ms) <= msgs_size_v1 ms.
Proof.
  induction ms as [|m r IH]; [cbn; blia|]. rewrite msgs_size_v1_cons. cbn [length].
  pose proof (pad_to8_ge (8 + blen (hm_data m))). blia.
Qed.

Lemma wf_msg_v1_inv m : wf_msg_v1 m = true ->
  hm_type m < 65536 /\ (hm_type m =? MSG_CONT) = false /\ 1 <= blen (hm_data m) /\ blen (hm_data m) < 65536.
Proof.
  unfold wf_msg_v1. intros H. apply andb_true_iff in H as [H H4]. apply andb_true_iff in H as [H H3].
  apply andb_true_iff in H as [H1 H2].
  apply N.ltb_lt in H1, H4. apply N.leb_le in H3. apply negb_true_iff in H2. auto.
Qed.

Lemma v1_loop_msgs (ms : list hmsg) : forall file cur (fuel : nat) (E count num : N),
  file_at file cur (body_v1 ms) ->
  forallb wf_msg_v1 ms = true ->
  (length ms < fuel)%nat ->
  E = cur + msgs_size_v1 ms ->
  count + N.of_nat (length ms) = num -> num <= 65535 ->
  cur + msgs_size_v1 ms + 16 < 18446744073709551616 ->
  v1_loop fuel file false cur E count num = Ok (msgs_at_v1 ms cur).
Proof.
  induction ms as [|m r IH]; intros file cur fuel E count num F Hwf Hfuel HE Hcnt Hnum Hsmall;
    (destruct fuel as [|fuel]; [cbn [length] in Hfuel; blia|]).
  - change (msgs_size_v1 []) with 0 in HE. cbn [v1_loop msgs_at_v1]. now rewrite ltb_false by blia.
  - cbn [forallb] in Hwf. apply andb_true_iff in Hwf as [Hm Hr].
    apply wf_msg_v1_inv in Hm as (Hty & Hnc & Hd1 & Hd2).
    pose proof (fa_bound _ _ _ F) as B. rewrite blen_body_v1 in B.
    unfold body_v1 in F. cbn [map concat] in F. fold (body_v1 r) in F.
    apply fa_split in F as [F Fr]. rewrite blen_enc_msg_v1 in Fr.
    destruct m as [ty data]; rewrite msgs_size_v1_cons in *; cbn [hm_type hm_data length] in *.
    pose proof (pad_to8_ge (8 + blen data)) as HP1. pose proof (pad_to8_lt (8 + blen data)) as HP2.
    set (P := pad_to8 (8 + blen data)) in *.
    unfold enc_msg_v1 in F. cbn [hm_type hm_data] in F. rewrite !wrap16_small in F by blia.
    apply fa_split in F as [Ft F]. apply fa_split in F as [Fs F]. apply fa_app_r, fa_app_l in F.
    rewrite !blen_le in *. change (blen [0; 0; 0; 0]) with 4 in F.
    cbn [v1_loop msgs_at_v1 hm_type hm_data]. unfold readable, rd_end.
    rewrite (proj2 (N.ltb_lt _ _)), (proj2 (N.leb_gt _ _)), wrap64_small, ltb_false, leb_true by blia.
    rewrite (fa_rd_le Ft), (fa_rd_le Fs) by (auto; blia). cbn [negb obind].
    rewrite (proj2 (N.eqb_neq _ _)), !wrap64_small, ltb_false, leb_true, (fa_slice F) by blia. cbn [negb obind].
    fold P. rewrite wrap16_small, (IH file (cur + P) fuel E (count + 1) num) by (auto; blia). reflexivity.
Qed.

Lemma wf_ohdr_v1_inv x : wf_ohdr_v1 x = true ->
  oh_version x = 1 /\ oh_refcount x < 4294967296 /\ nmsgs (oh_msgs x) <= 65535 /\
  msgs_size_v1 (oh_msgs x) < 4294967296 /\ forallb wf_msg_v1 (oh_msgs x) = true.
Proof. unfold wf_ohdr_v1. intros H. autorewrite with bool_prop in H. tauto. Qed.

Lemma ohdr_v1_blen r x : blen (enc_ohdr_v1_gen r x) = size_ohdr_v1 x.
Proof.
  unfold enc_ohdr_v1_gen, size_ohdr_v1. rewrite !blen_app, !blen_le, blen_zeros, blen_body_v1, !blen_cons, blen_nil.
  blia.
Qed.

Lemma ohdr_v1_roundtrip x (pre suf : list N) :
  wf_ohdr_v1 x = true ->
  blen pre + size_ohdr_v1 x + 16 < 9223372036854775808 ->
  dec_ohdr false (pre ++ enc_ohdr_v1_gen true x ++ suf) (blen pre) = Ok (proj_ohdr_v1 x (blen pre)).
Proof.
  intros Hwf Hsmall.
  apply wf_ohdr_v1_inv in Hwf as (Hv & Hrc & Hn & Hsz & Hms).
  destruct x as [ver flags refc ms]; cbn [oh_version oh_flags oh_refcount oh_msgs] in *. subst ver.
  unfold size_ohdr_v1 in Hsmall. cbn [oh_msgs] in Hsmall.
  pose proof (length_le_size_v1 ms) as Hlen. pose proof (blen_body_v1 ms) as Hbody.
  set (S := msgs_size_v1 ms) in *. set (n := nmsgs ms) in *.
  unfold enc_ohdr_v1_gen, v1_size_field. cbn [oh_refcount oh_msgs]. fold n S.
  rewrite wrap16_small, !wrap32_small by blia.
  bnorm. set (file := pre ++ _).
  assert (F : file_at file (blen pre) ([1; 0] ++ le 2 n ++ le 4 refc ++ le 4 S ++ zeros 4 ++ body_v1 ms))
    by apply fa_here.
  assert (Hfl : blen file = blen pre + 16 + S + blen suf)
    by (unfold file; rewrite !blen_app, !blen_le, blen_zeros, Hbody; change (blen [1; 0]) with 2; blia).
  apply fa_split in F as [F1 F]. apply fa_split in F as [Fn F]. apply fa_split in F as [Fr F].
  apply fa_split in F as [Fs F]. apply fa_app_r in F.
  rewrite !blen_le, ?blen_zeros in *. change (blen [1; 0]) with 2 in *.
  unfold dec_ohdr, readable.
  rewrite (proj2 (N.leb_gt _ _)), leb_true by blia. cbn [negb]. unfold file at 1.
  rewrite (slice_mid_firstn pre _ _ 0 8) by (rewrite ?blen_app, ?blen_le; change (blen [1; 0]) with 2; blia).
  change (N.to_nat 8) with 8%nat. change (N.to_nat 0) with 0%nat. cbn [obind app le skipn firstn rev].
  (* neither "OHDR" nor its reverse: the first byte is 1, the second 0 *)
  cbn [bytes_eqb list_eqb OHDR N.eqb Pos.eqb andb]. rewrite !andb_false_r. cbv iota.
  rewrite index0, index1. cbn [obind N.eqb Pos.eqb andb].
  unfold parse_v1, readable, rd_end.
  rewrite leb_true, (fa_index F1), (fa_rd_le Fn), (fa_rd_le Fr), (fa_rd_le Fs) by (auto; blia).
  cbn [negb obind N.eqb Pos.eqb]. rewrite !wrap64_small by blia.
  apply (fa_eq _ _ (blen pre + 16)) in F; [|blia].
  now rewrite (v1_loop_msgs ms file (blen pre + 16) _ _ 0 n) by (auto; unfold blen in Hfl; blia).
Qed.
