(* C19 part B, about Model/Selector.v (the gates of ConfigSelector.SelectConfig).  First the built-in
   strategy and the float64 comparisons (NaN, totality on numbers).  Then, for any strategy and constraints
   (section Gates): the outcomes of one call (branch), the invariant [inv] tying the selector's memory to
   what the history shows, the per-call properties, and their lifting to histories.  Then the theorems
   Props/C19.v cites, the refutations of the stronger readings, and examples in which every gate fires. *)
From Coq Require Import Floats.SpecFloat.
From HV Require Import Base.Prelude Model.Selector.

Open Scope Z_scope.

Lemma sat_sub_antitone : forall now a b, a <= b -> sat_sub now b <= sat_sub now a.
Proof.
  intros now a b H. unfold sat_sub, min_i64, max_i64.
  destruct (now - b <? -9223372036854775808) eqn:E1;
  destruct (9223372036854775807 <? now - b) eqn:E2;
  destruct (now - a <? -9223372036854775808) eqn:E3;
  destruct (9223372036854775807 <? now - a) eqn:E4; lia.
Qed.

Lemma is_allowed_in : forall c m, allowed c <> [] -> is_allowed c m = true -> In m (allowed c).
Proof.
  intros c m Hne H. unfold is_allowed in H. destruct (allowed c) as [|a l] eqn:E; [congruence|].
  apply existsb_exists in H. destruct H as [x [Hin Heq]]. apply String.eqb_eq in Heq. subst x. exact Hin.
Qed.

Lemma in_is_allowed : forall c m, In m (allowed c) -> is_allowed c m = true.
Proof.
  intros c m H. unfold is_allowed. destruct (allowed c) as [|a l] eqn:E; [reflexivity|].
  apply existsb_exists. exists m. split; [exact H | apply String.eqb_refl].
Qed.

Lemma calc_confidence_in_unit : forall f, f64_in_unit (calc_confidence f) = true.
Proof.
  intros f. unfold calc_confidence.
  destruct (0 <? f_samples f); cbn [negb]; [|vm_compute; reflexivity].
  destruct (f_burst f);
  destruct (f64_gt (f_delete f) c_0_6 || f64_lt (f_delete f) c_0_05);
  destruct (1000 <=? f_samples f); destruct (100 <=? f_samples f);
  destruct (50 <=? f_samples f); destruct (10 <=? f_samples f);
  vm_compute; reflexivity.
Qed.

Lemma rule_select_cases : forall f w, exists m k,
  rule_select f w = mkSdec m (calc_confidence f) k
  /\ (m = ModeNone \/ m = ModeLazy \/ m = ModeIncremental).
Proof.
  intros f w. unfold rule_select.
  destruct (w =? WorkloadBatchDeletion); [eauto 6|].
  destruct (w =? WorkloadAppendOnly); [eauto 6|].
  destruct (w =? WorkloadFrequentWrites); [destruct (mediumFileThreshold <? f_file_size f)%N; eauto 6|].
  destruct (w =? WorkloadReadHeavy); [eauto 6|].
  destruct (w =? WorkloadMixedRW); [destruct (mediumFileThreshold <? f_file_size f)%N; eauto 6|].
  eauto 6.
Qed.

Lemma rule_select_in_unit : forall f w, f64_in_unit (s_conf (rule_select f w)) = true.
Proof. intros. destruct (rule_select_cases f w) as (m & k & -> & _). apply calc_confidence_in_unit. Qed.

Lemma rule_select_modes : forall f w,
  s_mode (rule_select f w) = ModeNone \/ s_mode (rule_select f w) = ModeLazy \/ s_mode (rule_select f w) = ModeIncremental.
Proof. intros. destruct (rule_select_cases f w) as (m & k & -> & H). exact H. Qed.

Lemma nan_not_in_unit : forall x, f64_is_nan x = true -> f64_in_unit x = false.
Proof.
  intros x H. unfold f64_in_unit, f64_le, f64_is_nan in *.
  destruct (sf_of_bits x); try discriminate. reflexivity.
Qed.
Lemma nan_not_lt : forall x y, f64_is_nan x = true -> f64_lt x y = false.
Proof.
  intros x y H. unfold f64_lt, f64_is_nan in *. destruct (sf_of_bits x); try discriminate. reflexivity.
Qed.
Lemma lt_nan_false : forall x y, f64_is_nan y = true -> f64_lt x y = false.
Proof.
  intros x y H. unfold f64_lt, f64_is_nan in *. destruct (sf_of_bits y); try discriminate.
  unfold SFltb, SFcompare. destruct (sf_of_bits x); reflexivity.
Qed.
Lemma in_unit_not_nan : forall x, f64_in_unit x = true -> f64_is_nan x = false.
Proof.
  intros x H. destruct (f64_is_nan x) eqn:E; [|reflexivity].
  rewrite (nan_not_in_unit _ E) in H. discriminate.
Qed.

Lemma SFcompare_antisym : forall a b, SFcompare a b = option_map CompOpp (SFcompare b a).
Proof.
  intros a b. destruct a as [sa|sa| |sa ma ea]; destruct b as [sb|sb| |sb mb eb]; cbn [SFcompare option_map];
    try reflexivity; try (destruct sa; reflexivity); try (destruct sb; reflexivity);
    try (destruct sa, sb; reflexivity).
  f_equal. destruct sa, sb; try reflexivity;
    rewrite (Z.compare_antisym ea eb); destruct (ea ?= eb) eqn:E; cbn [CompOpp]; try reflexivity;
    change (Pcompare mb ma Eq) with (Pos.compare mb ma); change (Pcompare ma mb Eq) with (Pos.compare ma mb);
    rewrite (Pos.compare_antisym ma mb); destruct (ma ?= mb)%positive; reflexivity.
Qed.

Lemma not_le_lt : forall a b, f64_is_nan a = false -> f64_is_nan b = false ->
  f64_le a b = false -> f64_lt b a = true.
Proof.
  intros a b Ha Hb H. unfold f64_le, f64_lt, f64_is_nan, SFleb, SFltb in *.
  rewrite (SFcompare_antisym (sf_of_bits b) (sf_of_bits a)).
  destruct (sf_of_bits a) as [sa|sa| |sa ma ea] eqn:EA; try discriminate;
  destruct (sf_of_bits b) as [sb|sb| |sb mb eb] eqn:EB; try discriminate;
  destruct (SFcompare _ _) as [[| |]|] eqn:E; cbn [option_map CompOpp] in *; try discriminate; try reflexivity;
  cbn [SFcompare] in E; try discriminate; destruct sa; discriminate.
Qed.

Section Gates.
  Variable patched : bool.
  Variable strategy : features -> Z -> sdec.
  Variable c : constraints.

  (* what the selector remembers, related to what the history shows *)
  Definition inv (st : cstate) (g : ghost) : Prop :=
    match g_rec_time g with
    | None => st = cstate0 /\ g_pass_mode g = None /\ g_change_time g = None
    | Some T => last_time st = T /\ has_last st = true /\ g_pass_mode g = Some (last_mode st)
                /\ is_allowed c (last_mode st) = true /\ exists C, g_change_time g = Some C
    end.

  Definition row_of (st : cstate) (o : obs) : row :=
    let '(f, w, now) := o in mkRow now (strategy f w) (snd (select_config patched strategy st c f w now)).
  Definition next_state (st : cstate) (o : obs) : cstate :=
    let '(f, w, now) := o in fst (select_config patched strategy st c f w now).

  Lemma run_cons : forall st o l, run patched strategy st c (o :: l) = row_of st o :: run patched strategy (next_state st o) c l.
  Proof. intros st [[f w] now] l. reflexivity. Qed.
  Lemma run_state_cons : forall st o l, run_state patched strategy st c (o :: l) = run_state patched strategy (next_state st o) c l.
  Proof. intros st [[f w] now] l. reflexivity. Qed.

  (* the outcomes of SelectConfig, as seen from outside: a gate rejects (low confidence or mode not
     allowed), the previous mode is held, the proposal is accepted and recorded *)
  Inductive branch (st : cstate) (o : obs) : Prop :=
  | B_rejected : passes c (row_of st o) = false -> next_state st o = st ->
      d_mode (r_dec (row_of st o)) = ModeNone -> branch st o
  | B_held : passes c (row_of st o) = true -> recorded c (row_of st o) = false -> next_state st o = st ->
      d_mode (r_dec (row_of st o)) = last_mode st ->
      armed patched st = true ->
      sat_sub (r_now (row_of st o)) (last_time st) <? min_stab c = true -> branch st o
  | B_recorded : passes c (row_of st o) = true -> recorded c (row_of st o) = true ->
      next_state st o = mkCstate (r_now (row_of st o)) (d_mode (r_dec (row_of st o))) true ->
      d_mode (r_dec (row_of st o)) = s_mode (r_raw (row_of st o)) ->
      is_allowed c (d_mode (r_dec (row_of st o))) = true ->
      (armed patched st = true ->
       sat_sub (r_now (row_of st o)) (last_time st) <? min_stab c = true ->
       d_mode (r_dec (row_of st o)) = last_mode st) -> branch st o.

  Lemma select_branch : forall st o, branch st o.
  Proof.
    intros st [[f w] now].
    destruct (f64_lt (s_conf (strategy f w)) (min_conf c)) eqn:E1.
    { apply B_rejected; unfold row_of, next_state, select_config, passes; cbn [r_raw r_dec r_now];
        rewrite ?E1; reflexivity. }
    destruct (is_allowed c (s_mode (strategy f w))) eqn:E2.
    2:{ apply B_rejected; unfold row_of, next_state, select_config, passes; cbn [r_raw r_dec r_now];
        rewrite ?E1, ?E2; reflexivity. }
    destruct (armed patched st && (sat_sub now (last_time st) <? min_stab c)
              && negb (String.eqb (s_mode (strategy f w)) (last_mode st))) eqn:E3.
    - apply andb_prop in E3 as [E3 E5]. apply andb_prop in E3 as [E3 E4].
      apply negb_true_iff in E5.
      apply B_held; unfold row_of, next_state, select_config, passes, recorded, passes;
        cbn [r_raw r_dec r_now]; rewrite ?E1, ?E2, ?E3, ?E4, ?E5; cbn [negb andb fst snd d_mode]; try reflexivity.
      rewrite String.eqb_sym. rewrite E5. reflexivity.
    - apply B_recorded; unfold row_of, next_state, select_config, passes, recorded, passes;
        cbn [r_raw r_dec r_now]; rewrite ?E1, ?E2, ?E3; cbn [negb andb fst snd d_mode]; try reflexivity.
      + rewrite String.eqb_refl. reflexivity.
      + exact E2.
      + intros Hz Hs. rewrite Hz, Hs in E3. cbn [negb andb] in E3.
        apply negb_false_iff in E3. apply String.eqb_eq in E3. exact E3.
  Qed.

  Lemma row_conf : forall st o, d_conf (r_dec (row_of st o)) = s_conf (r_raw (row_of st o)).
  Proof.
    intros st [[f w] now]. unfold row_of, select_config. cbn [r_raw r_dec].
    destruct (f64_lt _ _); [reflexivity|].
    destruct (negb (is_allowed _ _)); [reflexivity|].
    destruct (_ && _ && _); reflexivity.
  Qed.

  Lemma row_raw : forall st f w now, r_raw (row_of st (f, w, now)) = strategy f w.
  Proof. reflexivity. Qed.
  Lemma row_now : forall st f w now, r_now (row_of st (f, w, now)) = now.
  Proof. reflexivity. Qed.

  Lemma armed0 : armed patched cstate0 = false.
  Proof. unfold armed. destruct patched; reflexivity. Qed.
  Lemma armed_recorded : forall st, has_last st = true ->
    armed patched st = patched || negb (is_zero_time (last_time st)).
  Proof. intros st H. unfold armed. rewrite H. destruct patched; reflexivity. Qed.

  Lemma held_has_memory : forall st g, inv st g -> armed patched st = true ->
    exists T, g_rec_time g = Some T /\ last_time st = T /\ has_last st = true
              /\ g_pass_mode g = Some (last_mode st) /\ is_allowed c (last_mode st) = true
              /\ exists C, g_change_time g = Some C.
  Proof.
    intros st g H Ha. unfold inv in H. destruct (g_rec_time g) as [T|].
    - exists T. tauto.
    - destruct H as [-> _]. rewrite armed0 in Ha. discriminate.
  Qed.

  Lemma step_inv : forall st g o, inv st g -> inv (next_state st o) (ghost_step c g (row_of st o)).
  Proof.
    intros st g o H. destruct (select_branch st o) as [Hp Hs _|Hp Hr Hs Hm Hz Hlt|Hp Hr Hs Hm Ha _];
      unfold ghost_step; rewrite Hp, Hs.
    - exact H.
    - rewrite Hr.
      destruct (held_has_memory st g H Hz) as [T [ET [H1 [H2 [H3 [H4 [C H5]]]]]]].
      unfold inv. cbn [g_rec_time g_pass_mode g_change_time]. rewrite ET.
      rewrite Hm. repeat split; try assumption.
      unfold mode_changed. rewrite H3. rewrite String.eqb_refl. cbn [negb]. exists C. exact H5.
    - rewrite Hr. unfold inv. cbn [g_rec_time g_pass_mode g_change_time last_time last_mode has_last].
      repeat split; try assumption.
      unfold mode_changed. destruct (g_pass_mode g) as [m'|] eqn:EP; [|eexists; reflexivity].
      destruct (negb (String.eqb m' _)); [eexists; reflexivity|].
      unfold inv in H. destruct (g_rec_time g) as [T|]; [destruct H as [_ [_ [_ [_ HC]]]]; exact HC|].
      destruct H as [_ [H2 _]]. congruence.
  Qed.

  Lemma step_allowed : forall st g o, inv st g -> allowed_ok c (row_of st o) = true.
  Proof.
    intros st g o H. unfold allowed_ok.
    destruct (select_branch st o) as [_ _ Hm|_ _ _ Hm Hz _|_ _ _ _ Ha _].
    - rewrite Hm. reflexivity.
    - rewrite Hm. destruct (held_has_memory st g H Hz) as [T [_ [_ [_ [_ [H4 _]]]]]].
      rewrite H4. apply orb_true_r.
    - rewrite Ha. apply orb_true_r.
  Qed.

  Lemma step_min_conf : forall st o, min_conf_ok c (row_of st o) = true.
  Proof.
    intros st o. unfold min_conf_ok. rewrite row_conf.
    destruct (select_branch st o) as [_ _ Hm|Hp _ _ _ _ _|Hp _ _ _ _ _].
    - rewrite Hm. apply orb_true_r.
    - apply andb_prop in Hp as [-> _]. reflexivity.
    - apply andb_prop in Hp as [-> _]. reflexivity.
  Qed.

  (* the repaired code satisfies the strict statement, the code as found the one with the exception *)
  Lemma step_stability : forall st g o, inv st g -> stability_ok_step patched c g (row_of st o) = true.
  Proof.
    intros st g o H. unfold stability_ok_step.
    destruct (select_branch st o) as [Hp _ _|Hp _ _ Hm Hz _|Hp _ _ _ _ Hk]; rewrite Hp; try reflexivity.
    - destruct (held_has_memory st g H Hz) as [T [ET [_ [_ [H3 _]]]]].
      rewrite ET, H3, Hm. rewrite String.eqb_refl. destruct (_ && _); reflexivity.
    - unfold inv in H. destruct (g_rec_time g) as [T|]; [|reflexivity].
      destruct H as [H1 [H2 [H3 _]]]. rewrite H3. subst T.
      destruct ((patched || negb (is_zero_time (last_time st)))
                && (sat_sub (r_now (row_of st o)) (last_time st) <? min_stab c)) eqn:E; [|reflexivity].
      apply andb_prop in E as [E1 E2]. rewrite <- (armed_recorded st H2) in E1.
      rewrite (Hk E1 E2). apply String.eqb_refl.
  Qed.

  Definition mono_inv (prev : Z) (g : ghost) : Prop :=
    forall T, g_rec_time g = Some T ->
      T <= prev /\ patched || negb (is_zero_time T) = true /\ forall C, g_change_time g = Some C -> C <= T.

  Lemma mono_inv_le : forall prev now g, mono_inv prev g -> prev <= now -> mono_inv now g.
  Proof.
    intros prev now g M Hle T ET. destruct (M T ET) as [M1 [M2 M3]]. repeat split; [lia|assumption|assumption].
  Qed.

  Lemma step_dwell : forall st g o prev, inv st g -> mono_inv prev g ->
    prev <= r_now (row_of st o) -> patched || negb (is_zero_time (r_now (row_of st o))) = true ->
    dwell_ok_step c g (row_of st o) = true /\ mono_inv (r_now (row_of st o)) (ghost_step c g (row_of st o)).
  Proof.
    intros st g o prev H M Hle Hnz. unfold dwell_ok_step, ghost_step.
    destruct (select_branch st o) as [Hp _ _|Hp Hr _ Hm Hz _|Hp Hr _ Hm _ Hk]; rewrite Hp.
    - split; [reflexivity | exact (mono_inv_le _ _ g M Hle)].
    - (* held: the mode does not change *)
      destruct (held_has_memory st g H Hz) as [T0 [ET0 [_ [_ [HP _]]]]].
      assert (HC : mode_changed g (d_mode (r_dec (row_of st o))) = false).
      { unfold mode_changed. rewrite HP, Hm, String.eqb_refl. reflexivity. }
      rewrite HC, Hr. split; [destruct (g_change_time g); reflexivity | exact (mono_inv_le _ _ g M Hle)].
    - rewrite Hr. split.
      + destruct (g_change_time g) as [C|] eqn:EC; [|reflexivity].
        destruct (mode_changed g (d_mode (r_dec (row_of st o)))) eqn:HC; [|reflexivity].
        unfold inv in H. destruct (g_rec_time g) as [T|] eqn:ET.
        2:{ destruct H as [_ [_ H3]]. congruence. }
        destruct H as [H1 [H2 [H3 _]]]. destruct (M T ET) as [M1 [M2 M3]]. subst T.
        unfold mode_changed in HC. rewrite H3 in HC. apply negb_true_iff in HC.
        rewrite <- (armed_recorded st H2) in M2.
        destruct (sat_sub (r_now (row_of st o)) (last_time st) <? min_stab c) eqn:ES.
        * rewrite (Hk M2 eq_refl) in HC. rewrite String.eqb_refl in HC. discriminate.
        * pose proof (sat_sub_antitone (r_now (row_of st o)) C (last_time st) (M3 C EC)). lia.
      + intros T ET. cbn [g_rec_time g_change_time] in *. injection ET as <-.
        repeat split; [lia|assumption|].
        intros C EC. destruct (mode_changed g _); [injection EC as <-; lia|].
        unfold inv in H. destruct (g_rec_time g) as [T|] eqn:ET.
        * destruct (M T ET) as [M1 [M2 M3]]. specialize (M3 C EC). lia.
        * destruct H as [_ [_ H3]]. congruence.
  Qed.

  Lemma run_forall : forall l st g, inv st g ->
    Forall (fun r => allowed_ok c r = true /\ min_conf_ok c r = true /\ d_conf (r_dec r) = s_conf (r_raw r)
                     /\ exists f w, r_raw r = strategy f w)
           (run patched strategy st c l).
  Proof.
    induction l as [|o l IH]; intros st g H; [constructor|].
    rewrite run_cons. constructor.
    - repeat split; [eapply step_allowed; eassumption | apply step_min_conf | apply row_conf|].
      destruct o as [[f w] now]. exists f, w. reflexivity.
    - eapply IH. apply step_inv. eassumption.
  Qed.

  Lemma run_stability : forall l st g, inv st g ->
    trace_ok_from (stability_ok_step patched) c g (run patched strategy st c l) = true.
  Proof.
    induction l as [|o l IH]; intros st g H; [reflexivity|].
    rewrite run_cons. cbn [trace_ok_from]. rewrite (step_stability st g o H). cbn [andb].
    apply IH. apply step_inv. exact H.
  Qed.

  Lemma clock_mono_cons : forall prev f w now l,
    clock_mono patched prev ((f, w, now) :: l) = true ->
    prev <= now /\ patched || negb (is_zero_time now) = true /\ clock_mono patched now l = true.
  Proof.
    intros prev f w now l H. cbn [clock_mono] in H.
    apply andb_prop in H as [H H3]. apply andb_prop in H as [H1 H2].
    repeat split; [lia|assumption|assumption].
  Qed.

  Lemma run_dwell : forall l st g prev, inv st g -> mono_inv prev g -> clock_mono patched prev l = true ->
    trace_ok_from dwell_ok_step c g (run patched strategy st c l) = true.
  Proof.
    induction l as [|o l IH]; intros st g prev H M Hc; [reflexivity|].
    rewrite run_cons. cbn [trace_ok_from]. destruct o as [[f w] now].
    apply clock_mono_cons in Hc as [H1 [H2 H3]].
    destruct (step_dwell st g (f, w, now) prev H M) as [D1 D2]; [rewrite row_now; exact H1 | rewrite row_now; exact H2|].
    rewrite D1. cbn [andb]. rewrite row_now in D2.
    eapply IH; [apply step_inv; exact H | exact D2 | exact H3].
  Qed.

  Lemma inv0 : inv cstate0 ghost0.
  Proof. unfold inv. cbn. repeat split. Qed.
  Lemma mono_inv0 : forall prev, mono_inv prev ghost0.
  Proof. intros prev T E. discriminate E. Qed.

  Lemma fold_ghost_inv : forall l st g, inv st g ->
    inv (run_state patched strategy st c l) (fold_left (ghost_step c) (run patched strategy st c l) g).
  Proof.
    induction l as [|o l IH]; intros st g H; [exact H|].
    rewrite run_cons, run_state_cons. cbn [fold_left]. apply IH. apply step_inv. exact H.
  Qed.

  Lemma run_app1 : forall l st o,
    run patched strategy st c (l ++ [o])
    = run patched strategy st c l ++ [row_of (run_state patched strategy st c l) o].
  Proof.
    induction l as [|a l IH]; intros st o.
    - cbn [app]. rewrite run_cons. reflexivity.
    - cbn [app]. rewrite !run_cons, run_state_cons, IH. reflexivity.
  Qed.
End Gates.

(* [p] : false = the code as found, true = the code after notes/fixes/selector-zero-time-stability.patch *)
Lemma run_rows : forall p strategy c l r, In r (run p strategy cstate0 c l) ->
  allowed_ok c r = true /\ min_conf_ok c r = true /\ d_conf (r_dec r) = s_conf (r_raw r)
  /\ exists f w, r_raw r = strategy f w.
Proof.
  intros p strategy c l r.
  exact (proj1 (Forall_forall _ _) (run_forall p strategy c l cstate0 ghost0 (inv0 c)) r).
Qed.

Theorem allowed_holds : forall p strategy c l r, In r (run p strategy cstate0 c l) ->
  d_mode (r_dec r) = ModeNone \/ is_allowed c (d_mode (r_dec r)) = true.
Proof.
  intros p strategy c l r Hin. destruct (run_rows p strategy c l r Hin) as [Ha _].
  apply orb_prop in Ha as [Ha|Ha]; [left; apply String.eqb_eq; exact Ha | right; exact Ha].
Qed.

Theorem allowed_list_holds : forall p strategy c l r, In r (run p strategy cstate0 c l) ->
  allowed c <> [] -> d_mode (r_dec r) = ModeNone \/ In (d_mode (r_dec r)) (allowed c).
Proof.
  intros p strategy c l r Hin Hne. destruct (allowed_holds p strategy c l r Hin) as [H|H]; [left; exact H|].
  right. apply is_allowed_in; assumption.
Qed.

Theorem min_confidence_holds : forall p strategy c l r, In r (run p strategy cstate0 c l) ->
  f64_lt (d_conf (r_dec r)) (min_conf c) = true -> d_mode (r_dec r) = ModeNone.
Proof.
  intros p strategy c l r Hin Hlt. destruct (run_rows p strategy c l r Hin) as [_ [Hm _]].
  unfold min_conf_ok in Hm. rewrite Hlt in Hm. apply String.eqb_eq. exact Hm.
Qed.

Theorem confidence_passthrough : forall p strategy c l r, In r (run p strategy cstate0 c l) ->
  d_conf (r_dec r) = s_conf (r_raw r) /\ exists f w, r_raw r = strategy f w.
Proof. intros p strategy c l r Hin. apply (run_rows p strategy c l r Hin). Qed.

Theorem confidence_range_any : forall p strategy c l r,
  (forall f w, f64_in_unit (s_conf (strategy f w)) = true) ->
  In r (run p strategy cstate0 c l) -> f64_in_unit (d_conf (r_dec r)) = true.
Proof.
  intros p strategy c l r Hs Hin. destruct (confidence_passthrough p strategy c l r Hin) as [H1 [f [w H2]]].
  rewrite H1, H2. apply Hs.
Qed.

Theorem confidence_range_builtin : forall p c l r,
  In r (run p rule_select cstate0 c l) -> f64_in_unit (d_conf (r_dec r)) = true.
Proof. intros p c l r. apply confidence_range_any. apply rule_select_in_unit. Qed.

(* a NaN confidence: never below the minimum (gate 1 does not fire), reported as it is, outside [0,1] *)
Theorem nan_confidence_passes : forall p strategy c st f w now,
  f64_is_nan (s_conf (strategy f w)) = true ->
  let d := snd (select_config p strategy st c f w now) in
  d_kind d <> 1%N /\ d_conf d = s_conf (strategy f w) /\ f64_in_unit (d_conf d) = false
  /\ (is_allowed c (s_mode (strategy f w)) = true -> armed p st = false ->
      d_mode d = s_mode (strategy f w)).
Proof.
  intros p strategy c st f w now Hn. cbn zeta. unfold select_config.
  rewrite (nan_not_lt _ (min_conf c) Hn).
  destruct (is_allowed c (s_mode (strategy f w))) eqn:Ea; cbn [negb].
  - destruct (armed p st) eqn:Ez; cbn [negb andb snd d_kind d_conf d_mode].
    + destruct (_ && _); cbn [snd d_kind d_conf d_mode];
        repeat split; try discriminate; try (apply nan_not_in_unit; exact Hn); intros; discriminate.
    + repeat split; try discriminate; try (apply nan_not_in_unit; exact Hn).
  - cbn [snd d_kind d_conf d_mode]. repeat split; try discriminate; try (apply nan_not_in_unit; exact Hn).
Qed.

(* a NaN MinConfidence switches gate 1 off for every strategy *)
Theorem nan_min_confidence_never_gates : forall p strategy c st f w now,
  f64_is_nan (min_conf c) = true -> d_kind (snd (select_config p strategy st c f w now)) <> 1%N.
Proof.
  intros p strategy c st f w now Hn. unfold select_config. rewrite (lt_nan_false _ _ Hn).
  destruct (negb _); [discriminate|]. destruct (_ && _ && _); discriminate.
Qed.

Theorem stability_holds : forall p strategy c l, stability_ok p c (run p strategy cstate0 c l) = true.
Proof. intros. apply (run_stability p strategy c l cstate0 ghost0). apply inv0. Qed.

Theorem dwell_holds : forall p strategy c l prev, clock_mono p prev l = true ->
  dwell_ok c (run p strategy cstate0 c l) = true.
Proof.
  intros p strategy c l prev H.
  apply (run_dwell p strategy c l cstate0 ghost0 prev); [apply inv0 | apply mono_inv0 | exact H].
Qed.

(* the readable one-more-call form: after ANY history l, one more call at clock reading [now] *)
Theorem stability_next : forall p strategy c l f w now T m,
  let t := run p strategy cstate0 c l in
  let r := row_of p strategy c (run_state p strategy cstate0 c l) (f, w, now) in
  run p strategy cstate0 c (l ++ [(f, w, now)]) = t ++ [r] /\
  (passes c r = true ->
   g_rec_time (ghost_of c t) = Some T -> g_pass_mode (ghost_of c t) = Some m ->
   p = true \/ T <> zero_instant -> sat_sub now T < min_stab c ->
   d_mode (r_dec r) = m).
Proof.
  intros p strategy c l f w now T m t r. split; [apply run_app1|].
  intros Hp HT Hm Hz Hs.
  pose proof (fold_ghost_inv p strategy c l cstate0 ghost0 (inv0 c)) as I.
  pose proof (step_stability p strategy c _ _ (f, w, now) I) as S.
  unfold stability_ok_step in S. fold r in S. rewrite Hp in S.
  fold t in S. fold (ghost_of c t) in S. rewrite HT, Hm in S.
  assert (E1 : p || negb (is_zero_time T) = true).
  { destruct Hz as [->|Hz]; [reflexivity|]. apply orb_true_iff. right. apply negb_true_iff.
    unfold is_zero_time. apply Z.eqb_neq. exact Hz. }
  assert (E2 : sat_sub (r_now r) T <? min_stab c = true) by (apply Z.ltb_lt; exact Hs).
  rewrite E1, E2 in S. cbn [negb andb] in S. apply String.eqb_eq. exact S.
Qed.

(* what the selector remembers: lastMode is the mode returned by the latest gate-passing decision,
   it is an allowed mode, and lastDecisionTime is the clock reading of the latest recorded decision *)
Theorem memory_invariant : forall p strategy c l,
  let st := run_state p strategy cstate0 c l in
  let g := ghost_of c (run p strategy cstate0 c l) in
  (g_rec_time g = None /\ g_pass_mode g = None /\ st = cstate0) \/
  (g_rec_time g = Some (last_time st) /\ g_pass_mode g = Some (last_mode st)
   /\ has_last st = true /\ is_allowed c (last_mode st) = true).
Proof.
  intros p strategy c l st g.
  pose proof (fold_ghost_inv p strategy c l cstate0 ghost0 (inv0 c)) as I.
  fold st in I. fold (ghost_of c (run p strategy cstate0 c l)) in I. fold g in I.
  unfold inv in I. destruct (g_rec_time g) as [T|].
  - right. destruct I as [H1 [H2 [H3 [H4 _]]]]. subst T. auto.
  - left. destruct I as [H1 [H2 _]]. auto.
Qed.

(* with the built-in strategy and a MinConfidence that is a number: not (confidence >= min) gives none *)
Theorem min_confidence_builtin_total : forall p c l r, f64_is_nan (min_conf c) = false ->
  In r (run p rule_select cstate0 c l) ->
  f64_le (min_conf c) (d_conf (r_dec r)) = false -> d_mode (r_dec r) = ModeNone.
Proof.
  intros p c l r Hn Hin Hle. apply (min_confidence_holds p rule_select c l r Hin).
  apply not_le_lt; [exact Hn | | exact Hle].
  apply in_unit_not_nan. apply (confidence_range_builtin p c l r Hin).
Qed.

Definition feat (del : f64) (burst : bool) (size : N) (samples : Z) : features :=
  mkFeatures del c_0 c_0 burst size samples.
Definition c_default : constraints := mkConstraints c_0_7 30000000000 [].   (* DefaultSafetyConstraints *)
Definition sec (s : Z) : Z := s * 1000000000.

(* lazy at t=1000 s; at 1020 s the strategy proposes incremental, lazy is kept (stability); at 1031 s
   incremental is returned: 11 s after the previous gate-passing decision, 31 s after the recorded one.
   Same for the code as found and the repaired code. *)
Definition w_pairwise : list obs :=
  [ (feat c_0_9 true 0 1000, WorkloadBatchDeletion, sec 1000);
    (feat c_0 false 600000000 1000, WorkloadFrequentWrites, sec 1020);
    (feat c_0 false 600000000 1000, WorkloadFrequentWrites, sec 1031) ].

Lemma pairwise_refuted : forall p, exists c l,
  clock_mono p 0 l = true /\ pairwise_ok c None (run p rule_select cstate0 c l) = false.
Proof. intros p. exists c_default, w_pairwise. destruct p; split; vm_compute; reflexivity. Qed.

Example w_pairwise_modes : forall p,
  map (fun r => (d_mode (r_dec r), d_kind (r_dec r))) (run p rule_select cstate0 c_default w_pairwise)
  = [(ModeLazy, 0%N); (ModeLazy, 3%N); (ModeIncremental, 0%N)].
Proof. intros p; destruct p; vm_compute; reflexivity. Qed.

(* the code as found: a decision recorded while the clock reads 0001-01-01T00:00:00Z is forgotten by
   the stability gate (time.Time{} doubles as "no decision yet"): the strict statement fails *)
Definition w_zero : list obs :=
  [ (feat c_0_9 true 0 1000, WorkloadBatchDeletion, zero_instant);
    (feat c_0 false 600000000 1000, WorkloadFrequentWrites, zero_instant + sec 1) ].

Lemma zero_instant_refuted : exists c l,
  clock_mono true zero_instant l = true /\ stability_ok true c (run false rule_select cstate0 c l) = false.
Proof. exists c_default, w_zero. split; vm_compute; reflexivity. Qed.

Example w_zero_modes :
  map (fun p => map (fun r => (d_mode (r_dec r), d_kind (r_dec r))) (run p rule_select cstate0 c_default w_zero))
      [false; true]
  = [ [(ModeLazy, 0%N); (ModeIncremental, 0%N)];     (* as found: flips after 1 s *)
      [(ModeLazy, 0%N); (ModeLazy, 3%N)] ].          (* repaired: lazy is kept *)
Proof. vm_compute. reflexivity. Qed.

(* a custom strategy answering NaN: rebalancing is switched on although "confidence >= 0.7" is false *)
Definition nan_bits : f64 := 9221120237041090561%N.    (* 0x7FF8000000000001, Go's math.NaN() *)
Lemma nan_refuted : forall p, exists strategy c l r,
  In r (run p strategy cstate0 c l) /\ f64_le (min_conf c) (d_conf (r_dec r)) = false
  /\ d_mode (r_dec r) <> ModeNone /\ f64_in_unit (d_conf (r_dec r)) = false.
Proof.
  intros p. exists (scripted [ModeNone; ModeLazy]), c_default, [(feat nan_bits false 1 1, 1, sec 5)].
  eexists. split; [left; reflexivity|]. destruct p; vm_compute; repeat split; discriminate.
Qed.

(* non-vacuity: every gate fires, and the accepted path is taken *)
Example ex_gates : forall p,
  let c := mkConstraints c_0_7 30000000000 [ModeLazy] in
  map (fun r => (d_mode (r_dec r), d_conf (r_dec r), d_kind (r_dec r), d_cfg (r_dec r)))
      (run p rule_select cstate0 c
         [ (feat c_0_3 false 0 5, WorkloadMixedRW, sec 10);              (* 0.3 < 0.7: low confidence *)
           (feat c_0_3 false 600000000 1000, WorkloadMixedRW, sec 11);   (* incremental not allowed *)
           (feat c_0_3 false 0 1000, WorkloadMixedRW, sec 12);           (* lazy accepted *)
           (feat c_0_3 true 0 60, WorkloadReadHeavy, sec 13);            (* 0.65+0.05 = 0.7000000000000001 *)
           (feat c_0 false 0 50, WorkloadReadHeavy, sec 14) ])           (* 0.65+0.1 = 0.75 *)
  = [ (ModeNone, c_0_3, 1%N, 0%N); (ModeNone, c_0_9, 2%N, 0%N); (ModeLazy, c_0_9, 0%N, 1%N);
      (ModeLazy, 4604480259023595111%N, 0%N, 1%N); (ModeLazy, c_0_75, 0%N, 1%N) ].
Proof. intros p; destruct p; vm_compute; reflexivity. Qed.

Example ex_min_conf_ulp :
  (* 0.65 + 0.1 = 0.75 exactly: passes MinConfidence 0.75, fails 0.7500000000000001 *)
  map (fun mc => d_mode (r_dec (row_of false rule_select (mkConstraints mc 0 []) cstate0
                                 (feat c_0 false 0 50, WorkloadReadHeavy, sec 1))))
      [c_0_75; 4604930618986332161%N]
  = [ModeLazy; ModeNone].
Proof. vm_compute. reflexivity. Qed.

Example ex_backwards_clock : forall p,
  (* the clock jumps back by 100 s: now - last = -100 s < 30 s, the previous mode is kept *)
  map (fun r => (d_mode (r_dec r), d_kind (r_dec r)))
      (run p rule_select cstate0 c_default
         [ (feat c_0_9 true 0 1000, WorkloadBatchDeletion, sec 1000);
           (feat c_0 false 600000000 1000, WorkloadFrequentWrites, sec 900) ])
  = [(ModeLazy, 0%N); (ModeLazy, 3%N)].
Proof. intros p; destruct p; vm_compute; reflexivity. Qed.

Example ex_classify :
  map (classify 10)
      [ mkFeatures c_0_9 c_0 c_0 true 0 100;  mkFeatures c_0 c_0_9 c_0 false 0 100;
        mkFeatures c_0_1 c_0_9 c_0 false 0 100; mkFeatures c_0_1 c_0 c_0_9 false 0 100;
        mkFeatures c_0_1 c_0_5 c_0_5 false 0 100; mkFeatures c_0_5 c_0_5 c_0 false 0 100;
        mkFeatures c_0_9 c_0 c_0 true 0 9 ]
  = [WorkloadBatchDeletion; WorkloadAppendOnly; WorkloadFrequentWrites; WorkloadReadHeavy;
     WorkloadMixedRW; WorkloadUnknown; WorkloadUnknown].
Proof. vm_compute. reflexivity. Qed.
