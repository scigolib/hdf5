(* C01 end to end, object header stage: the reader PROGRAM p_ohdr (Model/IOProgReader.v) run on a file in which a version 2
   object header written by enc_ohdr_v2 is placed returns the header's messages (proj_ohdr_v2).  For every header with
   flags 0, messages of type < 256 other than continuation, non-empty data, at most 255 message bytes.  The reader fetches 6
   bytes per 4-byte message prefix, so two bytes must follow the last prefix: in the last message's data or behind the header. *)
From HV Require Import Base.Prelude Base.Outcome Base.Bytes Model.IOProg Proofs.IOProg Model.IOProgReader.
From HV Require Import Model.CodecSuper Model.CodecOhdr Model.FileImage Proofs.FileImage.

Definition B63 : N := 9223372036854775808.
Definition msg_ok (m : hmsg) : Prop := hm_type m < 256 /\ hm_type m <> MSG_CONT /\ 1 <= blen (hm_data m).

Lemma run0_read_placed0 A f a b len (k : bytes -> prog A) :
  placed f a b -> len <= blen b -> run0 f (ReadAt a len k) = run0 f (k (rd b 0 len)).
Proof.
  intros H Hl. replace a with (a + 0) at 1 by blia. apply run0_read_placed; auto.
Qed.

Lemma chunk_size_cons m r : chunk_size_v2 (m :: r) = 4 + blen (hm_data m) + chunk_size_v2 r.
Proof. reflexivity. Qed.
Lemma body_v2_cons m r : body_v2 (m :: r) = enc_msg_v2 m ++ body_v2 r.
Proof. reflexivity. Qed.
Lemma blen_body_v2 ms : Forall msg_ok ms -> chunk_size_v2 ms <= 255 -> blen (body_v2 ms) = chunk_size_v2 ms.
Proof.
  induction ms as [|m r IH]; intros HF Hc; [reflexivity|].
  rewrite body_v2_cons, chunk_size_cons in *. inversion HF; subst.
  rewrite blen_app, IH by (auto; blia). unfold enc_msg_v2. rewrite !blen_app, blen_le.
  change (blen [wrap8 (hm_type m)]) with 1. change (blen [0]) with 1. blia.
Qed.

Lemma hdr_decode t v (X : bytes) : v < 65536 -> 2 <= blen X ->
  index (rd ([t] ++ le 2 v ++ [0] ++ X) 0 6) 0 = Ok t /\ rd_le (rd ([t] ++ le 2 v ++ [0] ++ X) 0 6) 1 2 = Ok v.
Proof.
  intros Hv HX.
  assert (E : rd ([t] ++ le 2 v ++ [0] ++ X) 0 6 = t :: v mod 256 :: (v / 256) mod 256 :: 0 :: firstn 2 X) by reflexivity.
  rewrite E. set (Y := firstn 2 X). split; [reflexivity|].
  unfold rd_le, slice. change (1 + 2) with 3.
  rewrite !blen_cons.
  replace ((1 <=? 3) && (3 <=? 1 + (1 + (1 + (1 + blen Y))))) with true
    by (symmetry; apply andb_true_iff; split; apply N.leb_le; blia).
  change (N.to_nat (3 - 1)) with 2%nat. change (N.to_nat 1) with 1%nat. cbn [skipn firstn obind unle].
  f_equal.
  assert (v / 256 < 256) by (apply N.div_lt_upper_bound; blia).
  rewrite (N.mod_small (v / 256)) by auto.
  pose proof (N.div_mod v 256 ltac:(blia)). blia.
Qed.

Section Ohdr.
Variable sb : superblock'.

(* m0 stands for the last message when ms is empty: in the induction, the message before *)
Lemma v2_loop_placed : forall ms fuel f cur E acc tail m0,
  placed f cur (body_v2 ms ++ tail) -> 2 <= blen (hm_data (last ms m0)) + blen tail -> Forall msg_ok ms -> (length ms < fuel)%nat ->
  chunk_size_v2 ms <= 255 -> cur + chunk_size_v2 ms = E + 4 -> E + 300 < B63 ->
  run0 f (p_v2_loop sb fuel false 4 cur E false [] [] acc) = Ok (acc ++ msgs_at_v2 ms cur).
Proof.
  unfold B63. induction ms as [|m r IH]; intros fuel f cur E acc tail m0 HP Ht HF Hfu Hc HE HB.
  - destruct fuel as [|fuel']; [cbn [length] in Hfu; blia|]. cbn [p_v2_loop].
    change (chunk_size_v2 []) with 0 in HE.
    replace (cur <? E) with false by (symmetry; apply N.ltb_ge; blia).
    cbn [msgs_at_v2]. rewrite app_nil_r. reflexivity.
  - destruct fuel as [|fuel']; [cbn [length] in Hfu; blia|]. cbn [length] in Hfu.
    inversion HF as [|m' r' Hm Hr]; subst m' r'. destruct Hm as (Hty & Hnc & Hlen).
    rewrite chunk_size_cons in Hc, HE. rewrite body_v2_cons in HP. unfold enc_msg_v2 in HP.
    rewrite last_cons in Ht.
    assert (H2 : 2 <= blen (hm_data m) + (blen (body_v2 r) + blen tail)).
    { destruct r as [|m' r']; [exact Ht|].
      rewrite body_v2_cons. unfold enc_msg_v2. rewrite !blen_app, blen_le. blia. }
    set (d := hm_data m) in *. set (ty := hm_type m) in *.
    rewrite wrap16_small, wrap8_small in HP by blia.
    cbn [p_v2_loop].
    replace (cur <? E) with true by (symmetry; apply N.ltb_lt; blia).
    cbn [andb].
    assert (HP6 : placed f cur ([ty] ++ le 2 (blen d) ++ [0] ++ (d ++ body_v2 r ++ tail)))
      by (rewrite <- ?app_assoc in HP; rewrite <- ?app_assoc; exact HP).
    rewrite (run0_read_placed0 _ f cur _ 6 _ HP6)
      by (rewrite !blen_app, blen_le; change (blen [ty]) with 1; change (blen [0]) with 1; blia).
    destruct (hdr_decode ty (blen d) (d ++ body_v2 r ++ tail)) as (I0 & I1); [blia | rewrite !blen_app; exact H2 |].
    brewrite I0. cbn [obind]. brewrite I1. cbn [obind lift bind fst snd].
    replace (blen d =? 0) with false by (symmetry; apply N.eqb_neq; blia).
    rewrite (wrap64_small (cur + 4)) by blia.
    assert (HPd : placed f (cur + 4) d).
    { replace 4 with (blen ([ty] ++ le 2 (blen d) ++ [0])) by (rewrite !blen_app, blen_le; reflexivity).
      apply (placed_sub f cur _ d (body_v2 r ++ tail)). rewrite <- ?app_assoc. rewrite <- ?app_assoc in HP6. exact HP6. }
    rewrite (run0_read_exact _ f (cur + 4) d (blen d) _ HPd eq_refl).
    replace (ty =? MSG_CONT) with false by (symmetry; apply N.eqb_neq; exact Hnc).
    rewrite (wrap64_small (cur + 4 + blen d)) by blia.
    rewrite (IH fuel' f (cur + 4 + blen d) E _ tail m); auto; try blia.
    + rewrite <- app_assoc. reflexivity.
    + replace (cur + 4 + blen d) with (cur + blen ([ty] ++ le 2 (blen d) ++ [0] ++ d))
        by (rewrite !blen_app, blen_le; change (blen [ty]) with 1; change (blen [0]) with 1; blia).
      apply placed_tail. rewrite <- ?app_assoc. rewrite <- ?app_assoc in HP6. exact HP6.
Qed.

Definition ohdr_ok (x : ohdr) : Prop :=
  oh_version x = 2 /\ oh_flags x = 0 /\ chunk_size_v2 (oh_msgs x) <= 255 /\ oh_msgs x <> [] /\ Forall msg_ok (oh_msgs x).

Lemma p_ohdr_placed_last fuel f a x tail m0 :
  ohdr_ok x -> placed f a (enc_ohdr_v2 x ++ tail) -> 2 <= blen (hm_data (last (oh_msgs x) m0)) + blen tail ->
  (length (oh_msgs x) < fuel)%nat -> a + 600 < B63 ->
  run0 f (p_ohdr sb fuel a) = Ok (proj_ohdr_v2 (spp_bigendian sb) x a).
Proof.
  unfold B63. intros (Hv & Hfl & Hc & Hne & HF) HP Ht Hfu HB.
  destruct x as [ver flags rc ms]. cbn [oh_version oh_flags oh_msgs] in *. subst ver flags.
  unfold enc_ohdr_v2 in HP. cbn [oh_version oh_flags oh_msgs] in HP.
  rewrite wrap8_small in HP by blia. set (cs := chunk_size_v2 ms) in *.
  assert (Hbody : blen (body_v2 ms) = cs) by (apply blen_body_v2; auto).
  assert (Hcs : 5 <= cs).
  { subst cs. destruct ms as [|m r]; [congruence|]. rewrite chunk_size_cons. inversion HF as [|? ? Hm ?]; subst.
    destruct Hm as (_ & _ & ?). blia. }
  unfold p_ohdr.
  replace (9223372036854775808 <=? a) with false by (symmetry; apply N.leb_gt; blia).
  assert (HP' : placed f a ([79; 72; 68; 82; 2; 0; cs] ++ body_v2 ms ++ tail))
    by (rewrite <- ?app_assoc in HP; exact HP).
  rewrite (run0_read_placed0 _ f a _ 8 _ HP') by (rewrite !blen_app, Hbody; change (blen [79; 72; 68; 82; 2; 0; cs]) with 7; blia).
  assert (E8 : rd ([79; 72; 68; 82; 2; 0; cs] ++ body_v2 ms ++ tail) 0 8
               = 79 :: 72 :: 68 :: 82 :: 2 :: 0 :: cs :: firstn 1 (body_v2 ms ++ tail)) by reflexivity.
  brewrite E8. match goal with |- context [firstn 1 ?Z] => set (Y := firstn 1 Z) end. unfold OHDR.
  change (firstn 4 (79 :: 72 :: 68 :: 82 :: 2 :: 0 :: cs :: Y)) with [79; 72; 68; 82].
  change (bytes_eqb [79; 72; 68; 82] [79; 72; 68; 82]) with true. cbv iota.
  change (index (79 :: 72 :: 68 :: 82 :: 2 :: 0 :: cs :: Y) 4) with (@Ok N 2).
  change (index (79 :: 72 :: 68 :: 82 :: 2 :: 0 :: cs :: Y) 5) with (@Ok N 0).
  cbn [lift obind bind fst snd]. change (2 =? 1) with false. change (2 =? 2) with true. cbv iota.
  (* parseV2Header *)
  unfold p_v2_header.
  change (N.testbit 0 5) with false. change (N.testbit 0 4) with false. change (N.testbit 0 2) with false.
  change (N.shiftl 1 (N.land 0 3)) with 1. cbv iota.
  rewrite (wrap64_small (a + 6)) by blia.
  assert (HPc : placed f (a + 6) [cs]).
  { apply (placed_sub f a [79; 72; 68; 82; 2; 0] [cs] (body_v2 ms ++ tail)). exact HP'. }
  cbn [bind]. rewrite (run0_read_exact _ f (a + 6) [cs] 1 _ HPc eq_refl).
  cbn [andb negb N.eqb].
  assert (Hrd : rd_le [cs] 0 1 = Ok cs).
  { unfold rd_le, slice. change ((0 <=? 0 + 1) && (0 + 1 <=? blen [cs])) with true. cbv iota.
    change (firstn (N.to_nat (0 + 1 - 0)) (skipn (N.to_nat 0) [cs])) with [cs]. cbn [obind unle]. f_equal. blia. }
  rewrite Hrd. cbn [lift bind].
  rewrite (wrap64_small (a + 6 + 1)) by blia.
  rewrite (wrap64_small (a + 6 + 1 + cs)) by blia.
  rewrite sub64_small by blia.
  rewrite !run0_bind.
  rewrite (v2_loop_placed ms fuel f (a + 6 + 1) (a + 6 + 1 + cs - 4) [] tail m0); auto; try (unfold B63; blia).
  - cbn [app]. unfold proj_ohdr_v2. cbn [oh_flags oh_msgs]. replace (a + 6 + 1) with (a + 7) by blia. reflexivity.
  - replace (a + 6 + 1) with (a + blen [79; 72; 68; 82; 2; 0; cs]) by (change (blen [79; 72; 68; 82; 2; 0; cs]) with 7; blia).
    apply placed_tail. exact HP'.
Qed.

Lemma p_ohdr_placed fuel f a x tail :
  ohdr_ok x -> placed f a (enc_ohdr_v2 x ++ tail) -> 2 <= blen tail -> (length (oh_msgs x) < fuel)%nat ->
  a + 600 < B63 ->
  run0 f (p_ohdr sb fuel a) = Ok (proj_ohdr_v2 (spp_bigendian sb) x a).
Proof. intros Hx HP Ht. apply (p_ohdr_placed_last fuel f a x tail {| hm_type := 0; hm_data := [] |} Hx HP). blia. Qed.
End Ohdr.
