(* C03: path strings.  For a path in the specification's syntax (render of non-empty, NUL- and
   slash-free names) the Go validators accept it, parsePath splits it at the last component, and the
   specification's own parser is the inverse of render. *)
From HV Require Import Base.Prelude Model.GroupNS Proofs.GroupNSBase Proofs.GroupNSHeap.
From HV Require Base.Bytes.

Definition sf (n : bytes) : Prop := Forall (fun b => b <> SL) n.

Lemma name_ok_iff : forall n, name_ok n = true <-> (n <> [] /\ nz n /\ sf n).
Proof.
  intro n. unfold name_ok, nz, sf. rewrite andb_true_iff, forallb_forall, !Forall_forall.
  setoid_rewrite andb_true_iff. setoid_rewrite negb_true_iff. setoid_rewrite N.eqb_neq.
  destruct n; cbn [negb]; [intuition congruence|]. firstorder congruence.
Qed.

Lemma name_ok_hname : forall n, name_ok n = true -> hname_ok n.
Proof. intros n H. apply name_ok_iff in H. destruct H as (A & B & _). split; assumption. Qed.

Definition names_ok_l (cs : list name) : Prop := Forall (fun n => name_ok n = true) cs.

Lemma render_app : forall a b, render (a ++ b) = render a ++ render b.
Proof. induction a as [|n a IH]; intro b; cbn [app render]; [reflexivity|]. rewrite IH, <- app_assoc. reflexivity. Qed.
Lemma render_snoc : forall pcs n, render (pcs ++ [n]) = render pcs ++ SL :: n.
Proof. intros. rewrite render_app. cbn [render]. rewrite app_nil_r. reflexivity. Qed.

Lemma render_starts : forall n cs, starts_with_slash (render (n :: cs)) = true.
Proof. intros. cbn. reflexivity. Qed.

Lemma render_not_slash_only : forall n cs, n <> [] -> is_slash_only (render (n :: cs)) = false.
Proof. intros n cs H. cbn [render]. destruct n as [|b n]; [contradiction|]. cbn. reflexivity. Qed.

Lemma render_not_root_parent : forall n cs, n <> [] -> is_root_parent (render (n :: cs)) = false.
Proof. intros n cs H. unfold is_root_parent. cbn [render]. destruct n as [|b n]; [contradiction|]. cbn. reflexivity. Qed.

Lemma contains_dslash_cons2 : forall a b r,
  contains_dslash (a :: b :: r) = ((a =? SL) && (b =? SL)) || contains_dslash (b :: r).
Proof. reflexivity. Qed.

Lemma contains_dslash_sf_app : forall n b rest, sf n -> n <> [] ->
  contains_dslash (b :: n ++ rest) = contains_dslash rest.
Proof.
  induction n as [|c n IH]; intros b rest Hsf Hne; [contradiction|]. inversion Hsf as [|? ? Hc Hn]; subst.
  apply N.eqb_neq in Hc. cbn [app]. rewrite contains_dslash_cons2, Hc, andb_false_r. cbn [orb].
  destruct n as [|d n]; [|apply IH; [assumption | discriminate]].
  cbn [app]. destruct rest; [reflexivity|]. rewrite contains_dslash_cons2, Hc. reflexivity.
Qed.

Lemma render_no_dslash : forall cs, names_ok_l cs -> contains_dslash (render cs) = false.
Proof.
  induction cs as [|n cs IH]; intro H; [reflexivity|].
  inversion H as [|? ? Hn Hcs]; subst. apply name_ok_iff in Hn. destruct Hn as (Hne & _ & Hsf).
  cbn [render]. rewrite contains_dslash_sf_app by assumption. apply IH. assumption.
Qed.

Lemma validate_group_render : forall n cs, names_ok_l (n :: cs) -> validate_group_path (render (n :: cs)) = true.
Proof.
  intros n cs H. inversion H as [|? ? Hn _]; subst. apply name_ok_iff in Hn. destruct Hn as (Hne & _).
  unfold validate_group_path. rewrite render_starts, render_not_slash_only by assumption. reflexivity.
Qed.
Lemma validate_link_render : forall n cs, names_ok_l (n :: cs) -> validate_link_path (render (n :: cs)) = true.
Proof.
  intros n cs H. pose proof (render_no_dslash _ H) as D. inversion H as [|? ? Hn _]; subst.
  apply name_ok_iff in Hn. destruct Hn as (Hne & _).
  unfold validate_link_path. rewrite render_starts, render_not_slash_only, D by assumption. reflexivity.
Qed.

Lemma last_slash_sf : forall n j acc, sf n -> last_slash_from n j acc = acc.
Proof.
  induction n as [|b n IH]; intros j acc H; [reflexivity|]. inversion H; subst. cbn [last_slash_from].
  destruct (b =? SL) eqn:E; [apply N.eqb_eq in E; contradiction|]. apply IH. assumption.
Qed.
Lemma last_slash_app : forall pre n i acc, sf n ->
  last_slash_from (pre ++ SL :: n) i acc = Some (i + blen pre).
Proof.
  induction pre as [|b pre IH]; intros n i acc H; cbn [app last_slash_from].
  - rewrite N.eqb_refl. rewrite last_slash_sf by assumption. rewrite blen_nil. f_equal. lia.
  - rewrite IH by assumption. rewrite blen_cons. f_equal. nlia.
Qed.

Lemma trim_suffix_nonslash : forall x n, n <> [] -> sf n -> trim_suffix_slash (x ++ n) = x ++ n.
Proof.
  intros x n Hne Hsf. destruct (@exists_last _ n Hne) as [n' [b E]]. subst n.
  apply Forall_app in Hsf. destruct Hsf as [_ Hb]. inversion Hb; subst.
  unfold trim_suffix_slash. rewrite app_assoc, rev_app_distr. cbn [rev app].
  destruct (b =? SL) eqn:E; [apply N.eqb_eq in E; contradiction | reflexivity].
Qed.

Lemma skipn_length_app1 : forall A (a : list A) c x, skipn (length a + 1) (a ++ c :: x) = x.
Proof. induction a as [|y a IH]; intros c x; cbn [length app Nat.add skipn]; auto. Qed.

Lemma parse_path_render : forall pcs n, names_ok_l (pcs ++ [n]) -> parse_path (render (pcs ++ [n])) = (render pcs, n).
Proof.
  intros pcs n H. apply Forall_app in H. destruct H as [Hp Hn]. inversion Hn as [|? ? Hn' _]; subst.
  apply name_ok_iff in Hn'. destruct Hn' as (Hne & _ & Hsf).
  unfold parse_path.
  assert (S0 : is_slash_only (render (pcs ++ [n])) = false).
  { destruct pcs as [|m pcs]; cbn [app].
    - apply render_not_slash_only. assumption.
    - inversion Hp as [|? ? Hm _]; subst. apply name_ok_iff in Hm. apply render_not_slash_only. tauto. }
  rewrite S0. rewrite render_snoc.
  replace (render pcs ++ SL :: n) with ((render pcs ++ [SL]) ++ n) by (rewrite <- app_assoc; reflexivity).
  rewrite trim_suffix_nonslash by assumption. rewrite <- app_assoc. cbn [app].
  unfold last_index_slash. rewrite last_slash_app by assumption. rewrite N.add_0_l.
  match goal with |- context [if ?c then _ else _] => destruct c eqn:E end.
  - apply N.eqb_eq in E. destruct (render pcs) eqn:R; [|rewrite blen_cons in E; nlia].
    cbn [app skipn]. reflexivity.
  - rewrite to_nat_blen, Bytes.firstn_length_app. f_equal. apply skipn_length_app1.
Qed.

Lemma is_root_parent_render : forall pcs, names_ok_l pcs -> is_root_parent (render pcs) = match pcs with [] => true | _ => false end.
Proof.
  intros [|n pcs] H; [reflexivity|]. inversion H as [|? ? Hn _]; subst. apply name_ok_iff in Hn.
  apply render_not_root_parent. tauto.
Qed.

Fixpoint join (cs : list bytes) : bytes :=
  match cs with [] => [] | c :: r => match r with [] => c | _ => c ++ SL :: join r end end.

Lemma render_join : forall c cs, render (c :: cs) = SL :: join (c :: cs).
Proof.
  intros c cs. revert c. induction cs as [|d cs IH]; intro c.
  - cbn. rewrite app_nil_r. reflexivity.
  - change (render (c :: d :: cs)) with (SL :: c ++ render (d :: cs)). rewrite (IH d).
    change (join (c :: d :: cs)) with (c ++ SL :: join (d :: cs)). reflexivity.
Qed.

Lemma split_slash_nonempty : forall r, split_slash r <> [].
Proof. destruct r as [|b r]; cbn [split_slash]; [discriminate|]. destruct (b =? SL); [discriminate|]. destruct (split_slash r); discriminate. Qed.

Lemma join_split : forall r, join (split_slash r) = r.
Proof.
  induction r as [|b r IH]; [reflexivity|]. cbn [split_slash]. destruct (b =? SL) eqn:E.
  - apply N.eqb_eq in E. subst b. cbn [join]. destruct (split_slash r) eqn:S.
    + exfalso. apply (split_slash_nonempty r). assumption.
    + rewrite IH. reflexivity.
  - destruct (split_slash r) as [|c cs] eqn:S; [exfalso; apply (split_slash_nonempty r); assumption|].
    cbn [join] in *. destruct cs; rewrite <- IH; reflexivity.
Qed.

Lemma split_slash_sf : forall n, sf n -> split_slash n = [n].
Proof.
  induction n as [|b n IH]; intro H; [reflexivity|]. inversion H; subst. cbn [split_slash].
  destruct (b =? SL) eqn:E; [apply N.eqb_eq in E; contradiction|]. rewrite IH by assumption. reflexivity.
Qed.
Lemma split_slash_app : forall n x, sf n -> split_slash (n ++ SL :: x) = n :: split_slash x.
Proof.
  induction n as [|b n IH]; intros x H; cbn [app split_slash].
  - rewrite N.eqb_refl. reflexivity.
  - inversion H; subst. destruct (b =? SL) eqn:E; [apply N.eqb_eq in E; contradiction|].
    rewrite IH by assumption. reflexivity.
Qed.
Lemma split_join : forall c cs, Forall sf (c :: cs) -> split_slash (join (c :: cs)) = c :: cs.
Proof.
  intros c cs. revert c. induction cs as [|d cs IH]; intros c H; inversion H; subst.
  - cbn [join]. apply split_slash_sf. assumption.
  - cbn [join]. rewrite split_slash_app by assumption. f_equal. apply IH. assumption.
Qed.

Lemma split_path_render : forall c cs, names_ok_l (c :: cs) -> split_path (render (c :: cs)) = Some (c :: cs).
Proof.
  intros c cs H. rewrite render_join. unfold split_path. cbv zeta. rewrite N.eqb_refl.
  assert (Hsf : Forall sf (c :: cs)).
  { apply Forall_forall. intros n Hn. unfold names_ok_l in H. rewrite Forall_forall in H. specialize (H n Hn).
    apply name_ok_iff in H. tauto. }
  destruct (join (c :: cs)) eqn:J.
  - exfalso. inversion H as [|? ? Hc _]; subst. apply name_ok_iff in Hc. destruct Hc as (Hne & _).
    destruct cs; cbn [join] in J; [contradiction|]. destruct c; [contradiction | discriminate].
  - rewrite <- J. rewrite split_join by assumption.
    assert (F : forallb name_ok (c :: cs) = true) by (apply forallb_forall; intros n Hn; unfold names_ok_l in H; rewrite Forall_forall in H; auto).
    unfold name, path, bytes, byte in *. rewrite F. reflexivity.
Qed.

Lemma split_path_inv : forall p c cs, split_path p = Some (c :: cs) -> p = render (c :: cs) /\ names_ok_l (c :: cs).
Proof.
  intros p c cs H. unfold split_path in H. destruct p as [|b r]; [discriminate|].
  destruct (b =? SL) eqn:E; [|discriminate]. apply N.eqb_eq in E. subst b.
  destruct r as [|b r]; [discriminate|].
  destruct (forallb name_ok (split_slash (b :: r))) eqn:F; [|discriminate]. injection H as S. split.
  - assert (S2 : split_slash (b :: r) = c :: cs) by exact S. rewrite render_join, <- S2, join_split. reflexivity.
  - assert (S2 : split_slash (b :: r) = c :: cs) by exact S. rewrite <- S2. unfold names_ok_l. apply Forall_forall. rewrite forallb_forall in F. assumption.
Qed.

Lemma path_ok_inv : forall p, path_ok p = true -> exists c cs, split_path p = Some (c :: cs) /\ p = render (c :: cs) /\ names_ok_l (c :: cs).
Proof.
  intros p H. unfold path_ok in H. destruct (split_path p) as [[|c cs]|] eqn:S; try discriminate.
  exists c, cs. split; [reflexivity|]. apply split_path_inv. assumption.
Qed.

Lemma render_inj : forall a b, names_ok_l a -> names_ok_l b -> render a = render b -> a = b.
Proof.
  intros a b Ha Hb E. destruct a as [|c a], b as [|d b]; try reflexivity; try discriminate.
  pose proof (split_path_render _ _ Ha) as S1. pose proof (split_path_render _ _ Hb) as S2. rewrite E in S1. congruence.
Qed.

Lemma unsnoc_snoc : forall A (l : list A) x, unsnoc (l ++ [x]) = Some (l, x).
Proof.
  induction l as [|y l IH]; intro x; cbn [app unsnoc]; [reflexivity|]. rewrite IH. reflexivity.
Qed.
Lemma unsnoc_inv : forall A (l i : list A) x, unsnoc l = Some (i, x) -> l = i ++ [x].
Proof.
  induction l as [|y l IH]; intros i x H; cbn [unsnoc] in H; [discriminate|].
  destruct (unsnoc l) as [[i' x']|] eqn:U.
  - inversion H; subst. cbn [app]. f_equal. apply IH. reflexivity.
  - inversion H; subst. destruct l; [reflexivity|]. cbn [unsnoc] in U. destruct (unsnoc l) as [[? ?]|]; discriminate.
Qed.
Lemma unsnoc_cons_some : forall A (x : A) l, exists i y, unsnoc (x :: l) = Some (i, y).
Proof. intros. cbn [unsnoc]. destruct (unsnoc l) as [[i y]|]; eauto. Qed.
