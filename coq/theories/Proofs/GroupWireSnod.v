(* C11 / C03: the symbol table node at byte level (Model/GroupWire.v).  Closed form and size of what WriteAt emits (8 +
   maxEntries * 40 bytes; no panic when NumSymbols = len(Entries)); ParseSymbolTableNode on ANY file holding the bytes returns the
   node; new / add_entry / write_at / parse commute with the projection to Model/GroupNS.v (entries as (offset, address) pairs),
   and the FILE-level node step of linkToParent rewrites exactly the node image. *)
From HV Require Import Base.Prelude Base.Outcome Base.Bytes Model.RobustAlloc Model.RobustGroup Model.GroupWire Proofs.GroupWireHeap.
From HV Require Model.GroupNS.

Local Open Scope N_scope.

Definition snod_bytes (s : snode) (m : nat) : bytes :=
  sigSNOD ++ [stn_version s; 0] ++ le 2 (stn_num s)
  ++ flat_map (enc_sym 8) (firstn m (stn_entries s)) ++ zeros (40 * (m - length (stn_entries s))).

Lemma blen_enc_sym e : blen (enc_sym 8 e) = 40.
Proof. unfold enc_sym, write_address. rewrite !blen_app, !blen_le, blen_zeros. reflexivity. Qed.
Lemma length_enc_sym e : length (enc_sym 8 e) = 40%nat.
Proof. pose proof (blen_enc_sym e) as H. unfold blen in H. blia. Qed.

Lemma length_flat_enc es : length (flat_map (enc_sym 8) es) = (40 * length es)%nat.
Proof. induction es as [|e es IH]; cbn [flat_map length]; [reflexivity|]. rewrite app_length, length_enc_sym, IH. lia. Qed.

Lemma snod_slots_used_gen s : forall k l1 l2,
  stn_entries s = l1 ++ l2 -> (k <= length l2)%nat -> stn_num s = llen (stn_entries s) ->
  snod_slots k (N.of_nat (length l1)) s 8 = Ok (flat_map (enc_sym 8) (firstn k l2)).
Proof.
  induction k as [|k IH]; intros l1 l2 Hl Hk Hn; cbn [snod_slots]; [reflexivity|].
  destruct l2 as [|e l2]; [cbn [length] in Hk; lia|].
  replace (N.of_nat (length l1) <? stn_num s) with true
    by (symmetry; apply N.ltb_lt; rewrite Hn, Hl; unfold llen; rewrite app_length; cbn [length]; lia).
  rewrite Nat2N.id, Hl, nth_error_app2, Nat.sub_diag by lia. cbn [nth_error obind].
  replace (N.of_nat (length l1) + 1) with (N.of_nat (length (l1 ++ [e]))) by (rewrite app_length; cbn [length]; lia).
  rewrite (IH (l1 ++ [e]) l2); [reflexivity | rewrite Hl, <- app_assoc; reflexivity | cbn [length] in Hk; lia | exact Hn].
Qed.

Lemma snod_slots_used s k : (k <= length (stn_entries s))%nat -> stn_num s = llen (stn_entries s) ->
  snod_slots k 0 s 8 = Ok (flat_map (enc_sym 8) (firstn k (stn_entries s))).
Proof. intros Hk Hn. exact (snod_slots_used_gen s k [] (stn_entries s) eq_refl Hk Hn). Qed.

Lemma snod_slots_unused s : forall k i, stn_num s <= i -> snod_slots k i s 8 = Ok (zeros (40 * k)).
Proof.
  induction k as [|k IH]; intros i Hi; cbn [snod_slots]; [reflexivity|].
  replace (i <? stn_num s) with false by (symmetry; apply N.ltb_ge; exact Hi).
  cbn [obind]. rewrite IH by lia. cbn [obind]. f_equal.
  change (N.to_nat (sym_size 8)) with 40%nat. rewrite <- zeros_app. f_equal. lia.
Qed.

Lemma snod_slots_split s : forall a b i,
  snod_slots (a + b) i s 8 = (x <- snod_slots a i s 8;; y <- snod_slots b (i + N.of_nat a) s 8;; Ok (x ++ y)).
Proof.
  induction a as [|a IH]; intros b i.
  - cbn [Nat.add snod_slots obind]. replace (i + N.of_nat 0) with i by lia.
    destruct (snod_slots b i s 8); reflexivity.
  - cbn [Nat.add snod_slots].
    destruct (if i <? stn_num s then _ else _) as [slot| |]; cbn [obind]; try reflexivity.
    rewrite IH. replace (i + 1 + N.of_nat a) with (i + N.of_nat (S a)) by lia.
    destruct (snod_slots a (i + 1) s 8) as [x| |]; cbn [obind]; try reflexivity.
    destruct (snod_slots b (i + N.of_nat (S a)) s 8) as [y| |]; cbn [obind]; try reflexivity.
    now rewrite app_assoc.
Qed.

Lemma snod_write_at_ok s m : stn_num s = llen (stn_entries s) ->
  snod_write_at s 8 (N.of_nat m) = Ok (snod_bytes s m).
Proof.
  intros Hn. unfold snod_write_at, snod_bytes. rewrite Nat2N.id.
  set (n := length (stn_entries s)).
  assert (Hs : snod_slots m 0 s 8 = Ok (flat_map (enc_sym 8) (firstn m (stn_entries s)) ++ zeros (40 * (m - n)))).
  { destruct (Nat.le_gt_cases m n) as [Hle|Hgt].
    - rewrite snod_slots_used by (auto; fold n; lia).
      replace (40 * (m - n))%nat with 0%nat by lia. cbn [zeros repeat].
      now rewrite app_nil_r.
    - replace m with (n + (m - n))%nat at 1 by lia. rewrite snod_slots_split.
      rewrite snod_slots_used by (auto; fold n; lia). cbn [obind].
      rewrite snod_slots_unused by (rewrite Hn; unfold llen; fold n; lia). cbn [obind].
      rewrite (firstn_all2 (n := n)) by (unfold n; lia). rewrite (firstn_all2 (n := m)) by (fold n; lia). reflexivity. }
  rewrite Hs. reflexivity.
Qed.

(* length (enc x) = 8 + maxEntries * 40: the 8 + 2K*40 of Model/Store.v for maxEntries = 32 *)
Lemma snod_bytes_size s m : blen (snod_bytes s m) = 8 + 40 * N.of_nat m.
Proof.
  unfold snod_bytes, blen. rewrite !app_length, length_le, length_flat_enc, length_zeros, firstn_length. cbn [length sigSNOD].
  lia.
Qed.

Lemma snod_write_at_size s m b : snod_write_at s 8 m = Ok b -> blen b = 8 + m * sym_size 8.
Proof.
  unfold snod_write_at. destruct (snod_slots (N.to_nat m) 0 s 8) as [body| |] eqn:E; cbn [obind]; try discriminate.
  intros X. inversion X; subst; clear X.
  assert (G : forall k i body, snod_slots k i s 8 = Ok body -> length body = (40 * k)%nat).
  { induction k as [|k IH]; intros i bd; cbn [snod_slots].
    - intros X. inversion X. reflexivity.
    - destruct (if i <? stn_num s then _ else _) as [slot| |] eqn:Es; cbn [obind]; try discriminate.
      destruct (snod_slots k (i + 1) s 8) as [rest| |] eqn:Er; cbn [obind]; try discriminate.
      intros X. inversion X; subst; clear X. rewrite app_length, (IH _ _ Er).
      assert (length slot = 40%nat).
      { destruct (i <? stn_num s).
        - destruct (nth_error (stn_entries s) (N.to_nat i)); inversion Es. apply length_enc_sym.
        - inversion Es. apply length_zeros. }
      lia. }
  apply G in E. unfold blen. cbn [sigSNOD app length]. bnorm. rewrite E. change (sym_size 8) with 40. lia.
Qed.

Lemma P8' : 256 ^ 8 = 18446744073709551616. Proof. reflexivity. Qed.

Lemma read_address_le8 v (r : list N) : v < 18446744073709551616 -> read_address (le 8 v ++ r) 8 = Ok v.
Proof.
  intros H. unfold read_address. rewrite blen_app, blen_le.
  replace (N.of_nat 8 + blen r <? 8) with false by (symmetry; apply N.ltb_ge; blia).
  change (8 =? 1) with false. change ((8 =? 2) || (8 =? 4) || (8 =? 8)) with true. cbv iota.
  apply rd_le_head; [reflexivity | exact H].
Qed.

Lemma read_address_field v fs (r : list N) : v < 18446744073709551616 ->
  read_address (enc_fields ((8%nat, v) :: fs) ++ r) 8 = Ok v.
Proof. intros H. cbn [enc_fields flat_map fst snd]. rewrite <- app_assoc. now apply read_address_le8. Qed.

Lemma sym_ok_spec e : sym_ok e = true ->
  sy_name e < 18446744073709551616 /\ sy_obj e < 18446744073709551616 /\ sy_cache e < 4294967296 /\ sy_res e < 4294967296 /\
  sy_bt e = 0 /\ sy_heap e = 0.
Proof.
  unfold sym_ok, u64, u32. intros H. repeat (apply andb_true_iff in H as [H ?]).
  repeat match goal with X : (_ <? _) = true |- _ => apply N.ltb_lt in X | X : (_ =? _) = true |- _ => apply N.eqb_eq in X end.
  auto 10.
Qed.

Lemma sym_entry_step (p r : list N) e k :
  sym_ok e = true ->
  sym_entries (S k) (p ++ enc_sym 8 e ++ r) (blen p) 8 =
    (rest <- sym_entries k (p ++ enc_sym 8 e ++ r) (blen p + 40) 8;; Ok (e :: rest)).
Proof.
  intros He. destruct (sym_ok_spec e He) as (H1 & H2 & H3 & H4 & H5 & H6).
  cbn [sym_entries]. change (2 * 8 + 24) with 40.
  rewrite !blen_app, blen_enc_sym.
  replace (blen p + (40 + blen r) <? blen p + 40) with false by (symmetry; apply N.ltb_ge; blia).
  (* the slot as a field list; the 16 scratch bytes are two zero addresses *)
  change (enc_sym 8 e)
    with (enc_fields [(8%nat, sy_name e); (8%nat, sy_obj e); (4%nat, sy_cache e); (4%nat, sy_res e); (8%nat, 0); (8%nat, 0)]).
  rewrite (slice_from_field p _ r 0) by (cbn; lia). cbn [obind skipn]. rewrite read_address_field by exact H1. cbn [obind].
  rewrite (slice_from_field p _ r 1) by (cbn; lia). cbn [obind skipn]. rewrite read_address_field by exact H2. cbn [obind].
  rewrite (rd_le_field p _ r 2 4 (sy_cache e)) by (reflexivity || exact H3 || (cbn; lia)). cbn [obind].
  rewrite (rd_le_field p _ r 3 4 (sy_res e)) by (reflexivity || exact H4 || (cbn; lia)). cbn [obind].
  destruct (sy_cache e =? 1).
  1: rewrite (slice_from_field p _ r 4) by (cbn; lia); cbn [obind skipn]; rewrite read_address_field by lia; cbn [obind];
     rewrite (slice_from_field p _ r 5) by (cbn; lia); cbn [obind skipn]; rewrite read_address_field by lia.
  all: cbn [obind]; destruct (sym_entries k _ (blen p + 40) 8) as [rest| |]; cbn [obind]; try reflexivity;
    destruct e; cbn in *; subst; reflexivity.
Qed.

Lemma sym_entries_enc es : forall (p r : list N),
  Forall (fun e => sym_ok e = true) es ->
  sym_entries (length es) (p ++ flat_map (enc_sym 8) es ++ r) (blen p) 8 = Ok es.
Proof.
  induction es as [|e es IH]; intros p r H; [reflexivity|].
  apply Forall_cons_iff in H as [He Hr]. cbn [length flat_map]. rewrite <- app_assoc.
  rewrite sym_entry_step by exact He.
  replace (p ++ enc_sym 8 e ++ flat_map (enc_sym 8) es ++ r) with ((p ++ enc_sym 8 e) ++ flat_map (enc_sym 8) es ++ r)
    by (now rewrite <- app_assoc).
  replace (blen p + 40) with (blen (p ++ enc_sym 8 e)) by (rewrite blen_app, blen_enc_sym; reflexivity).
  rewrite IH by exact Hr. reflexivity.
Qed.

Lemma snode_ok_spec s : snode_ok s = true ->
  stn_version s = 1 /\ stn_num s = llen (stn_entries s) /\ stn_num s < 65536 /\ Forall (fun e => sym_ok e = true) (stn_entries s) /\
  stn_cap s = (if 32 <? stn_num s then stn_num s else 32).
Proof.
  unfold snode_ok. intros H. repeat (apply andb_true_iff in H as [H ?]).
  repeat match goal with X : (_ <? _) = true |- _ => apply N.ltb_lt in X | X : (_ =? _) = true |- _ => apply N.eqb_eq in X end.
  repeat split; auto. apply Forall_forall. now apply forallb_forall.
Qed.

Theorem parse_snod_bytes s m (pre suf : list N) :
  snode_ok s = true -> (length (stn_entries s) <= m)%nat -> blen pre + 8 + 40 * N.of_nat m <= MaxInt64 ->
  parse_snod (pre ++ snod_bytes s m ++ suf) (blen pre) 8 = Ok s.
Proof.
  intros Hok Hm Hb. destruct (snode_ok_spec s Hok) as (Hv & Hn & Hlt & Hes & Hcap).
  rewrite MaxInt64_val in Hb.
  unfold parse_snod, snod_bytes. rewrite firstn_all2 by exact Hm.
  set (body := flat_map (enc_sym 8) (stn_entries s) ++ zeros (40 * (m - length (stn_entries s)))).
  set (hdr := sigSNOD ++ [stn_version s; 0] ++ le 2 (stn_num s)).
  replace (pre ++ (sigSNOD ++ [stn_version s; 0] ++ le 2 (stn_num s) ++ body) ++ suf) with (pre ++ hdr ++ (body ++ suf))
    by (unfold hdr; now rewrite <- !app_assoc).
  rewrite read_at_app with (mid := hdr); [|reflexivity | reflexivity | rewrite MaxInt64_val; blia].
  cbn [obind]. unfold hdr at 1. cbn [sigSNOD app firstn]. change (bytes_eqb [83; 78; 79; 68] [83; 78; 79; 68]) with true.
  cbn [negb]. unfold hdr at 1. cbn [sigSNOD app]. rewrite Hv. cbn [index nth_error N.to_nat Pos.to_nat Pos.iter_op Nat.add obind].
  change (negb (1 =? 1)) with false. cbv iota.
  unfold hdr at 1. rewrite Hv.
  change (sigSNOD ++ [1; 0] ++ le 2 (stn_num s)) with ([83; 78; 79; 68; 1; 0] ++ le 2 (stn_num s) ++ []).
  rewrite (rd_le_at [83; 78; 79; 68; 1; 0] 2 2 (stn_num s)); [|reflexivity | reflexivity | exact Hlt]. cbn [obind].
  rewrite <- Hcap.
  destruct (stn_num s =? 0) eqn:E0.
  - apply N.eqb_eq in E0.
    assert (Hes0 : stn_entries s = []).
    { destruct (stn_entries s); [reflexivity|]. rewrite E0 in Hn. unfold llen in Hn. cbn [length] in Hn. lia. }
    destruct s as [v n es c]. cbn [stn_version stn_num stn_entries stn_cap] in *. rewrite Hv, E0, Hes0. reflexivity.
  - change (2 * 8 + 24) with 40.
    assert (Hlen : stn_num s * 40 = blen (flat_map (enc_sym 8) (stn_entries s))).
    { unfold blen. rewrite length_flat_enc, Hn. unfold llen. lia. }
    unfold body. rewrite <- !app_assoc. rewrite app_assoc.
    rewrite read_at_app with (mid := flat_map (enc_sym 8) (stn_entries s));
      [|rewrite blen_app; reflexivity | exact Hlen | ].
    2:{ rewrite MaxInt64_val, Hn. unfold llen. blia. }
    cbn [obind]. replace (N.to_nat (stn_num s)) with (length (stn_entries s)) by (rewrite Hn; unfold llen; lia).
    pose proof (sym_entries_enc (stn_entries s) [] [] Hes) as S. cbn [app] in S. rewrite app_nil_r in S.
    change (blen []) with 0 in S. rewrite S. cbn [obind].
    destruct s as [v n es c]. cbn [stn_version stn_num stn_entries stn_cap] in *. rewrite Hv. reflexivity.
Qed.

Definition abs_sym (e : sym) : NS.entry := {| NS.e_off := sy_name e; NS.e_obj := sy_obj e |}.
Definition abs_snode (s : snode) : NS.wsnod := {| NS.sn_entries := map abs_sym (stn_entries s); NS.sn_cap := stn_cap s |}.

Lemma abs_new_snode c : abs_snode (new_snode c) = NS.new_snod c.
Proof. reflexivity. Qed.

Lemma abs_add_entry s e : stn_num s = llen (stn_entries s) ->
  omap abs_snode (add_entry s e) = of_option (NS.add_entry (abs_snode s) (abs_sym e)).
Proof.
  intros Hn. unfold add_entry, NS.add_entry. cbn [abs_snode NS.sn_cap NS.sn_entries].
  replace (NS.blen (map abs_sym (stn_entries s))) with (stn_num s)
    by (rewrite Hn; unfold NS.blen, llen; now rewrite map_length).
  destruct (stn_cap s <=? stn_num s); [reflexivity|]. cbn [omap of_option]. unfold abs_snode. cbn [stn_entries stn_cap].
  now rewrite map_app.
Qed.

Lemma abs_snod_write_at s m :
  NS.snod_write_at (abs_snode s) (N.of_nat m) = map abs_sym (firstn m (stn_entries s)).
Proof. unfold NS.snod_write_at. cbn [abs_snode NS.sn_entries]. rewrite Nat2N.id. apply firstn_map. Qed.

Lemma abs_parse s : snode_ok s = true -> abs_snode s = NS.parse_snod 32 (map abs_sym (stn_entries s)).
Proof.
  intros H. destruct (snode_ok_spec s H) as (_ & Hn & _ & _ & Hc).
  unfold NS.parse_snod, abs_snode. f_equal. rewrite Hc.
  replace (NS.blen (map abs_sym (stn_entries s))) with (stn_num s)
    by (rewrite Hn; unfold NS.blen, llen; now rewrite map_length).
  destruct (32 <? stn_num s) eqn:E; [apply N.ltb_lt in E | apply N.ltb_ge in E]; lia.
Qed.

Lemma add_entry_ok s e s1 : snode_ok s = true -> sym_ok e = true -> add_entry s e = Ok s1 -> stn_num s < 32 ->
  snode_ok s1 = true /\ stn_entries s1 = stn_entries s ++ [e].
Proof.
  intros H He A Hlt. destruct (snode_ok_spec s H) as (Hv & Hn & Hl & Hes & Hc).
  unfold add_entry in A. destruct (stn_cap s <=? stn_num s); [discriminate|]. inversion A; subst; clear A.
  split; [|reflexivity]. unfold snode_ok. cbn [stn_version stn_num stn_entries stn_cap].
  rewrite wrap16_small by lia. rewrite Hv, Hc. rewrite forallb_app. cbn [forallb]. rewrite He.
  replace (forallb sym_ok (stn_entries s)) with true
    by (symmetry; apply forallb_forall; now apply Forall_forall).
  replace (32 <? stn_num s) with false by (symmetry; apply N.ltb_ge; lia).
  replace (32 <? stn_num s + 1) with false by (symmetry; apply N.ltb_ge; lia).
  replace (stn_num s + 1 =? llen (stn_entries s ++ [e])) with true
    by (symmetry; apply N.eqb_eq; rewrite Hn; unfold llen; rewrite app_length; cbn [length]; lia).
  replace (stn_num s + 1 <? 65536) with true by (symmetry; apply N.ltb_lt; lia).
  reflexivity.
Qed.

(* the node half of linkToParent on the FILE: for every file holding a well-formed node of at most 32 entries written with
   maxEntries = 32: the step fails exactly when GroupNS's add_entry on the parsed node fails (32 entries), otherwise the file
   holds the image of the node with the new entry appended, the rest of the file untouched *)
Theorem link_snod_commutes s e (pre suf : list N) :
  snode_ok s = true -> sym_ok e = true -> (length (stn_entries s) <= 32)%nat -> blen pre + 8 + 40 * 32 <= MaxInt64 ->
  match NS.add_entry (NS.parse_snod 32 (map abs_sym (stn_entries s))) (abs_sym e) with
  | None => link_snod (pre ++ snod_bytes s 32 ++ suf) (blen pre) e = Err /\ length (stn_entries s) = 32%nat
  | Some n1 =>
      exists s1, snode_ok s1 = true /\ stn_entries s1 = stn_entries s ++ [e] /\ abs_snode s1 = n1 /\
        link_snod (pre ++ snod_bytes s 32 ++ suf) (blen pre) e = Ok (pre ++ snod_bytes s1 32 ++ suf)
  end.
Proof.
  intros Hok He Hm Hb. destruct (snode_ok_spec s Hok) as (Hv & Hn & Hl & Hes & Hc).
  unfold link_snod. rewrite (parse_snod_bytes s 32 pre suf Hok Hm) by exact Hb. cbn [obind].
  rewrite <- (abs_parse s Hok). pose proof (abs_add_entry s e Hn) as A.
  destruct (NS.add_entry (abs_snode s) (abs_sym e)) as [n1|] eqn:E; cbn [of_option] in A.
  - destruct (add_entry s e) as [s1| |] eqn:E1; cbn [omap] in A; try discriminate. inversion A; subst n1; clear A.
    assert (Hlt : stn_num s < 32).
    { unfold add_entry in E1. destruct (stn_cap s <=? stn_num s) eqn:E2; [discriminate|]. apply N.leb_gt in E2.
      rewrite Hc in E2. destruct (32 <? stn_num s) eqn:E3; lia. }
    destruct (add_entry_ok s e s1 Hok He E1 Hlt) as (Hok1 & Hes1).
    exists s1. repeat split; auto. cbn [obind].
    destruct (snode_ok_spec s1 Hok1) as (_ & Hn1 & _ & _ & _).
    change SNOD_CAP with (N.of_nat 32). rewrite snod_write_at_ok by exact Hn1. cbn [obind]. f_equal.
    apply write_at_replace.
    + unfold snod_bytes. cbn [sigSNOD app]. discriminate.
    + now rewrite !snod_bytes_size.
  - destruct (add_entry s e) as [s1| |] eqn:E1; cbn [omap] in A; try discriminate. cbn [obind]. split; [reflexivity|].
    unfold add_entry in E1. destruct (stn_cap s <=? stn_num s) eqn:E2; [|discriminate]. apply N.leb_le in E2.
    rewrite Hc in E2. rewrite Hn in *. unfold llen in *. destruct (32 <? N.of_nat (length (stn_entries s))) eqn:E3; lia.
Qed.

Example ex_sym (off obj : N) : sym := {| sy_name := off; sy_obj := obj; sy_cache := 0; sy_res := 0; sy_bt := 0; sy_heap := 0 |}.
Example ex_snode : snode := {| stn_version := 1; stn_num := 2; stn_entries := [ex_sym 0 800; ex_sym 3 1072]; stn_cap := 32 |}.
Example ex_snode_roundtrip :
  snode_ok ex_snode = true /\ snod_write_at ex_snode 8 32 = Ok (snod_bytes ex_snode 32) /\
  parse_snod (zeros 50 ++ snod_bytes ex_snode 32 ++ [9]) 50 8 = Ok ex_snode.
Proof. vm_compute. repeat split. Qed.
