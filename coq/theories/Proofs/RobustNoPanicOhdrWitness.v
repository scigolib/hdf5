(* C07: why the version-1 object-header statement carries a hypothesis.
   The model of parseV1MessagesInBlock guards the message-data read with
   readable file (wrap64 (current + 8)) size  but slices the image at the unwrapped  current + 8.
   On an image of exactly 2^64 elements (which no vm_compute can build, so the witness is evaluated
   symbolically) holding two non-byte elements the two differ, and the model panics.  Go cannot reach
   this: it never slices the image, it ReadAt()s into a separate buffer at int64(current+8), and no
   io.ReaderAt holds 2^64 bytes.  So this is an artefact of the model, not a defect of /repo; the
   theorems dec_ohdr_np_partial / dec_ohdr_np_bytes exclude exactly it. *)
From HV Require Import Base.Prelude Base.Outcome Base.Bytes.
From HV Require Import Model.CodecOhdr.
From HV Require Import Proofs.RobustNoPanicBase.

Lemma slice_app_l (l1 l2 : list N) a b : b <= blen l1 -> slice (l1 ++ l2) a b = slice l1 a b.
Proof.
  intros H. unfold slice. rewrite blen_app.
  destruct (a <=? b) eqn:E1; cbn [andb]; [|reflexivity]. apply N.leb_le in E1.
  replace (b <=? blen l1 + blen l2) with true by (symmetry; apply N.leb_le; blia).
  replace (b <=? blen l1) with true by (symmetry; apply N.leb_le; blia).
  f_equal. unfold blen in *. rewrite skipn_app, firstn_app, skipn_length.
  replace (N.to_nat (b - a) - (length l1 - N.to_nat a))%nat with 0%nat by blia.
  cbn [firstn]. apply app_nil_r.
Qed.
Lemma slice_app_r (l1 l2 : list N) a b :
  blen l1 <= a -> a <= b -> slice (l1 ++ l2) a b = slice l2 (a - blen l1) (b - blen l1).
Proof.
  intros H1 H2. unfold slice. rewrite blen_app.
  replace (a <=? b) with true by (symmetry; apply N.leb_le; blia).
  replace (a - blen l1 <=? b - blen l1) with true by (symmetry; apply N.leb_le; blia).
  cbn [andb].
  replace (b - blen l1 <=? blen l2) with (b <=? blen l1 + blen l2)
    by (destruct (b <=? blen l1 + blen l2) eqn:E; symmetry;
        [apply N.leb_le in E; apply N.leb_le | apply N.leb_gt in E; apply N.leb_gt]; blia).
  destruct (b <=? blen l1 + blen l2); [|reflexivity].
  f_equal. unfold blen in *. rewrite skipn_app, skipn_all2 by blia. cbn [app].
  replace (N.to_nat a - length l1)%nat with (N.to_nat (a - N.of_nat (length l1))) by blia.
  replace (N.to_nat (b - N.of_nat (length l1) - (a - N.of_nat (length l1)))) with (N.to_nat (b - a)) by blia.
  reflexivity.
Qed.
Lemma index_app_l (l1 l2 : list N) i : i < blen l1 -> index (l1 ++ l2) i = index l1 i.
Proof. intros H. unfold index, blen in *. bnorm. rewrite nth_error_app1 by blia. reflexivity. Qed.

Lemma slice_panic (bs : list N) a b : blen bs < b -> slice bs a b = Panic.
Proof.
  intros H. unfold slice. replace (b <=? blen bs) with false by (symmetry; apply N.leb_gt; blia).
  rewrite andb_false_r. reflexivity.
Qed.

Definition wit_head : bytes :=
  [1; 0; 2; 0;  0; 0; 0; 0;  18446744073709551599; 0; 0; 0;  0; 0; 0; 0;     (* v1 prefix: 2 messages, size 2^64-17 *)
   0; 0; 18446744073709551584; 0;  0; 0; 0; 0].                              (* message 1: size 2^64-32 *)
Definition wit_tail : bytes := [0; 0; 1; 0; 0; 0; 0; 0].                       (* message 2 at 2^64-8: size 1 *)
Definition wit_file : bytes :=
  (wit_head ++ zeros (N.to_nat 18446744073709551584)) ++ wit_tail.

Lemma wit_pre_len : blen (wit_head ++ zeros (N.to_nat 18446744073709551584)) = 18446744073709551608.
Proof. rewrite blen_app, blen_zeros, N2Nat.id. reflexivity. Qed.
Lemma wit_len : blen wit_file = 18446744073709551616.
Proof. unfold wit_file. rewrite blen_app, wit_pre_len. reflexivity. Qed.

Lemma wit_slice_head a b : b <= 24 -> slice wit_file a b = slice wit_head a b.
Proof.
  intros H. unfold wit_file. rewrite slice_app_l by (rewrite wit_pre_len; blia).
  apply slice_app_l. change (blen wit_head) with 24. exact H.
Qed.
Lemma wit_slice_tail a b : 18446744073709551608 <= a -> a <= b ->
  slice wit_file a b = slice wit_tail (a - 18446744073709551608) (b - 18446744073709551608).
Proof.
  intros H1 H2. unfold wit_file. rewrite slice_app_r by (rewrite ?wit_pre_len; blia).
  rewrite wit_pre_len. reflexivity.
Qed.

(* The evaluation is done for an abstract image [file] about which only its length and ten small reads
   are known: no reduction can then run into the unary length of the concrete image. *)
Section Symbolic.
Variable file : list N.
Hypothesis Hlen : blen file = 18446744073709551616.
Hypothesis Hp8 : slice file 0 8 = Ok [1; 0; 2; 0; 0; 0; 0; 0].
Hypothesis Hv : index file 0 = Ok 1.
Hypothesis Hnum : slice file 2 4 = Ok [2; 0].
Hypothesis Hrefc : slice file 4 8 = Ok [0; 0; 0; 0].
Hypothesis Hhsize : slice file 8 12 = Ok [18446744073709551599; 0; 0; 0].
Hypothesis Hty1 : slice file 16 18 = Ok [0; 0].
Hypothesis Hsz1 : slice file 18 20 = Ok [18446744073709551584; 0].
Hypothesis Hty2 : slice file 18446744073709551608 18446744073709551610 = Ok [0; 0].
Hypothesis Hsz2 : slice file 18446744073709551610 18446744073709551612 = Ok [1; 0].

(* evaluate the closed guard / closed first argument at the head of the left-hand side.  The value is put in by rewriting
   with an evaluated equation, not by [change]: a conversion between the two goals would first run both programs as far
   as they go on the abstract image *)
Ltac hstep :=
  lazymatch goal with
  | |- (if ?c then _ else _) = _ =>
      lazymatch c with context [file] => fail "mentions file" | _ => idtac end;
      let v := eval vm_compute in c in
      let E := fresh in assert (E : c = v) by (vm_compute; reflexivity); try rewrite E; clear E; cbv beta iota
  | |- obind ?o _ = _ =>
      lazymatch o with context [file] => fail "mentions file" | _ => idtac end;
      let v := eval vm_compute in o in
      let E := fresh in assert (E : o = v) by (vm_compute; reflexivity); try rewrite E; clear E; cbn [obind]
  end.
(* bring the closed offsets of the reads to numerals *)
Ltac norm_reads :=
  repeat match goal with
  | |- context [slice file ?a ?b] =>
      let a' := eval vm_compute in a in let b' := eval vm_compute in b in
      progress change (slice file a b) with (slice file a' b')
  | |- context [index file ?a] =>
      let a' := eval vm_compute in a in progress change (index file a) with (index file a')
  end.

Lemma sym_loop2 fuel :
  v1_loop (S fuel) file false 18446744073709551608 18446744073709551615 1 2 = Panic.
Proof.
  cbn [v1_loop]. unfold readable, rd_end, rd_le. rewrite Hlen. norm_reads. rewrite Hty2, Hsz2.
  repeat hstep. norm_reads.
  rewrite slice_panic by (rewrite Hlen; blia). reflexivity.
Qed.

Lemma sym_loop1 fuel :
  v1_loop fuel file false 18446744073709551608 18446744073709551615 1 2 = Panic ->
  v1_loop (S fuel) file false 16 18446744073709551615 0 2 = Panic.
Proof.
  intros H2.
  cbn [v1_loop]. unfold readable, rd_end, rd_le. rewrite Hlen. norm_reads. rewrite Hty1, Hsz1.
  repeat hstep. norm_reads.
  destruct (slice_ok file 24 18446744073709551608) as (d & Hd & _); [blia | rewrite Hlen; blia |].
  rewrite Hd. cbn [obind].
  match goal with |- context [v1_loop fuel file false ?c ?e ?k ?m] =>
    let c' := eval vm_compute in c in let k' := eval vm_compute in k in
    change (v1_loop fuel file false c e k m) with (v1_loop fuel file false c' e k' m) end.
  rewrite H2. reflexivity.
Qed.

Lemma sym_parse_v1 : parse_v1 file 0 0 false = Panic.
Proof.
  unfold parse_v1, readable, rd_end, rd_le. rewrite Hlen. norm_reads. rewrite Hv, Hnum, Hrefc, Hhsize.
  repeat hstep. cbv zeta.
  assert (Hf : exists n, length file = S n).
  { destruct (length file) as [|n] eqn:E; [|eexists; reflexivity].
    unfold blen in Hlen. rewrite E in Hlen. discriminate Hlen. }
  destruct Hf as (n & Hn). bnorm. rewrite Hn.
  match goal with |- context [v1_loop ?f file false ?c ?e ?k ?m] =>
    let c' := eval vm_compute in c in let e' := eval vm_compute in e in
    change (v1_loop f file false c e k m) with (v1_loop f file false c' e' k m) end.
  rewrite sym_loop1 by apply sym_loop2. reflexivity.
Qed.

Lemma sym_dec_ohdr : dec_ohdr false file 0 = Panic.
Proof.
  unfold dec_ohdr, readable. rewrite Hlen. norm_reads. rewrite Hp8.
  repeat hstep.
  apply sym_parse_v1.
Qed.
End Symbolic.

Lemma wit_index0 : index wit_file 0 = Ok 1.
Proof. unfold wit_file. rewrite <- app_assoc. unfold wit_head at 1. cbn [app]. apply index0. Qed.

Ltac wit_head_read := rewrite wit_slice_head by blia; reflexivity.
Ltac wit_tail_read := rewrite wit_slice_tail by blia; reflexivity.

(* ReadObjectHeader (model) on a 2^64-element image with two non-byte elements *)
Lemma dec_ohdr_panic_witness : dec_ohdr false wit_file 0 = Panic.
Proof.
  apply sym_dec_ohdr;
    [exact wit_len|wit_head_read|exact wit_index0|wit_head_read|wit_head_read|wit_head_read|wit_head_read|wit_head_read
    |wit_tail_read|wit_tail_read].
Qed.

Lemma parse_v1_panic_witness : parse_v1 wit_file 0 0 false = Panic.
Proof.
  apply sym_parse_v1;
    [exact wit_len|exact wit_index0|wit_head_read|wit_head_read|wit_head_read|wit_head_read|wit_head_read
    |wit_tail_read|wit_tail_read].
Qed.
(* the loop alone: the last message header sits at 2^64 - 8, its data would start at 2^64 *)
Lemma v1_loop_panic_witness fuel :
  v1_loop (S fuel) wit_file false 18446744073709551608 18446744073709551615 1 2 = Panic.
Proof. apply sym_loop2; [exact wit_len | wit_tail_read | wit_tail_read]. Qed.

(* hence the unconditional statement is false for the model as it is written *)
Lemma dec_ohdr_no_panic_refuted : ~ (forall sbBE file addr, dec_ohdr sbBE file addr <> Panic).
Proof. intros H. exact (H false wit_file 0 dec_ohdr_panic_witness). Qed.

(* the witness is outside both hypotheses of the partial theorems *)
Lemma wit_not_bytes : bytes_ok wit_file = false.
Proof.
  unfold wit_file. rewrite !bytes_ok_app. change (bytes_ok wit_head) with false. reflexivity.
Qed.
Lemma wit_not_short : ~ blen wit_file < 18446744073709551616.
Proof. rewrite wit_len. blia. Qed.
