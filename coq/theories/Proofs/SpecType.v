(* C05: the writer's datatype encoder (Model/CodecType.v enc_datatype, CodecCompound.v) against the specification decoder
   Spec/FormatMsg.v spec_dec_datatype. *)
From HV Require Import Base.Prelude Base.Outcome Base.Bytes Spec.Parse Spec.Format Spec.FormatMsg
  Model.CodecType Model.CodecCompound Proofs.CodecType Proofs.SpecSuper.

Definition mk_num (c size cbf : N) : datatype := {| dt_class := c; dt_version := 1; dt_size := size; dt_cbf := cbf; dt_props := [] |}.

(* the encoder looks at class, size and class bits only *)
Lemma enc_numeric_fields x : (dt_class x =? DT_FIXED) || (dt_class x =? DT_FLOAT) = true ->
  enc_datatype x = enc_datatype (mk_num (dt_class x) (dt_size x) (dt_cbf x)).
Proof.
  intros H. unfold enc_datatype, enc_datatype_gen. cbn [mk_num dt_class dt_size dt_cbf]. rewrite H. reflexivity.
Qed.

Definition logical_fixed (size cbf : N) : dtype :=
  DFixed 1 size (bit cbf 0) (bit cbf 1) (bit cbf 2) (N.testbit cbf 3) 0 (8 * size).


(* Integer types (sizes 1, 2, 4, 8; class bits without reserved bits): the property bytes are (byte order, bits, 0, 0) where the
   specification has bit offset (2) and precision (2): read per specification the precision is 0.  The strict decoder rejects; the
   tolerant decoder accepts exactly this layout and reports fixed-props-malformed. *)
Lemma spec_fixed tol size cbf :
  (size = 1 \/ size = 2 \/ size = 4 \/ size = 8) -> cbf < 16 ->
  spec_dec_datatype tol false (enc_datatype (mk_num DT_FIXED size cbf)) =
    (tg <- dev tol T_fixed_props_malformed;; Ok (logical_fixed size cbf, tg)).
Proof.
  intros Hs Hc.
  assert (C : cbf = 0 \/ cbf = 1 \/ cbf = 2 \/ cbf = 3 \/ cbf = 4 \/ cbf = 5 \/ cbf = 6 \/ cbf = 7 \/ cbf = 8 \/ cbf = 9 \/
              cbf = 10 \/ cbf = 11 \/ cbf = 12 \/ cbf = 13 \/ cbf = 14 \/ cbf = 15) by lia.
  unfold dev.
  repeat (destruct Hs as [Hs|Hs]); subst size;
    repeat (destruct C as [C|C]); subst cbf; destruct (tol T_fixed_props_malformed) eqn:E;
    vm_compute; rewrite ?E; reflexivity.
Qed.

Definition logical_float (size cbf : N) : dtype :=
  if size =? 4 then DFloat 1 4 cbf 0 2 31 0 32 23 8 0 23 127 else DFloat 1 8 cbf 0 2 63 0 64 52 11 0 52 1023.

(* Floating-point types (sizes 4, 8; class bits 0 or 1 = the byte order): sign location and normalisation bits are 0 and the 12
   property bytes are (byte order, bits, 0, exponent bits, mantissa bits, bias, 0...) - read per specification the fields lie
   outside the precision.  Strict: rejected.  Tolerant: float-props-malformed, and for 64-bit floats also float64-bias-127. *)
Lemma spec_float tol size cbf :
  (size = 4 \/ size = 8) -> cbf < 2 ->
  spec_dec_datatype tol false (enc_datatype (mk_num DT_FLOAT size cbf)) =
    (tg1 <- dev tol T_float_props_malformed;;
     tg2 <- (if size =? 8 then dev tol T_float64_bias_127 else Ok []);;
     Ok (logical_float size cbf, tg1 ++ tg2)).
Proof.
  intros Hs Hc. assert (C : cbf = 0 \/ cbf = 1) by lia.
  unfold dev.
  destruct Hs; subst size; destruct C; subst cbf;
    destruct (tol T_float_props_malformed) eqn:E1; destruct (tol T_float64_bias_127) eqn:E2;
    vm_compute; rewrite ?E1, ?E2; reflexivity.
Qed.

Lemma le4_split w : le 4 w = (w mod 256) :: le 3 (w / 256).
Proof. reflexivity. Qed.

Lemma dt_header_bytes c v b s (rest : list N) : c < 16 -> v < 16 -> b < 16777216 ->
  dt_header c v b s ++ rest = (c + 16 * v) :: le 3 b ++ le 4 s ++ rest.
Proof.
  intros Hc Hv Hb. unfold dt_header. rewrite dt_word_arith by assumption. rewrite le4_split.
  replace ((c + 16 * v + 256 * b) mod 256) with (c + 16 * v) by lia.
  replace ((c + 16 * v + 256 * b) / 256) with b by lia.
  rewrite <- !app_assoc. reflexivity.
Qed.

(* strings: one extra property byte *)
Definition string_bits_ok (cbf : N) : bool := (bits_of cbf 0 4 <? 3) && (bits_of cbf 4 4 <? 2) && (cbf <? 256).

Lemma spec_string tol x : wf_datatype x = true -> dt_class x = DT_STRING -> string_bits_ok (dt_cbf x) = true ->
  spec_dec_datatype tol false (enc_datatype x) =
    (tg <- dev tol T_string_extra_prop_byte;;
     Ok (DString 1 (dt_size x) (bits_of (dt_cbf x) 0 4) (bits_of (dt_cbf x) 4 4), tg)).
Proof.
  unfold wf_datatype, encok_datatype. intros W C B. repeat (apply andb_true_iff in W as [W ?]).
  destruct x as [c v s cbf props]; cbn [dt_class dt_version dt_size dt_cbf dt_props] in *. subst c.
  repeat match goal with H : (_ <? _) = true |- _ => apply N.ltb_lt in H end.
  assert (S0 : (0 <? s) = true) by (apply N.ltb_lt; destruct (s =? 0) eqn:E; [discriminate | apply N.eqb_neq in E; lia]).
  unfold enc_datatype, enc_datatype_gen, spec_dec_datatype. cbn [dt_class dt_version dt_size dt_cbf dt_props].
  change ((DT_STRING =? DT_FIXED) || (DT_STRING =? DT_FLOAT)) with false. change (DT_STRING =? DT_STRING) with true. cbv iota.
  rewrite dt_header_bytes by (try reflexivity; assumption). cbn [p_dtype]. bnorm.
  parse p_byte_cons. do 2 parse p_u_le. do 2 parse guard_Ok.
  change (N.land (DT_STRING + 16 * 1) 15) with 3. change (N.shiftr (DT_STRING + 16 * 1) 4) with 1. cbn [N.eqb Pos.eqb].
  parse guard_Ok. now destruct (dev tol T_string_extra_prop_byte).
Qed.

(* references: conformant *)
Lemma spec_reference tol x : wf_datatype x = true -> dt_class x = DT_REFERENCE -> dt_cbf x < 2 ->
  spec_dec_datatype tol false (enc_datatype x) = Ok (DReference 1 (dt_size x) (dt_cbf x), []).
Proof.
  unfold wf_datatype, encok_datatype. intros W C B. repeat (apply andb_true_iff in W as [W ?]).
  destruct x as [c v s cbf props]; cbn [dt_class dt_version dt_size dt_cbf dt_props] in *. subst c.
  repeat match goal with H : (_ <? _) = true |- _ => apply N.ltb_lt in H end.
  assert (S0 : (0 <? s) = true) by (apply N.ltb_lt; destruct (s =? 0) eqn:E; [discriminate | apply N.eqb_neq in E; lia]).
  unfold enc_datatype, enc_datatype_gen, spec_dec_datatype. cbn [dt_class dt_version dt_size dt_cbf dt_props].
  change ((DT_REFERENCE =? DT_FIXED) || (DT_REFERENCE =? DT_FLOAT)) with false.
  change (DT_REFERENCE =? DT_STRING) with false. change (DT_REFERENCE =? DT_REFERENCE) with true. cbv iota.
  rewrite <- (app_nil_r (dt_header _ _ _ _)), dt_header_bytes by (try reflexivity; assumption). cbn [p_dtype]. bnorm.
  parse p_byte_cons. do 2 parse p_u_le. do 2 parse guard_Ok.
  change (N.land (DT_REFERENCE + 16 * 1) 15) with 7. change (N.shiftr (DT_REFERENCE + 16 * 1) 4) with 1. cbn [N.eqb Pos.eqb].
  now parse guard_Ok.
Qed.

(* opaque: conformant when the padded tag fits the 8-bit length field *)
Lemma pad8_mod8 n : pad8 n mod 8 = 0.
Proof. unfold pad8. rewrite N.mod_mul by lia. reflexivity. Qed.

Lemma spec_opaque tol x : wf_datatype x = true -> dt_class x = DT_OPAQUE -> pad8 (blen (dt_props x)) < 256 ->
  spec_dec_datatype tol false (enc_datatype x) =
    Ok (DOpaque 1 (dt_size x) (dt_props x ++ zeros (N.to_nat (pad8 (blen (dt_props x)) - blen (dt_props x)))), []).
Proof.
  unfold wf_datatype, encok_datatype. intros W C B. repeat (apply andb_true_iff in W as [W ?]).
  destruct x as [c v s cbf props]; cbn [dt_class dt_version dt_size dt_cbf dt_props] in *. subst c.
  repeat match goal with H : (_ <? _) = true |- _ => apply N.ltb_lt in H end.
  assert (S0 : (0 <? s) = true) by (apply N.ltb_lt; destruct (s =? 0) eqn:E; [discriminate | apply N.eqb_neq in E; lia]).
  unfold enc_datatype, enc_datatype_gen. cbn [dt_class dt_version dt_size dt_cbf dt_props].
  change ((DT_OPAQUE =? DT_FIXED) || (DT_OPAQUE =? DT_FLOAT)) with false.
  change (DT_OPAQUE =? DT_STRING) with false. change (DT_OPAQUE =? DT_REFERENCE) with false.
  change (DT_OPAQUE =? DT_OPAQUE) with true. cbv iota.
  set (P := pad8 (blen props)) in *.
  rewrite wrap32_small, dt_header_bytes by (try reflexivity; lia).
  unfold spec_dec_datatype. cbn [p_dtype]. bnorm.
  parse p_byte_cons. do 2 parse p_u_le. do 2 parse guard_Ok.
  change (N.land (DT_OPAQUE + 16 * 1) 15) with 5. change (N.shiftr (DT_OPAQUE + 16 * 1) 4) with 1. cbn [N.eqb Pos.eqb].
  parse guard_Ok by (apply andb_true_iff; split; [now apply N.ltb_lt | apply N.eqb_eq, pad8_mod8]).
  pose proof (pad8_ge (blen props)) as PG.
  now rewrite p_take_all by (rewrite app_length, length_zeros; unfold blen in *; lia).
Qed.
