(* C05: the writer's version 2 object header encoder (Model/CodecOhdr.v enc_ohdr_v2, tied to the Go code by C11) against the
   specification decoder Spec/Format.v spec_dec_ohdr2, for all well-formed headers (spec_ohdr2, ohdr_no_checksum_refuted).
   Version 1 headers (enc_ohdr_v1 / spec_dec_ohdr1) have witnesses only: SpecWitness.v ohdr1_root_conforms,
   ohdr1_unpadded_size_refuted. *)
From HV Require Import Base.Prelude Base.Outcome Base.Bytes Spec.Parse Spec.Format Model.CodecOhdr Proofs.SpecSuper.

Lemma p_u_1 c (r : list N) : p_u 1 (c :: r) = Ok (c, r).
Proof. unfold p_u, p_take. cbn [length Nat.leb firstn skipn obind unle]. f_equal. f_equal. lia. Qed.

Definition logical_msg (m : hmsg) : msg_spec :=
  {| ms_type := hm_type m; ms_flags := 0; ms_corder := None; ms_data := hm_data m |}.

Definition logical_ohdr2 (x : ohdr) : ohdr2_spec :=
  {| o2_flags := oh_flags x; o2_times := None; o2_phase := None; o2_chunk0 := chunk_size_v2 (oh_msgs x);
     o2_msgs := map logical_msg (oh_msgs x) |}.

Lemma chunk_size_v2_cons m ms : chunk_size_v2 (m :: ms) = 4 + blen (hm_data m) + chunk_size_v2 ms.
Proof. reflexivity. Qed.
Lemma body_v2_cons m ms : body_v2 (m :: ms) = enc_msg_v2 m ++ body_v2 ms.
Proof. reflexivity. Qed.

Lemma length_body_v2 ms : length (body_v2 ms) = N.to_nat (chunk_size_v2 ms).
Proof.
  induction ms as [|m ms IH]; [reflexivity|].
  rewrite body_v2_cons, chunk_size_v2_cons, app_length, IH.
  unfold enc_msg_v2. rewrite !app_length, length_le. cbn [length]. unfold blen. lia.
Qed.

Lemma chunk_size_ge ms m : In m ms -> blen (hm_data m) + 4 <= chunk_size_v2 ms.
Proof.
  induction ms as [|a ms IH]; [intros []|]. intros [->|H]; rewrite chunk_size_v2_cons.
  - lia.
  - specialize (IH H). lia.
Qed.

Lemma length_body_ge ms : (length ms <= N.to_nat (chunk_size_v2 ms))%nat.
Proof.
  induction ms as [|m ms IH]; [cbn; lia|]. rewrite chunk_size_v2_cons. cbn [length]. lia.
Qed.

Lemma p_msgs_v2_body ms : forall fuel, (length ms < fuel)%nat ->
  forallb wf_msg_v2 ms = true -> chunk_size_v2 ms <= 255 ->
  p_msgs_v2 false fuel (body_v2 ms) = Ok (map logical_msg ms).
Proof.
  induction ms as [|m ms IH]; intros fuel Hf W C.
  - destruct fuel; reflexivity.
  - destruct fuel as [|fuel]; [cbn [length] in Hf; lia|].
    cbn [forallb] in W. apply andb_true_iff in W as [Wm W].
    unfold wf_msg_v2 in Wm. repeat (apply andb_true_iff in Wm as [Wm ?]).
    apply N.ltb_lt in Wm.
    assert (Hl : blen (hm_data m) + 4 <= 255) by (pose proof (chunk_size_ge (m :: ms) m (or_introl eq_refl)); lia).
    assert (C' : chunk_size_v2 ms <= 255) by (rewrite chunk_size_v2_cons in C; lia).
    rewrite body_v2_cons. unfold enc_msg_v2.
    rewrite wrap8_small by lia. rewrite wrap16_small by lia.
    rewrite <- !app_assoc. cbn [app].
    cbn [p_msgs_v2].
    match goal with |- context [(length ?l <? 4)%nat] =>
      replace (length l <? 4)%nat with false
        by (symmetry; apply Nat.ltb_ge; cbn [length]; rewrite app_length, length_le; cbn [length]; lia) end.
    cbn [p_byte obind].
    rewrite p_u_le by (apply N.lt_le_trans with 256; [lia | vm_compute; discriminate]). cbn [obind p_byte].
    rewrite p_take_app by (unfold blen; lia). cbn [obind].
    rewrite IH by (auto; cbn [length] in Hf; lia). cbn [obind]. reflexivity.
Qed.

Lemma land_0_testbit f m i : N.land f m = 0 -> N.testbit m i = true -> N.testbit f i = false.
Proof. intros H Hm. pose proof (N.land_spec f m i) as E. now rewrite H, N.bits_0, Hm, andb_true_r in E. Qed.

(* Version 2 object headers (flags without reserved bits): everything is specification-conformant except that NO checksum follows the
   messages.  Strict: Err for every header; tolerant: accepted with ohdr-no-checksum and nothing else. *)
Lemma spec_ohdr2 tol x : wf_ohdr_v2 x = true -> oh_flags x < 64 ->
  spec_dec_ohdr2 tol (enc_ohdr_v2 x) = (tg <- dev tol T_ohdr_no_checksum;; Ok (logical_ohdr2 x, tg, [])).
Proof.
  unfold wf_ohdr_v2, encok_ohdr_v2. intros W F. repeat (apply andb_true_iff in W as [W ?]).
  apply N.eqb_eq in W.
  match goal with H : (N.land _ 55 =? 0) = true |- _ => apply N.eqb_eq in H; rename H into L end.
  match goal with H : (chunk_size_v2 _ <=? 255) = true |- _ => apply N.leb_le in H; rename H into C end.
  destruct x as [ver fl rc ms]; cbn [oh_version oh_flags oh_refcount oh_msgs] in *. subst ver.
  unfold enc_ohdr_v2, logical_ohdr2. cbn [oh_version oh_flags oh_refcount oh_msgs].
  rewrite wrap8_small by lia.
  unfold spec_dec_ohdr2. change [79; 72; 68; 82] with ohdr_sig. rewrite p_expect_app. cbn [obind app p_byte N.eqb Pos.eqb guard].
  assert (F' : (fl <? 64) = true) by (apply N.ltb_lt; exact F). rewrite F'. cbn [guard obind].
  (* 55 = 0b110111: bits 5 (times), 4 (phase change), 2 (creation order) and the two bits of the chunk-0 size field *)
  rewrite !(land_0_testbit fl 55) by (exact L || reflexivity).
  replace (N.land fl 3) with 0 by (change 3 with (N.land 55 3); now rewrite N.land_assoc, L). cbn [obind].
  change (N.to_nat (N.shiftl 1 0)) with 1%nat. rewrite p_u_1. cbn [obind].
  rewrite p_take_all by apply length_body_v2. cbn [obind].
  rewrite p_msgs_v2_body by (auto; rewrite length_body_v2; pose proof (length_body_ge ms); lia). cbn [obind].
  unfold chunk_checksum. cbn [p_u p_take length Nat.leb obind].
  destruct (tol T_ohdr_no_checksum) eqn:E; unfold dev; rewrite E; cbn [obind]; reflexivity.
Qed.

(* the universal refutation KNOWN_FINDINGS C05-ohdr-no-checksum cites: EVERY version 2 header the encoder produces is rejected by the
   strict decoder, and is accepted by the tolerant one with exactly that deviation *)
Lemma ohdr_no_checksum_refuted x : wf_ohdr_v2 x = true -> oh_flags x < 64 ->
  spec_dec_ohdr2 strict (enc_ohdr_v2 x) = Err /\
  spec_dec_ohdr2 tolerant (enc_ohdr_v2 x) = Ok (logical_ohdr2 x, [T_ohdr_no_checksum], []).
Proof. intros W F. split; rewrite spec_ohdr2 by assumption; reflexivity. Qed.
