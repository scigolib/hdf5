(* C07 "no input can crash the reader": generic part.
   [np o] = the outcome [o] is not a Go run-time panic.  Lemmas for the checked slicing primitives of
   Base/Bytes.v (each is panic-free under the bounds condition Go itself checks) and the tactic
   [np_go] that walks through a decoder body: it splits every [if], binds every primitive using the
   guards collected so far, and closes the [Ok]/[Err] leaves. *)
From HV Require Import Base.Prelude Base.Outcome Base.Bytes.

(* case analysis on the guard of the first [if] in the goal, keeping the equation *)
Ltac dif := match goal with |- context [if ?c then _ else _] => let E := fresh "E" in destruct c eqn:E end.

Definition np {A} (o : outcome A) : Prop := o <> Panic.

Lemma np_ok {A} (a : A) : np (Ok a).
Proof. discriminate. Qed.
Lemma np_err {A} : np (@Err A).
Proof. discriminate. Qed.
Lemma np_bind {A B} (o : outcome A) (f : A -> outcome B) :
  np o -> (forall a, o = Ok a -> np (f a)) -> np (obind o f).
Proof.
  unfold np. destruct o as [a| |]; cbn [obind]; intros H1 H2.
  - apply H2; reflexivity.
  - discriminate.
  - congruence.
Qed.
(* monad laws in the form the walking tactic uses: the continuation is pushed into the first argument,
   so no information about a bound tuple is lost *)
Lemma np_bind_ok {A B} (a : A) (f : A -> outcome B) : np (f a) -> np (obind (Ok a) f).
Proof. exact (fun H => H). Qed.
Lemma np_bind_err {A B} (f : A -> outcome B) : np (obind Err f).
Proof. discriminate. Qed.
Lemma np_bind_assoc {A B C} (o : outcome A) (g : A -> outcome B) (f : B -> outcome C) :
  np (obind o (fun a => obind (g a) f)) -> np (obind (obind o g) f).
Proof. destruct o; exact (fun H => H). Qed.
Lemma np_if {A} (c : bool) (x y : outcome A) : (c = true -> np x) -> (c = false -> np y) -> np (if c then x else y).
Proof. destruct c; auto. Qed.
Lemma np_bind_if {A B} (c : bool) (x y : outcome A) (f : A -> outcome B) :
  np (if c then obind x f else obind y f) -> np (obind (if c then x else y) f).
Proof. destruct c; exact (fun H => H). Qed.
Lemma obind_no_panic {A B} (o : outcome A) (f : A -> outcome B) :
  o <> Panic -> (forall a, o = Ok a -> f a <> Panic) -> obind o f <> Panic.
Proof. exact (np_bind o f). Qed.
Lemma np_omap {A B} (f : A -> B) (o : outcome A) : np o -> np (omap f o).
Proof. unfold np. destruct o; cbn [omap]; congruence. Qed.

Lemma slice_ok (bs : list N) a b :
  a <= b -> b <= blen bs -> exists s, slice bs a b = Ok s /\ blen s = b - a.
Proof.
  intros H1 H2. unfold slice.
  replace ((a <=? b) && (b <=? blen bs)) with true
    by (symmetry; apply andb_true_iff; split; apply N.leb_le; blia).
  eexists; split; [reflexivity|].
  unfold blen in *. rewrite firstn_length, skipn_length. blia.
Qed.
Lemma slice_len (bs : list N) a b s : slice bs a b = Ok s -> blen s = b - a.
Proof.
  unfold slice. destruct ((a <=? b) && (b <=? blen bs)) eqn:E; [|discriminate].
  apply andb_true_iff in E as [E1 E2]. apply N.leb_le in E1, E2.
  intros H; injection H as <-.
  unfold blen in *. rewrite firstn_length, skipn_length. blia.
Qed.
Lemma slice_np (bs : list N) a b : a <= b -> b <= blen bs -> np (slice bs a b).
Proof. intros H1 H2. destruct (slice_ok bs a b H1 H2) as (s & -> & _). apply np_ok. Qed.

Lemma slice_from_ok (bs : list N) a :
  a <= blen bs -> exists s, slice_from bs a = Ok s /\ blen s = blen bs - a.
Proof.
  intros H. unfold slice_from.
  replace (a <=? blen bs) with true by (symmetry; apply N.leb_le; blia).
  eexists; split; [reflexivity|]. unfold blen in *. rewrite skipn_length. blia.
Qed.
Lemma slice_from_len (bs : list N) a s : slice_from bs a = Ok s -> blen s = blen bs - a.
Proof.
  unfold slice_from. destruct (a <=? blen bs) eqn:E; [|discriminate].
  intros H; injection H as <-. unfold blen in *. rewrite skipn_length. blia.
Qed.
Lemma slice_from_np (bs : list N) a : a <= blen bs -> np (slice_from bs a).
Proof. intros H. destruct (slice_from_ok bs a H) as (s & -> & _). apply np_ok. Qed.

Lemma index_ok (bs : list N) i : i < blen bs -> exists b, index bs i = Ok b.
Proof.
  intros H. unfold index. bnorm. destruct (nth_error bs (N.to_nat i)) eqn:E.
  - eexists; reflexivity.
  - apply nth_error_None in E. unfold blen in H. blia.
Qed.
Lemma index_np (bs : list N) i : i < blen bs -> np (index bs i).
Proof. intros H. destruct (index_ok bs i H) as (b & ->). apply np_ok. Qed.

Lemma rd_le_ok (bs : list N) off k : off + k <= blen bs -> exists v, rd_le bs off k = Ok v.
Proof.
  intros H. unfold rd_le. destruct (slice_ok bs off (off + k)) as (s & -> & _); [blia|blia|].
  cbn [obind]. eexists; reflexivity.
Qed.
Lemma rd_le_np (bs : list N) off k : off + k <= blen bs -> np (rd_le bs off k).
Proof. intros H. destruct (rd_le_ok bs off k H) as (v & ->). apply np_ok. Qed.
Lemma rd_be_ok (bs : list N) off k : off + k <= blen bs -> exists v, rd_be bs off k = Ok v.
Proof.
  intros H. unfold rd_be. destruct (slice_ok bs off (off + k)) as (s & -> & _); [blia|blia|].
  cbn [obind]. eexists; reflexivity.
Qed.
Lemma rd_be_np (bs : list N) off k : off + k <= blen bs -> np (rd_be bs off k).
Proof. intros H. destruct (rd_be_ok bs off k H) as (v & ->). apply np_ok. Qed.

Lemma bytes_ok_firstn n (l : list N) : bytes_ok l = true -> bytes_ok (firstn n l) = true.
Proof.
  revert l. induction n as [|n IH]; intros [|x l]; cbn [firstn bytes_ok forallb]; auto.
  intros H. apply andb_true_iff in H as [H1 H2]. apply andb_true_iff; split; [exact H1 | apply IH; exact H2].
Qed.
Lemma bytes_ok_skipn n (l : list N) : bytes_ok l = true -> bytes_ok (skipn n l) = true.
Proof.
  revert l. induction n as [|n IH]; intros [|x l]; cbn [skipn bytes_ok forallb]; auto.
  intros H. apply andb_true_iff in H as [H1 H2]. apply IH; exact H2.
Qed.
Lemma bytes_ok_rev (l : list N) : bytes_ok l = true -> bytes_ok (rev l) = true.
Proof.
  intros H. unfold bytes_ok in *. rewrite forallb_forall in *. intros x Hx. apply H. apply in_rev. exact Hx.
Qed.
Lemma slice_bytes_ok (bs : list N) a b s : bytes_ok bs = true -> slice bs a b = Ok s -> bytes_ok s = true.
Proof.
  unfold slice. destruct ((a <=? b) && (b <=? blen bs)); [|discriminate].
  intros H E; injection E as <-. apply bytes_ok_firstn, bytes_ok_skipn, H.
Qed.
Lemma rd_le_lt (bs : list N) p k v : bytes_ok bs = true -> rd_le bs p k = Ok v -> v < 256 ^ k.
Proof.
  intros Hb H. unfold rd_le in H. destruct (slice bs p (p + k)) as [s| |] eqn:S; cbn [obind] in H; try discriminate.
  injection H as <-. pose proof (unle_bound s (slice_bytes_ok _ _ _ _ Hb S)) as U.
  rewrite (slice_len _ _ _ _ S) in U. replace (p + k - p) with k in U by blia. exact U.
Qed.
Lemma find0_aux_ge (bs : list N) pos : pos <= find0_aux bs pos.
Proof.
  revert pos. induction bs as [|b r IH]; intros pos; cbn [find0_aux]; [blia|].
  destruct (b =? 0); [blia|]. specialize (IH (pos + 1)). blia.
Qed.
Lemma find0_ge (bs : list N) from : from <= find0 bs from.
Proof. unfold find0. apply find0_aux_ge. Qed.

Create HintDb np discriminated.
#[export] Hint Resolve np_ok np_err : np.

(* boolean guards -> arithmetic facts (lia also understands most of them through ZifyBool) *)
Ltac bool_hyps :=
  repeat match goal with
  | H : (_ <? _) = true |- _ => apply N.ltb_lt in H
  | H : (_ <? _) = false |- _ => apply N.ltb_ge in H
  | H : (_ <=? _) = true |- _ => apply N.leb_le in H
  | H : (_ <=? _) = false |- _ => apply N.leb_gt in H
  | H : (_ =? _) = true |- _ => apply N.eqb_eq in H
  | H : (_ =? _) = false |- _ => apply N.eqb_neq in H
  | H : negb _ = true |- _ => apply negb_true_iff in H
  | H : negb _ = false |- _ => apply negb_false_iff in H
  | H : (_ && _) = true |- _ => apply andb_true_iff in H; destruct H
  | H : (_ || _) = false |- _ => apply orb_false_iff in H; destruct H
  end.

(* side conditions: arithmetic from the guards in the context *)
Ltac np_side := first [ blia | bool_hyps; blia ].

(* An [if] is split through [np_if]; only when its guard occurs again in a branch is the guard destructed (so that the
   later test reduces): [destruct] abstracts the guard over the whole remaining decoder, at every [if]. *)
Ltac np_go :=
  cbv beta iota zeta;
  lazymatch goal with
  | |- np (Ok _) => apply np_ok
  | |- np Err => apply np_err
  | |- np (if ?c then ?x else ?y) =>
      let E := fresh "E" in
      lazymatch constr:((x, y)) with
      | context [c] => destruct c eqn:E
      | _ => apply np_if; intros E
      end; np_go
  | |- np (obind (Ok _) _) => apply np_bind_ok; np_go
  | |- np (obind Err _) => apply np_bind_err
  | |- np (obind (obind _ _) _) => apply np_bind_assoc; np_go
  | |- np (obind (if _ then _ else _) _) => apply np_bind_if; np_go
  | |- np (obind _ _) =>
      apply np_bind; [ np_go | let a := fresh "a" in let Ha := fresh "Ha" in intros a Ha; np_go ]
  | |- np (match ?p with pair _ _ => _ end) =>
      let x := fresh "x" in let y := fresh "y" in destruct p as [x y]; np_go
  | |- np (match ?p with Some _ => _ | None => _ end) =>
      let E := fresh "E" in destruct p eqn:E; np_go
  | |- np (match ?o with Ok _ => _ | Err => _ | Panic => _ end) =>
      let E := fresh "E" in destruct o eqn:E; np_go
  | |- np (slice _ _ _) => try (apply slice_np; np_side)
  | |- np (slice_from _ _) => try (apply slice_from_np; np_side)
  | |- np (index _ _) => try (apply index_np; np_side)
  | |- np (rd_le _ _ _) => try (apply rd_le_np; np_side)
  | |- np (rd_be _ _ _) => try (apply rd_be_np; np_side)
  | |- _ => try solve [ auto with np ]
  end.
