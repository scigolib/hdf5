(* C07: the loader model of Model/RobustLoad.v, for EVERY graph.  One induction over the loader ([exec_inv]) carries state
   invariants: the load count and, with the mark kept, the growth of the visited set, hence termination within 1025 + |U|
   units of fuel.  Then: without the mark dia_graph costs 2^n objects; with every object counted the work is linear in
   maxLoads; the code as it is stays below F * (maxLoads + |U| + 2) + 1, which comb_graph attains quadratically; and a group
   reached a second time is empty ([reached_twice_empty]). *)
From HV Require Import Base.Prelude Base.Outcome Base.Bytes Model.RobustTerm Model.RobustLoad Proofs.RobustNoPanicBase.

Lemma memN_In a l : memN a l = true <-> In a l.
Proof.
  unfold memN. rewrite existsb_exists. split.
  - intros [x [Hx E]]. apply N.eqb_eq in E. subst. exact Hx.
  - intros H. exists a. split; [exact H|apply N.eqb_refl].
Qed.

(* the number of B-trees of U not yet marked *)
Definition unv (U v : list N) : nat := length (filter (fun u => negb (memN u v)) U).

Lemma unv_mono U v v' : incl v v' -> (unv U v' <= unv U v)%nat.
Proof.
  intros Hi. unfold unv. induction U as [|u U IH]; cbn [filter length]; [lia|].
  destruct (memN u v) eqn:E1; destruct (memN u v') eqn:E2; cbn [negb length]; try lia.
  apply memN_In in E1. apply Hi in E1. apply memN_In in E1. congruence.
Qed.

Lemma unv_mark U v b : In b U -> memN b v = false -> (S (unv U (b :: v)) <= unv U v)%nat.
Proof.
  intros Hin Hb. unfold unv. induction U as [|u U IH]; [destruct Hin|].
  cbn [filter].
  assert (Hle : (length (filter (fun u => negb (memN u (b :: v))) U) <= length (filter (fun u => negb (memN u v)) U))%nat).
  { apply (unv_mono U v (b :: v)). intros x Hx. right. exact Hx. }
  destruct (N.eq_dec u b) as [->|Hne].
  - rewrite Hb. cbn [negb length].
    replace (memN b (b :: v)) with true by (symmetry; apply memN_In; left; reflexivity).
    cbn [negb]. lia.
  - destruct Hin as [->|Hin]; [congruence|]. specialize (IH Hin).
    assert (E : memN u (b :: v) = memN u v).
    { unfold memN. cbn [existsb]. destruct (u =? b) eqn:Eb; [apply N.eqb_eq in Eb; congruence|reflexivity]. }
    rewrite E. destruct (memN u v); cbn [negb length]; lia.
Qed.

Lemma unv_le U v : (unv U v <= length U)%nat.
Proof. unfold unv. induction U as [|u U IH]; cbn [filter length]; [lia|]. destruct (negb (memN u v)); cbn [length]; lia. Qed.

Lemma lift_done_nofuel f r : r <> LFuel -> lift_done f r <> LFuel.
Proof. destruct r; cbn [lift_done]; congruence. Qed.
Lemma lift_all_nofuel f r : r <> LFuel -> lift_all f r <> LFuel.
Proof. destruct r; cbn [lift_all]; congruence. Qed.

Lemma holds_imp (P Q : lstate -> Prop) r : (forall s, P s -> Q s) -> holds P r -> holds Q r.
Proof. destruct r; cbn [holds]; auto. Qed.

(* invariants, for every switch setting:
   P is kept by every step of the loader and holds where it returns a value, Q where it returns an error *)
Lemma each_holds2 (P Q : lstate -> Prop) run cs :
  (forall c s, P s -> holds2 P Q (run c s)) -> forall s, P s -> holds2 P Q (each run cs s).
Proof.
  intros H. induction cs as [|c r IH]; intros s Hs; cbn [each holds2]; [exact Hs|].
  pose proof (H c s Hs) as H1. destruct (run c s) as [s1|s1|]; cbn [holds2] in *; [apply IH; exact H1|exact H1|exact I].
Qed.

Section Inv.
  Variable g : graph.
  Variable keep_mark count_all : bool.
  Variable maxLoads : N.
  Variables P Q : lstate -> Prop.
  Notation exec := (exec g keep_mark count_all maxLoads).
  Notation fin b := (if keep_mark then (fun s => s) else s_unmark b).
  Hypothesis PQ : forall s, P s -> Q s.
  Hypothesis P_step : forall s, P s -> P (s_step s).
  Hypothesis P_built : forall k s, P s -> P (s_built k s).
  Hypothesis P_mark : forall b s, P s -> P (s_mark b s).
  Hypothesis P_fin : forall b s, P s -> P (fin b s).
  Hypothesis Q_fin : forall b s, Q s -> Q (fin b s).
  (* the state in which the load limit is reported need only satisfy Q *)
  Hypothesis P_count : forall s, P s -> if maxLoads <? ls_count (s_count s) then Q (s_count s) else P (s_count s).

  Lemma counted_inv s k : P s -> (forall s', P s' -> holds2 P Q (k s')) -> holds2 P Q (counted maxLoads s k).
  Proof. intros Hs Hk. unfold counted. cbv zeta. pose proof (P_count s Hs) as H. dif; [exact H|apply Hk, H]. Qed.

  Lemma lift_built_inv k r : holds2 P Q r -> holds2 P Q (lift_done (s_built k) r).
  Proof. destruct r; cbn [holds2 lift_done]; auto. Qed.

  Lemma children_inv run bt heap s :
    (forall c s, P s -> holds2 P Q (run c s)) -> P s -> holds2 P Q (children g keep_mark run bt heap s).
  Proof.
    intros Hrun Hs. unfold children. cbv zeta. apply P_step in Hs. dif; [exact Hs|]. apply (P_mark bt) in Hs.
    destruct (g_bt g bt heap) as [bes|]; cbn [holds2]; [|apply Q_fin, PQ, Hs].
    pose proof (each_holds2 P Q run (flat_map bentry_calls bes) Hrun _ Hs) as H.
    destruct (each run (flat_map bentry_calls bes) (s_mark bt (s_step s))); cbn [lift_all holds2] in *;
      [apply P_fin, H|apply Q_fin, H|exact I].
  Qed.

  Lemma exec_inv fuel : forall loading c s, P s -> holds2 P Q (exec fuel loading c s).
  Proof.
    induction fuel as [|fuel IH]; intros loading c s Hs; [exact I|].
    assert (Hobj : forall a name s1, P s1 ->
      holds2 P Q (match node_calls (g_obj g a name) name with
                  | None => LErr s1
                  | Some (cs, b) => lift_done (s_built b) (each (exec fuel (a :: loading)) cs s1) end)).
    { intros a name s1 H1. destruct (node_calls (g_obj g a name) name) as [[cs b]|]; [|apply PQ, H1].
      apply lift_built_inv, each_holds2; [intros; apply IH; assumption|exact H1]. }
    destruct c as [a name|bt heap|bt heap|]; cbn [RobustLoad.exec].
    - apply P_step in Hs. destruct count_all.
      + apply counted_inv; [exact Hs|]. intros s' Hs'.
        dif; [apply P_built, Hs'|]. dif; [apply PQ, Hs'|]. apply Hobj, Hs'.
      + dif; [apply P_built, Hs|]. dif; [apply PQ, Hs|]. apply counted_inv; [exact Hs|]. intros s' Hs'. apply Hobj, Hs'.
    - destruct count_all.
      + apply counted_inv; [exact Hs|]. intros s' Hs'.
        apply lift_built_inv, children_inv; [intros; apply IH; assumption|exact Hs'].
      + apply lift_built_inv, children_inv; [intros; apply IH; assumption|exact Hs].
    - apply children_inv; [intros; apply IH; assumption|exact Hs].
    - apply PQ, Hs.
  Qed.
End Inv.

Section Count.
  Variable g : graph.
  Variable keep_mark count_all : bool.
  Variable maxLoads : N.
  Definition cP (s : lstate) := ls_count s <= maxLoads.
  Definition cQ (s : lstate) := ls_count s <= maxLoads + 1.

  Lemma fin_count b s : ls_count ((if keep_mark then (fun s => s) else s_unmark b) s) = ls_count s.
  Proof. destruct keep_mark; reflexivity. Qed.
  Lemma fin_built b s : ls_built ((if keep_mark then (fun s => s) else s_unmark b) s) = ls_built s.
  Proof. destruct keep_mark; reflexivity. Qed.
  Lemma fin_steps b s : ls_steps ((if keep_mark then (fun s => s) else s_unmark b) s) = ls_steps s.
  Proof. destruct keep_mark; reflexivity. Qed.

  Lemma exec_count fuel : forall loading c s, cP s -> holds2 cP cQ (exec g keep_mark count_all maxLoads fuel loading c s).
  Proof.
    apply exec_inv; unfold cP, cQ; intros; try rewrite fin_count; try assumption; [lia|].
    cbn [ls_count s_count]. dif; lia.
  Qed.
End Count.

Section Marked.
  Variable g : graph.
  Variable count_all : bool.
  Variable maxLoads : N.
  Notation exec := (exec g true count_all maxLoads).
  Notation children := (children g true).

  Definition vis_le (s s' : lstate) : Prop := incl (ls_visited s) (ls_visited s').

  Lemma exec_vis fuel : forall loading c s, holds (vis_le s) (exec fuel loading c s).
  Proof.
    intros loading c s. apply (exec_inv g true count_all maxLoads (vis_le s) (vis_le s)); try (intros; assumption).
    - intros b s1 H. apply incl_tl, H.
    - intros s1 H. dif; exact H.
    - apply incl_refl.
  Qed.

  Variable U : list N.
  Hypothesis U_ok : forall b h, g_bt g b h <> None -> In b U.

  (* frames loadObject may still push, plus B-trees not yet marked.  The depth limit is kept in N: a nat literal is unary,
     and lia and the kernel traverse all 1024 successors wherever it occurs *)
  Definition pot (loading : list N) (s : lstate) : nat :=
    N.to_nat (1024 - N.of_nat (length loading)) + unv U (ls_visited s).

  (* a list of calls needs no more fuel than one: the potential does not grow from call to call *)
  Lemma each_fuel fuel loading :
    (forall c s, (pot loading s < fuel)%nat -> exec fuel loading c s <> LFuel) ->
    forall cs s, (pot loading s < fuel)%nat -> each (exec fuel loading) cs s <> LFuel.
  Proof.
    intros H. induction cs as [|c r IH]; intros s Hs; cbn [each]; [discriminate|].
    pose proof (exec_vis fuel loading c s) as Hm.
    destruct (exec fuel loading c s) as [s1|s1|] eqn:E; [|discriminate|destruct (H c s Hs E)].
    apply IH. cbn [holds] in Hm. unfold pot in *. pose proof (unv_mono U _ _ Hm). lia.
  Qed.

  Lemma exec_fuel fuel : forall loading c s, (pot loading s < fuel)%nat -> exec fuel loading c s <> LFuel.
  Proof.
    induction fuel as [|fuel IH]; intros loading c s Hp; [lia|].
    (* children: a passing call marks a B-tree of U *)
    assert (Hch : forall bt heap s1, ls_visited s1 = ls_visited s ->
              children (exec fuel loading) bt heap s1 <> LFuel).
    { intros bt heap s1 Hv. unfold children. cbv zeta. dif; [discriminate|].
      destruct (g_bt g bt heap) as [bes|] eqn:Eg; [|discriminate].
      assert (Hin : In bt U) by (apply (U_ok bt heap); congruence).
      cbn [ls_visited s_step] in E.
      assert (Hdec : (S (unv U (bt :: ls_visited s1)) <= unv U (ls_visited s1))%nat) by (apply unv_mark; assumption).
      apply lift_all_nofuel, each_fuel; [apply IH|].
      unfold pot in *. cbn [ls_visited s_mark s_step]. rewrite Hv in *. lia. }
    assert (Hobj : forall a name s1, ls_visited s1 = ls_visited s -> (N.of_nat (length loading) < 1024) ->
      match node_calls (g_obj g a name) name with
      | None => LErr s1
      | Some (cs, b) => lift_done (s_built b) (each (exec fuel (a :: loading)) cs s1) end <> LFuel).
    { intros a name s1 Hv Hl. destruct (node_calls (g_obj g a name) name) as [[cs b]|]; [|discriminate].
      apply lift_done_nofuel, each_fuel; [apply IH|]. unfold pot in *. cbn [length]. rewrite Hv. lia. }
    destruct c as [a name|bt heap|bt heap|]; cbn [RobustLoad.exec].
    - destruct count_all.
      + unfold counted. cbv zeta. dif; [discriminate|]. dif; [discriminate|]. unfold maxDepth. dif; [discriminate|].
        apply Hobj; [reflexivity|lia].
      + dif; [discriminate|]. unfold maxDepth. dif; [discriminate|].
        unfold counted. cbv zeta. dif; [discriminate|]. apply Hobj; [reflexivity|lia].
    - destruct count_all.
      + unfold counted. cbv zeta. dif; [discriminate|].
        apply lift_done_nofuel. apply Hch. reflexivity.
      + apply lift_done_nofuel. apply Hch. reflexivity.
    - apply Hch. reflexivity.
    - discriminate.
  Qed.

  Lemma open_terminates root : open g true count_all maxLoads (1025 + length U) root <> LFuel.
  Proof.
    unfold open. destruct (node_calls root 0) as [[cs b]|]; [|discriminate].
    apply lift_done_nofuel, each_fuel; [apply exec_fuel|].
    unfold pot. cbn [length]. pose proof (unv_le U (ls_visited s0)). lia.
  Qed.

  Lemma children_marks run bt heap s s' :
    (forall c s, holds (vis_le s) (run c s)) -> children run bt heap s = LDone s' -> In bt (ls_visited s').
  Proof.
    intros Hrun. unfold children. cbv zeta.
    destruct (memN bt (ls_visited (s_step s))) eqn:E; [intros [= <-]; apply memN_In, E|].
    destruct (g_bt g bt heap) as [bes|]; [|discriminate].
    assert (He : holds2 (fun s1 => In bt (ls_visited s1)) (fun _ => True)
                   (each run (flat_map bentry_calls bes) (s_mark bt (s_step s)))).
    { apply each_holds2; [|left; reflexivity].
      intros c s1 H1. pose proof (Hrun c s1) as H2. destruct (run c s1); cbn [holds holds2] in *; auto. }
    destruct (each run (flat_map bentry_calls bes) (s_mark bt (s_step s))) as [s2|s2|]; cbn [lift_all]; try discriminate.
    intros [= <-]. exact He.
  Qed.

  Lemma children_visited_empty run bt heap s :
    In bt (ls_visited s) -> children run bt heap s = LDone (s_step s).
  Proof.
    intros H. unfold children. cbv zeta. cbn [ls_visited s_step].
    replace (memN bt (ls_visited s)) with true by (symmetry; apply memN_In; exact H). reflexivity.
  Qed.
End Marked.

(* keep_mark = false (seeded change C07-c) *)
Lemma dia_entry_calls t : t <> 0 -> bentry_calls (dia_entry t) = [CCached t 8].
Proof.
  intros H. unfold dia_entry, bentry_calls, entry_calls, soft. cbn [se_cache se_ok se_bt se_heap se_addr se_name].
  change (1 =? 2) with false. change (1 =? 1) with true. cbn [negb andb].
  replace (t =? 0) with false by lia. reflexivity.
Qed.

Lemma exec_cached_unfold g km mL f loading bt h s :
  exec g km false mL (S f) loading (CCached bt h) s =
  lift_done (s_built 1) (children g km (exec g km false mL f loading) bt h s).
Proof. reflexivity. Qed.

Lemma exec_children_unfold g km ca mL f loading bt h s :
  exec g km ca mL (S f) loading (CChildren bt h) s = children g km (exec g km ca mL f loading) bt h s.
Proof. reflexivity. Qed.

Section Unmarked.
  Variable n : N.
  Variable maxLoads : N.
  Notation gr := (dia_graph n).

  Lemma filter_below b v : (forall x, In x v -> x < b) -> filter (fun x => negb (x =? b)) v = v.
  Proof.
    induction v as [|x v IH]; intros H; [reflexivity|]. cbn [filter].
    assert (Hx : x < b) by (apply H; left; reflexivity).
    replace (x =? b) with false by lia. cbn [negb]. f_equal. apply IH. intros y Hy. apply H. right. exact Hy.
  Qed.

  Lemma memN_below b v : (forall x, In x v -> x < b) -> memN b v = false.
  Proof.
    intros H. destruct (memN b v) eqn:E; [|reflexivity]. apply memN_In in E. apply H in E. lia.
  Qed.

  Lemma unmark_mark b v c bu st : (forall x, In x v -> x < b) -> s_unmark b (LS (b :: v) c bu st) = LS v c bu st.
  Proof.
    intros H. unfold s_unmark. cbn [ls_visited ls_count ls_built ls_steps filter].
    rewrite N.eqb_refl, (filter_below b v H). reflexivity.
  Qed.

  (* loadChildren of the group at level b with k levels below it: every level is loaded once per PATH *)
  Lemma dia_children k : forall f b loading h s,
    N.of_nat k + b = n + 1 -> 1 <= b -> (k <= f)%nat -> (forall x, In x (ls_visited s) -> x < b) ->
    children gr false (exec gr false false maxLoads f loading) b h s =
    LDone (LS (ls_visited s) (ls_count s) (ls_built s + dia_built k) (ls_steps s + dia_steps k)).
  Proof.
    induction k as [|k IH]; intros f b loading h [v c bu st] Hb H1 Hf Hv; unfold children, s_mark, s_step; cbv zeta;
      cbn [ls_visited ls_count ls_built ls_steps] in *; rewrite (memN_below b v Hv); cbn [g_bt dia_graph];
      replace (b =? 0) with false by lia.
    - replace (b <=? n) with false by lia. replace (b =? n + 1) with true by lia.
      cbn [flat_map each lift_all]. rewrite unmark_mark by exact Hv. cbn [dia_built dia_steps]. do 2 f_equal; lia.
    - replace (b <=? n) with true by lia. destruct f as [|f]; [lia|].
      assert (Hv1 : forall x, In x (b :: v) -> x < b + 1).
      { intros x [<-|Hx]; [lia|]. apply Hv in Hx. lia. }
      cbn [flat_map]. rewrite !dia_entry_calls by lia. cbn [app each].
      rewrite exec_cached_unfold, (IH f (b + 1) loading 8) by (cbn [ls_visited]; auto; lia).
      unfold s_built. cbn [lift_done ls_visited ls_count ls_built ls_steps].
      rewrite exec_cached_unfold, (IH f (b + 1) loading 8) by (cbn [ls_visited]; auto; lia).
      unfold s_built. cbn [lift_done lift_all ls_visited ls_count ls_built ls_steps]. rewrite unmark_mark by exact Hv.
      cbn [dia_built dia_steps]. do 2 f_equal; lia.
  Qed.
End Unmarked.

Lemma dia_built_pow k : dia_built k + 2 = 2 ^ (N.of_nat k + 1).
Proof.
  induction k as [|k IH]; [reflexivity|]. cbn [dia_built]. rewrite Nat2N.inj_succ.
  replace (N.succ (N.of_nat k) + 1) with (N.succ (N.of_nat k + 1)) by lia. rewrite N.pow_succ_r'. lia.
Qed.

(* Open on the family: 2^(n+1) - 1 objects from n+1 B-trees and 2n entries, loadCount stays 0 (maxLoads never bites) *)
Lemma dia_open_unmarked (n : nat) maxLoads :
  open (dia_graph (N.of_nat n)) false false maxLoads (S n) (OStab 1 8) =
  LDone (LS [] 0 (dia_built n + 1) (dia_steps n)).
Proof.
  unfold open. cbn [node_calls each]. rewrite exec_children_unfold.
  rewrite (dia_children (N.of_nat n) maxLoads n); [|lia|lia|lia|intros x []].
  cbn [lift_done]. unfold s_built, s0; cbn [ls_visited ls_count ls_built ls_steps]. f_equal.
Qed.

Lemma dia_open_exponential (n : nat) maxLoads :
  exists s, open (dia_graph (N.of_nat n)) false false maxLoads (S n) (OStab 1 8) = LDone s /\
            2 ^ N.of_nat n <= ls_built s /\ ls_count s = 0.
Proof.
  eexists. split; [apply dia_open_unmarked|]. cbn [ls_built ls_count]. split; [|reflexivity].
  pose proof (dia_built_pow n) as H. replace (N.of_nat n + 1) with (N.succ (N.of_nat n)) in H by lia.
  rewrite N.pow_succ_r' in H. assert (0 < 2 ^ N.of_nat n) by (apply N.neq_0_lt_0, N.pow_nonzero; lia). lia.
Qed.

(* no bound k * size + c on the objects built, size = number of B-trees + number of entries of the graph = 3n + 1 *)
Lemma pow2_gt_lin m : N.of_nat m + 1 <= 2 ^ N.of_nat m.
Proof.
  induction m as [|m IH]; [cbn; lia|]. rewrite Nat2N.inj_succ, N.pow_succ_r'. lia.
Qed.

Lemma dia_no_linear_bound (k c maxLoads : N) :
  exists n s, open (dia_graph (N.of_nat n)) false false maxLoads (S n) (OStab 1 8) = LDone s /\
              k * (3 * N.of_nat n + 1) + c < ls_built s.
Proof.
  set (M := 6 * k + c + 2). set (m := N.to_nat M).
  exists (2 * m)%nat. destruct (dia_open_exponential (2 * m) maxLoads) as [s [Hs [Hb _]]].
  exists s. split; [exact Hs|].
  pose proof (pow2_gt_lin m) as Hm.
  assert (E : 2 ^ N.of_nat (2 * m) = 2 ^ N.of_nat m * 2 ^ N.of_nat m).
  { rewrite <- N.pow_add_r. f_equal. lia. }
  rewrite E in Hb. assert (Hm' : N.of_nat m = M) by (unfold m; lia).
  assert (H1 : (M + 1) * (M + 1) <= 2 ^ N.of_nat m * 2 ^ N.of_nat m) by (rewrite <- Hm'; apply N.mul_le_mono; exact Hm).
  replace (N.of_nat (2 * m)) with (2 * M) by lia.
  assert (H2 : (M + 1) * (M + 1) = 6 * (k * M) + c * M + 4 * M + 1) by (unfold M; ring).
  assert (H3 : c <= c * M) by (unfold M; nia).
  assert (H4 : k * (3 * (2 * M) + 1) + c = 6 * (k * M) + k + c) by ring.
  assert (H5 : k <= 4 * M) by (unfold M; lia).
  lia.
Qed.

(* with the mark kept, the same family costs one load per group: 2n + 1 objects *)
Example dia_marked_10 : lres_val (open (dia_graph 10) true false 100 100 (OStab 1 8)) = VL [VN 0; VN 21; VN 0; VN 11].
Proof. vm_compute. reflexivity. Qed.
Example dia_unmarked_10 : lres_val (open (dia_graph 10) false false 100 100 (OStab 1 8)) = VL [VN 0; VN 2047; VN 0; VN 0].
Proof. vm_compute. reflexivity. Qed.

(* for goals about the counters of states built by the step functions, once the relation at hand is unfolded: let the
   record projections compute, the rest is linear arithmetic *)
Ltac counters :=
  cbn [holds holds2 lift_done lift_all ls_count ls_built ls_steps ls_visited s_count s_step s_built s_mark s0] in *; lia.

(* count_all = true (repaired): everything is counted *)
Fixpoint nch (cs : list call) : N :=
  match cs with [] => 0 | CChildren _ _ :: r => 1 + nch r | _ :: r => nch r end.

Lemma nch_app a b : nch (a ++ b) = nch a + nch b.
Proof. induction a as [|c a IH]; cbn [app nch]; [lia|]. destruct c; lia. Qed.

Lemma nch_entry e : nch (entry_calls e) = 0.
Proof. unfold entry_calls. repeat dif; reflexivity. Qed.
Lemma nch_flat_entry es : nch (flat_map entry_calls es) = 0.
Proof. induction es as [|e es IH]; [reflexivity|]. cbn [flat_map]. rewrite nch_app, nch_entry, IH. reflexivity. Qed.
Lemma nch_bentries bes : nch (flat_map bentry_calls bes) = 0.
Proof.
  induction bes as [|b bes IH]; [reflexivity|]. cbn [flat_map]. rewrite nch_app, IH.
  destruct b as [e|[es|]]; cbn [bentry_calls]; [rewrite nch_entry|rewrite nch_flat_entry|]; reflexivity.
Qed.
Lemma nch_trad es : nch (flat_map trad_calls es) = 0.
Proof.
  induction es as [|e es IH]; [reflexivity|]. cbn [flat_map]. rewrite nch_app, IH. unfold trad_calls. repeat dif; reflexivity.
Qed.
Lemma nch_links ls : nch (map (fun l : N * N => CObj (fst l) (snd l)) ls) = 0.
Proof. induction ls as [|l ls IH]; [reflexivity|]. cbn [map nch]. exact IH. Qed.

Lemma node_calls_shape n name cs b : node_calls n name = Some (cs, b) -> nch cs <= 1 /\ b <= 1.
Proof.
  destruct n; cbn [node_calls]; try discriminate; intros [= <- <-]; cbn [nch]; try lia.
  - rewrite nch_app, nch_links. destruct ok; cbn [nch]; lia.
  - rewrite nch_trad. lia.
Qed.

Section Repaired.
  Variable g : graph.
  Variable keep_mark : bool.
  Variable maxLoads : N.
  Notation exec := (exec g keep_mark true maxLoads).

  (* objects built and calls made are paid for by counted loads; k = calls of loadChildren on the frame's own group *)
  Definition crel (k : N) (s s' : lstate) : Prop :=
    ls_count s <= ls_count s' /\
    ls_built s' + ls_count s <= ls_built s + ls_count s' /\
    ls_steps s' + 2 * ls_count s <= ls_steps s + k + 2 * ls_count s'.

  Lemma each_crel run cs :
    (forall c s, holds (crel (match c with CChildren _ _ => 1 | _ => 0 end) s) (run c s)) ->
    forall s, holds (crel (nch cs) s) (each run cs s).
  Proof.
    intros Hrun. induction cs as [|c r IH]; intros s; cbn [each]; [cbn [holds nch]; unfold crel; lia|].
    pose proof (Hrun c s) as H1. destruct (run c s) as [s1|s1|]; cbn [holds] in *; [| |exact I].
    - pose proof (IH s1) as H2. destruct (each run r s1); cbn [holds] in *; [| |exact I];
        unfold crel in *; destruct c; cbn [nch]; lia.
    - unfold crel in *; destruct c; cbn [nch]; lia.
  Qed.

  Lemma children_crel run bt heap s :
    (forall c s, holds (crel (match c with CChildren _ _ => 1 | _ => 0 end) s) (run c s)) ->
    holds (crel 1 s) (children g keep_mark run bt heap s).
  Proof.
    intros Hrun. unfold children. cbv zeta. dif; [unfold crel; counters|].
    destruct (g_bt g bt heap) as [bes|]; cbn [holds].
    - pose proof (each_crel run (flat_map bentry_calls bes) Hrun (s_mark bt (s_step s))) as H. rewrite nch_bentries in H.
      destruct (each run (flat_map bentry_calls bes) (s_mark bt (s_step s))); cbn [lift_all holds] in *; [| |exact I];
        unfold crel in *; rewrite fin_count, fin_built, fin_steps; counters.
    - unfold crel. rewrite fin_count, fin_built, fin_steps. counters.
  Qed.

  Lemma exec_crel fuel : forall loading c s,
    holds (crel (match c with CChildren _ _ => 1 | _ => 0 end) s) (exec fuel loading c s).
  Proof.
    induction fuel as [|fuel IH]; intros loading c s; [exact I|].
    destruct c as [a name|bt heap|bt heap|]; cbn [RobustLoad.exec].
    - unfold counted. cbv zeta. dif; [unfold crel; counters|]. dif; [unfold crel; counters|]. dif; [unfold crel; counters|].
      destruct (node_calls (g_obj g a name) name) as [[cs b]|] eqn:En; [|unfold crel; counters].
      destruct (node_calls_shape _ _ _ _ En) as [Hn Hb].
      pose proof (each_crel (exec fuel (a :: loading)) cs (fun c s => IH (a :: loading) c s) (s_count (s_step s))) as H.
      destruct (each (exec fuel (a :: loading)) cs (s_count (s_step s))); cbn [lift_done holds] in *; [| |exact I];
        unfold crel in *; counters.
    - unfold counted. cbv zeta. dif; [unfold crel; counters|].
      pose proof (children_crel (exec fuel loading) bt heap (s_count s) (fun c s => IH loading c s)) as H.
      destruct (children g keep_mark (exec fuel loading) bt heap (s_count s)); cbn [lift_done holds] in *; [| |exact I];
        unfold crel in *; counters.
    - apply children_crel. intros; apply IH.
    - unfold crel. counters.
  Qed.

  (* Open with the repair: objects built <= maxLoads + 2, loadObject + loadChildren calls <= 2 * maxLoads + 3,
     on every path (value or error), whatever the graph and even without the B-tree mark *)
  Lemma open_repaired_bounded fuel root :
    holds (fun s => ls_count s <= maxLoads + 1 /\ ls_built s <= maxLoads + 2 /\ ls_steps s <= 2 * maxLoads + 3)
          (open g keep_mark true maxLoads fuel root).
  Proof.
    unfold open. destruct (node_calls root 0) as [[cs b]|] eqn:En; [|cbn [holds s0 ls_count ls_built ls_steps]; lia].
    destruct (node_calls_shape _ _ _ _ En) as [Hn Hb].
    pose proof (each_crel (exec fuel []) cs (fun c s => exec_crel fuel [] c s) s0) as H.
    assert (Hc : holds2 (cP maxLoads) (cQ maxLoads) (each (exec fuel []) cs s0)).
    { apply each_holds2; [intros; apply exec_count; assumption|]. unfold cP. cbn. lia. }
    destruct (each (exec fuel []) cs s0); cbn [lift_done holds holds2] in *; [| |exact I];
      unfold crel, cP, cQ in *; counters.
  Qed.
End Repaired.

(* keep_mark = true, count_all = false (the code as it is):
   work is paid for by counted loads AND by first visits of B-trees, F calls each *)
Section AsIs.
  Variable g : graph.
  Variable maxLoads : N.
  Variable U : list N.
  Variable F : N.
  Hypothesis U_ok : forall b h, g_bt g b h <> None -> In b U.
  Hypothesis F_obj : forall a name cs b, node_calls (g_obj g a name) name = Some (cs, b) -> N.of_nat (length cs) <= F.
  Hypothesis F_bt : forall b h bes, g_bt g b h = Some bes -> N.of_nat (length (flat_map bentry_calls bes)) <= F.
  Notation exec := (exec g true false maxLoads).

  Definition uN (s : lstate) : N := N.of_nat (unv U (ls_visited s)).

  (* k = calls, kb = objects that are not paid for by a counted load or a first visit *)
  Definition wrel (k kb : N) (s s' : lstate) : Prop :=
    ls_count s <= ls_count s' /\ uN s' <= uN s /\
    ls_steps s' + F * ls_count s + F * uN s' <= ls_steps s + k + F * ls_count s' + F * uN s /\
    ls_built s' + F * ls_count s + F * uN s' <= ls_built s + kb + F * ls_count s' + F * uN s.

  Lemma each_wrel run cs :
    (forall c s, holds (wrel 1 1 s) (run c s)) ->
    forall s, holds (wrel (N.of_nat (length cs)) (N.of_nat (length cs)) s) (each run cs s).
  Proof.
    intros Hrun. induction cs as [|c r IH]; intros s; cbn [each]; [cbn [holds length]; unfold wrel; lia|].
    pose proof (Hrun c s) as H1. destruct (run c s) as [s1|s1|]; cbn [holds] in *; [| |exact I].
    - pose proof (IH s1) as H2. destruct (each run r s1); cbn [holds] in *; [| |exact I];
        unfold wrel in *; cbn [length]; lia.
    - unfold wrel in *; cbn [length]; lia.
  Qed.

  Lemma children_wrel run bt heap s :
    (forall c s, holds (wrel 1 1 s) (run c s)) -> holds (wrel 1 0 s) (children g true run bt heap s).
  Proof.
    intros Hrun. unfold children. cbv zeta. cbn [ls_visited s_step].
    destruct (memN bt (ls_visited s)) eqn:Em;
      [unfold wrel, uN; counters|].
    assert (Hu0 : uN (s_mark bt (s_step s)) <= uN s).
    { unfold uN. cbn [ls_visited s_mark s_step]. pose proof (unv_mono U (ls_visited s) (bt :: ls_visited s)) as H.
      assert (incl (ls_visited s) (bt :: ls_visited s)) by (intros x Hx; right; exact Hx). lia. }
    destruct (g_bt g bt heap) as [bes|] eqn:Eg; cbn [holds].
    - assert (Hin : In bt U) by (apply (U_ok bt heap); congruence).
      assert (Hu : uN (s_mark bt (s_step s)) + 1 <= uN s).
      { unfold uN. cbn [ls_visited s_mark s_step]. pose proof (unv_mark U (ls_visited s) bt Hin Em). lia. }
      assert (HF : F * uN (s_mark bt (s_step s)) + F <= F * uN s).
      { replace (F * uN (s_mark bt (s_step s)) + F) with (F * (uN (s_mark bt (s_step s)) + 1)) by lia.
        apply N.mul_le_mono_l. exact Hu. }
      pose proof (F_bt _ _ _ Eg) as HFb.
      pose proof (each_wrel run (flat_map bentry_calls bes) Hrun (s_mark bt (s_step s))) as H.
      destruct (each run (flat_map bentry_calls bes) (s_mark bt (s_step s))); cbn [lift_all holds] in *; [| |exact I];
        unfold wrel in *; counters.
    - assert (HF : F * uN (s_mark bt (s_step s)) <= F * uN s) by (apply N.mul_le_mono_l; exact Hu0).
      unfold wrel. counters.
  Qed.

  Lemma exec_wrel fuel : forall loading c s, holds (wrel 1 1 s) (exec fuel loading c s).
  Proof.
    induction fuel as [|fuel IH]; intros loading c s; [exact I|].
    assert (Hw : forall s1, holds (wrel 1 0 s) s1 -> holds (wrel 1 1 s) s1).
    { intros r. apply holds_imp. unfold wrel. intros; lia. }
    destruct c as [a name|bt heap|bt heap|]; cbn [RobustLoad.exec].
    - dif; [unfold wrel, uN; counters|].
      dif; [unfold wrel, uN; counters|].
      unfold counted. cbv zeta.
      assert (HFc : F * ls_count (s_count (s_step s)) = F * ls_count s + F) by (cbn [ls_count s_count s_step]; lia).
      dif; [unfold wrel, uN in *; counters|].
      destruct (node_calls (g_obj g a name) name) as [[cs b]|] eqn:En; [|unfold wrel, uN in *; counters].
      destruct (node_calls_shape _ _ _ _ En) as [_ Hb]. pose proof (F_obj _ _ _ _ En) as HFo.
      pose proof (each_wrel (exec fuel (a :: loading)) cs (fun c s => IH (a :: loading) c s) (s_count (s_step s))) as H.
      destruct (each (exec fuel (a :: loading)) cs (s_count (s_step s))); cbn [lift_done holds] in *; [| |exact I];
        unfold wrel, uN in *; counters.
    - pose proof (children_wrel (exec fuel loading) bt heap s (fun c s => IH loading c s)) as H.
      destruct (children g true (exec fuel loading) bt heap s); cbn [lift_done holds] in *; [| |exact I];
        unfold wrel, uN in *; counters.
    - apply Hw. apply children_wrel. intros; apply IH.
    - unfold wrel. counters.
  Qed.

  (* Open as it is: F * (maxLoads + |U| + 2) + 1 bounds the objects built and the loadObject + loadChildren calls, on every
     path (value or error) *)
  Lemma open_asis_bounded fuel root cs b :
    node_calls root 0 = Some (cs, b) -> N.of_nat (length cs) <= F ->
    holds (fun s => ls_count s <= maxLoads + 1 /\
                    ls_built s <= F * (maxLoads + N.of_nat (length U) + 2) + 1 /\
                    ls_steps s <= F * (maxLoads + N.of_nat (length U) + 2))
          (open g true false maxLoads fuel root).
  Proof.
    intros En HF. unfold open. rewrite En.
    pose proof (each_wrel (exec fuel []) cs (fun c s => exec_wrel fuel [] c s) s0) as H.
    assert (Hc : holds2 (cP maxLoads) (cQ maxLoads) (each (exec fuel []) cs s0)).
    { apply each_holds2; [intros; apply exec_count; assumption|]. unfold cP. cbn. lia. }
    assert (Hu : uN s0 <= N.of_nat (length U)) by (unfold uN; pose proof (unv_le U (ls_visited s0)); lia).
    assert (HFu : F * uN s0 <= F * N.of_nat (length U)) by (apply N.mul_le_mono_l; exact Hu).
    assert (E : F * (maxLoads + N.of_nat (length U) + 2) = F * maxLoads + F * N.of_nat (length U) + F + F) by lia.
    destruct (each (exec fuel []) cs s0) as [s1|s1|]; cbn [lift_done holds holds2] in *; [| |exact I].
    - unfold wrel, cP in *. cbn [ls_count ls_built ls_steps s_built s0] in *.
      assert (F * ls_count s1 <= F * maxLoads) by (apply N.mul_le_mono_l; exact Hc). rewrite E. lia.
    - unfold wrel, cQ in *. cbn [ls_count ls_built ls_steps s0] in *.
      assert (F * ls_count s1 <= F * (maxLoads + 1)) by (apply N.mul_le_mono_l; exact Hc). rewrite E. lia.
  Qed.
End AsIs.

(* the code as it is: n B-trees that share n entries
   give n*n + 1 objects and not a single counted load (maxLoads never bites) *)
Lemma each_app run a b s :
  each run (a ++ b) s = match each run a s with LDone s' => each run b s' | x => x end.
Proof.
  revert s. induction a as [|c a IH]; intros s; cbn [app each]; [reflexivity|].
  destruct (run c s); [apply IH|reflexivity|reflexivity].
Qed.

Lemma comb_calls m : forall a, (1 <= a)%nat ->
  flat_map bentry_calls (map (fun j => dia_entry (N.of_nat j)) (seq a m)) = map (fun j => CCached (N.of_nat j) 8) (seq a m).
Proof.
  induction m as [|m IH]; intros a Ha; [reflexivity|]. cbn [seq map flat_map].
  rewrite dia_entry_calls by lia. rewrite IH by lia. reflexivity.
Qed.

Section Comb.
  Variable n : nat.
  Variable maxLoads : N.
  Notation gr := (comb_graph n).
  Notation exec := (exec gr true false maxLoads).

  (* entries whose B-tree is marked already: one empty group each *)
  Lemma comb_skip f loading l : forall s,
    (forall j, In j l -> In (N.of_nat j) (ls_visited s)) ->
    each (exec (S f) loading) (map (fun j => CCached (N.of_nat j) 8) l) s =
    LDone (LS (ls_visited s) (ls_count s) (ls_built s + N.of_nat (length l)) (ls_steps s + N.of_nat (length l))).
  Proof.
    induction l as [|j l IH]; intros s Hv; cbn [map each length].
    - destruct s as [v0 c0 b0 st0]; cbn [ls_visited ls_count ls_built ls_steps]. f_equal. f_equal; lia.
    - rewrite exec_cached_unfold. rewrite children_visited_empty by (apply Hv; left; reflexivity).
      cbn [lift_done]. rewrite IH by (intros i Hi; cbn [ls_visited s_built s_step]; apply Hv; right; exact Hi).
      unfold s_built, s_step; cbn [ls_visited ls_count ls_built ls_steps]. f_equal. f_equal; lia.
  Qed.

  Definition vis_upto (j : nat) (s : lstate) : Prop := forall x, In x (ls_visited s) <-> (1 <= x /\ x <= N.of_nat j).

  (* loadChildren of B-tree j when 1 .. j-1 are marked: the mark, then the entries 1 .. j as empty groups; the entries
     j+1 .. n are still to be loaded *)
  Lemma comb_first j d f loading s : (1 <= j)%nat -> (j + d = n)%nat -> vis_upto (j - 1) s ->
    children gr true (exec (S f) loading) (N.of_nat j) 8 s =
    lift_all (fun s => s)
      (each (exec (S f) loading) (map (fun i => CCached (N.of_nat i) 8) (seq (1 + j) d))
         (LS (N.of_nat j :: ls_visited s) (ls_count s) (ls_built s + N.of_nat j) (ls_steps s + 1 + N.of_nat j))).
  Proof.
    intros Hj Hn Hv. unfold children. cbv zeta. cbn [ls_visited s_step].
    replace (memN (N.of_nat j) (ls_visited s)) with false
      by (destruct (memN (N.of_nat j) (ls_visited s)) eqn:E; [apply memN_In, Hv in E; lia|reflexivity]).
    cbn [g_bt comb_graph]. replace ((1 <=? N.of_nat j) && (N.of_nat j <=? N.of_nat n)) with true by lia.
    rewrite comb_calls by lia. replace n with (j + d)%nat at 2 by lia. rewrite seq_app, map_app, each_app, comb_skip.
    - cbn [ls_visited ls_count ls_built ls_steps s_mark s_step]. rewrite seq_length. reflexivity.
    - intros i Hi. apply in_seq in Hi. cbn [ls_visited s_mark s_step].
      destruct (Nat.eq_dec i j) as [->|Hne]; [left; reflexivity|right; apply Hv; lia].
  Qed.

  Lemma comb_children d : forall j f loading s,
    (1 <= j)%nat -> (j + d = n)%nat -> (d < f)%nat -> vis_upto (j - 1) s ->
    exists s', children gr true (exec f loading) (N.of_nat j) 8 s = LDone s' /\ vis_upto n s' /\
               ls_count s' = ls_count s /\ ls_built s' = ls_built s + N.of_nat (S d) * N.of_nat n.
  Proof.
    induction d as [|d IH]; intros j f loading s Hj Hn Hf Hv; (destruct f as [|f]; [lia|]);
      rewrite (comb_first j _ f loading s Hj Hn Hv); cbn [seq map each].
    - cbn [lift_all]. eexists. split; [reflexivity|]. cbn [ls_visited ls_count ls_built].
      split; [|split; [reflexivity|lia]]. intros x. cbn [ls_visited In]. rewrite (Hv x). lia.
    - rewrite exec_cached_unfold.
      match goal with |- context [children gr true (exec f loading) _ 8 ?s1] =>
        destruct (IH (S j) f loading s1) as [s2 [E2 [V2 [C2 B2]]]] end; [lia|lia|lia| |].
      { intros x. cbn [ls_visited In]. rewrite (Hv x). replace (S j - 1)%nat with j by lia. lia. }
      replace (N.of_nat (1 + j)) with (N.of_nat (S j)) by lia. rewrite E2. cbn [lift_done].
      rewrite comb_skip by (intros i Hi; apply in_seq in Hi; cbn [ls_visited s_built]; apply V2; lia).
      cbn [lift_all]. eexists. split; [reflexivity|]. cbn [ls_visited ls_count ls_built s_built].
      split; [exact V2|]. split; [rewrite C2; reflexivity|]. rewrite B2. cbn [ls_built]. rewrite seq_length. nia.
  Qed.

  Lemma comb_open_quadratic : (1 <= n)%nat ->
    exists s, open gr true false maxLoads (S n) (OStab 1 8) = LDone s /\
              ls_built s = N.of_nat n * N.of_nat n + 1 /\ ls_count s = 0.
  Proof.
    intros Hn. unfold open. cbn [node_calls each]. rewrite exec_children_unfold.
    destruct (comb_children (n - 1) 1 n [] s0) as [s2 [E2 [V2 [C2 B2]]]]; [lia|lia|lia| |].
    { intros x. cbn. lia. }
    change 1 with (N.of_nat 1). rewrite E2. cbn [lift_done]. eexists. split; [reflexivity|].
    cbn [ls_built ls_count s_built]. rewrite C2, B2. cbn [s0 ls_built ls_count]. split; [|reflexivity].
    replace (S (n - 1)) with n by lia. lia.
  Qed.
End Comb.

(* the price of the mark (finding C06-group-reached-twice-is-empty):
   once a group has been loaded through its B-tree, every later arrival at the same B-tree - through a second hard link,
   from anywhere in the file - builds an empty group: one object, no loads, whatever the B-tree holds *)
Lemma reached_twice_empty g mL fuel loading bt h s s1 :
  exec g true false mL fuel loading (CCached bt h) s = LDone s1 ->
  forall s2, incl (ls_visited s1) (ls_visited s2) ->
  forall fuel' loading' h',
  exec g true false mL (S fuel') loading' (CCached bt h') s2 = LDone (s_built 1 (s_step s2)) /\
  exec g true false mL (S fuel') loading' (CChildren bt h') s2 = LDone (s_step s2).
Proof.
  intros H1 s2 Hi fuel' loading' h'.
  assert (Hin : In bt (ls_visited s1)).
  { destruct fuel as [|fuel]; [discriminate|]. rewrite exec_cached_unfold in H1.
    destruct (children g true (exec g true false mL fuel loading) bt h s) as [s3|s3|] eqn:E; cbn [lift_done] in H1; try discriminate.
    injection H1 as <-. cbn [ls_visited s_built].
    eapply children_marks; [|exact E]. intros c s0. apply exec_vis. }
  rewrite exec_cached_unfold, exec_children_unfold.
  rewrite !children_visited_empty by (apply Hi; exact Hin). split; reflexivity.
Qed.

(* with the seeded change the second arrival loads the whole sub-tree again *)
Example reached_twice_unmarked :
  lres_val (open (dia_graph 1) false false 100 10 (OStab 1 8)) = VL [VN 0; VN 3; VN 0; VN 0] /\
  lres_val (open (dia_graph 2) false false 100 10 (OStab 1 8)) = VL [VN 0; VN 7; VN 0; VN 0] /\
  lres_val (open (dia_graph 2) true false 100 10 (OStab 1 8)) = VL [VN 0; VN 5; VN 0; VN 3].
Proof. vm_compute. auto. Qed.

(* against the file size: Open sets maxLoads = size / 8 + 1024 *)

Lemma open_repaired_file_bound g keep_mark size fuel root :
  holds (fun s => 8 * ls_built s <= size + 8208 /\ 8 * ls_steps s <= 2 * size + 16408)
        (open g keep_mark true (open_max_loads size) fuel root).
Proof.
  eapply holds_imp; [|apply open_repaired_bounded]. unfold open_max_loads. intros s [_ [H1 H2]]. split; lia.
Qed.

(* the hypotheses of the as-is bound are satisfiable: dia_graph 3 with U = [1; 2; 3; 4] and F = 2 *)
Example asis_hypotheses_satisfiable :
  let g := dia_graph 3 in
  (forall b h, g_bt g b h <> None -> In b [1; 2; 3; 4]) /\
  (forall a name cs b, node_calls (g_obj g a name) name = Some (cs, b) -> N.of_nat (length cs) <= 2) /\
  (forall b h bes, g_bt g b h = Some bes -> N.of_nat (length (flat_map bentry_calls bes)) <= 2).
Proof.
  cbv zeta. split; [|split].
  - intros b h. cbn [g_bt dia_graph]. destruct (b =? 0) eqn:E0; [congruence|]. apply N.eqb_neq in E0.
    destruct (b <=? 3) eqn:E1; [apply N.leb_le in E1; intros _; cbn [In]; lia|].
    destruct (b =? 3 + 1) eqn:E2; [apply N.eqb_eq in E2; intros _; cbn [In]; lia|congruence].
  - intros a name cs b. cbn. discriminate.
  - intros b h bes. cbn [g_bt dia_graph]. destruct (b =? 0); [discriminate|].
    destruct (b <=? 3) eqn:E1.
    + intros [= <-]. cbn [flat_map]. apply N.leb_le in E1. rewrite !dia_entry_calls by lia. cbn. lia.
    + destruct (b =? 3 + 1); [intros [= <-]; cbn; lia|discriminate].
Qed.
