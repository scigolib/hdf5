(* C19 part B: the decisions of a SmartRebalancer.Evaluate session are the decisions of the selector
   on the extracted observations, so every theorem about [run] applies to them. *)
From HV Require Import Base.Prelude Model.Selector Model.Detector.

Open Scope Z_scope.

(* the observations the detector hands to the selector during a session *)
Fixpoint session_obs (window min_samples capacity : Z) (evs : list event) (steps : list estep) : list obs :=
  match steps with
  | [] => []
  | (op, size, now) :: r =>
      if op =? 9 then
        let f := extract_features window min_samples evs now in
        (f, classify min_samples f, now) :: session_obs window min_samples capacity evs r
      else session_obs window min_samples capacity (record_event capacity (op, now, size) evs) r
  end.

Lemma session_is_run : forall p c window min_samples capacity steps evs st,
  map e_dec (run_session p c window min_samples capacity evs st steps)
  = map r_dec (run p rule_select st c (session_obs window min_samples capacity evs steps)).
Proof.
  intros p c window min_samples capacity. induction steps as [|[[op size] now] r IH]; intros evs st; [reflexivity|].
  cbn [run_session session_obs]. destruct (op =? 9).
  - cbn [map run e_dec r_dec]. f_equal. apply IH.
  - apply IH.
Qed.

Lemma session_obs_classified : forall window min_samples capacity steps evs f w now,
  In (f, w, now) (session_obs window min_samples capacity evs steps) -> w = classify min_samples f.
Proof.
  intros window min_samples capacity. induction steps as [|[[op size] t] r IH]; intros evs f w now H; [destruct H|].
  cbn [session_obs] in H. destruct (op =? 9).
  - destruct H as [H|H]; [injection H as <- <- <-; reflexivity | eapply IH; exact H].
  - eapply IH; exact H.
Qed.
