(* C07: the object-header readers never panic.
   Version 2: unconditionally.  Version 1 and ReadObjectHeader: for every file image shorter than 2^64
   bytes, or consisting of bytes (< 256); see the comment at [v1_loop_np_partial] for why the model
   needs one of the two. *)
From HV Require Import Base.Prelude Base.Outcome Base.Bytes.
From HV Require Import Model.CodecOhdr.
From HV Require Import Proofs.RobustNoPanicBase.

Lemma v2_loop_np fuel : forall file isBE hdr current end_, np (v2_loop fuel file isBE hdr current end_).
Proof.
  induction fuel as [|fuel IH]; intros; cbn [v2_loop]; [apply np_err|].
  unfold readable. np_go.
Qed.
#[export] Hint Resolve v2_loop_np : np.

Lemma parse_v2_np file addr flags isBE sbBE version : np (parse_v2 file addr flags isBE sbBE version).
Proof. unfold parse_v2, readable. np_go. Qed.

Lemma rd_end_np file off k bigendian : off + k <= blen file -> np (rd_end file off k bigendian).
Proof. intros H. unfold rd_end. np_go. Qed.

(* The model guards the message-data read with  readable file (wrap64 (current + 8)) size  (Go:
   r.ReadAt(data, int64(current+8)) on uint64 current) but slices the image at the unwrapped
   current + 8.  The two agree whenever current + 8 < 2^64, which follows from the preceding
   readable file current 8  when the image is shorter than 2^64 bytes, and from  current < end_  when
   end_ <= 2^64 - 8. *)
Lemma v1_loop_np_partial fuel : forall file sbBE current end_ count max,
  blen file < 18446744073709551616 \/ end_ + 8 <= 18446744073709551616 ->
  np (v1_loop fuel file sbBE current end_ count max).
Proof.
  induction fuel as [|fuel IH]; intros file sbBE current end_ count max Hs; cbn [v1_loop]; [apply np_err|].
  unfold readable. np_go.
  all: try (apply rd_end_np; np_side).
  all: try (apply IH; exact Hs).
  bool_hyps.
  assert (Hw : wrap64 (current + 8) = current + 8) by (unfold wrap64; apply N.mod_small; blia).
  rewrite Hw in *. apply slice_np; blia.
Qed.

Lemma parse_v1_np_partial file addr flags sbBE :
  blen file < 18446744073709551616 -> np (parse_v1 file addr flags sbBE).
Proof.
  intros Hs. unfold parse_v1, readable. np_go.
  all: try (apply rd_end_np; np_side).
  apply v1_loop_np_partial. left; exact Hs.
Qed.

Lemma dec_ohdr_np_partial sbBE file addr :
  blen file < 18446744073709551616 -> np (dec_ohdr sbBE file addr).
Proof.
  intros Hs. unfold dec_ohdr, readable. cbv zeta.
  destruct (9223372036854775808 <=? addr) eqn:Ea; [apply np_err|].
  destruct (negb (addr + 8 <=? blen file)) eqn:Er; [apply np_err|].
  apply np_bind; [np_go|]. intros p Hp. apply slice_len in Hp.
  replace (addr + 8 - addr) with 8 in Hp by blia.
  np_go.
  all: first [ apply parse_v1_np_partial; exact Hs | apply parse_v2_np ].
Qed.

(* the same for images of any length whose elements are bytes *)

Lemma rd_end_bound file off k bigendian v :
  bytes_ok file = true -> rd_end file off k bigendian = Ok v -> v < 256 ^ k.
Proof.
  intros Hb. unfold rd_end, rd_be, rd_le.
  destruct (slice file off (off + k)) as [s| |] eqn:Es; destruct bigendian; cbn [obind]; try discriminate.
  all: intros E; injection E as <-.
  all: pose proof (slice_len _ _ _ _ Es) as Hl; replace (off + k - off) with k in Hl by blia.
  all: pose proof (slice_bytes_ok _ _ _ _ Hb Es) as Hs; rewrite <- Hl.
  - unfold unbe. replace (blen s) with (blen (rev s)) by (unfold blen; rewrite rev_length; reflexivity).
    apply unle_bound, bytes_ok_rev, Hs.
  - apply unle_bound, Hs.
Qed.

Lemma parse_v1_np_bytes file addr flags sbBE :
  bytes_ok file = true -> addr < 9223372036854775808 -> np (parse_v1 file addr flags sbBE).
Proof.
  intros Hb Ha. unfold parse_v1, readable. np_go.
  all: try (apply rd_end_np; np_side).
  apply v1_loop_np_partial. right.
  match goal with H : rd_end file (addr + 8) 4 sbBE = Ok ?h |- _ =>
    pose proof (rd_end_bound _ _ _ _ _ Hb H) as Hh end.
  change (256 ^ 4) with 4294967296 in Hh.
  unfold wrap64. rewrite N.mod_small; blia.
Qed.

Lemma dec_ohdr_np_bytes sbBE file addr : bytes_ok file = true -> np (dec_ohdr sbBE file addr).
Proof.
  intros Hb. unfold dec_ohdr, readable. cbv zeta.
  destruct (9223372036854775808 <=? addr) eqn:Ea; [apply np_err|].
  destruct (negb (addr + 8 <=? blen file)) eqn:Er; [apply np_err|].
  apply np_bind; [np_go|]. intros p Hp. apply slice_len in Hp.
  replace (addr + 8 - addr) with 8 in Hp by blia.
  np_go.
  all: first [ apply parse_v1_np_bytes; [exact Hb | np_side] | apply parse_v2_np ].
Qed.

Lemma v2_loop_no_panic : forall fuel file isBE hdr current end_, v2_loop fuel file isBE hdr current end_ <> Panic.
Proof. exact v2_loop_np. Qed.
Lemma v1_loop_no_panic_partial : forall fuel file sbBE current end_ count max,
  blen file < 18446744073709551616 \/ end_ + 8 <= 18446744073709551616 ->
  v1_loop fuel file sbBE current end_ count max <> Panic.
Proof. exact v1_loop_np_partial. Qed.
Lemma parse_v1_no_panic_partial : forall file addr flags sbBE,
  blen file < 18446744073709551616 -> parse_v1 file addr flags sbBE <> Panic.
Proof. exact parse_v1_np_partial. Qed.
Lemma parse_v1_no_panic_bytes : forall file addr flags sbBE,
  bytes_ok file = true -> addr < 9223372036854775808 -> parse_v1 file addr flags sbBE <> Panic.
Proof. exact parse_v1_np_bytes. Qed.
