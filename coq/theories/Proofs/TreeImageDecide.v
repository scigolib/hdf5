(* C03 end to end, depth 1: WHEN linkToParent into the root of a flat image accepts.  For a file whose root segment and node
   agree with the name list [ns] (gwf), prepareLink answers Ok exactly when the name is well-formed, not in [ns], fits the 256-byte
   heap behind the names already there, and the node has fewer than 32 entries - the rule of the specification's s_link - and then
   linkToParent itself succeeds (the branch "allocated but not linked" is unreachable). *)
From HV Require Import Base.Prelude Base.Outcome Base.Bytes Model.RobustAlloc Model.RobustGroup Model.GroupWire.
From HV Require Import Model.CodecSuper Model.CodecOhdr Model.IOProgOpen.
From HV Require Import Proofs.GroupWireHeap Proofs.GroupWireSnod.
From HV Require Import Model.FileImage Model.TreeImage Proofs.FileImage.
From HV Require Import Proofs.TreeImageLink Proofs.TreeImagePlaced Proofs.TreeImageFlat.
From HV Require Model.GroupNS Proofs.GroupNSBase Proofs.GroupNSHeap.

Local Open Scope N_scope.

Definition d1_accept (ns : list bytes) (nm : bytes) : bool :=
  negb (existsb (bytes_eqb nm) ns) && (blen (GH.enc ns) + blen nm + 1 <=? 256) && (N.of_nat (length ns) <? 32).

Lemma existsb_eqb_In nm (ns : list bytes) : existsb (bytes_eqb nm) ns = true <-> In nm ns.
Proof.
  rewrite existsb_exists. split.
  - intros (x & Hx & E). apply bytes_eqb_eq in E. now subst.
  - intros H. exists nm. split; [exact H | apply bytes_eqb_refl].
Qed.

Section Root.
Variable st : tstate.
Variables (seg : list N) (s : snode) (rest : list item) (ns : list bytes).
Hypothesis Hf : t_file st = image (flat_lay seg s rest).
Hypothesis Hs : blen seg = 256.
Hypothesis Hok : snode_ok s = true.
Hypothesis Hm : (length (stn_entries s) <= 32)%nat.
Hypothesis Hg : GH.gwf seg (map abs_sym (stn_entries s)) ns.
Variable parent : bytes.
Hypothesis Hroot : NS.is_root_parent parent = true.

Lemma root_load : load_local_heap (t_file st) 48 8 8 = Ok seg.
Proof using Hf Hs.
  rewrite Hf, (flat_image_group_file seg s rest Hs). unfold group_file. change 48 with (blen sb0).
  apply load_heap_file. rewrite Hs, MaxInt64_val. now apply N.leb_le.
Qed.
Lemma root_parse : parse_snod (t_file st) 336 8 = Ok s.
Proof using Hf Hs Hok Hm.
  rewrite Hf, (flat_image_group_file seg s rest Hs), group_file_split, app_nil_r.
  replace 336 with (blen (sb0 ++ heap_header (blen seg) 1 (blen sb0 + 32) ++ seg))
    by (rewrite !blen_app, blen_heap_header, Hs; reflexivity).
  apply (parse_snod_bytes s 32 _ _ Hok Hm). rewrite !blen_app, blen_heap_header, Hs, MaxInt64_val. now apply N.leb_le.
Qed.

Lemma names_len : length ns = length (stn_entries s).
Proof. pose proof (GH.gwf_length _ _ _ Hg) as H. rewrite map_length in H. symmetry. exact H. Qed.

Lemma prepare_root_eq nm child :
  prepare_link st parent nm child = if NS.heap_name_ok nm && d1_accept ns nm then Ok (48, 336) else Err.
Proof.
  unfold prepare_link. destruct (NS.heap_name_ok nm) eqn:Hn; cbn [negb andb]; [|reflexivity].
  unfold parent_addrs. rewrite Hroot. change HEAP_ADDR with 48. change SNOD_ADDR with 336.
  rewrite root_load, root_parse. cbn [obind].
  rewrite existsb_abs.
  assert (Ed : existsb (NS.entry_has_name seg nm) (map abs_sym (stn_entries s)) = existsb (bytes_eqb nm) ns).
  { apply Bool.eq_true_iff_eq. rewrite (GH.dup_check_iff _ _ _ nm Hg). symmetry. apply existsb_eqb_In. }
  rewrite Ed. unfold d1_accept. destruct (existsb (bytes_eqb nm) ns) eqn:Edup; cbn [negb andb]; [reflexivity|].
  assert (Hnin : ~ In nm ns) by (intros Hin; apply existsb_eqb_In in Hin; congruence).
  assert (Hhn : GH.hname_ok nm) by (now apply GH.heap_name_ok_iff).
  destruct (GH.heap_link seg (map abs_sym (stn_entries s)) ns nm Hg Hhn Hnin) as [HN HS].
  pose proof (abs_add_string (prepare_for_modification seg) nm) as A. rewrite abs_prepare in A.
  change (NS.blen seg) with (blen seg) in HN. change (NS.blen (GH.enc ns)) with (blen (GH.enc ns)) in HN.
  change (NS.blen nm) with (blen nm) in HN. rewrite Hs in HN.
  destruct (blen (GH.enc ns) + blen nm + 1 <=? 256) eqn:Eh.
  - apply N.leb_le in Eh.
    destruct (NS.add_string (NS.prepare_for_modification seg) nm) as [[off h1]|] eqn:EA; [|pose proof (proj1 HN eq_refl); blia].
    destruct (add_string (prepare_for_modification seg) nm) as [[off' h']| |]; cbn [omap of_option] in A; try discriminate.
    cbn [obind]. cbv beta iota.
    destruct (snode_ok_spec s Hok) as (_ & Hnum & _ & _ & _).
    pose proof (abs_add_entry s (new_sym off' child) Hnum) as B. rewrite (abs_parse s Hok) in B.
    unfold NS.add_entry, NS.parse_snod in B. cbn [NS.sn_cap NS.sn_entries] in B. unfold NS.blen in B. rewrite map_length in B.
    rewrite names_len. cbn [andb].
    destruct (N.of_nat (length (stn_entries s)) <? 32) eqn:El.
    + apply N.ltb_lt in El.
      replace (N.max 32 (N.of_nat (length (stn_entries s))) <=? N.of_nat (length (stn_entries s))) with false in B
        by (symmetry; apply N.leb_gt; lia).
      destruct (add_entry s (new_sym off' child)) as [s'| |]; cbn [omap of_option] in B; try discriminate. reflexivity.
    + apply N.ltb_ge in El.
      replace (N.max 32 (N.of_nat (length (stn_entries s))) <=? N.of_nat (length (stn_entries s))) with true in B
        by (symmetry; apply N.leb_le; lia).
      destruct (add_entry s (new_sym off' child)) as [s'| |]; cbn [omap of_option] in B; try discriminate. reflexivity.
  - apply N.leb_gt in Eh. cbn [andb].
    assert (EA : NS.add_string (NS.prepare_for_modification seg) nm = None) by (apply HN; blia).
    rewrite EA in A. destruct (add_string (prepare_for_modification seg) nm) as [[off' h']| |]; cbn [omap of_option] in A; try discriminate.
    reflexivity.
Qed.

Lemma accept_inv nm : d1_accept ns nm = true ->
  ~ In nm ns /\ blen (GH.enc ns) + blen nm + 1 <= 256 /\ (length (stn_entries s) < 32)%nat.
Proof using Hg.
  unfold d1_accept. intros Ha. apply andb_true_iff in Ha as [Ha Hl]. apply andb_true_iff in Ha as [Hd Hh].
  apply negb_true_iff in Hd. apply N.leb_le in Hh. apply N.ltb_lt in Hl. rewrite names_len in Hl.
  split; [|split; [exact Hh | clear -Hl; lia]]. intros Hin. apply existsb_eqb_In in Hin. congruence.
Qed.

Lemma link_root_accepted nm oa : NS.heap_name_ok nm = true -> d1_accept ns nm = true -> oa < 18446744073709551616 ->
  exists seg' s1 off, link_both (t_file st) 48 336 nm oa = Ok (image (flat_lay seg' s1 rest)) /\ blen seg' = 256 /\
    snode_ok s1 = true /\ stn_entries s1 = stn_entries s ++ [new_sym off oa] /\ (length (stn_entries s1) <= 32)%nat /\
    GH.gwf seg' (map abs_sym (stn_entries s1)) (ns ++ [nm]).
Proof using Hf Hs Hok Hm Hg.
  (* the arithmetic tactics below would otherwise draw these two into the proof term *)
  clear Hroot parent. intros Hn Ha Hoa. destruct (accept_inv nm Ha) as (Hnin & Hh & Hl).
  assert (Hhn : GH.hname_ok nm) by (now apply GH.heap_name_ok_iff).
  destruct (GH.heap_link seg (map abs_sym (stn_entries s)) ns nm Hg Hhn Hnin) as [HN HL].
  change (NS.blen seg) with (blen seg) in HN. change (NS.blen (GH.enc ns)) with (blen (GH.enc ns)) in HN.
  change (NS.blen nm) with (blen nm) in HN. rewrite Hs in HN.
  pose proof (link_both_image [] seg s hb0 rest nm oa (Forall_nil _) (conj Hs (conj Hok Hm)) Hoa eq_refl) as C.
  cbv zeta in C. change (image ([] ++ IGroup seg s hb0 :: rest)) with (image (flat_lay seg s rest)) in C. rewrite <- Hf in C.
  change (48 + lsize []) with 48 in C. change (48 + 288) with 336 in C.
  destruct (NS.add_string (NS.prepare_for_modification seg) nm) as [[off h1]|] eqn:EA; [|pose proof (proj1 HN eq_refl); lia].
  destruct (HL off h1 eq_refl) as (_ & _ & Hg').
  destruct (NS.add_entry (NS.parse_snod 32 (map abs_sym (stn_entries s))) {| NS.e_off := off; NS.e_obj := oa |}) eqn:EE.
  - destruct C as (s1 & (Hs' & Hok' & Hm') & He & C). exists (snd (NS.write_to h1)), s1, off.
    repeat (split; [assumption|]). rewrite He, map_app. exact (Hg' oa).
  - exfalso. unfold NS.add_entry, NS.parse_snod in EE. cbn [NS.sn_cap NS.sn_entries] in EE. unfold NS.blen in EE.
    rewrite map_length in EE.
    destruct (N.max 32 (N.of_nat (length (stn_entries s))) <=? N.of_nat (length (stn_entries s))) eqn:E; [|discriminate].
    apply N.leb_le in E. lia.
Qed.

Lemma link_root_ok nm oa : NS.heap_name_ok nm = true -> d1_accept ns nm = true -> oa < 18446744073709551616 ->
  exists f2, link_to_parent st parent nm oa = Ok f2.
Proof.
  intros Hn Ha Hoa. unfold link_to_parent. rewrite prepare_root_eq, Hn, Ha. cbn [andb obind]. cbv beta iota.
  destruct (link_root_accepted nm oa Hn Ha Hoa) as (seg' & s1 & off & E & _). eexists. exact E.
Qed.
End Root.

Lemma link_root st seg s rest ns parent nm oa f2 :
  t_file st = image (flat_lay seg s rest) -> blen seg = 256 -> snode_ok s = true -> (length (stn_entries s) <= 32)%nat ->
  GH.gwf seg (map abs_sym (stn_entries s)) ns -> oa < 18446744073709551616 ->
  NS.is_root_parent parent = true ->
  link_to_parent st parent nm oa = Ok f2 ->
  exists seg' s1 off, f2 = image (flat_lay seg' s1 rest) /\ blen seg' = 256 /\ snode_ok s1 = true /\
    stn_entries s1 = stn_entries s ++ [new_sym off oa] /\ (length (stn_entries s1) <= 32)%nat /\
    GH.gwf seg' (map abs_sym (stn_entries s1)) (ns ++ [nm]).
Proof.
  intros Hf Hs Hok Hm Hg Hoa Hroot H. unfold link_to_parent in H.
  rewrite (prepare_root_eq st seg s rest ns Hf Hs Hok Hm Hg parent Hroot) in H.
  destruct (NS.heap_name_ok nm) eqn:Hn; [|discriminate]. destruct (d1_accept ns nm) eqn:Ha; [|discriminate].
  destruct (link_root_accepted st seg s rest ns Hf Hs Hok Hm Hg nm oa Hn Ha Hoa) as (seg' & s1 & off & E & R).
  cbn [andb obind] in H. cbv beta iota in H. change (link_both (t_file st) 48 336 nm oa = Ok f2) in H.
  rewrite E in H. inversion H. now exists seg', s1, off.
Qed.
