(* C06, reader against specification: the data layout message (0x0008) version 3, classes compact / contiguous /
   chunked, and the symbol table message (0x0011).
   For every byte string the strict specification decoder accepts (with the superblock's size of offsets / lengths),
   the reader (Model/CodecMsg.v dec_layout = ParseDataLayoutMessage, Model/CodecLink.v dec_symtab = the inline reader of
   group.go; both tied to the Go code by C11/C07) returns an error or the same class, address, size, compact data and
   chunk dimensions, and never panics. *)
From HV Require Import Base.Prelude Base.Outcome Base.Bytes Spec.Parse Spec.FormatMsg Model.CodecMsg Model.CodecLink
  Proofs.ReaderSpecBase.

Definition ly_agree (L : layout_spec) (v : layout') : Prop :=
  ly_version v = 3 /\
  match L with
  | LyCompact d => ly_class v = 0 /\ ly_compact v = Some d /\ ly_size v = blen d /\ ly_chunk v = None
  | LyContiguous a s => ly_class v = 1 /\ ly_addr v = a /\ ly_size v = s /\ ly_compact v = None /\ ly_chunk v = None
  | LyChunked a dims => ly_class v = 2 /\ ly_addr v = a /\ ly_chunk v = Some dims /\ ly_compact v = None
  end.

(* the superblock parameters the reader is given: the file's sizes, little-endian metadata, superblock version < 4 *)
Definition sb_of (ver : N) (osz lsz : nat) : sbparams :=
  {| sb_version := ver; sb_offsize := N.of_nat osz; sb_lensize := N.of_nat lsz; sb_bigendian := false |}.

(* datalayout.go readUint64 on data[p:] reads what the specification's little-endian field at p holds *)
Lemma read_uint_step {B} (bs : list N) p k v (f : N -> outcome B) :
  rd_le bs p k = Ok v -> size_ok k = true ->
  (d <- slice_from bs p;; x <- read_uint d k false;; f x) = f v.
Proof.
  intros H Hk. apply rd_le_inv in H as (Hp & ->).
  unfold slice_from. rewrite (proj2 (N.leb_le p (blen bs))) by blia. cbn [obind].
  change (skipn (N.to_nat p) bs) with (at_pos bs p). unfold read_uint. rewrite at_pos_len, ltb_false by blia.
  replace ((k =? 1) || (k =? 2) || (k =? 4) || (k =? 8)) with true
    by (destruct (size_ok_cases k Hk) as [-> | [-> | ->]]; reflexivity).
  rewrite rd_le_eq by (rewrite at_pos_len; blia). reflexivity.
Qed.

Lemma layout_reader_spec (osz lsz : nat) (sbver : N) (pad_ok : bool) (bs : bytes) (L : layout_spec) :
  size_ok (N.of_nat osz) = true -> size_ok (N.of_nat lsz) = true -> sbver < 4 ->
  spec_dec_layout osz lsz pad_ok bs = Ok L ->
  err_or (ly_agree L) (dec_layout (sb_of sbver osz lsz) bs).
Proof.
  intros HO HL HV H. unfold spec_dec_layout in H. rewrite (at_pos_0 bs) in H.
  assert (P0 : 0 <= blen bs) by blia.
  s_byte H ver B1 I0. s_guard H GV. apply N.eqb_eq in GV. subst ver.
  s_byte H cls B2 I1.
  change (0 + 1) with 1 in *. change (1 + 1) with 2 in *.
  assert (KS : chunk_key_size sbver = 4).
  { unfold chunk_key_size. rewrite (proj2 (N.leb_gt 4 sbver)) by blia. reflexivity. }
  unfold dec_layout, sb_of. cbn [sb_version sb_offsize sb_lensize sb_bigendian].
  rewrite (ltb_false (blen bs) 1) by blia. rewrite I0. cbn [obind].
  change ((3 <? 3) || (4 <? 3)) with false. cbn iota.
  rewrite (ltb_false (blen bs) 2) by blia. rewrite I1. cbn [obind].
  destruct (cls =? 0) eqn:C0.
  - (* compact *)
    s_u H sz B3 R. change (N.of_nat 2) with 2 in *. change (2 + 2) with 4 in *.
    s_take H d B4 SD Ld. rewrite N2Nat.id in *. s_end H PE PF ZZ. injection H as <-.
    rewrite (ltb_false (blen bs) 4) by blia. rewrite R. cbn [obind].
    rewrite (ltb_false (blen bs) (4 + sz)) by blia. rewrite SD. cbn [obind].
    split; [reflexivity|]. cbn [ly_class ly_compact ly_size ly_chunk]. repeat split; auto;
    unfold blen; blia.
  - destruct (cls =? 1) eqn:C1.
    + (* contiguous *)
      s_u H a B3 RA. s_u H sz B4 RS. s_end H PE PF ZZ. injection H as <-.
      rewrite ltb_false by blia.
      rewrite (read_uint_step _ _ _ _ _ RA HO), (read_uint_step _ _ _ _ _ RS HL).
      repeat split; cbn [ly_class ly_addr ly_size ly_compact ly_chunk ly_version]; auto; blia.
    + destruct (cls =? 2) eqn:C2; [|discriminate H].
      (* chunked *)
      s_byte H nd B3 I2. s_guard H G. change (2 + 1) with 3 in *.
      s_u H a B4 RA. s_us H dims B5 RD Ld. rewrite N2Nat.id in *. s_guard H G2. s_end H PE PF ZZ. injection H as <-.
      rewrite (ltb_false (blen bs) 3) by blia. rewrite I2. cbn [obind].
      rewrite ltb_false by blia.
      rewrite (read_uint_step _ _ _ _ _ RA HO).
      rewrite KS. change (N.of_nat 4) with 4 in RD. rewrite RD. cbn [obind].
      repeat split; cbn [ly_class ly_addr ly_size ly_compact ly_chunk ly_version]; auto; blia.
Qed.

(* Symbol table message.  The reader takes two 8-byte addresses whatever the size of offsets is; with 8-byte offsets that is the
   specification's reading, with smaller offsets the message is shorter than 16 bytes and the reader reports an
   error. *)
Definition st_agree (s : N * N) (v : symtab) : Prop := st_btree v = fst s /\ st_heap v = snd s.

Lemma symtab_reader_spec (osz : nat) (pad_ok : bool) (bs : bytes) (s : N * N) :
  size_ok (N.of_nat osz) = true ->
  spec_dec_symtab osz pad_ok bs = Ok s ->
  err_or (st_agree s) (dec_symtab false bs).
Proof.
  intros HO H. unfold spec_dec_symtab in H. rewrite (at_pos_0 bs) in H.
  assert (P0 : 0 <= blen bs) by blia.
  s_u H bt B1 RB. s_u H hp B2 RH. s_end H PE PF ZZ. injection H as <-.
  unfold dec_symtab. destruct (blen bs <? 16) eqn:L16; [exact I|].
  apply N.ltb_ge in L16.
  destruct (size_ok_cases _ HO) as [E | [E | E]]; rewrite E in *; try (exfalso; blia).
  change (0 + 8) with 8 in *. rewrite RB. cbn [obind]. rewrite RH. cbn [obind]. split; reflexivity.
Qed.

(* the hypotheses are satisfiable: a chunked layout (two dataset dimensions and the element size), a contiguous one with
   4-byte offsets and lengths, and a symbol table message *)
Example layout_reader_spec_example_chunked :
  spec_dec_layout 8 8 false ([3; 2; 3] ++ le 8 1024 ++ le 4 10 ++ le 4 20 ++ le 4 4) = Ok (LyChunked 1024 [10; 20; 4]).
Proof. vm_compute. reflexivity. Qed.
Example layout_reader_spec_example_contiguous :
  spec_dec_layout 4 4 true ([3; 1] ++ le 4 2048 ++ le 4 800 ++ zeros 6) = Ok (LyContiguous 2048 800).
Proof. vm_compute. reflexivity. Qed.
Example symtab_reader_spec_example : spec_dec_symtab 8 false (le 8 136 ++ le 8 680) = Ok (136, 680).
Proof. vm_compute. reflexivity. Qed.
