(* C03 end to end, reader stages with symbolic addresses: superblock of any closed file, object headers placed anywhere
   (with_header), the header of a symbol-table group, the group B-tree node placed anywhere. *)
From HV Require Import Base.Prelude Base.Outcome Base.Bytes Model.IOProg Proofs.IOProg Model.IOProgReader Model.IOProgOpen.
From HV Require Import Model.CodecSuper Model.CodecOhdr Model.CodecMsg Model.CodecType Model.CodecLink Model.GroupWire Model.RobustGroup Model.RobustAlloc.
From HV Require Import Proofs.CodecSuper Proofs.CodecOhdr Proofs.CodecLink Proofs.GroupWireHeap Proofs.GroupWireSnod Proofs.GroupWireBTree.
From HV Require Import Model.FileImage Model.TreeImage Proofs.FileImage Proofs.FileImageOhdr Proofs.FileImageData Proofs.FileImageGroup.
From HV Require Import Proofs.TreeImageRead.

Local Open Scope N_scope.

Theorem superblock_any e (R : list N) : e < 18446744073709551616 -> 80 <= blen R ->
  run0 (enc_superblock (sb_eof e) ++ R) p_superblock = Ok SB'.
Proof.
  (* sb_eof is the v2_sb of Proofs/FileImageData.v *)
  intros He HR. change (sb_eof e) with (v2_sb e). apply (superblock_placed _ (v2_sb e) R).
  - exists [], []. rewrite app_nil_r. split; reflexivity.
  - rewrite v2_sb_len. blia.
  - intros T HT. rewrite v2_sb_len in HT. apply dec_sb_buf_v2; [now apply wf_v2_sb | reflexivity | exact HT].
Qed.

Lemma sig_any e (R : list N) A (k : bytes -> prog A) :
  run0 (enc_superblock (sb_eof e) ++ R) (ReadAt 0 8 k) = run0 (enc_superblock (sb_eof e) ++ R) (k signature).
Proof.
  apply run0_read_exact; [|reflexivity].
  unfold enc_superblock. cbn [sp_version sb_eof]. change (2 =? 0) with false. cbv iota.
  rewrite <- !app_assoc. eexists [], _. split; reflexivity.
Qed.

Definition no_attr (ms : list hmsg) : bool := forallb (fun m => negb (hm_type m =? 12) && negb (hm_type m =? 21)) ms.
(* determineObjectType depends on the message types only *)
Definition kind_of (ms : list hmsg) : N := det_type (msgs_at_v2 ms 0).

Lemma compact_attrs_none ms : forall c, no_attr ms = true -> compact_attrs SB' (msgs_at_v2 ms c) = Ret [].
Proof.
  induction ms as [|m r IH]; intros c H; [reflexivity|]. cbn [no_attr forallb] in H. apply andb_true_iff in H as [H1 H2].
  apply andb_true_iff in H1 as [H1 _]. cbn [msgs_at_v2 compact_attrs hmp_type].
  destruct (hm_type m =? 12); [discriminate|]. now apply IH.
Qed.
Lemma first_ainfo_none ms : forall c, no_attr ms = true -> first_ainfo SB' (msgs_at_v2 ms c) = None.
Proof.
  induction ms as [|m r IH]; intros c H; [reflexivity|]. cbn [no_attr forallb] in H. apply andb_true_iff in H as [H1 H2].
  apply andb_true_iff in H1 as [_ H1]. cbn [msgs_at_v2 first_ainfo hmp_type].
  destruct (hm_type m =? 21); [discriminate|]. now apply IH.
Qed.
Lemma p_attrs_none ms c : no_attr ms = true -> p_attrs SB' (msgs_at_v2 ms c) = Ret [].
Proof. intros H. unfold p_attrs. rewrite compact_attrs_none, first_ainfo_none by exact H. reflexivity. Qed.

Lemma det_type1_at ms : forall c, det_type1 (msgs_at_v2 ms c) = det_type1 (msgs_at_v2 ms 0).
Proof.
  induction ms as [|m r IH]; intros c; [reflexivity|]. cbn [msgs_at_v2 det_type1 hmp_type].
  rewrite (IH (c + 4 + blen (hm_data m))), (IH (0 + 4 + blen (hm_data m))). reflexivity.
Qed.
Lemma exists_type_at t ms : forall c,
  existsb (fun m => hmp_type m =? t) (msgs_at_v2 ms c) = existsb (fun m => hm_type m =? t) ms.
Proof. induction ms as [|m r IH]; intros c; [reflexivity|]. cbn [msgs_at_v2 existsb hmp_type]. now rewrite IH. Qed.
Lemma det_type_at ms c : det_type (msgs_at_v2 ms c) = kind_of ms.
Proof. unfold kind_of, det_type. rewrite (det_type1_at ms c), !exists_type_at. reflexivity. Qed.

Section Hdr.
Variable f : bytes.
Variable hfuel : nat.

Definition HdrAt (a : N) (x : ohdr) : Prop :=
  ohdr_ok x /\ (exists tail, placed f a (enc_ohdr_v2 x ++ tail) /\ 2 <= blen tail) /\
  (length (oh_msgs x) < hfuel)%nat /\ a + 600 < B63.

Lemma HdrAt_sig a x : HdrAt a x -> placed f a [79; 72; 68; 82].
Proof.
  intros (_ & (tail & HP & _) & _). unfold enc_ohdr_v2 in HP. rewrite <- !app_assoc in HP. now apply placed_head in HP.
Qed.

Lemma sig_placed A a (k : bytes -> prog A) : placed f a [79; 72; 68; 82] ->
  run0 f (p_sig true a k) = run0 f (k [79; 72; 68; 82]).
Proof. intros H. unfold p_sig. now rewrite (run0_read_exact _ f a [79; 72; 68; 82] 4 _ H eq_refl). Qed.

Lemma with_header_placed A a x (k : ohdr' -> prog A) : HdrAt a x -> no_attr (oh_msgs x) = true ->
  run0 f (with_header SB' hfuel a k) = run0 f (k (proj_ohdr_v2 false x a)).
Proof.
  intros (Hok & (tail & HP & Ht) & Hf & Hb) Hna. unfold with_header.
  rewrite run0_bind, (p_ohdr_placed SB' hfuel f a x tail Hok HP Ht Hf Hb).
  rewrite run0_swallow. cbn [SB' spp_bigendian]. unfold proj_ohdr_v2 at 1. cbn [ohp_msgs].
  rewrite p_attrs_none by exact Hna. cbn [bind]. rewrite run0_ret. reflexivity.
Qed.
End Hdr.

Lemma group_ohdr_ok bt hp : ohdr_ok (group_ohdr bt hp).
Proof.
  unfold ohdr_ok, group_ohdr. cbn [oh_version oh_flags oh_msgs]. split; [reflexivity|]. split; [reflexivity|].
  assert (L : blen (enc_symtab 8 {| st_btree := bt; st_heap := hp |}) = 16) by apply symtab_blen.
  split; [cbn [chunk_size_v2 fold_right hm_data]; rewrite L; blia|]. split; [discriminate|].
  constructor; [|constructor]. unfold msg_ok. cbn [hm_type hm_data]. rewrite L. unfold MSG_CONT. repeat split; try blia.
Qed.
Lemma group_ohdr_facts bt hp a : bt < 18446744073709551616 -> hp < 18446744073709551616 ->
  let h := proj_ohdr_v2 false (group_ohdr bt hp) a in
  no_attr (oh_msgs (group_ohdr bt hp)) = true /\ det_type (ohp_msgs h) = 0 /\
  existsb (fun m => hmp_type m =? 6) (ohp_msgs h) = false /\ last_symtab SB' (ohp_msgs h) = Some (bt, hp) /\ ohp_name h = [].
Proof.
  intros Hb Hh. cbn zeta. unfold proj_ohdr_v2, group_ohdr. cbn [oh_msgs msgs_at_v2 ohp_msgs ohp_name hm_type hm_data].
  repeat split; try reflexivity.
  unfold last_symtab. cbn [rev app first_symtab hmp_type hmp_data]. change (17 =? 17) with true.
  rewrite symtab_blen. change (16 <=? 16) with true. cbn [andb SB' spp_bigendian].
  rewrite symtab_roundtrip; [reflexivity|].
  unfold wf_symtab. cbn [st_btree st_heap]. apply N.ltb_lt in Hb, Hh. now rewrite Hb, Hh.
Qed.

(* AddKey on the empty node cannot fail: the block is the image of the one-key leaf *)
Lemma bt_block_node sa :
  bt_block sa = bt_write_at {| btn_type := 0; btn_level := 0; btn_used := 1; btn_left := MaxUint64; btn_right := MaxUint64;
                               btn_keys := [0]; btn_children := [sa]; btn_cap := 33 |} 8 (N.of_nat 16).
Proof. reflexivity. Qed.

Lemma bt_block_bytes' sa : sa < 18446744073709551616 ->
  bt_block sa = bt_leaf_hdr ++ (le 8 0 ++ le 8 sa ++ le 8 0) ++ zeros 496.
Proof.
  intros H. rewrite bt_block_node, (bt_write_at_closed _ [(0, sa)] 16); [|split; reflexivity | cbn [length]; lia].
  unfold bt_bytes, bt_header, bt_leaf_hdr. cbn [btn_type btn_level btn_used btn_left btn_right flat_map enc_pair fst snd length].
  rewrite <- !app_assoc. cbn [sigTREE app]. do 8 f_equal.
Qed.

Theorem group_btree_placed f ba sa s :
  placed f ba (bt_block sa) -> sa < 9223372036854775808 -> sa <> 0 ->
  placed f sa (snod_bytes s 32) -> snode_ok s = true -> (length (stn_entries s) <= 32)%nat ->
  Forall (fun e => sy_cache e = 0) (stn_entries s) ->
  run0 f (p_group_btree SB' ba) = Ok (map stentry_of (stn_entries s)).
Proof.
  intros HP Hsa Hsa0 HPs Hok Hm Hc. rewrite bt_block_bytes' in HP by blia.
  apply (btree_stage_at SB' eq_refl eq_refl f ba _ _ sa _ HP); [reflexivity | | exact (snod_placed f sa s HPs Hok Hm Hc)].
  cbn [btree_children SB' spp_offsize]. change (0 + 8) with 8.
  rewrite (slice_from_app (le 8 0) (le 8 sa ++ le 8 0)) by reflexivity. cbn [obind].
  rewrite read_addr_end_le8 by blia. cbn [obind].
  replace (sa =? 0) with false by (symmetry; now apply N.eqb_neq).
  replace (sa =? UNDEF) with false by (symmetry; apply N.eqb_neq; unfold UNDEF; blia).
  reflexivity.
Qed.
