(* C03: the reader's walk over a state that represents a specification tree yields that tree (the
   visited-B-tree guard never fires because no group occurs twice in preorder), the fuel suffices, and
   the final refinement statements. *)
From HV Require Import Base.Prelude Model.GroupNS Proofs.GroupNSBase Proofs.GroupNSHeap Proofs.GroupNSPath
  Proofs.GroupNSInv Proofs.GroupNSSpec Proofs.GroupNSRefine Proofs.GroupNSSim.

Lemma NoDup_app_inv : forall A (a b : list A), NoDup (a ++ b) -> NoDup a /\ NoDup b /\ (forall x, In x a -> ~ In x b).
Proof.
  induction a as [|y a IH]; intros b H; cbn [app] in *.
  - split; [constructor|]. split; [assumption | intros x []].
  - inversion H as [|? ? Hy Hab]; subst. destruct (IH b Hab) as (A1 & A2 & A3). split; [|split; [assumption|]].
    + constructor; [|assumption]. intro X. apply Hy. apply in_or_app. left. assumption.
    + intros x [->|Hx]; [intro X; apply Hy; apply in_or_app; right; assumption | apply A3; assumption].
Qed.

(* the objects being loaded: groups, each nested in the next (ids strictly decreasing), none the root *)
Fixpoint dec_chain (l : list N) : Prop :=
  match l with
  | [] => True
  | a :: r => 1 <= a /\ match r with [] => True | b0 :: _ => b0 < a end /\ dec_chain r
  end.
Lemma dec_chain_len : forall l, dec_chain l -> match l with [] => True | a :: _ => blen l <= a end.
Proof.
  induction l as [|a r IH]; intro H; [exact Logic.I|]. cbn [dec_chain] in H. destruct H as (H1 & H2 & H3).
  specialize (IH H3). rewrite blen_cons. destruct r as [|b0 r]; [rewrite blen_nil; lia | lia].
Qed.

Section Walk.
  Variables (c : cfg) (w : wstate) (t : stree).
  Hypothesis R : Rep c w t.
  Hypothesis I : SInv t.
  Hypothesis Hdepth : s_clock t <= max_depth c.
  Local Notation T := (s_nodes t).

  Definition anc_ok (anc : list N) : Prop := (forall a, In a anc -> is_group T a) /\ dec_chain anc.

  Definition walk_eq (rec : list N -> N -> option (tree * list N)) (f : nat) (id : N) : Prop :=
    forall vis, NoDup (gpre f T id) -> (forall x, In x (gpre f T id) -> ~ In x vis) ->
      rec vis id = match unfold KGroup f T id with
                   | Some tr => Some (tr, vis ++ gpre f T id)
                   | None => None
                   end.

  Definition walk_ok (f : nat) : Prop :=
    forall id anc, alookup id T <> None -> anc_ok anc ->
      (is_group T id -> 1 <= id /\ forall a, In a anc -> a < id) ->
      walk_eq (load_object f c w anc) f id.

  Lemma kids_umap : forall f seg rec ch ents vis,
      (forall n0 c0, In (n0, c0) ch -> walk_eq rec f c0) ->
      map (name_of seg) ents = map Some (map fst ch) -> map e_obj ents = map snd ch ->
      NoDup (flat_map (fun nc => gpre f T (snd nc)) ch) ->
      (forall x, In x (flat_map (fun nc => gpre f T (snd nc)) ch) -> ~ In x vis) ->
      kids rec seg ents vis =
      match umap (unfold KGroup f T) ch with
      | Some ts => Some (ts, vis ++ flat_map (fun nc => gpre f T (snd nc)) ch)
      | None => None
      end.
  Proof.
    intros f seg rec. induction ch as [|[n0 c0] ch IH]; intros ents vis W H1 H2 Hnd Hdis;
      destruct ents as [|e ents]; try discriminate.
    - cbn [kids umap flat_map]. rewrite app_nil_r. reflexivity.
    - cbn [map fst snd] in H1, H2. injection H1 as H1a H1b. injection H2 as H2a H2b.
      cbn [flat_map snd] in Hnd, Hdis. destruct (NoDup_app_inv _ _ _ Hnd) as (Nd1 & Nd2 & Nd3).
      cbn [kids umap]. unfold name_of in H1a. rewrite H1a, H2a.
      rewrite (W n0 c0 (or_introl eq_refl) vis Nd1) by (intros x Hx; apply Hdis; apply in_or_app; left; assumption).
      destruct (unfold KGroup f T c0) as [tr|]; [|reflexivity].
      rewrite (IH ents (vis ++ gpre f T c0)); try assumption.
      + destruct (umap (unfold KGroup f T) ch) as [ts|]; [|reflexivity]. cbn [flat_map snd]. rewrite app_assoc. reflexivity.
      + intros n1 c1 X. apply (W n1 c1). right. assumption.
      + intros x Hx X. apply in_app_or in X. destruct X as [X|X].
        * apply (Hdis x); [apply in_or_app; right; assumption | assumption].
        * apply (Nd3 x X Hx).
  Qed.

  Lemma group_walk : forall f rec id ch vis, alookup id T = Some (SG ch) ->
    (forall n0 c0, In (n0, c0) ch -> walk_eq rec f c0) ->
    NoDup (gpre (S f) T id) -> (forall x, In x (gpre (S f) T id) -> ~ In x vis) ->
    load_group rec w vis id = match unfold KGroup (S f) T id with
                              | Some tr => Some (tr, vis ++ gpre (S f) T id)
                              | None => None
                              end.
  Proof.
    intros f rec id ch vis L W Hnd Hdis. cbn [unfold gpre] in *. rewrite L in *.
    unfold load_group.
    assert (Hv : nmem id vis = false) by (apply nmem_false; apply Hdis; left; reflexivity). rewrite Hv.
    destruct (r_group _ _ _ R id ch L) as (seg & ents & Hh & Hs & Hwf & Hob). rewrite Hh, Hs.
    inversion Hnd as [|? ? Hnot Hnd']; subst.
    rewrite (kids_umap f seg rec ch ents (vis ++ [id]) W (names_decode _ _ _ Hwf) Hob); try assumption.
    - destruct (umap (unfold KGroup f T) ch) as [ts|]; [|reflexivity]. rewrite <- app_assoc. reflexivity.
    - intros x Hx X. apply in_app_or in X. destruct X as [X|[->|[]]]; [apply (Hdis x); [right; assumption | assumption] | contradiction].
  Qed.

  Lemma walk_all : forall f, walk_ok f.
  Proof.
    induction f as [|f IH]; intros id anc Hid [Hanc Hdec] Hgrp vis Hnd Hdis; [reflexivity|].
    cbn [load_object].
    assert (Hb : id < s_clock t) by (apply (s_bound _ I); assumption).
    (* enterLoad: not an ancestor, not too deep *)
    assert (Hna : nmem id anc = false).
    { apply nmem_false. intro X. pose proof (Hanc id X) as G. destruct (Hgrp G) as [_ Hlt]. specialize (Hlt id X). lia. }
    assert (Hd : (max_depth c <=? blen anc) = false).
    { apply N.leb_gt. pose proof (dec_chain_len anc Hdec) as Len. destruct anc as [|a r]; [rewrite blen_nil; lia|].
      assert (a < s_clock t). { destruct (Hanc a (or_introl eq_refl)) as [cha La]. apply (s_bound _ I). rewrite La. discriminate. }
      lia. }
    rewrite Hna, Hd.
    destruct (alookup id T) as [nd|] eqn:L; [|contradiction].
    destruct (r_kind _ _ _ R id nd L) as (o & Ho & Hk). rewrite Ho, Hk.
    destruct nd as [ch| |q]; cbn [skind].
    - assert (G : is_group T id) by (exists ch; assumption). destruct (Hgrp G) as [Hpos Hlt].
      apply (group_walk f _ id ch vis L); try assumption.
      intros n0 c0 Hin. apply IH.
      + eapply (s_closed _ I); eassumption.
      + split.
        * intros a [<-|Ha]; [assumption | apply Hanc; assumption].
        * cbn [dec_chain]. split; [assumption|]. split; [|assumption]. destruct anc as [|b0 r]; [exact Logic.I | apply Hlt; left; reflexivity].
      + intros [ch0 Lc]. assert (id < c0) by (eapply (s_order _ I); eassumption). split; [lia|].
        intros a [<-|Ha]; [assumption | specialize (Hlt a Ha); lia].
    - cbn [unfold gpre]. rewrite L. rewrite app_nil_r. reflexivity.
    - cbn [unfold gpre]. rewrite L. rewrite app_nil_r. reflexivity.
  Qed.

  (* fuel: a sub-group has a larger id than its parent, and all ids are below the clock *)
  Lemma umap_total : forall soft f ch, (forall n0 c0, In (n0, c0) ch -> unfold soft f T c0 <> None) -> umap (unfold soft f T) ch <> None.
  Proof.
    intros soft f. induction ch as [|[n0 c0] ch IH]; intro H; cbn [umap]; [discriminate|].
    destruct (unfold soft f T c0) eqn:E; [|exfalso; apply (H n0 c0 (or_introl eq_refl)); assumption].
    assert (X : umap (unfold soft f T) ch <> None) by (apply IH; intros n1 c1 X; apply (H n1 c1); right; assumption).
    destruct (umap (unfold soft f T) ch); [discriminate | contradiction].
  Qed.

  Lemma unfold_total : forall soft f id, alookup id T <> None -> (N.to_nat (s_clock t - id) < f)%nat -> unfold soft f T id <> None.
  Proof.
    intros soft. induction f as [|f IH]; intros id Hid Hf; [lia|]. cbn [unfold].
    assert (Hb : id < s_clock t) by (apply (s_bound _ I); assumption).
    destruct (alookup id T) as [[ch| |q]|] eqn:L; try discriminate; [|contradiction].
    assert (X : umap (unfold soft f T) ch <> None).
    { apply umap_total. intros n0 c0 Hin.
      assert (Hc : alookup c0 T <> None) by (eapply (s_closed _ I); eassumption).
      assert (Hcb : c0 < s_clock t) by (apply (s_bound _ I); assumption).
      destruct (alookup c0 T) as [[ch0| |q0]|] eqn:Lc; [| | |contradiction].
      - apply IH; [rewrite Lc; discriminate|]. assert (id < c0) by (eapply (s_order _ I); eassumption). lia.
      - destruct f; [lia|]. cbn [unfold]. rewrite Lc. discriminate.
      - destruct f; [lia|]. cbn [unfold]. rewrite Lc. discriminate. }
    destruct (umap (unfold soft f T) ch); [discriminate | contradiction].
  Qed.

  Lemma read_tree_spec : exists tr, read_tree c w = Some tr /\ spec_tree_as KGroup t = Some tr.
  Proof.
    unfold read_tree, spec_tree_as. rewrite (r_clock _ _ _ R).
    assert (H0 : alookup 0 T <> None) by (destruct (s_root _ I) as [c0 X]; rewrite X; discriminate).
    destruct (s_root _ I) as [ch0 L0].
    rewrite (group_walk (N.to_nat (s_clock t)) _ 0 ch0 [] L0).
    - pose proof (unfold_total KGroup (S (N.to_nat (s_clock t))) 0 H0) as X.
      destruct (unfold KGroup (S (N.to_nat (s_clock t))) T 0) as [tr|]; [|exfalso; apply X; [lia | reflexivity]].
      exists tr. split; reflexivity.
    - intros n0 c0 Hin. apply walk_all.
      + eapply (s_closed _ I); eassumption.
      + split; [intros a [] | exact Logic.I].
      + intros [chc Lc]. assert (0 < c0) by (eapply (s_order _ I); eassumption). split; [lia | intros a []].
    - apply (s_tree _ I).
    - intros x _ [].
  Qed.
End Walk.

(* histories without soft links: the reader's view is the tree itself *)
Definition no_ss (T : nodes) : Prop := forall id q, alookup id T <> Some (SS q).

Lemma unfold_no_ss : forall T a b, no_ss T -> forall f id, unfold a f T id = unfold b f T id.
Proof.
  intros T a b H. induction f as [|f IH]; intro id; [reflexivity|]. cbn [unfold].
  destruct (alookup id T) as [[ch| |q]|] eqn:L; try reflexivity; [|exfalso; apply (H id q); assumption].
  assert (X : umap (unfold a f T) ch = umap (unfold b f T) ch).
  { clear L. induction ch as [|[n0 c0] ch IHc]; [reflexivity|]. cbn [umap]. rewrite IH, IHc. reflexivity. }
  rewrite X. reflexivity.
Qed.

Lemma no_ss_step : forall c t o, (match o with SoftLink _ _ => false | _ => true end) = true ->
  no_ss (s_nodes t) -> no_ss (s_nodes (fst (spec_step c t o))).
Proof.
  intros c t o Ho H. destruct (spec_step_shape c t o) as [(e & ->)|(g & ch & n & child & ->)]; [exact H|].
  cbn [fst s_tick s_nodes]. intros id q.
  destruct o; try discriminate; cbn [op_node]; rewrite !alookup_aset;
    try (destruct (s_clock t =? id); [discriminate|]); (destruct (g =? id); [discriminate | apply H]).
Qed.

Lemma no_ss_run : forall c h t, no_soft h = true -> no_ss (s_nodes t) -> no_ss (s_nodes (fst (run (spec_step c) t h))).
Proof.
  intros c h. induction h as [|o h IH]; intros t Hs H; [assumption|].
  cbn [no_soft forallb] in Hs. apply andb_true_iff in Hs. destruct Hs as [H1 H2].
  pose proof (no_ss_step c t o H1 H) as X. cbn [run]. destruct (spec_step c t o) as [t1 r1]. cbn [fst] in X.
  specialize (IH t1 H2 X). destruct (run (spec_step c) t1 h) as [t2 rs]. assumption.
Qed.

Lemma spec_run_clock : forall c h t, s_clock (fst (run (spec_step c) t h)) = s_clock t + blen h.
Proof.
  intros c h. induction h as [|o h IH]; intro t; [cbn [run fst]; rewrite blen_nil; lia|].
  cbn [run]. pose proof (spec_step_clock c t o) as X. destruct (spec_step c t o) as [t1 r1]. cbn [fst] in X.
  specialize (IH t1). destruct (run (spec_step c) t1 h) as [t2 rs]. cbn [fst] in *. rewrite IH, X, blen_cons. lia.
Qed.

(* not_too_deep: the reader follows at most max_depth nested groups (1024); a history of fewer calls
   cannot nest deeper *)
Definition not_too_deep (c : cfg) (h : list op) : bool := blen h <? max_depth c.

Theorem refines_reader_view : forall c h, adm c s_empty h = true -> not_too_deep c h = true ->
  map is_ok (snd (run (step c) (init c) h)) = map is_ok (snd (run (spec_step c) s_empty h)) /\
  exists tr, read_tree c (fst (run (step c) (init c) h)) = Some tr /\
             spec_tree_as KGroup (fst (run (spec_step c) s_empty h)) = Some tr.
Proof.
  intros c h A D. destruct (run_sim c h (init c) s_empty (rep_init c) sinv_empty A) as (H1 & H2 & H3).
  split; [assumption|]. eapply read_tree_spec; try eassumption.
  rewrite spec_run_clock. cbn [s_empty s_clock]. unfold not_too_deep in D. apply N.ltb_lt in D. lia.
Qed.

Theorem refines : forall c h, adm c s_empty h = true -> no_soft h = true -> not_too_deep c h = true ->
  map is_ok (snd (run (step c) (init c) h)) = map is_ok (snd (run (spec_step c) s_empty h)) /\
  exists tr, read_tree c (fst (run (step c) (init c) h)) = Some tr /\
             spec_tree (fst (run (spec_step c) s_empty h)) = Some tr.
Proof.
  intros c h A S D. destruct (refines_reader_view c h A D) as (H1 & tr & H2 & H3). split; [assumption|].
  exists tr. split; [assumption|]. unfold spec_tree, spec_tree_as in *. rewrite <- H3. apply unfold_no_ss.
  apply no_ss_run; [assumption|]. intros id q. cbn [s_empty s_nodes alookup]. destruct (0 =? id); discriminate.
Qed.
