(* C09 at file level: the arithmetic of Model/IOProgSlice.v (index-based, uint64) agrees with that of
   Model/Hyperslab.v (structural, unbounded N) on valid selections of datasets with fewer than 2^32 elements. *)
From HV Require Import Base.Prelude Base.Outcome Base.Bytes Model.IOProg Model.IOProgReader Model.IOProgSlice Model.SliceRefine.
From HV Require Proofs.HyperslabBase Proofs.SliceRefineFit.

Local Notation dflt := (Hs.mkAxis 0 0 0 0).

Lemma nth_zip4 : forall st c sr b i,
  length c = length st -> length sr = length st -> length b = length st -> (i < length st)%nat ->
  nth i (Hs.zip4 st c sr b) dflt = Hs.mkAxis (nth i st 0) (nth i c 0) (nth i sr 0) (nth i b 0).
Proof.
  induction st as [|x st IH]; intros c sr b i Hc Hs Hb Hi; [cbn in Hi; lia|].
  destruct c, sr, b; cbn [length] in *; try lia.
  destruct i; cbn [Hs.zip4 nth]; [reflexivity|]. apply IH; lia.
Qed.

Lemma nth_axes_of_sel s n i : sel_lens s n -> (i < n)%nat ->
  nth i (axes_of_sel s) (Hs.mkAxis 0 0 0 0) =
  Hs.mkAxis (nthN (start s) i) (nthN (count s) i) (nthN (stride s) i) (nthN (block s) i).
Proof.
  intros (H1 & H2 & H3 & H4) Hi. unfold axes_of_sel, nthN. apply nth_zip4; lia.
Qed.

Lemma axes_of_sel_length s n : sel_lens s n -> length (axes_of_sel s) = n.
Proof.
  intros (H1 & H2 & H3 & H4). unfold axes_of_sel. rewrite SliceRefineFit.zip4_length; lia.
Qed.

Lemma rev_seq_S n : rev (seq 0 (S n)) = map S (rev (seq 0 n)) ++ [0%nat].
Proof. cbn [seq rev]. rewrite <- seq_shift, map_rev. reflexivity. Qed.

Lemma lin_off_gen : forall coords dims,
  length coords = length dims -> Forall2 N.lt coords dims -> Hs.prodN dims < 18446744073709551616 ->
  fold_left (fun os i => (wrap64 (fst os + wrap64 (nth i coords 0 * snd os)), wrap64 (snd os * nth i dims 0)))
            (rev (seq 0 (length coords))) (0, 1) = Hs.lin_go coords dims.
Proof.
  induction coords as [|c cs IH]; intros [|d ds] Hl HF Hp; cbn [length] in Hl; try discriminate; [reflexivity|].
  cbn [length]. rewrite rev_seq_S, fold_left_app, fold_left_map.
  inversion HF; subst. cbn [nth Hs.prodN] in *.
  assert (Hd : 1 <= d) by lia.
  pose proof (HyperslabBase.lin_bound ds cs ltac:(assumption)) as Hb.
  assert (Hpp : 1 <= Hs.prodN ds) by lia.
  rewrite IH; [|lia|assumption|nia].
  cbn [fold_left Hs.lin_go].
  rewrite HyperslabBase.lin_go_spec by lia.
  cbn [fst snd].
  rewrite (wrap64_small (c * _)) by nia.
  rewrite !wrap64_small by nia. reflexivity.
Qed.

Lemma lin_off_eq coords dims : length coords = length dims -> Forall2 N.lt coords dims ->
  Hs.prodN dims < 18446744073709551616 -> lin_off coords dims = Hs.calc_lin coords dims.
Proof.
  intros Hl HF Hp. unfold lin_off, Hs.calc_lin, idxs, nthN. rewrite lin_off_gen by assumption. reflexivity.
Qed.

Lemma valid_nth ax dims : Hs.axes_valid ax dims ->
  1 <= Hs.prodN dims /\
  forall i, (i < length dims)%nat -> Hs.axis_valid (nth i ax dflt) (nth i dims 0) /\ nth i dims 0 <= Hs.prodN dims.
Proof.
  induction 1 as [|a d ax dims Ha Hv [IH1 IH2]].
  - split; [cbn; lia|]. intros i Hi. cbn in Hi. lia.
  - cbn [Hs.prodN]. assert (1 <= d) by (unfold Hs.axis_valid in Ha; lia). split; [nia|].
    intros [|i] Hi; cbn [nth length] in *.
    + split; [assumption|nia].
    + destruct (IH2 i ltac:(lia)). split; [assumption|nia].
Qed.

Lemma idx_facts s dims i :
  sel_lens s (length dims) -> Hs.axes_valid (axes_of_sel s) dims -> Hs.prodN dims < 4294967296 ->
  (i < length dims)%nat ->
  0 < nthN (count s) i /\ 0 < nthN (stride s) i /\ 0 < nthN (block s) i /\
  nthN (start s) i + (nthN (count s) i - 1) * nthN (stride s) i + nthN (block s) i <= nthN dims i /\
  nthN dims i < 4294967296.
Proof.
  intros Hl Hv Hp Hi. destruct (valid_nth _ _ Hv) as [_ H]. destruct (H i Hi) as [Ha Hd].
  rewrite (nth_axes_of_sel s (length dims)) in Ha by assumption.
  unfold Hs.axis_valid in Ha. cbn [Hs.a_start Hs.a_count Hs.a_stride Hs.a_block] in Ha.
  change (nthN dims i) with (nth i dims 0). lia.
Qed.

Lemma map_nth_seq {A B} (g : A -> B) (d : A) (l : list A) :
  map (fun i => g (nth i l d)) (seq 0 (length l)) = map g l.
Proof.
  induction l as [|x l IH]; [reflexivity|].
  cbn [length seq map nth]. f_equal. rewrite <- seq_shift, map_map. exact IH.
Qed.

Lemma w64_dec x : 1 <= x < 18446744073709551616 -> wrap64 (x + 18446744073709551615) = x - 1.
Proof. intros. unfold wrap64. lia. Qed.

Lemma last_rel_eq s dims :
  sel_lens s (length dims) -> Hs.axes_valid (axes_of_sel s) dims -> Hs.prodN dims < 4294967296 ->
  map (fun i => wrap64 (wrap64 (wrap64 ((nthN (count s) i - 1) * nthN (stride s) i) + nthN (block s) i) + 18446744073709551615))
      (idxs dims) = Hs.last_rel (axes_of_sel s).
Proof.
  intros Hl Hv Hp. unfold Hs.last_rel, idxs.
  rewrite <- (map_nth_seq _ dflt), (axes_of_sel_length s (length dims)) by assumption.
  apply map_ext_in. intros i Hi. apply in_seq in Hi.
  rewrite (nth_axes_of_sel s (length dims)) by (assumption || lia).
  cbn [Hs.a_start Hs.a_count Hs.a_stride Hs.a_block].
  destruct (idx_facts s dims i Hl Hv Hp ltac:(lia)) as (H1 & H2 & H3 & H4 & H5).
  rewrite (wrap64_small (_ * _)) by nia.
  rewrite (wrap64_small (_ + nthN (block s) i)) by nia.
  apply w64_dec. nia.
Qed.

Lemma nseq_gen : forall k a, map N.of_nat (seq a k) = Hs.nseq (N.of_nat a) k.
Proof.
  induction k as [|k IH]; intros a; [reflexivity|].
  cbn [seq map Hs.nseq]. f_equal. rewrite IH. f_equal. lia.
Qed.
Lemma nseq_nrange n : nseq n = Hs.nrange n.
Proof. unfold nseq, Hs.nrange. apply nseq_gen. Qed.

Lemma sel_idx_eq s dims i :
  sel_lens s (length dims) -> Hs.axes_valid (axes_of_sel s) dims -> Hs.prodN dims < 4294967296 ->
  (i < length dims)%nat ->
  sel_idx s dims i = Hs.axis_idx (nth i (axes_of_sel s) (Hs.mkAxis 0 0 0 0)).
Proof.
  intros Hl Hv Hp Hi.
  rewrite (nth_axes_of_sel s (length dims)) by assumption.
  unfold sel_idx, Hs.axis_idx. cbn [Hs.a_start Hs.a_count Hs.a_stride Hs.a_block].
  destruct (idx_facts s dims i Hl Hv Hp Hi) as (H1 & H2 & H3 & H4 & H5).
  rewrite !nseq_nrange.
  apply flat_map_ext_in. intros c Hc. apply HyperslabBase.in_nrange in Hc.
  rewrite <- HyperslabBase.flat_map_single.
  apply flat_map_ext_in. intros b Hb. apply HyperslabBase.in_nrange in Hb.
  assert (Hcs : c * nthN (stride s) i <= (nthN (count s) i - 1) * nthN (stride s) i) by nia.
  rewrite (wrap64_small (c * _)) by lia.
  rewrite (wrap64_small (nthN (start s) i + _)) by lia.
  rewrite wrap64_small by lia.
  destruct (N.leb_spec (nthN dims i) (nthN (start s) i + c * nthN (stride s) i + b)); [lia|reflexivity].
Qed.

Lemma nth_seq_id {A} (d : A) (l : list A) : map (fun i => nth i l d) (seq 0 (length l)) = l.
Proof. rewrite (map_nth_seq (fun x => x)). apply map_id. Qed.

Lemma fold_nth_seq {A S} (f : S -> A -> S) (d : A) (l : list A) (init : S) :
  fold_left (fun t i => f t (nth i l d)) (seq 0 (length l)) init = fold_left f l init.
Proof. rewrite <- (fold_left_map f (fun i => nth i l d)), nth_seq_id. reflexivity. Qed.

Lemma fold_nth_seq_rev {A S} (f : S -> A -> S) (d : A) (l : list A) (init : S) :
  fold_left (fun t i => f t (nth i l d)) (rev (seq 0 (length l))) init = fold_left f (rev l) init.
Proof. rewrite <- (fold_left_map f (fun i => nth i l d)), map_rev, nth_seq_id. reflexivity. Qed.

Definition osz (t : N) (a : Hs.axis) : N :=
  wrap64 (t * wrap64 (Hs.a_count a * (if Hs.a_block a =? 0 then 1 else Hs.a_block a))).

Lemma osz_nowrap ax dims : Hs.axes_valid ax dims -> forall t, 1 <= t ->
  t * (Hs.prodN dims * Hs.prodN dims) < 18446744073709551616 ->
  fold_left osz ax t =
  fold_left (fun t a => t * (Hs.a_count a * (if Hs.a_block a =? 0 then 1 else Hs.a_block a))) ax t.
Proof.
  induction 1 as [|a d ax dims Ha Hv IH]; intros t Ht Hb; [reflexivity|].
  cbn [fold_left]. unfold osz at 2.
  destruct (valid_nth _ _ Hv) as [HP _]. cbn [Hs.prodN] in Hb.
  destruct Ha as (H1 & H2 & H3 & H4).
  set (c := Hs.a_count a) in *. set (b := Hs.a_block a) in *. set (P := Hs.prodN dims) in *.
  destruct (N.eqb_spec b 0) as [|_]; [lia|].
  assert (Hc : c <= d) by nia. assert (Hbd : b <= d) by lia.
  assert (Hcb : c * b <= d * d) by nia.
  assert (HtP : 1 <= t * (P * P)) by nia.
  assert (Hdd : t * (c * b) * (P * P) <= t * (d * P * (d * P))) by nia.
  assert (Hcb1 : 1 <= c * b) by nia.
  assert (HPP : 1 <= P * P) by nia.
  rewrite (wrap64_small (c * b)) by nia.
  rewrite (wrap64_small (t * _)) by nia.
  apply IH; nia.
Qed.

Lemma out_size_eq s dims :
  sel_lens s (length dims) -> Hs.axes_valid (axes_of_sel s) dims -> Hs.prodN dims < 4294967296 ->
  dims <> [] -> out_size s = Hs.out_elems (axes_of_sel s).
Proof.
  intros Hl Hv Hp Hne. pose proof (axes_of_sel_length s _ Hl) as Hlen.
  assert (Hfold : fold_left (fun t i =>
                     wrap64 (t * wrap64 (nthN (count s) i * (if nthN (block s) i =? 0 then 1 else nthN (block s) i))))
                     (idxs (count s)) 1
                  = fold_left (fun t a => t * (Hs.a_count a * (if Hs.a_block a =? 0 then 1 else Hs.a_block a)))
                              (axes_of_sel s) 1).
  { rewrite <- (osz_nowrap _ _ Hv) by nia.
    rewrite <- (fold_nth_seq osz dflt). unfold idxs.
    replace (length (count s)) with (length (axes_of_sel s)) by (destruct Hl as (_ & -> & _); exact Hlen).
    apply fold_left_ext_in. intros t i Hi. apply in_seq in Hi.
    rewrite (nth_axes_of_sel s (length dims)) by (assumption || lia). reflexivity. }
  unfold out_size, Hs.out_elems. rewrite Hfold.
  destruct Hl as (_ & Hc & _).
  destruct (count s); [destruct dims; [congruence|discriminate]|].
  destruct (axes_of_sel s); [destruct dims; [congruence|discriminate]|]. reflexivity.
Qed.

Definition cg (st : bool * bool) (p : Hs.axis * N) : bool * bool :=
  let (a, d) := p in
  match st with
  | (false, _) => st
  | (true, false) => (((Hs.a_count a =? 1) && (Hs.a_block a =? 1)), false)
  | (true, true) =>
      if negb (Hs.a_count a =? 1) && negb (Hs.a_stride a =? Hs.a_block a) then (false, true)
      else (true, (Hs.a_start a =? 0) && (wrap64 (Hs.a_count a * Hs.a_block a) =? d))
  end.

Lemma contig_sim ax dims : Hs.axes_valid ax dims -> Hs.prodN dims < 4294967296 ->
  fst (fold_left cg (rev (combine ax dims)) (true, true)) = fst (Hs.contig_go ax dims) /\
  (fst (fold_left cg (rev (combine ax dims)) (true, true)) = true ->
   snd (fold_left cg (rev (combine ax dims)) (true, true)) = snd (Hs.contig_go ax dims)).
Proof.
  induction 1 as [|a d ax dims Ha Hv IH]; intros Hp; [cbn; auto|].
  cbn [combine rev]. rewrite fold_left_app. cbn [fold_left Hs.contig_go].
  destruct (valid_nth _ _ Hv) as [HP _]. cbn [Hs.prodN] in Hp.
  destruct Ha as (H1 & H2 & H3 & H4).
  destruct IH as [IH1 IH2]; [nia|].
  unfold cg at 1 3 5.
  assert (Hd : d < 4294967296) by nia.
  assert (Hc : Hs.a_count a <= d) by nia. assert (Hb : Hs.a_block a <= d) by lia.
  rewrite (wrap64_small (Hs.a_count a * Hs.a_block a)) by nia.
  destruct (fold_left cg (rev (combine ax dims)) (true, true)) as [[|] r2];
    destruct (Hs.contig_go ax dims) as [[|] m2]; cbn [fst snd] in *; try discriminate;
    [|cbn; intuition congruence].
  rewrite IH2 by reflexivity.
  destruct m2; cbn [negb].
  - destruct (Hs.a_count a =? 1), (Hs.a_stride a =? Hs.a_block a); cbn [negb andb]; try (split; congruence);
      destruct (Hs.a_start a =? 0), (Hs.a_count a * Hs.a_block a =? d); cbn; split; congruence.
  - destruct (Hs.a_count a =? 1), (Hs.a_block a =? 1); cbn; split; congruence.
Qed.

Lemma is_contig_eq s dims :
  sel_lens s (length dims) -> Hs.axes_valid (axes_of_sel s) dims -> Hs.prodN dims < 4294967296 ->
  is_contig s dims = Hs.is_contiguous_selection (axes_of_sel s) dims.
Proof.
  intros Hl Hv Hp. pose proof (axes_of_sel_length s _ Hl) as Hlen.
  unfold is_contig, Hs.is_contiguous_selection.
  rewrite <- (proj1 (contig_sim _ _ Hv Hp)). f_equal.
  rewrite <- (fold_nth_seq_rev cg (dflt, 0)). unfold idxs.
  rewrite combine_length, Hlen, Nat.min_id.
  apply fold_left_ext_in. intros st i Hi. apply in_rev, in_seq in Hi.
  rewrite combine_nth by lia.
  rewrite (nth_axes_of_sel s (length dims)) by (assumption || lia). reflexivity.
Qed.

Print Assumptions nth_axes_of_sel.
Print Assumptions axes_of_sel_length.
Print Assumptions lin_off_eq.
Print Assumptions last_rel_eq.
Print Assumptions sel_idx_eq.
Print Assumptions out_size_eq.
Print Assumptions is_contig_eq.
