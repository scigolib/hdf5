(* The fractal heap model (Model/FHeap.v), for C15.  In order: take / drop / slice / copy_into algebra and the
   fields of an id; the relation R between a single-block heap and the specification state, kept by every
   operation (insert_R, get_R, overwrite_R, delete_R); the serialised header and block, and the file after
   both are written (Section Stored: load_after_store, ro_read_stored, core_read_stored); refines, persist,
   persist_commutes, no_byte_lost, readers; last the witnesses by computation. *)
From HV Require Import Base.Prelude Base.Crc32 Model.FHeap.
From HV Require Base.Bytes.
From Coq Require Import Sorting.Sorted.

Local Open Scope N_scope.

Lemma len_nil {A} : len (@nil A) = 0. Proof. reflexivity. Qed.
Lemma len_cons {A} (x : A) l : len (x :: l) = 1 + len l.
Proof. unfold len. cbn [length]. lia. Qed.
Lemma len_app {A} (a b : list A) : len (a ++ b) = len a + len b.
Proof. unfold len. rewrite app_length. lia. Qed.
Lemma len_zeros n : len (zeros n) = n.
Proof. unfold len, zeros. rewrite repeat_length. lia. Qed.
Lemma len_take {A} n (l : list A) : len (take n l) = N.min n (len l).
Proof. unfold len, take. rewrite firstn_length. lia. Qed.
Lemma len_drop {A} n (l : list A) : len (drop n l) = len l - n.
Proof. unfold len, drop. rewrite skipn_length. lia. Qed.
Lemma len_slice {A} (l : list A) off n : off + n <= len l -> len (slice l off n) = n.
Proof. intros. unfold slice. rewrite len_take, len_drop. lia. Qed.
Lemma len_le k v : len (le k v) = N.of_nat k.
Proof. unfold len. now rewrite Bytes.length_le. Qed.

Lemma take_all {A} n (l : list A) : len l <= n -> take n l = l.
Proof. intros. unfold take. apply firstn_all2. unfold len in *. lia. Qed.
Lemma drop_all {A} n (l : list A) : len l <= n -> drop n l = [].
Proof. intros. unfold drop. apply skipn_all2. unfold len in *. lia. Qed.
Lemma take_0 {A} (l : list A) : take 0 l = [].
Proof. reflexivity. Qed.
Lemma drop_0 {A} (l : list A) : drop 0 l = l.
Proof. reflexivity. Qed.
Lemma take_drop {A} n (l : list A) : take n l ++ drop n l = l.
Proof. apply firstn_skipn. Qed.

Lemma take_app_l {A} n (a b : list A) : n <= len a -> take n (a ++ b) = take n a.
Proof.
  intros. unfold take. rewrite firstn_app.
  replace (N.to_nat n - length a)%nat with 0%nat by (unfold len in *; lia).
  cbn [firstn]. apply app_nil_r.
Qed.
Lemma take_app_r {A} n (a b : list A) : len a <= n -> take n (a ++ b) = a ++ take (n - len a) b.
Proof.
  intros. unfold take. rewrite firstn_app. rewrite firstn_all2 by (unfold len in *; lia).
  f_equal. f_equal. unfold len in *. lia.
Qed.
Lemma drop_app_l {A} n (a b : list A) : n <= len a -> drop n (a ++ b) = drop n a ++ b.
Proof.
  intros. unfold drop. rewrite skipn_app.
  replace (N.to_nat n - length a)%nat with 0%nat by (unfold len in *; lia). reflexivity.
Qed.
Lemma drop_app_r {A} n (a b : list A) : len a <= n -> drop n (a ++ b) = drop (n - len a) b.
Proof.
  intros. unfold drop. rewrite skipn_app. rewrite skipn_all2 by (unfold len in *; lia).
  cbn [app]. f_equal. unfold len in *. lia.
Qed.
Lemma drop_drop {A} a b (l : list A) : drop a (drop b l) = drop (a + b) l.
Proof. unfold drop. rewrite Bytes.skipn_skipn. f_equal. lia. Qed.
Lemma take_take {A} a b (l : list A) : a <= b -> take a (take b l) = take a l.
Proof. intros. unfold take. rewrite firstn_firstn. f_equal. lia. Qed.

Lemma slice_app_l {A} (a b : list A) off n : off + n <= len a -> slice (a ++ b) off n = slice a off n.
Proof.
  intros. unfold slice. rewrite drop_app_l by lia. apply take_app_l. rewrite len_drop. lia.
Qed.
Lemma slice_app_r {A} (a b : list A) off n : len a <= off -> slice (a ++ b) off n = slice b (off - len a) n.
Proof. intros. unfold slice. rewrite drop_app_r by lia. reflexivity. Qed.
Lemma slice_exact {A} (a : list A) b : slice (a ++ b) 0 (len a) = a.
Proof. unfold slice. rewrite drop_0. rewrite take_app_l by lia. apply take_all. lia. Qed.
Lemma slice_mid {A} (a b c : list A) : slice (a ++ b ++ c) (len a) (len b) = b.
Proof.
  rewrite slice_app_r by lia. replace (len a - len a) with 0 by lia. apply slice_exact.
Qed.
Lemma slice_full {A} (l : list A) : slice l 0 (len l) = l.
Proof. unfold slice. rewrite drop_0. apply take_all. lia. Qed.
Lemma split3 {A} (l : list A) off n : off + n <= len l ->
  l = take off l ++ slice l off n ++ drop (off + n) l.
Proof.
  intros. unfold slice.
  replace (drop (off + n) l) with (drop n (drop off l)) by (rewrite drop_drop; f_equal; lia).
  rewrite take_drop, take_drop. reflexivity.
Qed.

Lemma len_copy_into dst src : len (copy_into dst src) = len dst.
Proof.
  revert src. induction dst; intros; destruct src; cbn [copy_into]; try reflexivity.
  rewrite !len_cons, IHdst. reflexivity.
Qed.
Lemma copy_into_same dst src : len src = len dst -> copy_into dst src = src.
Proof.
  revert src. induction dst; intros; destruct src; cbn [copy_into]; try reflexivity.
  - rewrite len_cons, len_nil in H. lia.
  - rewrite len_cons, len_nil in H. lia.
  - f_equal. apply IHdst. rewrite !len_cons in H. lia.
Qed.
Lemma copy_into_app dst1 dst2 src : len src = len dst1 -> copy_into (dst1 ++ dst2) src = src ++ dst2.
Proof.
  revert src. induction dst1; intros; destruct src; cbn [copy_into app].
  - destruct dst2; reflexivity.
  - rewrite len_cons, len_nil in H. lia.
  - rewrite len_cons, len_nil in H. lia.
  - f_equal. apply IHdst1. rewrite !len_cons in H. lia.
Qed.
Lemma zeros_add a b : zeros (a + b) = zeros a ++ zeros b.
Proof. unfold zeros. rewrite N2Nat.inj_add. apply repeat_app. Qed.
Lemma copy_into_zeros n src : len src <= n -> copy_into (zeros n) src = src ++ zeros (n - len src).
Proof.
  intros. replace n with (len src + (n - len src)) at 1 by lia.
  rewrite zeros_add. apply copy_into_app. rewrite len_zeros. reflexivity.
Qed.

Lemma mkid_unfold off n :
  mkid off n = [0; off mod 256; (off / 256) mod 256; n mod 256; (n / 256) mod 256; (n / 256 / 256) mod 256; 0; 0].
Proof. reflexivity. Qed.

Lemma len_mkid off n : len (mkid off n) = 8.
Proof. reflexivity. Qed.

Definition lensz_ok (bs lensz : N) : Prop :=
  (lensz = 1 /\ bs <= 256) \/ (lensz = 2 /\ bs <= 65536) \/ (lensz = 3 /\ bs <= 16777216).

Lemma lensz_ok_bound bs lensz : lensz_ok bs lensz -> lensz <= 3 /\ bs <= 256 ^ lensz.
Proof. intros [[-> H]|[[-> H]|[-> H]]]; (split; [lia|exact H]). Qed.

Lemma firstn_le j k v : (j <= k)%nat -> firstn j (le k v) = le j v.
Proof.
  revert k v. induction j; intros [|k] v Hj; cbn [le firstn]; try reflexivity; try lia.
  f_equal. apply IHj. lia.
Qed.

(* an id is 0, the offset in 2 bytes, the length in 3 bytes, then padding: a length field of up to 3 bytes cut
   out at position 3 holds the low bytes of the length *)
Lemma id_slices off n tl lz : lz <= 3 ->
  let id := 0 :: le 2 off ++ le 3 n ++ tl in
  slice id 1 2 = le 2 off /\ slice id 3 lz = le (N.to_nat lz) n.
Proof.
  intros H id. split; [reflexivity|]. unfold slice, take, drop.
  change (skipn (N.to_nat 3) id) with (le 3 n ++ tl).
  rewrite firstn_app, Bytes.length_le, firstn_le by lia.
  replace (N.to_nat lz - 3)%nat with 0%nat by lia. apply app_nil_r.
Qed.

Lemma id_fields_tl bs lensz off n tl :
  lensz_ok bs lensz -> off < 65536 -> n < bs ->
  let id := 0 :: le 2 off ++ le 3 n ++ tl in
  unle (slice id 1 2) = off /\ unle (slice id 3 lensz) = n.
Proof.
  intros L Ho Hn id. destruct (lensz_ok_bound _ _ L) as [L3 Lb]. destruct (id_slices off n tl lensz L3) as [E1 E2].
  fold id in E1, E2. rewrite E1, E2.
  split; apply Bytes.unle_le_small; [exact Ho|rewrite N2Nat.id; lia].
Qed.

Lemma id_fields bs lensz off n :
  lensz_ok bs lensz -> off < 65536 -> n < bs ->
  unle (slice (mkid off n) 1 2) = off /\ unle (slice (mkid off n) 3 lensz) = n.
Proof. apply id_fields_tl. Qed.

Lemma id_off_mkid off n : off < 65536 -> id_off (mkid off n) = off.
Proof. apply (Bytes.unle_le_small 2). Qed.
Lemma id_len_mkid off n : n < 16777216 -> id_len (mkid off n) = n.
Proof. apply (Bytes.unle_le_small 3). Qed.

Lemma encode_id_mkid bs lensz off n : lensz_ok bs lensz -> n < bs -> encode_id lensz off n = mkid off n.
Proof.
  intros L Hn. rewrite mkid_unfold. unfold encode_id, ID_LEN, OFF_SZ.
  destruct L as [[-> Hb]|[[-> Hb]|[-> Hb]]].
  - change (N.to_nat 1) with 1%nat. cbn [le app]. unfold zeros. change (N.to_nat (8 - 1 - 2 - 1)) with 4%nat.
    cbn [repeat app]. repeat f_equal; lia.
  - change (N.to_nat 2) with 2%nat. cbn [le app]. unfold zeros. change (N.to_nat (8 - 1 - 2 - 2)) with 3%nat.
    cbn [repeat app]. repeat f_equal; lia.
  - change (N.to_nat 3) with 3%nat. cbn [le app]. unfold zeros. change (N.to_nat (8 - 1 - 2 - 3)) with 2%nat.
    cbn [repeat app]. reflexivity.
Qed.

(* the flag tests and the length test of the parser compute on an id of this form *)
Lemma parse_id_mkid h bs off n :
  lensz_ok bs (h_lensz h) -> off < 65536 -> n < bs -> parse_id h (mkid off n) = Ok (off, n).
Proof.
  intros L Ho Hn. destruct (id_fields bs _ off n L Ho Hn) as [F1 F2].
  change (parse_id h (mkid off n))
    with (Ok (unle (slice (mkid off n) 1 2), unle (slice (mkid off n) 3 (h_lensz h)))).
  now rewrite F1, F2.
Qed.

Lemma size_upper n k : n < 2 ^ k -> N.size n <= k.
Proof.
  intros. pose proof (N.size_le n). rewrite N.succ_double_spec in H0.
  assert (2 ^ N.size n < 2 ^ (k + 1)) by (rewrite N.pow_add_r; change (2 ^ 1) with 2; lia).
  apply N.pow_lt_mono_r_iff in H1; lia.
Qed.
Lemma size_lower n k : 2 ^ k <= n -> k < N.size n.
Proof.
  intros. pose proof (N.size_gt n).
  assert (2 ^ k < 2 ^ N.size n) by lia.
  apply N.pow_lt_mono_r_iff in H1; lia.
Qed.

Lemma lensz_of_ok bs : 0 < bs <= 65536 -> lensz_ok bs (lensz_of bs MAX_OBJ).
Proof.
  intros [Hp Hb]. unfold lensz_of. change (offset_size MAX_OBJ) with 3.
  unfold offset_size. destruct (N.eqb_spec bs 0); [lia|].
  assert (1 <= N.size bs) by (pose proof (size_lower bs 0); change (2 ^ 0) with 1 in *; lia).
  unfold lensz_ok.
  destruct (N.ltb_spec bs 256); [|destruct (N.ltb_spec bs 65536)].
  - pose proof (size_upper bs 8). change (2 ^ 8) with 256 in *. left. split; lia.
  - pose proof (size_upper bs 16). pose proof (size_lower bs 8).
    change (2 ^ 16) with 65536 in *. change (2 ^ 8) with 256 in *. right. left. split; lia.
  - pose proof (size_upper bs 17). pose proof (size_lower bs 16).
    change (2 ^ 16) with 65536 in *. change (2 ^ 17) with 131072 in *. right. right. split; lia.
Qed.
Lemma lensz_new_ok bs : bs <= 65536 -> lensz_ok bs (offset_size MAX_OBJ).
Proof. intros. change (offset_size MAX_OBJ) with 3. right. right. split; lia. Qed.

Lemma drop_take_comm {A} o off (l : list A) : o <= off -> drop o (take off l) = take (off - o) (drop o l).
Proof.
  intros. unfold drop, take. rewrite firstn_skipn_comm. f_equal. f_equal. lia.
Qed.
Lemma slice_take {A} (l : list A) off o m : o + m <= off -> slice (take off l) o m = slice l o m.
Proof.
  intros. unfold slice. rewrite drop_take_comm by lia. apply take_take. lia.
Qed.

Section Splice.
  Variables (l X : bytes) (off n : N).
  Hypothesis Hin : off + n <= len l.
  Hypothesis HX : len X = n.
  Let l' := take off l ++ X ++ drop (off + n) l.

  Lemma splice_len : len l' = len l.
  Proof. unfold l'. rewrite !len_app, len_take, len_drop. lia. Qed.
  Lemma splice_before o m : o + m <= off -> slice l' o m = slice l o m.
  Proof.
    intros. unfold l'. rewrite slice_app_l by (rewrite len_take; lia). apply slice_take. lia.
  Qed.
  Lemma splice_after o m : off + n <= o -> slice l' o m = slice l o m.
  Proof.
    intros. unfold l'. rewrite slice_app_r by (rewrite len_take; lia).
    rewrite slice_app_r by (rewrite len_take; lia).
    unfold slice. rewrite drop_drop. f_equal. f_equal. rewrite len_take. lia.
  Qed.
  Lemma splice_at : slice l' off n = X.
  Proof.
    unfold l'. pose proof (slice_mid (take off l) X (drop (off + n) l)) as M.
    rewrite len_take, HX in M. replace (N.min off (len l)) with off in M by lia. exact M.
  Qed.
End Splice.

Lemma copy_at_spec l off d : off + len d <= len l -> copy_at l off d = take off l ++ d ++ drop (off + len d) l.
Proof.
  intros. unfold copy_at. f_equal.
  rewrite <- (take_drop (len d) (drop off l)) at 1.
  rewrite copy_into_app by (rewrite len_take, len_drop; lia).
  f_equal. rewrite drop_drop. f_equal. lia.
Qed.

Lemma sum_len_app a b : sum_len (a ++ b) = sum_len a + sum_len b.
Proof. induction a as [|[k v] a]; cbn [sum_len app]. lia. rewrite IHa. lia. Qed.

Lemma lookup_in id l d : lookup id l = Some d -> In (id, d) l.
Proof.
  induction l as [|[k v] l]; cbn [lookup]; intros. discriminate.
  destruct (bytes_eqb k id) eqn:E.
  - apply Bytes.bytes_eqb_eq in E. injection H as ->. left. congruence.
  - right. auto.
Qed.

Lemma replace_len id d l : len (replace_id id d l) = len l.
Proof.
  induction l as [|[k v] l]; cbn [replace_id]. reflexivity.
  destruct (bytes_eqb k id); rewrite !len_cons; [reflexivity|]. rewrite IHl. reflexivity.
Qed.
Lemma replace_sum id d l old : lookup id l = Some old -> len d = len old -> sum_len (replace_id id d l) = sum_len l.
Proof.
  induction l as [|[k v] l]; cbn [lookup replace_id sum_len]; intros. discriminate.
  destruct (bytes_eqb k id).
  - injection H as ->. cbn [sum_len]. lia.
  - cbn [sum_len]. rewrite IHl by assumption. reflexivity.
Qed.
Lemma remove_len id l old : lookup id l = Some old -> len (remove_id id l) + 1 = len l.
Proof.
  induction l as [|[k v] l]; cbn [lookup remove_id]; intros. discriminate.
  destruct (bytes_eqb k id).
  - rewrite len_cons. lia.
  - rewrite !len_cons. rewrite <- (IHl H). lia.
Qed.
Lemma remove_sum id l old : lookup id l = Some old -> sum_len (remove_id id l) + len old = sum_len l.
Proof.
  induction l as [|[k v] l]; cbn [lookup remove_id sum_len]; intros. discriminate.
  destruct (bytes_eqb k id).
  - injection H as ->. lia.
  - cbn [sum_len]. rewrite <- (IHl H). lia.
Qed.

Lemma sorted_snoc {A} (P : A -> A -> Prop) l e :
  StronglySorted P l -> Forall (fun a => P a e) l -> StronglySorted P (l ++ [e]).
Proof.
  induction 1; intros F; cbn [app].
  - constructor. constructor. constructor.
  - inversion F; subst. constructor. auto.
    apply Forall_app. split. assumption. constructor. assumption. constructor.
Qed.

Definition eoff (e : bytes * bytes) : N := id_off (fst e).
Definition elen (e : bytes * bytes) : N := len (snd e).

Definition entry_ok (objs : bytes) (vol : N) (e : bytes * bytes) : Prop :=
  fst e = mkid (eoff e) (elen e) /\ 0 < elen e /\ eoff e + elen e <= vol /\ slice objs (eoff e) (elen e) = snd e.

Definition before (a b : bytes * bytes) : Prop := eoff a + elen a <= eoff b.

(* a single-direct-block heap [h] (with file state [fs]) represents the specification state [sp] *)
Record R (bs : N) (h : heap) (fs : fstate) (sp : spec) : Prop := mkR {
  R_ind : h_ind h = None;
  R_others : h_others h = [];
  R_size : db_size (h_blk h) = bs;
  R_boff : db_boff (h_blk h) = 0;
  R_start : h_start h = bs;
  R_maxdb : h_maxdb h = bs;
  R_mansize : h_mansize h = bs;
  R_alloc : h_alloc h = bs;
  R_rows : h_rows h = 0;
  R_fhmax : h_fhmax h = bs;
  R_lensz : lensz_ok bs (h_lensz h);
  R_freeoff : db_free (h_blk h) = sp_vol sp;
  R_manoff : h_manoff h = sp_vol sp;
  R_vol : sp_vol sp <= len (db_objs (h_blk h));
  R_objlen : len (db_objs (h_blk h)) <= cap_new bs;
  R_nobj : h_nobj h = len (sp_live sp);
  R_free : h_free h = bs - sum_len (sp_live sp);
  R_sum : sum_len (sp_live sp) <= sp_vol sp;
  R_cnt : len (sp_live sp) <= sp_vol sp;
  R_live : Forall (entry_ok (db_objs (h_blk h)) (sp_vol sp)) (sp_live sp);
  R_sorted : StronglySorted before (sp_live sp);
  (* an unloaded heap is stored at the first allocation, 2048 / 2048 + HDR_SIZE; a loaded one stays there *)
  R_addr : (h_loaded h = None /\ f_next fs = 2048) \/ h_loaded h = Some (2048, 2194)
}.

Lemma bs_ok_bounds bs : bs_ok bs = true -> 19 < bs <= 65536 /\ cap_new bs = bs - 19.
Proof.
  unfold bs_ok, cap_new, PREFIX, CKSUM. intros H. apply andb_true_iff in H as [H1 H2].
  apply N.ltb_lt in H1. apply N.leb_le in H2. change (15 + 4) with 19 in *.
  destruct (N.ltb_spec bs 19); lia.
Qed.

Lemma R_new bs : bs_ok bs = true -> R bs (new_heap bs) fs0 spec0.
Proof.
  intros H. apply bs_ok_bounds in H as [[H1 H2] H3].
  constructor; cbn; try reflexivity; try lia.
  - apply lensz_new_ok. lia.
  - constructor.
  - constructor.
  - left. split; reflexivity.
Qed.

Lemma entry_ok_weaken objs objs' vol vol' e :
  entry_ok objs vol e -> vol <= vol' ->
  (forall o m, o + m <= vol -> slice objs' o m = slice objs o m) -> entry_ok objs' vol' e.
Proof.
  intros (A & B & C & D) Hv Hs. repeat split; try assumption; try lia. rewrite Hs by lia. assumption.
Qed.

Lemma blk_put_objs b d :
  exists X, db_objs (blk_put b d) = take (db_free b) X ++ d ++ drop (db_free b + len d) X
    /\ len X = N.max (len (db_objs b)) (db_free b + len d)
    /\ (forall o m, o + m <= len (db_objs b) -> slice X o m = slice (db_objs b) o m).
Proof.
  unfold blk_put. cbn [db_objs]. eexists. split; [apply copy_at_spec|split].
  - destruct (N.ltb_spec (len (db_objs b)) (db_free b + len d)); [rewrite len_app, len_zeros|]; lia.
  - destruct (N.ltb_spec (len (db_objs b)) (db_free b + len d)); [rewrite len_app, len_zeros|]; lia.
  - intros. destruct (N.ltb_spec (len (db_objs b)) (db_free b + len d)); [|reflexivity]. apply slice_app_l. assumption.
Qed.

Lemma insert_R bs h fs sp d pick :
  bs_ok bs = true -> R bs h fs sp -> 0 < len d -> len d <= MAX_OBJ -> sp_vol sp + len d <= cap_new bs ->
  exists h', insert cap_new h d pick = (h', Ok (mkid (sp_vol sp) (len d)))
    /\ R bs h' fs (mkSpec (sp_live sp ++ [(mkid (sp_vol sp) (len d), d)]) (sp_vol sp + len d)).
Proof.
  intros Hbs HR Hn0 Hmax Hfit. pose proof (bs_ok_bounds bs Hbs) as [[Hb1 Hb2] Hcap].
  destruct HR. set (n := len d) in *. set (vol := sp_vol sp) in *.
  unfold insert. fold n.
  destruct (N.eqb_spec n 0); [lia|]. destruct (N.ltb_spec MAX_OBJ n); [lia|].
  unfold needs_transition. rewrite R_ind0, R_freeoff0, R_size0.
  destruct (N.leb_spec (vol + n) (cap_new bs)); [|lia]. cbn [negb]. rewrite R_ind0.
  unfold insert_direct. fold n. rewrite R_freeoff0, R_size0.
  destruct (N.ltb_spec (cap_new bs) (vol + n)); [lia|].
  eexists. split.
  { f_equal. f_equal. apply (encode_id_mkid bs); [assumption|lia]. }
  destruct (blk_put_objs (h_blk h) d) as (objsX & Hobjs & HX & HX3). fold n in Hobjs, HX. rewrite R_freeoff0 in Hobjs, HX.
  set (objs := db_objs (h_blk h)) in *.
  assert (HX1 : vol + n <= len objsX) by lia. assert (HX2 : len objsX <= cap_new bs) by lia.
  constructor; cbn [bump_stats set_blk h_ind h_others h_blk db_size db_boff h_start h_maxdb h_mansize h_alloc h_rows
                    h_fhmax h_lensz h_manoff h_nobj h_free h_loaded sp_vol sp_live blk_put db_free]; try assumption.
  - rewrite R_freeoff0. reflexivity.
  - rewrite R_manoff0. apply Bytes.wrap64_small. lia.
  - fold (blk_put (h_blk h) d). rewrite Hobjs. rewrite splice_len; fold n; [lia|lia|reflexivity].
  - fold (blk_put (h_blk h) d). rewrite Hobjs. rewrite splice_len; fold n; [lia|lia|reflexivity].
  - rewrite R_nobj0, len_app, len_cons, len_nil. rewrite Bytes.wrap64_small; lia.
  - rewrite R_free0, sum_len_app. cbn [sum_len]. fold n. rewrite Bytes.sub64_small; lia.
  - rewrite sum_len_app. cbn [sum_len]. fold n. lia.
  - rewrite len_app, len_cons, len_nil. lia.
  - fold (blk_put (h_blk h) d). rewrite Hobjs. apply Forall_app. split.
    + eapply Forall_impl; [|exact R_live0]. intros e He. eapply entry_ok_weaken; [exact He|lia|].
      intros. rewrite splice_before by (fold n; lia). apply HX3. fold objs. lia.
    + constructor; [|constructor]. unfold entry_ok, eoff, elen. cbn [fst snd]. fold n.
      rewrite id_off_mkid by lia. repeat split; try lia. apply splice_at; fold n; [lia|reflexivity].
  - apply sorted_snoc. assumption.
    eapply Forall_impl; [|exact R_live0]. intros e (A & B & C & D). unfold before. unfold eoff at 2. cbn [fst].
    rewrite id_off_mkid by lia. assumption.
Qed.

Lemma R_entry bs h fs sp id d :
  bs_ok bs = true -> R bs h fs sp -> lookup id (sp_live sp) = Some d ->
  entry_ok (db_objs (h_blk h)) (sp_vol sp) (id, d) /\ id_off id < 65536 /\ len d < bs
  /\ parse_id h id = Ok (id_off id, len d).
Proof.
  intros Hbs HR Hl. pose proof (bs_ok_bounds bs Hbs) as [[Hb1 Hb2] Hcap]. destruct HR.
  apply lookup_in in Hl. rewrite Forall_forall in R_live0. specialize (R_live0 _ Hl).
  split. assumption.
  destruct R_live0 as (A & B & C & D). unfold eoff, elen in *. cbn [fst snd] in *.
  assert (id_off id < 65536) by lia. assert (len d < bs) by lia.
  repeat split; try assumption. rewrite A at 1. apply (parse_id_mkid h bs); assumption.
Qed.

Lemma get_R bs h fs sp id d :
  bs_ok bs = true -> R bs h fs sp -> lookup id (sp_live sp) = Some d -> get h id = Ok d.
Proof.
  intros Hbs HR Hl. destruct (R_entry _ _ _ _ _ _ Hbs HR Hl) as ((A & B & C & D) & Ho & Hn & Hp).
  unfold eoff, elen in *. cbn [fst snd] in *. destruct HR.
  unfold get. rewrite Hp, R_ind0. unfold get_in.
  destruct (N.leb_spec (len (db_objs (h_blk h))) (id_off id)); [lia|].
  destruct (N.ltb_spec (len (db_objs (h_blk h))) (id_off id + len d)); [lia|].
  f_equal. assumption.
Qed.

Lemma before_replace a id d old l :
  Forall (before a) l -> lookup id l = Some old -> len d = len old -> Forall (before a) (replace_id id d l).
Proof.
  induction l as [|[k v] l]; cbn [lookup replace_id]; intros F Hl Hd. constructor.
  inversion F; subst. destruct (bytes_eqb k id).
  - injection Hl as ->. constructor; [|assumption]. unfold before, eoff, elen in *. cbn [fst snd] in *. lia.
  - constructor. assumption. auto.
Qed.
Lemma forall_remove (P : bytes * bytes -> Prop) id l : Forall P l -> Forall P (remove_id id l).
Proof.
  induction l as [|[k v] l]; cbn [remove_id]; intros F. constructor.
  inversion F; subst. destruct (bytes_eqb k id). assumption. constructor; auto.
Qed.
Lemma sorted_remove id l : StronglySorted before l -> StronglySorted before (remove_id id l).
Proof.
  induction 1 as [|[k v] l S IH F]; cbn [remove_id]. constructor.
  destruct (bytes_eqb k id). assumption. constructor. assumption. apply forall_remove. assumption.
Qed.

Section Modify.
  Variables (objs X : bytes) (vol : N) (id old : bytes).
  Let off := id_off id.
  Let n := len old.
  Hypothesis Hin : off + n <= len objs.
  Hypothesis HX : len X = n.
  Let objs' := take off objs ++ X ++ drop (off + n) objs.

  Lemma modify_replace l :
    StronglySorted before l -> Forall (entry_ok objs vol) l -> lookup id l = Some old ->
    Forall (entry_ok objs' vol) (replace_id id X l) /\ StronglySorted before (replace_id id X l).
  Proof.
    intros S F Hl. induction S as [|[k v] l S IH Fb]; cbn [lookup replace_id] in *. discriminate.
    inversion F as [|? ? E F']; subst x l0.
    destruct (bytes_eqb k id) eqn:Ek.
    - apply Bytes.bytes_eqb_eq in Ek. injection Hl as Hv. subst k v. split.
      + constructor.
        * destruct E as (A & B & C & D). unfold entry_ok, eoff, elen in *. cbn [fst snd] in *.
          fold off in A, C, D |- *. rewrite HX. fold n in A, B, C, D |- *. repeat split; try assumption.
          unfold objs'. apply splice_at; assumption.
        * rewrite Forall_forall in *. intros e He. specialize (Fb e He). specialize (F' e He).
          destruct F' as (A & B & C & D). repeat split; try assumption.
          unfold objs'. rewrite splice_after; assumption.
      + constructor. assumption.
        eapply Forall_impl; [|exact Fb]. intros e He. unfold before, eoff, elen in *. cbn [fst snd] in *. lia.
    - destruct (IH F' Hl) as [IH1 IH2]. split.
      + constructor; [|assumption].
        destruct E as (A & B & C & D). repeat split; try assumption.
        unfold objs'. rewrite splice_before; try assumption.
        apply lookup_in in Hl. rewrite Forall_forall in Fb. specialize (Fb _ Hl).
        unfold before, eoff at 2 in Fb. cbn [fst] in Fb. assumption.
      + constructor. assumption. eapply before_replace; eassumption.
  Qed.

  Lemma modify_remove l :
    StronglySorted before l -> Forall (entry_ok objs vol) l -> lookup id l = Some old ->
    Forall (entry_ok objs' vol) (remove_id id l).
  Proof.
    intros S F Hl. induction S as [|[k v] l S IH Fb]; cbn [lookup remove_id] in *. discriminate.
    inversion F as [|? ? E F']; subst x l0.
    destruct (bytes_eqb k id) eqn:Ek.
    - apply Bytes.bytes_eqb_eq in Ek. injection Hl as Hv. subst k v.
      rewrite Forall_forall in *. intros e He. specialize (Fb e He). specialize (F' e He).
      destruct F' as (A & B & C & D). repeat split; try assumption.
      unfold objs'. rewrite splice_after; assumption.
    - constructor; [|auto].
      destruct E as (A & B & C & D). repeat split; try assumption.
      unfold objs'. rewrite splice_before; try assumption.
      apply lookup_in in Hl. rewrite Forall_forall in Fb. specialize (Fb _ Hl).
      unfold before, eoff at 2 in Fb. cbn [fst] in Fb. assumption.
  Qed.
End Modify.

Lemma overwrite_err_R bs h fs sp id d old :
  bs_ok bs = true -> R bs h fs sp -> lookup id (sp_live sp) = Some old -> len d <> len old ->
  overwrite h id d = (h, Err).
Proof.
  intros Hbs HR Hl Hd. destruct (R_entry _ _ _ _ _ _ Hbs HR Hl) as (_ & _ & _ & Hp).
  unfold overwrite. rewrite Hp. destruct (N.eqb_spec (len d) (len old)); [contradiction|]. reflexivity.
Qed.

Lemma overwrite_R bs h fs sp id d old :
  bs_ok bs = true -> R bs h fs sp -> lookup id (sp_live sp) = Some old -> len d = len old ->
  exists h', overwrite h id d = (h', Ok tt) /\ R bs h' fs (mkSpec (replace_id id d (sp_live sp)) (sp_vol sp)).
Proof.
  intros Hbs HR Hl Hd. destruct (R_entry _ _ _ _ _ _ Hbs HR Hl) as ((A & B & C & D) & Ho & Hn & Hp).
  unfold eoff, elen in *. cbn [fst snd] in *. destruct HR.
  set (objs := db_objs (h_blk h)) in *. set (off := id_off id) in *. set (n := len old) in *.
  unfold overwrite. rewrite Hp. fold objs.
  destruct (N.eqb_spec (len d) n); [|contradiction]. cbn [negb].
  destruct (N.leb_spec (len objs) off); [lia|].
  destruct (N.ltb_spec (len objs) (off + n)); [lia|].
  eexists. split. reflexivity.
  rewrite copy_into_same by (rewrite len_slice; lia).
  assert (Hin : off + n <= len objs) by lia.
  destruct (modify_replace objs d (sp_vol sp) id old Hin Hd (sp_live sp) R_sorted0 R_live0 Hl) as [M1 M2].
  constructor; cbn [set_blk set_objs h_ind h_others h_blk db_size db_boff h_start h_maxdb h_mansize h_alloc h_rows
                    h_fhmax h_lensz h_manoff h_nobj h_free h_loaded sp_vol sp_live db_free db_objs]; try assumption.
  - rewrite splice_len; assumption.
  - rewrite splice_len; assumption.
  - rewrite replace_len. assumption.
  - rewrite (replace_sum id d _ old) by assumption. assumption.
  - rewrite (replace_sum id d _ old) by assumption. assumption.
  - rewrite replace_len. assumption.
Qed.

Lemma delete_R bs h fs sp id old :
  bs_ok bs = true -> R bs h fs sp -> lookup id (sp_live sp) = Some old ->
  exists h', delete h id = (h', Ok tt) /\ R bs h' fs (mkSpec (remove_id id (sp_live sp)) (sp_vol sp)).
Proof.
  intros Hbs HR Hl. destruct (R_entry _ _ _ _ _ _ Hbs HR Hl) as ((A & B & C & D) & Ho & Hn & Hp).
  pose proof (bs_ok_bounds bs Hbs) as [[Hb1 Hb2] Hcap].
  unfold eoff, elen in *. cbn [fst snd] in *. destruct HR.
  set (objs := db_objs (h_blk h)) in *. set (off := id_off id) in *. set (n := len old) in *.
  unfold delete. rewrite Hp. fold objs.
  destruct (N.leb_spec (len objs) off); [lia|].
  destruct (N.ltb_spec (len objs) (off + n)); [lia|].
  eexists. split. reflexivity.
  assert (Hin : off + n <= len objs) by lia.
  pose proof (modify_remove objs (zeros n) (sp_vol sp) id old Hin (len_zeros n) (sp_live sp) R_sorted0 R_live0 Hl) as M.
  pose proof (remove_len id _ old Hl) as L1. pose proof (remove_sum id _ old Hl) as L2. fold n in L2.
  constructor; cbn [set_blk set_objs h_ind h_others h_blk db_size db_boff h_start h_maxdb h_mansize h_alloc h_rows
                    h_fhmax h_lensz h_manoff h_nobj h_free h_loaded sp_vol sp_live db_free db_objs]; try assumption.
  - rewrite splice_len; [assumption..|apply len_zeros].
  - rewrite splice_len; [assumption..|apply len_zeros].
  - rewrite R_nobj0. rewrite Bytes.sub64_small; lia.
  - rewrite R_free0. rewrite Bytes.wrap64_small; lia.
  - lia.
  - lia.
  - apply sorted_remove. assumption.
Qed.

Lemma get_le_le n k v r : N.to_nat n = k -> get_le n (le k v ++ r) = (v mod 256 ^ N.of_nat k, r).
Proof.
  intros. unfold get_le. assert (len (le k v) = n) by (rewrite len_le; lia).
  rewrite take_app_l by lia. rewrite take_all by lia. rewrite drop_app_l by lia.
  rewrite drop_all by lia. rewrite Bytes.unle_le. reflexivity.
Qed.
Lemma get_le_one v r : get_le 1 ([v] ++ r) = (v, r).
Proof. unfold get_le, take, drop. change (N.to_nat 1) with 1%nat. cbn [app firstn skipn unle]. f_equal. lia. Qed.

Lemma len_header_body h : len (header_body h) = 142.
Proof. reflexivity. Qed.

Lemma parse_header_body h :
  parse_header (header_body h) =
  Ok (mkRH 8 0 0 65536 (wrap64 (h_free h)) (wrap64 (h_mansize h)) (wrap64 (h_alloc h)) (wrap64 (h_manoff h))
           (wrap64 (h_nobj h)) 2 (wrap64 (h_start h)) (wrap64 (h_maxdb h)) 16 (wrap64 (h_root h)) (wrap16 (h_rows h))).
Proof.
  unfold parse_header, header_body.
  change (take 4 (SIG_FRHP ++ ?x)) with SIG_FRHP.
  change (bytes_eqb SIG_FRHP SIG_FRHP) with true. cbn [negb].
  change (drop 4 (SIG_FRHP ++ ?x)) with x.
  rewrite get_le_one. change (0 =? 0) with true. cbn [negb].
  pose proof (fun v r => get_le_le 2 2 v r eq_refl) as G2. pose proof (fun v r => get_le_le 8 8 v r eq_refl) as G8.
  rewrite G2, G2, get_le_one, (get_le_le 4 4) by reflexivity.
  rewrite !G8, G2, !G8, !G2, G8. rewrite <- (app_nil_r (le 2 (h_rows h))), G2.
  reflexivity.
Qed.

(* the header fields the attribute reader picks by offset *)
Lemma header_fields h :
  slice (header_body h) 0 4 = SIG_FRHP /\ slice (header_body h) 10 4 = le 4 MAX_OBJ
  /\ slice (header_body h) 120 8 = le 8 (h_maxdb h) /\ slice (header_body h) 128 2 = le 2 MAX_HEAP_BITS
  /\ slice (header_body h) 132 8 = le 8 (h_root h).
Proof. repeat split. Qed.

Lemma take_zeros a b : a <= b -> take a (zeros b) = zeros a.
Proof.
  intros. replace b with (a + (b - a)) by lia. rewrite zeros_add. rewrite take_app_l by (rewrite len_zeros; lia).
  apply take_all. rewrite len_zeros. lia.
Qed.

(* the serialised direct block when the objects fit the usable space: nothing is cut off *)
Lemma encode_dblock_shape b :
  19 <= db_size b -> len (db_objs b) <= db_size b - 19 ->
  exists c, encode_dblock b =
    (SIG_FHDB ++ [0]) ++ le 8 (db_hdraddr b) ++ le 2 (db_boff b)
    ++ (db_objs b ++ zeros (db_size b - 19 - len (db_objs b))) ++ le 4 c.
Proof.
  intros Hs Ho. unfold encode_dblock, PREFIX, CKSUM.
  set (pre := SIG_FHDB ++ [0] ++ le 8 (db_hdraddr b) ++ le 2 (db_boff b)).
  assert (Hpre : len pre = 15) by reflexivity.
  rewrite copy_into_zeros by lia.
  set (body := take (db_size b - 4) (pre ++ db_objs b ++ zeros (db_size b - 15 - len (db_objs b)))).
  assert (Hbody : body = pre ++ db_objs b ++ zeros (db_size b - 19 - len (db_objs b))).
  { unfold body. rewrite take_app_r by lia. f_equal. rewrite Hpre.
    rewrite take_app_r by lia. f_equal. rewrite take_zeros by lia. f_equal. lia. }
  exists (crc32 body). rewrite Hbody at 1. unfold pre. rewrite <- !app_assoc. reflexivity.
Qed.

Lemma len_encode_dblock b :
  19 <= db_size b -> len (db_objs b) <= db_size b - 19 -> len (encode_dblock b) = db_size b.
Proof.
  intros Hs Ho. destruct (encode_dblock_shape b Hs Ho) as [c ->].
  rewrite !len_app, !len_le, len_zeros. change (len SIG_FHDB) with 4. change (len [0]) with 1. lia.
Qed.

Lemma len_encode_header h : len (encode_header h) = 146.
Proof. reflexivity. Qed.

Lemma len_write_at f a d : len (write_at f a d) = N.max (len f) (a + len d).
Proof.
  unfold write_at. destruct (N.ltb_spec (len f) (a + len d)).
  - rewrite !len_app, len_take, len_drop, len_app, len_zeros. lia.
  - rewrite !len_app, len_take, len_drop. lia.
Qed.
Lemma slice_write_at_same f a d : slice (write_at f a d) a (len d) = d.
Proof.
  unfold write_at. set (f' := if len f <? a + len d then f ++ zeros (a + len d - len f) else f).
  assert (a + len d <= len f').
  { unfold f'. destruct (N.ltb_spec (len f) (a + len d)); [rewrite len_app, len_zeros|]; lia. }
  apply splice_at. assumption. reflexivity.
Qed.
Lemma slice_write_at_before f a d o m :
  o + m <= a -> o + m <= len f -> slice (write_at f a d) o m = slice f o m.
Proof.
  intros. unfold write_at. set (f' := if len f <? a + len d then f ++ zeros (a + len d - len f) else f).
  assert (a + len d <= len f').
  { unfold f'. destruct (N.ltb_spec (len f) (a + len d)); [rewrite len_app, len_zeros|]; lia. }
  rewrite splice_before; try assumption; try reflexivity.
  unfold f'. destruct (N.ltb_spec (len f) (a + len d)); [|reflexivity]. apply slice_app_l. assumption.
Qed.

Lemma slice_slice {A} (l : list A) a n o m : o + m <= n -> slice (slice l a n) o m = slice l (a + o) m.
Proof.
  intros. unfold slice at 2. rewrite slice_take by lia. unfold slice. rewrite drop_drop. f_equal. f_equal. lia.
Qed.

Lemma slice_mid' {A} (a b c : list A) off n : len a = off -> len b = n -> slice (a ++ b ++ c) off n = b.
Proof. intros <- <-. apply slice_mid. Qed.

(* the fields of a serialised direct block, as LoadFromFile and the two readers cut them out *)
Lemma dblock_fields b : 19 <= db_size b -> len (db_objs b) <= db_size b - 19 ->
  let B := encode_dblock b in
  len B = db_size b /\ take 4 B = SIG_FHDB /\ slice B 4 1 = [0] /\ slice B 5 8 = le 8 (db_hdraddr b)
  /\ slice B 13 2 = le 2 (db_boff b)
  /\ slice B 15 (db_size b - 19) = db_objs b ++ zeros (db_size b - 19 - len (db_objs b)).
Proof.
  intros Hs Ho B. split; [apply len_encode_dblock; assumption|].
  destruct (encode_dblock_shape b Hs Ho) as [c E]. unfold B. rewrite E.
  (* the fields of fixed width in front of the objects compute *)
  repeat split.
  rewrite (app_assoc (SIG_FHDB ++ [0])), (app_assoc (_ ++ _)). apply slice_mid'; [reflexivity|].
  rewrite len_app, len_zeros. lia.
Qed.

Lemma block_bytes bs h fs sp id d :
  bs_ok bs = true -> R bs h fs sp -> lookup id (sp_live sp) = Some d ->
  slice (encode_dblock (h_blk h)) (PREFIX + id_off id) (len d) = d.
Proof.
  intros Hbs HR Hl. pose proof (bs_ok_bounds bs Hbs) as [[Hb1 Hb2] Hcap].
  destruct (R_entry _ _ _ _ _ _ Hbs HR Hl) as ((A & B & C & D) & _). unfold eoff, elen in *. cbn [fst snd] in *.
  destruct HR. destruct (dblock_fields (h_blk h)) as (_ & _ & _ & _ & _ & E); [lia..|].
  unfold PREFIX. rewrite <- (slice_slice _ 15 (db_size (h_blk h) - 19)), E by lia.
  rewrite slice_app_l by lia. exact D.
Qed.

Lemma R_set_addrs bs h fs sp a b : R bs h fs sp -> R bs (set_addrs h a b) fs sp.
Proof. intros []. constructor; assumption. Qed.

(* what LoadFromFile rebuilds from the bytes written by WriteToFile / WriteAt.  2048 is where Model.FHeap.fs0
   puts the allocator; the header takes HDR_SIZE = 146 bytes, so the root block follows at 2194 *)
Definition reloaded (bs : N) (h : heap) : heap :=
  let objs := db_objs (h_blk h) in
  mkHeap (h_free h) bs bs (h_manoff h) (h_nobj h) bs bs 2194 0 (lensz_of bs MAX_OBJ)
         (mkDB 2048 0 bs (objs ++ zeros (bs - 19 - len objs)) (h_manoff h)) None bs [] (Some (2048, 2194)).

(* the file after header and root block of a represented heap have been written at 2048 / 2194 *)
Section Stored.
  Variables (bs : N) (h : heap) (fs : fstate) (sp : spec) (f : bytes).
  Hypothesis Hbs : bs_ok bs = true.
  Hypothesis HR : R bs h fs sp.
  Let h1 := set_addrs h 2048 2194.
  Let H := encode_header h1.
  Let B := encode_dblock (h_blk h1).
  Let f2 := write_at (write_at f 2048 H) 2194 B.

  Lemma stored_fields :
    len B = bs /\ take 4 B = SIG_FHDB /\ slice B 4 1 = [0] /\ slice B 5 8 = le 8 2048 /\ slice B 13 2 = le 2 0
    /\ slice B 15 (bs - 19) = db_objs (h_blk h) ++ zeros (bs - 19 - len (db_objs (h_blk h))).
  Proof.
    pose proof (bs_ok_bounds bs Hbs) as [[Hb1 Hb2] Hcap]. destruct HR.
    pose proof (dblock_fields (h_blk h1)) as F. fold B in F.
    cbn [h1 set_addrs h_blk db_size db_objs db_hdraddr db_boff] in F. rewrite R_size0, R_boff0 in F. apply F; lia.
  Qed.

  Lemma stored_len : 2194 + bs <= len f2.
  Proof. destruct stored_fields as [L _]. unfold f2. rewrite len_write_at, L. lia. Qed.
  Lemma stored_block : slice f2 2194 bs = B.
  Proof. destruct stored_fields as [L _]. unfold f2. rewrite <- L. apply slice_write_at_same. Qed.
  Lemma stored_header_part o m : o + m <= 142 -> slice f2 (2048 + o) m = slice (header_body h1) o m.
  Proof.
    intros. rewrite <- (slice_slice f2 2048 146) by lia. unfold f2.
    rewrite slice_write_at_before; [|lia|rewrite len_write_at; change (len H) with 146; lia].
    change 146 with (len H). rewrite slice_write_at_same.
    unfold H, encode_header. apply slice_app_l. change (len (header_body h1)) with 142. assumption.
  Qed.

  Lemma stored_parse :
    parse_header (slice f2 2048 142)
    = Ok (mkRH 8 0 0 65536 (h_free h) bs bs (h_manoff h) (h_nobj h) 2 bs bs 16 2194 0).
  Proof.
    pose proof (bs_ok_bounds bs Hbs) as [[Hb1 Hb2] Hcap]. destruct HR.
    rewrite <- (N.add_0_r 2048), stored_header_part by lia.
    change 142 with (len (header_body h1)). rewrite slice_full, parse_header_body. unfold h1.
    cbn [set_addrs h_free h_mansize h_alloc h_manoff h_nobj h_start h_maxdb h_root h_rows].
    rewrite R_mansize0, R_alloc0, R_start0, R_maxdb0, R_rows0, !Bytes.wrap64_small by lia. reflexivity.
  Qed.

  Lemma load_after_store : load bs f2 2048 = Ok (reloaded bs h).
  Proof.
    pose proof (bs_ok_bounds bs Hbs) as [[Hb1 Hb2] Hcap]. pose proof stored_len as Hlen.
    destruct stored_fields as (_ & B4 & Bv & Bh & Bo & Bd).
    unfold load. change ((2048 =? 0) || (2048 =? ALL_ONES)) with false. cbv iota.
    unfold read_at, HDR_BODY. destruct (N.leb_spec (2048 + 142) (len f2)); [|lia].
    rewrite stored_parse. cbn [r_rows r_root r_start r_free r_mansize r_alloc r_manoff r_nobj r_maxdb r_maxobj].
    change (negb (0 =? 0)) with false. cbv iota.
    unfold read_dblock_w, read_at. change ((2194 =? 0) || (2194 =? ALL_ONES)) with false. cbv iota.
    destruct (N.leb_spec (2194 + bs) (len f2)); [|lia].
    rewrite stored_block, B4, Bv, Bh. unfold OFF_SZ, PREFIX, CKSUM. rewrite Bo.
    replace (bs - 4 - 15) with (bs - 19) by lia. rewrite Bd. reflexivity.
  Qed.

  Variables (id d : bytes).
  Hypothesis Hl : lookup id (sp_live sp) = Some d.

  Lemma stored_object : slice f2 (2194 + 15 + id_off id) (len d) = d.
  Proof.
    pose proof (bs_ok_bounds bs Hbs) as [[Hb1 Hb2] Hcap].
    destruct (R_entry _ _ _ _ _ _ Hbs HR Hl) as ((A & B0 & C & D) & Ho & Hn & Hp).
    unfold eoff, elen in *. cbn [fst snd] in *.
    replace (2194 + 15 + id_off id) with (2194 + (15 + id_off id)) by lia.
    rewrite <- (slice_slice f2 2194 bs) by (destruct HR; lia). rewrite stored_block.
    apply (block_bytes bs h1 fs sp id d Hbs (R_set_addrs _ _ _ _ _ _ HR) Hl).
  Qed.

  Lemma ro_read_stored : ro_read f2 2048 id = Ok d.
  Proof.
    pose proof (bs_ok_bounds bs Hbs) as [[Hb1 Hb2] Hcap].
    destruct (R_entry _ _ _ _ _ _ Hbs HR Hl) as ((A & B0 & C & D) & Ho & Hn & Hp).
    unfold eoff, elen in *. cbn [fst snd] in *.
    assert (Hv : sp_vol sp <= bs - 19) by (destruct HR; lia).
    pose proof stored_len as Hlen. destruct stored_fields as (LB & B4 & Bv & Bh & Bo & _).
    pose proof (block_bytes bs h1 fs sp id d Hbs (R_set_addrs _ _ _ _ _ _ HR) Hl) as Hblk.
    fold B in Hblk. unfold PREFIX in Hblk.
    pose proof (lensz_of_ok bs ltac:(lia)) as Lz. change MAX_OBJ with 65536 in Lz.
    destruct (lensz_ok_bound _ _ Lz) as [L3 _]. destruct (id_fields bs _ _ _ Lz Ho Hn) as [F1 F2].
    remember (id_off id) as off eqn:Eoff. rewrite A.
    unfold ro_read. change ((2048 =? 0) || (2048 =? ALL_ONES)) with false. cbv iota.
    unfold read_at, HDR_BODY. destruct (N.leb_spec (2048 + 142) (len f2)); [|lia].
    rewrite stored_parse. cbn [r_rows r_root r_start r_flags r_maxheap r_maxdb r_maxobj].
    rewrite mkid_unfold.
    change (N.shiftr (N.land 0 192) 6 =? 0) with true. cbn [negb]. change (N.land 0 48) with 0.
    change (0 =? 0) with true. cbv iota.
    change (wrap8 (wrap16 (16 + 7) / 8)) with 2.
    rewrite <- mkid_unfold, len_mkid.
    destruct (N.ltb_spec 8 (1 + 2 + lensz_of bs 65536)); [lia|].
    change (1 + 2) with 3. rewrite F1, F2. cbn [negb].
    change ((2194 =? 0) || (2194 =? ALL_ONES)) with false. cbv iota.
    destruct (N.leb_spec (2194 + bs) (len f2)); [|lia].
    rewrite stored_block, B4, Bv, Bh, Bo.
    change (bytes_eqb SIG_FHDB SIG_FHDB) with true. change (unle [0] =? 0) with true.
    change (unle (le 8 2048) =? 2048) with true. change (unle (le 2 0)) with 0.
    change (N.land 0 2 =? 0) with true. cbn [negb]. cbv iota.
    change (13 + 2) with 15. rewrite N.sub_0_r, len_slice by lia.
    destruct (N.ltb_spec off 0); [lia|].
    destruct (N.ltb_spec (bs - 15) off); [lia|]. destruct (N.ltb_spec (bs - 15) (off + len d)); [lia|].
    rewrite slice_slice by lia. f_equal. exact Hblk.
  Qed.

  Lemma core_read_stored : core_read f2 2048 id = Ok d.
  Proof.
    pose proof (bs_ok_bounds bs Hbs) as [[Hb1 Hb2] Hcap].
    destruct (R_entry _ _ _ _ _ _ Hbs HR Hl) as ((A & B0 & C & D) & Ho & Hn & Hp).
    unfold eoff, elen in *. cbn [fst snd] in *.
    pose proof stored_len as Hlen. pose proof stored_object as Hobj.
    destruct stored_fields as (LB & B4 & _ & _ & Bo & _).
    pose proof (lensz_of_ok bs ltac:(lia)) as Lz. change MAX_OBJ with 65536 in Lz.
    assert (Hmd : h_maxdb h1 = bs) by (destruct HR; assumption).
    remember (id_off id) as off eqn:Eoff. rewrite A.
    unfold core_read, read_some.
    assert (Hgot : len (slice f2 2048 144) = 144) by (apply len_slice; lia).
    rewrite Hgot. change (144 <? 20) with false. cbv iota.
    change (zeros (144 - 144)) with (@nil byte). rewrite app_nil_r.
    assert (Hpart : forall o m, o + m <= 142 -> slice (slice f2 2048 144) o m = slice (header_body h1) o m).
    { intros. rewrite slice_slice by lia. apply stored_header_part. assumption. }
    destruct (header_fields h1) as (E0 & E10 & E120 & E128 & E132).
    change (take 4 (slice f2 2048 144)) with (slice (slice f2 2048 144) 0 4).
    rewrite !Hpart, E0, E10, E120, E128, E132 by lia.
    change (bytes_eqb SIG_FRHP SIG_FRHP) with true. cbn [negb].
    change (unle (le 4 MAX_OBJ)) with 65536. change (unle (le 2 MAX_HEAP_BITS)) with 16.
    change (wrap8 (wrap16 (16 + 7) / 8)) with 2. change (unle (le 8 (h_root h1))) with 2194.
    rewrite Hmd, (Bytes.unle_le_small 8 bs) by (change (256 ^ N.of_nat 8) with 18446744073709551616; lia).
    replace (take 7 (mkid off (len d) ++ zeros 7)) with (0 :: le 2 off ++ le 3 (len d) ++ [0]) by reflexivity.
    destruct (id_fields_tl bs _ off (len d) [0] Lz Ho Hn) as [F1 F2].
    cbn [nth]. change (N.shiftr (N.land 0 48) 4 =? 0) with true. cbn [negb].
    change (N.min 2 6) with 2. change (1 + 2) with 3. change (5 + 8 + 2) with 15. change (15 + 16) with 31.
    change (take 2 (drop 1 ?x)) with (slice x 1 2). change (take ?k (drop 3 ?x)) with (slice x 3 k).
    rewrite F1, F2.
    assert (Hhb : forall o m, o + m <= 15 -> slice (slice f2 2194 31) o m = slice B o m).
    { intros. rewrite slice_slice by lia. rewrite <- (slice_slice f2 2194 bs), stored_block by lia. reflexivity. }
    assert (H15 : 15 <= len (slice f2 2194 31)) by (unfold slice; rewrite len_take, len_drop; lia).
    destruct (N.ltb_spec (len (slice f2 2194 31)) 15); [lia|].
    change (take 4 (slice f2 2194 31)) with (slice (slice f2 2194 31) 0 4). rewrite !Hhb by lia.
    change (slice B 0 4) with (take 4 B). rewrite B4, Bo.
    change (bytes_eqb SIG_FHDB SIG_FHDB) with true. cbn [negb]. change (unle (le 2 0)) with 0.
    destruct (N.ltb_spec off 0); [lia|]. rewrite N.sub_0_r.
    rewrite Hobj, N.ltb_irrefl. reflexivity.
  Qed.
End Stored.

Lemma R_reloaded bs h fs fs' sp : bs_ok bs = true -> R bs h fs sp -> R bs (reloaded bs h) fs' sp.
Proof.
  intros Hbs HR. pose proof (bs_ok_bounds bs Hbs) as [[Hb1 Hb2] Hcap]. destruct HR.
  constructor; unfold reloaded;
    cbn [h_ind h_others h_blk db_size db_boff h_start h_maxdb h_mansize h_alloc h_rows
         h_fhmax h_lensz h_manoff h_nobj h_free h_loaded db_free db_objs]; try assumption; try reflexivity.
  - apply lensz_of_ok. lia.
  - rewrite len_app, len_zeros. lia.
  - rewrite len_app, len_zeros. lia.
  - eapply Forall_impl; [|exact R_live0]. intros e He. eapply entry_ok_weaken; [exact He|lia|].
    intros. apply slice_app_l. lia.
  - right. reflexivity.
Qed.

Lemma store_files bs h fs sp :
  R bs h fs sp ->
  exists nx, store h fs =
    Ok (set_addrs h 2048 2194,
        mkFS (write_at (write_at (f_bytes fs) 2048 (encode_header (set_addrs h 2048 2194))) 2194
                       (encode_dblock (h_blk (set_addrs h 2048 2194)))) nx, 2048).
Proof.
  intros HR. destruct HR. unfold store, store_direct. rewrite R_ind0. destruct R_addr0 as [[-> Hn]| ->].
  - rewrite Hn. change (2048 + HDR_SIZE) with 2194. eexists. reflexivity.
  - eexists. reflexivity.
Qed.

Lemma step_SL_R bs h fs sp :
  bs_ok bs = true -> R bs h fs sp ->
  exists fs1, step cap_new bs (h, fs) SL = (reloaded bs h, fs1, OUnit) /\ R bs (reloaded bs h) fs1 sp.
Proof.
  intros Hbs HR. destruct (store_files bs h fs sp HR) as [nx Hs].
  unfold step. rewrite Hs. cbn [f_bytes].
  rewrite (load_after_store bs h fs sp (f_bytes fs) Hbs HR).
  eexists. split. reflexivity. eapply R_reloaded; eassumption.
Qed.

Lemma entry_id_len objs vol bs e : entry_ok objs vol e -> vol <= cap_new bs -> bs <= 65536 ->
  id_off (fst e) = eoff e /\ id_len (fst e) = elen e.
Proof.
  intros (A & B & C & D) Hv Hb. split. reflexivity.
  rewrite A. apply id_len_mkid. unfold cap_new, PREFIX, CKSUM in Hv. destruct (bs <? 15 + 4); lia.
Qed.

Lemma R_observables bs h fs sp : bs_ok bs = true -> R bs h fs sp -> observables bs h sp.
Proof.
  intros Hbs HR. pose proof (bs_ok_bounds bs Hbs) as [[Hb1 Hb2] Hcap].
  split; [|split; [|split; [|split]]].
  - intros. eapply get_R; eassumption.
  - destruct HR. clear - R_live0 R_sorted0.
    induction R_sorted0 as [|e l S IH F]; cbn [map]. constructor.
    inversion R_live0; subst. constructor; [|auto].
    intros Hin. apply in_map_iff in Hin as (e' & Heq & Hin').
    rewrite Forall_forall in F, H2. specialize (F _ Hin'). specialize (H2 _ Hin').
    destruct H1 as (A & B & C & D). destruct H2 as (A' & B' & C' & D').
    unfold before, eoff in F. rewrite Heq in F. unfold eoff in *. lia.
  - destruct HR.
    assert (Hv : sp_vol sp <= cap_new bs) by lia.
    clear - R_live0 R_sorted0 Hv Hb2.
    induction R_sorted0 as [|e l S IH F]. constructor.
    inversion R_live0; subst. constructor; [|auto].
    rewrite Forall_forall in *. intros e' Hin'. specialize (F _ Hin'). specialize (H2 _ Hin').
    destruct (entry_id_len _ _ bs _ H1 Hv Hb2) as [E1 E2]. destruct (entry_id_len _ _ bs _ H2 Hv Hb2) as [E1' E2'].
    unfold disjoint_ids. rewrite E1, E2, E1'. unfold before in F.
    apply orb_true_iff. left. apply N.leb_le. assumption.
  - destruct HR. assumption.
  - destruct HR. assumption.
Qed.

Lemma step_refines bs h fs sp o sp' x :
  bs_ok bs = true -> R bs h fs sp -> spec_step bs sp o = Some (sp', x) ->
  exists h' fs', step cap_new bs (h, fs) o = (h', fs', x) /\ R bs h' fs' sp'.
Proof.
  intros Hbs HR Hs. destruct o as [d pick|id|id d|id|]; cbn [spec_step] in Hs.
  - destruct ((len d =? 0) || (MAX_OBJ <? len d)) eqn:Ebad.
    + injection Hs as <- <-. exists h, fs. split; [|assumption].
      unfold step, insert. apply orb_true_iff in Ebad as [E|E].
      * rewrite E. reflexivity.
      * rewrite E. destruct (len d =? 0); reflexivity.
    + apply orb_false_iff in Ebad as [E1 E2]. apply N.eqb_neq in E1. apply N.ltb_ge in E2.
      destruct (N.ltb_spec (cap_new bs) (sp_vol sp + len d)); [discriminate|].
      injection Hs as <- <-.
      destruct (insert_R bs h fs sp d pick Hbs HR) as (h' & Hi & HR'); try lia.
      exists h', fs. split; [|assumption]. unfold step. rewrite Hi. reflexivity.
  - destruct (lookup id (sp_live sp)) as [d|] eqn:El; [|discriminate]. injection Hs as <- <-.
    exists h, fs. split; [|assumption]. unfold step. rewrite (get_R bs h fs sp id d) by assumption. reflexivity.
  - destruct (lookup id (sp_live sp)) as [old|] eqn:El; [|discriminate].
    destruct (N.eqb_spec (len d) (len old)).
    + injection Hs as <- <-. destruct (overwrite_R bs h fs sp id d old Hbs HR El e) as (h' & Ho & HR').
      exists h', fs. split; [|assumption]. unfold step. rewrite Ho. reflexivity.
    + injection Hs as <- <-. exists h, fs. split; [|assumption].
      unfold step. rewrite (overwrite_err_R bs h fs sp id d old) by assumption. reflexivity.
  - destruct (lookup id (sp_live sp)) as [old|] eqn:El; [|discriminate]. injection Hs as <- <-.
    destruct (delete_R bs h fs sp id old Hbs HR El) as (h' & Hd & HR').
    exists h', fs. split; [|assumption]. unfold step. rewrite Hd. reflexivity.
  - injection Hs as <- <-. destruct (step_SL_R bs h fs sp Hbs HR) as (fs1 & Hst & HR').
    exists (reloaded bs h), fs1. split; assumption.
Qed.

Lemma run_refines bs hist : forall h fs sp sp' eouts,
  bs_ok bs = true -> R bs h fs sp -> spec_run bs sp hist = Some (sp', eouts) ->
  exists h' fs', run cap_new bs (h, fs) hist = (h', fs', eouts) /\ R bs h' fs' sp'.
Proof.
  induction hist as [|o r IH]; intros h fs sp sp' eouts Hbs HR Hs; cbn [spec_run run] in *.
  - injection Hs as <- <-. exists h, fs. split; [reflexivity|assumption].
  - destruct (spec_step bs sp o) as [[sp1 x]|] eqn:E1; [|discriminate].
    destruct (spec_run bs sp1 r) as [[sp2 xs]|] eqn:E2; [|discriminate]. injection Hs as <- <-.
    destruct (step_refines bs h fs sp o sp1 x Hbs HR E1) as (h1 & fs1 & Hst & HR1).
    destruct (IH h1 fs1 sp1 sp2 xs Hbs HR1 E2) as (h2 & fs2 & Hrun & HR2).
    exists h2, fs2. split; [|assumption]. rewrite Hst, Hrun. reflexivity.
Qed.

(* under the named exclusions the specification is defined on the history *)
Lemma admissible_spec_run bs hist : forall sp,
  one_block_from bs (sp_vol sp) hist = true -> targets_live_from bs sp hist = true ->
  exists sp' eouts, spec_run bs sp hist = Some (sp', eouts).
Proof.
  induction hist as [|o r IH]; intros sp H1 H2; cbn [spec_run].
  - eexists _, _. reflexivity.
  - cbn [targets_live_from] in H2. apply andb_true_iff in H2 as [Hok Hrest].
    assert (Hstep : exists sp1 x, spec_step bs sp o = Some (sp1, x)
                     /\ one_block_from bs (sp_vol sp1) r = true).
    { destruct o as [d pick|id|id d|id|]; cbn [spec_step one_block_from] in *.
      - destruct ((len d =? 0) || (MAX_OBJ <? len d)).
        + eexists _, _. split; [reflexivity|assumption].
        + apply andb_true_iff in H1 as [Hf Hr]. apply N.leb_le in Hf.
          destruct (N.ltb_spec (cap_new bs) (sp_vol sp + len d)); [lia|].
          eexists _, _. split; [reflexivity|assumption].
      - destruct (lookup id (sp_live sp)); [|discriminate]. eexists _, _. split; [reflexivity|assumption].
      - destruct (lookup id (sp_live sp)); [|discriminate].
        destruct (len d =? len b); eexists _, _; (split; [reflexivity|assumption]).
      - destruct (lookup id (sp_live sp)); [|discriminate]. eexists _, _. split; [reflexivity|assumption].
      - eexists _, _. split; [reflexivity|assumption]. }
    destruct Hstep as (sp1 & x & Es & Hob). rewrite Es in Hrest |- *.
    destruct (IH sp1 Hob Hrest) as (sp2 & xs & Er). rewrite Er. eexists _, _. reflexivity.
Qed.

Lemma refines bs hist :
  bs_ok bs = true -> one_block bs hist = true -> targets_live bs hist = true ->
  exists sp eouts h fs,
    spec_run bs spec0 hist = Some (sp, eouts)
    /\ run cap_new bs (new_heap bs, fs0) hist = (h, fs, eouts)
    /\ R bs h fs sp /\ observables bs h sp.
Proof.
  intros Hbs H1 H2. destruct (admissible_spec_run bs hist spec0 H1 H2) as (sp & eouts & Hs).
  destruct (run_refines bs hist _ _ _ _ _ Hbs (R_new bs Hbs) Hs) as (h & fs & Hr & HR).
  exists sp, eouts, h, fs.
  split; [assumption|split; [assumption|split; [assumption|eapply R_observables; eassumption]]].
Qed.

Lemma insert_direct_full cap h d :
  cap (db_size (h_blk h)) < db_free (h_blk h) + len d -> insert_direct cap h d = (h, Err).
Proof.
  intros. unfold insert_direct. destruct (N.ltb_spec (cap (db_size (h_blk h))) (db_free (h_blk h) + len d)); [reflexivity|lia].
Qed.

Lemma insert_err_unchanged cap h d pick :
  h_ind h = None -> h_others h = [] ->
  snd (insert cap h d pick) = Err ->
  fst (insert cap h d pick) = h /\ (len d = 0 \/ MAX_OBJ < len d).
Proof.
  intros Hi Ho. unfold insert.
  destruct (N.eqb_spec (len d) 0). { intros _. cbn [fst]. auto. }
  destruct (N.ltb_spec MAX_OBJ (len d)). { intros _. cbn [fst]. auto. }
  unfold needs_transition. rewrite Hi.
  destruct (db_free (h_blk h) + len d <=? cap (db_size (h_blk h))) eqn:Efit; cbn [negb].
  - rewrite Hi. unfold insert_direct. apply N.leb_le in Efit.
    destruct (N.ltb_spec (cap (db_size (h_blk h))) (db_free (h_blk h) + len d)); [lia|]. cbv zeta. cbn [snd]. intros X; discriminate X.
  - cbn [transition h_ind]. unfold insert_indirect.
    assert (Hv : blocks_view (transition h) = [(db_boff (h_blk h), h_blk h)]).
    { unfold blocks_view. cbn [transition h_ind h_blk h_others]. rewrite Ho. reflexivity. }
    rewrite Hv. cbn [filter]. unfold fits. cbn [snd]. rewrite Efit.
    cbn [length Nat.max]. rewrite Nat.mod_1_r. cbn [nth_error].
    cbn [transition h_ind].
    change (len (zeros (1 * TABLE_WIDTH)) <=? len [(db_boff (h_blk h), h_blk h)]) with false.
    cbv iota zeta. cbn [snd]. intros X; discriminate X.
Qed.

Lemma no_byte_lost bs hist :
  bs_ok bs = true -> one_block bs hist = true -> targets_live bs hist = true ->
  exists sp eouts h fs,
    spec_run bs spec0 hist = Some (sp, eouts)
    /\ run cap_new bs (new_heap bs, fs0) hist = (h, fs, eouts)
    /\ forall id d, lookup id (sp_live sp) = Some d ->
         slice (encode_dblock (h_blk h)) (PREFIX + id_off id) (len d) = d.
Proof.
  intros Hbs H1 H2. destruct (refines bs hist Hbs H1 H2) as (sp & eouts & h & fs & Hs & Hr & HR & _).
  exists sp, eouts, h, fs. split; [assumption|split; [assumption|]].
  intros. eapply block_bytes; eassumption.
Qed.

Lemma persist bs hist :
  bs_ok bs = true -> one_block bs hist = true -> targets_live bs hist = true ->
  exists sp eouts h fs,
    spec_run bs spec0 hist = Some (sp, eouts)
    /\ run cap_new bs (new_heap bs, fs0) hist = (h, fs, eouts)
    /\ exists h1 fs1 ha h2,
         store h fs = Ok (h1, fs1, ha) /\ load bs (f_bytes fs1) ha = Ok h2
         /\ observables bs h2 sp
         /\ h_nobj h2 = h_nobj h /\ h_free h2 = h_free h /\ h_manoff h2 = h_manoff h
         /\ db_free (h_blk h2) = db_free (h_blk h)
         /\ (forall id d, lookup id (sp_live sp) = Some d -> get h2 id = get h id).
Proof.
  intros Hbs H1 H2. destruct (refines bs hist Hbs H1 H2) as (sp & eouts & h & fs & Hs & Hr & HR & Hobs).
  exists sp, eouts, h, fs. split; [assumption|split; [assumption|]].
  destruct (store_files bs h fs sp HR) as [nx Hst].
  eexists _, _, _, (reloaded bs h). split; [exact Hst|]. cbn [f_bytes].
  split. { apply (load_after_store bs h fs sp); assumption. }
  pose proof (R_reloaded bs h fs fs sp Hbs HR) as HR2.
  split. { eapply R_observables; eassumption. }
  split; [reflexivity|]. split; [reflexivity|]. split; [reflexivity|].
  split. { destruct HR. unfold reloaded. cbn [h_blk db_free]. congruence. }
  intros id d Hl. rewrite (get_R bs _ fs sp id d Hbs HR2 Hl).
  symmetry. destruct Hobs as [Hg _]. apply Hg. assumption.
Qed.

Lemma spec_run_app bs a b sp :
  spec_run bs sp (a ++ b) =
  match spec_run bs sp a with
  | None => None
  | Some (sp1, xs) => match spec_run bs sp1 b with None => None | Some (sp2, ys) => Some (sp2, xs ++ ys) end
  end.
Proof.
  revert sp. induction a as [|o a IH]; intros sp; cbn [app spec_run].
  - destruct (spec_run bs sp b) as [[? ?]|]; reflexivity.
  - destruct (spec_step bs sp o) as [[sp1 x]|]; [|reflexivity]. rewrite IH.
    destruct (spec_run bs sp1 a) as [[sp2 xs]|]; [|reflexivity].
    destruct (spec_run bs sp2 b) as [[sp3 ys]|]; reflexivity.
Qed.

(* store + load anywhere in a history: the specification ignores it, hence so does every later answer *)
Lemma persist_commutes bs pre post sp eouts :
  bs_ok bs = true -> spec_run bs spec0 (pre ++ post) = Some (sp, eouts) ->
  exists xs ys h fs h' fs',
    eouts = xs ++ ys /\ length xs = length pre
    /\ run cap_new bs (new_heap bs, fs0) (pre ++ post) = (h, fs, xs ++ ys)
    /\ run cap_new bs (new_heap bs, fs0) (pre ++ SL :: post) = (h', fs', xs ++ OUnit :: ys)
    /\ observables bs h sp /\ observables bs h' sp.
Proof.
  intros Hbs Hs. rewrite spec_run_app in Hs.
  destruct (spec_run bs spec0 pre) as [[sp1 xs]|] eqn:E1; [|discriminate].
  destruct (spec_run bs sp1 post) as [[sp2 ys]|] eqn:E2; [|discriminate]. injection Hs as <- <-.
  assert (Hs1 : spec_run bs spec0 (pre ++ post) = Some (sp2, xs ++ ys)) by (rewrite spec_run_app, E1, E2; reflexivity).
  assert (Hs2 : spec_run bs spec0 (pre ++ SL :: post) = Some (sp2, xs ++ OUnit :: ys)).
  { rewrite spec_run_app, E1. cbn [spec_run spec_step]. rewrite E2. reflexivity. }
  destruct (run_refines bs _ _ _ _ _ _ Hbs (R_new bs Hbs) Hs1) as (h & fs & Hr1 & HR1).
  destruct (run_refines bs _ _ _ _ _ _ Hbs (R_new bs Hbs) Hs2) as (h' & fs' & Hr2 & HR2).
  exists xs, ys, h, fs, h', fs'. split; [reflexivity|]. split.
  { clear - E1. revert E1. generalize spec0. revert xs sp1.
    induction pre as [|o pre IH]; intros xs sp1 s E1; cbn [spec_run] in E1.
    - injection E1 as <- <-. reflexivity.
    - destruct (spec_step bs s o) as [[s1 x]|]; [|discriminate].
      destruct (spec_run bs s1 pre) as [[s2 zs]|] eqn:E; [|discriminate]. injection E1 as <- <-.
      cbn [length]. f_equal. eapply IH. eassumption. }
  split; [assumption|]. split; [assumption|].
  split; eapply R_observables; eassumption.
Qed.

Lemma refines_obs bs hist :
  bs_ok bs = true -> one_block bs hist = true -> targets_live bs hist = true ->
  exists sp eouts h fs,
    spec_run bs spec0 hist = Some (sp, eouts)
    /\ run cap_new bs (new_heap bs, fs0) hist = (h, fs, eouts)
    /\ observables bs h sp.
Proof.
  intros Hbs H1 H2. destruct (refines bs hist Hbs H1 H2) as (sp & eouts & h & fs & Hs & Hr & _ & Hobs).
  exists sp, eouts, h, fs. auto.
Qed.

Lemma readers bs hist :
  bs_ok bs = true -> one_block bs hist = true -> targets_live bs hist = true ->
  exists sp eouts h fs,
    spec_run bs spec0 hist = Some (sp, eouts)
    /\ run cap_new bs (new_heap bs, fs0) hist = (h, fs, eouts)
    /\ exists h1 fs1 ha,
         store h fs = Ok (h1, fs1, ha)
         /\ forall id d, lookup id (sp_live sp) = Some d ->
              ro_read (f_bytes fs1) ha id = Ok d /\ core_read (f_bytes fs1) ha id = Ok d.
Proof.
  intros Hbs H1 H2. destruct (refines bs hist Hbs H1 H2) as (sp & eouts & h & fs & Hs & Hr & HR & _).
  exists sp, eouts, h, fs. split; [assumption|split; [assumption|]].
  destruct (store_files bs h fs sp HR) as [nx Hst].
  eexists _, _, _. split; [exact Hst|]. cbn [f_bytes]. intros id d Hl. split.
  - eapply ro_read_stored; eassumption.
  - eapply core_read_stored; eassumption.
Qed.

(* D12, the capacity rule of the repository: 60 bytes are accepted into a 64-byte block; the serialised block holds only
   the first 45 of them, and after store + load the id no longer resolves *)
Lemma no_byte_lost_refuted_old_rule :
  let d := obj 1 60 in
  let id := mkid 0 60 in
  bs_ok 64 = true /\ targets_live 64 [Ins d 0; SL; Get id] = true
  /\ outs_of cap_old 64 [Ins d 0; Get id] = [OId id; OData d]
  /\ bytes_eqb (slice (encode_dblock (h_blk (heap_of cap_old 64 [Ins d 0]))) (PREFIX + id_off id) (len d)) d = false
  /\ outs_of cap_old 64 [Ins d 0; SL; Get id] = [OId id; OUnit; OErr].
Proof. vm_compute. repeat split; reflexivity. Qed.

(* with cap_new (the rule of /repo e934eea; cap_old is that of the snapshot d8da495) the same insert does not fit
   the first block: it is not silently truncated *)
Lemma old_witness_excluded_new_rule : one_block 64 [Ins (obj 1 60) 0] = false.
Proof. vm_compute. reflexivity. Qed.

(* class "total volume exceeds one direct block": the insert that does not fit does not fail, the heap moves to
   an indirect root in memory (get still answers), and from then on every write-out is refused: nothing of the
   heap - including the object just accepted - can reach the file *)
Lemma multi_block_refuted :
  let a := obj 1 40 in let b := obj 101 40 in
  let hist := [Ins a 0; Ins b 0] in
  let idb := mkid 64 40 in
  bs_ok 64 = true /\ targets_live 64 hist = true /\ one_block 64 hist = false
  /\ outs_of cap_new 64 (hist ++ [Get idb; SL; Get idb]) = [OId (mkid 0 40); OId idb; OData b; OErr; OData b]
  /\ store (heap_of cap_new 64 hist) (file_of cap_new 64 hist) = Err
  /\ f_bytes (file_of cap_new 64 (hist ++ [SL])) = [].
Proof. vm_compute. repeat split; reflexivity. Qed.

(* ... and a failing insert on the indirect path has already changed the heap (a third block is registered,
   managed space and free space have grown) *)
Lemma full_refuted_indirect :
  let hist := [Ins (obj 1 40) 0; Ins (obj 2 40) 0] in
  let h := heap_of cap_new 64 hist in
  let '(h', r) := insert cap_new h (obj 3 40) 0 in
  r = Err /\ h_mansize h = 128 /\ h_mansize h' = 192 /\ h_free h' = h_free h + 64
  /\ length (h_others h') = S (length (h_others h)).
Proof. vm_compute. repeat split; reflexivity. Qed.

(* class "delete of an id that is not live": accepted, and the header accounting is corrupted *)
Lemma dead_id_refuted :
  let id := mkid 0 10 in
  let hist := [Ins (obj 1 10) 0; Del id; Del id] in
  bs_ok 64 = true /\ one_block 64 hist = true /\ targets_live 64 hist = false
  /\ outs_of cap_new 64 hist = [OId id; OUnit; OUnit]
  /\ h_nobj (heap_of cap_new 64 hist) = 18446744073709551615
  /\ h_free (heap_of cap_new 64 hist) = 74.
Proof. vm_compute. repeat split; reflexivity. Qed.

(* block sizes above 64 KiB (dense groups use 512 KiB): 2-byte offsets wrap; two live objects get ids with
   overlapping ranges and get returns the bytes of another object *)
Lemma offset_wrap_refuted :
  let a := repeat 1 (N.to_nat 65536) in
  let b := repeat 2 (N.to_nat 10) in
  let hist := [Ins a 0; Ins b 0] in
  bs_ok 524288 = false
  /\ outs_of cap_new 524288 (hist ++ [Get (mkid 0 10)]) = [OId (mkid 0 65536); OId (mkid 0 10); OData (repeat 1 (N.to_nat 10))]
  /\ disjoint_ids (mkid 0 65536) (mkid 0 10) = false.
Proof. vm_compute. repeat split; reflexivity. Qed.

Definition demo_hist : list op :=
  let a := obj 1 20 in let b := obj 50 5 in let c := obj 90 20 in
  [Ins a 0; Ins b 0; Get (mkid 0 20); Ovw (mkid 0 20) (obj 7 20); Ovw (mkid 0 20) (obj 7 19); SL; Get (mkid 0 20);
   Del (mkid 20 5); Ins [] 0; SL; Ins c 0; Get (mkid 25 20); SL; Get (mkid 25 20); Get (mkid 0 20)].

(* a history that fills a 64-byte block exactly to its usable size (45), with every kind of operation and
   three store/load cycles, is admissible, and the model's answers are the expected ones *)
Example demo_admissible :
  bs_ok 64 = true /\ one_block 64 demo_hist = true /\ targets_live 64 demo_hist = true.
Proof. vm_compute. repeat split; reflexivity. Qed.

Example demo_outputs :
  outs_of cap_new 64 demo_hist =
  [OId (mkid 0 20); OId (mkid 20 5); OData (obj 1 20); OUnit; OErr; OUnit; OData (obj 7 20);
   OUnit; OErr; OUnit; OId (mkid 25 20); OData (obj 90 20); OUnit; OData (obj 90 20); OData (obj 7 20)]
  /\ h_nobj (heap_of cap_new 64 demo_hist) = 2 /\ h_free (heap_of cap_new 64 demo_hist) = 24
  /\ db_free (h_blk (heap_of cap_new 64 demo_hist)) = 45.
Proof. vm_compute. repeat split; reflexivity. Qed.

(* the next byte does not fit: the history leaves the single-block class *)
Example demo_overflow_excluded : one_block 64 (demo_hist ++ [Ins [1] 0]) = false.
Proof. vm_compute. reflexivity. Qed.

(* both read-only readers return the stored bytes from the file written after demo_hist *)
Example demo_readers :
  match store (heap_of cap_new 64 demo_hist) (file_of cap_new 64 demo_hist) with
  | Err => False
  | Ok (h1, fs1, ha) =>
  ro_read (f_bytes fs1) ha (mkid 25 20) = Ok (obj 90 20) /\ core_read (f_bytes fs1) ha (mkid 25 20) = Ok (obj 90 20)
  /\ ro_read (f_bytes fs1) ha (mkid 0 20) = Ok (obj 7 20) /\ core_read (f_bytes fs1) ha (mkid 0 20) = Ok (obj 7 20)
  end.
Proof. vm_compute. repeat split; reflexivity. Qed.
