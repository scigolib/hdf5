(* C17: Open depends on the size of the file (file.go:104 maxLoads = size/8 + 1024, file.go:109 root address
   below the size).  A truncated file is smaller.  [sub p' p]: p' is p with some sub-programs replaced by Fail.
   sub_run: such a p' returns what p returns, or an error.  The loader with a smaller budget / file size is
   [sub] the loader with the larger one, hence C17_open_*: Open on the truncated file (with ITS size) returns what
   Open returns on the intact file (with its size), or an error. *)
From HV Require Import Base.Prelude Base.Outcome Base.Bytes Model.IOProg Proofs.IOProg Model.IOProgReader Proofs.IOProgReader.
From HV Require Import Model.IOProgOpen Proofs.IOProgOpen.
From HV Require Import Model.CodecSuper Model.CodecOhdr Model.CodecMsg Model.CodecType Model.CodecLink.

Inductive sub : forall {A : Type}, prog A -> prog A -> Prop :=
| sub_refl : forall A (p : prog A), sub p p
| sub_fail : forall A (p : prog A), sub Fail p
| sub_read : forall A off len (k' k : bytes -> prog A),
    (forall b, sub (k' b) (k b)) -> sub (ReadAt off len k') (ReadAt off len k)
| sub_short : forall A off len (k' k : bytes -> N -> prog A),
    (forall b g, sub (k' b g) (k b g)) -> sub (ReadAtShort off len k') (ReadAtShort off len k)
| sub_swallow_same : forall A B (p : prog B) d (k' k : B -> prog A),
    (forall b, sub (k' b) (k b)) -> sub (Swallow p d k') (Swallow p d k)
| sub_swallow_fail : forall A B (p' p : prog B) d (k' k : B -> prog A),
    sub p' p -> (forall b, sub (k' b) (k b)) -> k' d = Fail -> sub (Swallow p' d k') (Swallow p d k).

Lemma sub_run : forall A (p' p : prog A), sub p' p ->
  forall f fl c, run f fl c p' = run f fl c p \/ fst (run f fl c p') = Err.
Proof.
  intros A p' p H.
  induction H as [A p|A p|A off len k' k Hk IH|A off len k' k Hk IH|A B p d k' k Hk IH
                 |A B p' p d k' k Hp IHp Hk IHk Hd]; intros f fl c.
  - left; reflexivity.
  - right; reflexivity.
  - cbn [run]. destruct (fl c) as [| |m].
    + destruct (in_range f off len); [apply IH | left; reflexivity].
    + left; reflexivity.
    + destruct ((len <=? m) && in_range f off len); [apply IH | left; reflexivity].
  - cbn [run]. destruct (fl c) as [| |m]; [apply IH | left; reflexivity | apply IH].
  - cbn [run]. destruct (run f fl c p) as [[b| |] c']; [apply IH | apply IH | left; reflexivity].
  - cbn [run]. destruct (IHp f fl c) as [E|E].
    + rewrite E. destruct (run f fl c p) as [[b| |] c']; [apply IHk | apply IHk | left; reflexivity].
    + destruct (run f fl c p') as [o' c']. cbn [fst] in E. subst o'. rewrite Hd. right; reflexivity.
Qed.

Lemma sub_bind_same : forall A (p : prog A) B (g' g : A -> prog B),
  (forall a, sub (g' a) (g a)) -> sub (bind p g') (bind p g).
Proof.
  intros A p. induction p as [A a|A|A|A off len k IH|A off len k IH|A B0 p IHp d k IHk] using prog_ind;
    intros B g' g Hg; cbn [bind].
  - apply Hg.
  - apply sub_refl.
  - apply sub_refl.
  - apply sub_read. intros b. now apply IH.
  - apply sub_short. intros b n. now apply IH.
  - apply sub_swallow_same. intros b. now apply IHk.
Qed.

Lemma sub_bind : forall A (p' p : prog A), sub p' p -> forall B (g' g : A -> prog B),
  (forall a, sub (g' a) (g a)) -> sub (bind p' g') (bind p g).
Proof.
  intros A p' p H.
  induction H as [A p|A p|A off len k' k Hk IH|A off len k' k Hk IH|A B0 p d k' k Hk IH
                 |A B0 p' p d k' k Hp IHp Hk IHk Hd]; intros B g' g Hg; cbn [bind].
  - now apply sub_bind_same.
  - apply sub_fail.
  - apply sub_read. intros b. now apply IH.
  - apply sub_short. intros b n. now apply IH.
  - apply sub_swallow_same. intros b. now apply IH.
  - apply sub_swallow_fail; [exact Hp | intros b; now apply IHk | now rewrite Hd].
Qed.

Section Loader.
Variable rp : bool.
Variable sb : superblock'.
Variables budget' budget : N.
Hypothesis Hb : budget' <= budget.
Variable hfuel : nat.

Lemma enter_mono st a : enter budget' st a = enter budget st a \/ enter budget' st a = ERefused.
Proof.
  unfold enter. destruct (mem a (loading st)); [left; reflexivity|].
  destruct (1024 <=? lenN' (loading st)); [left; reflexivity|].
  destruct (budget' <? cnt st + 1) eqn:E'; [right; reflexivity|].
  apply N.ltb_ge in E'. replace (budget <? cnt st + 1) with false by (symmetry; apply N.ltb_ge; blia).
  left; reflexivity.
Qed.

Lemma sub_p_sig A a (k' k : bytes -> prog A) : (forall b, sub (k' b) (k b)) -> sub (p_sig rp a k') (p_sig rp a k).
Proof. intros H. unfold p_sig. destruct rp; [now apply sub_read | now apply sub_swallow_same]. Qed.

Lemma sub_with_header A a (k' k : ohdr' -> prog A) :
  (forall h, sub (k' h) (k h)) -> sub (with_header sb hfuel a k') (with_header sb hfuel a k).
Proof.
  intros H. unfold with_header. apply sub_bind_same. intros h. apply sub_swallow_same. intros _. apply H.
Qed.

(* walks two programs of the same shape in step *)
Ltac sub_step :=
  match goal with
  | |- sub ?p ?p => apply sub_refl
  | |- sub Fail _ => apply sub_fail
  | |- sub (ReadAt _ _ _) (ReadAt _ _ _) => apply sub_read; intros
  | |- sub (p_sig _ _ _) (p_sig _ _ _) => apply sub_p_sig; intros
  | |- sub (with_header _ _ _ _) (with_header _ _ _ _) => apply sub_with_header; intros
  | |- sub (bind _ _) (bind _ _) => apply sub_bind; [ | intros ]
  | |- sub (Swallow ?p _ _) (Swallow ?p _ _) => apply sub_swallow_same; intros
  | |- sub (if ?c then _ else _) (if ?c then _ else _) => destruct c
  | |- sub (match ?x with _ => _ end) (match ?x with _ => _ end) => destruct x
  | |- sub (let _ := _ in _) _ => cbv zeta
  end.
Ltac sub_auto := repeat (sub_step; try assumption; auto).

Section WithRec.
Variables rec' rec : req -> lstate -> prog (node * lstate).
Hypothesis Hrec : forall r st, sub (rec' r st) (rec r st).

Lemma sub_load_entry heap e st : sub (load_entry rec' heap e st) (load_entry rec heap e st).
Proof. destruct e as [[[[lo oa] ct] cb] ch]. unfold load_entry. sub_auto. Qed.
Hint Resolve sub_load_entry : core.

Lemma sub_load_entries heap es : forall st, sub (load_entries rec' heap es st) (load_entries rec heap es st).
Proof. induction es; intros; cbn [load_entries]; sub_auto. Qed.
Hint Resolve sub_load_entries : core.

Lemma sub_children_loop heap es : forall st,
  sub (children_loop rp sb rec' heap es st) (children_loop rp sb rec heap es st).
Proof. induction es as [|e r IH]; intros; cbn [children_loop]; sub_auto. Qed.
Hint Resolve sub_children_loop : core.

Lemma sub_p_children bt hp st : sub (p_children rp sb rec' bt hp st) (p_children rp sb rec bt hp st).
Proof. unfold p_children. sub_auto. Qed.
Hint Resolve sub_p_children : core.

Lemma sub_load_entries_trad heap es : forall st,
  sub (load_entries_trad rec' heap es st) (load_entries_trad rec heap es st).
Proof. induction es as [|e r IH]; intros; cbn [load_entries_trad]; sub_auto. Qed.
Hint Resolve sub_load_entries_trad : core.

Lemma sub_p_trad a st : sub (p_trad sb hfuel rec' a st) (p_trad sb hfuel rec a st).
Proof. unfold p_trad. sub_auto. Qed.
Hint Resolve sub_p_trad : core.

Lemma sub_load_links ms : forall st, sub (load_links sb rec' ms st) (load_links sb rec ms st).
Proof. induction ms as [|m r IH]; intros; cbn [load_links]; sub_auto. Qed.
Hint Resolve sub_load_links : core.

Lemma sub_p_modern a st : sub (p_modern rp sb hfuel rec' a st) (p_modern rp sb hfuel rec a st).
Proof. unfold p_modern. sub_auto. Qed.

(* the only place where the budget is looked at: a refused load on the smaller budget *)
Lemma sub_p_object a name st0 :
  sub (p_object rp sb budget' hfuel rec' a name st0) (p_object rp sb budget hfuel rec a name st0).
Proof.
  unfold p_object. destruct (enter_mono st0 a) as [E|E]; rewrite E; [|apply sub_fail].
  sub_auto.
  apply sub_swallow_fail; [sub_auto | intros; apply sub_refl | reflexivity].
Qed.

Lemma sub_dispatch r st : sub (dispatch rp sb budget' hfuel rec' r st) (dispatch rp sb budget hfuel rec r st).
Proof.
  destruct r; cbn [dispatch]; [apply sub_p_object | unfold p_group; sub_auto | apply sub_p_modern
                              | apply sub_p_trad | unfold p_cached; sub_auto].
Qed.
End WithRec.

Lemma sub_p_load fuel : forall r st, sub (p_load rp sb budget' hfuel fuel r st) (p_load rp sb budget hfuel fuel r st).
Proof. induction fuel; intros; cbn [p_load]; [apply sub_refl|]. apply sub_dispatch. exact IHfuel. Qed.
End Loader.

Lemma sub_p_open rp s' s fuel hfuel : s' <= s -> sub (p_open rp s' fuel hfuel) (p_open rp s fuel hfuel).
Proof.
  intros H. unfold p_open. apply sub_read. intros sg.
  destruct (negb (bytes_eqb sg signature)); [apply sub_refl|].
  apply sub_bind_same. intros sb.
  destruct (s' <=? spp_root sb) eqn:E'; [apply sub_fail|].
  apply N.leb_gt in E'. replace (s <=? spp_root sb) with false by (symmetry; apply N.leb_gt; blia).
  apply sub_bind; [|intros; apply sub_refl].
  apply sub_p_load.
  assert (s' / 8 <= s / 8) by (apply N.div_le_mono; blia). blia.
Qed.

(* Open on the file image f as the library runs it there (with the size of f as the file's size), under fault oracle fl *)
Definition open_on (f : bytes) (fl : oracle) (c : nat) (fuel hfuel : nat) : outcome node :=
  fst (run f fl c (p_open true (blen f) fuel hfuel)).

Theorem open_damage fuel hfuel (f : bytes) (n : nat) fl c :
  open_on f nofault 0 fuel hfuel = Panic \/
  open_on (firstn n f) fl c fuel hfuel = open_on f nofault 0 fuel hfuel \/
  open_on (firstn n f) fl c fuel hfuel = Err.
Proof.
  unfold open_on.
  assert (Hs : blen (firstn n f) <= blen f) by apply blen_firstn_le.
  destruct (sub_run _ _ _ (sub_p_open true _ _ fuel hfuel Hs) (firstn n f) fl c) as [E|E].
  - rewrite E. apply (strict_refines _ _ (p_open_strict (blen f) fuel hfuel) f n fl c).
  - right; right; exact E.
Qed.

Corollary open_trunc fuel hfuel (f : bytes) (n : nat) :
  open_on f nofault 0 fuel hfuel <> Panic ->
  open_on (firstn n f) nofault 0 fuel hfuel = open_on f nofault 0 fuel hfuel \/
  open_on (firstn n f) nofault 0 fuel hfuel = Err.
Proof. intros H. destruct (open_damage fuel hfuel f n nofault 0%nat) as [E|[E|E]]; auto. contradiction. Qed.

Corollary open_fault fuel hfuel (f : bytes) k ft :
  open_on f nofault 0 fuel hfuel <> Panic ->
  open_on f (fault_at k ft) 0 fuel hfuel = open_on f nofault 0 fuel hfuel \/
  open_on f (fault_at k ft) 0 fuel hfuel = Err.
Proof.
  intros H. pose proof (open_damage fuel hfuel f (length f) (fault_at k ft) 0%nat) as R.
  rewrite firstn_all in R. destruct R as [E|[E|E]]; auto. contradiction.
Qed.

Corollary open_no_panic fuel hfuel (f : bytes) n fl c :
  open_on f nofault 0 fuel hfuel <> Panic -> open_on (firstn n f) fl c fuel hfuel <> Panic.
Proof.
  intros H. destruct (open_damage fuel hfuel f n fl c) as [E|[E|E]]; [contradiction | rewrite E; exact H | rewrite E; discriminate].
Qed.
