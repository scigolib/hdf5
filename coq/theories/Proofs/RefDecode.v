(* C06: Model/RefDecode.v's dec_int and dec_string are the inverse of the format's encoding (int_roundtrip, int_enc_dec,
   string_roundtrip), stay within the type's range (int_range) and remove padding only (until_nul_prefix, trim_right_spec);
   then element bytes from the corpus, and the attribute reader's integer branch (go_attr_int_pinned / _fixed) against it. *)
From HV Require Import Base.Prelude Base.Bytes Model.RefDecode.

Local Open Scope N_scope.

Lemma to_le_invol : forall o bs, to_le o (to_le o bs) = bs.
Proof. intros [] bs; cbn [to_le]; [reflexivity | apply rev_involutive]. Qed.

Lemma to_le_length : forall o bs, length (to_le o bs) = length bs.
Proof. intros [] bs; cbn [to_le]; [reflexivity | apply rev_length]. Qed.

Lemma to_le_bytes : forall o bs, byte_ok bs = true -> byte_ok (to_le o bs) = true.
Proof.
  intros [] bs H; cbn [to_le]; [exact H|]. unfold byte_ok in *. rewrite forallb_forall in *.
  intros x Hx. apply H, in_rev, Hx.
Qed.

Lemma pow256_Z (n : N) : Z.of_N (256 ^ n) = (2 ^ (8 * Z.of_N n))%Z.
Proof. rewrite N2Z.inj_pow. change (Z.of_N 256) with (2 ^ 8)%Z. rewrite <- Z.pow_mul_r by lia. reflexivity. Qed.

Lemma half_double : forall n : N, 0 < n -> (2 ^ (8 * Z.of_N n) = 2 * 2 ^ (8 * Z.of_N n - 1))%Z.
Proof.
  intros n Hn. replace (8 * Z.of_N n)%Z with (Z.succ (8 * Z.of_N n - 1))%Z at 1 by lia.
  rewrite Z.pow_succ_r by lia. reflexivity.
Qed.

Lemma int_be_le : forall s n bs, dec_int BE s n (rev bs) = dec_int LE s n bs.
Proof. intros s n bs. unfold dec_int, dec_uint. cbn [to_le]. now rewrite rev_involutive. Qed.

Lemma dec_uint_bound : forall o bs n,
  byte_ok bs = true -> length bs = N.to_nat n ->
  (0 <= Z.of_N (dec_uint o bs) < 2 ^ (8 * Z.of_N n))%Z.
Proof.
  intros o bs n Hb Hl. unfold dec_uint.
  pose proof (unle_bound (to_le o bs) (to_le_bytes o bs Hb)) as H.
  unfold blen in H. rewrite to_le_length, Hl, N2Nat.id in H. pose proof (pow256_Z n). lia.
Qed.

Lemma int_range : forall o s n bs,
  byte_ok bs = true -> length bs = N.to_nat n -> 0 < n ->
  (int_lo s n <= dec_int o s n bs <= int_hi s n)%Z.
Proof.
  intros o s n bs Hb Hl Hn.
  pose proof (dec_uint_bound o bs n Hb Hl) as Hu.
  pose proof (half_double n Hn) as Hh.
  unfold dec_int, int_lo, int_hi.
  destruct s; cbn [andb].
  - destruct (Z.leb_spec (2 ^ (8 * Z.of_N n - 1)) (Z.of_N (dec_uint o bs))); lia.
  - lia.
Qed.

Lemma enc_int_length : forall o s n v, length (enc_int o s n v) = N.to_nat n.
Proof. intros. unfold enc_int. now rewrite to_le_length, length_le. Qed.

Lemma enc_int_bytes : forall o s n v, byte_ok (enc_int o s n v) = true.
Proof. intros. apply to_le_bytes, le_bytes_ok. Qed.

Lemma dec_uint_enc : forall o s n v,
  Z.of_N (dec_uint o (enc_int o s n v)) = (v mod 2 ^ (8 * Z.of_N n))%Z.
Proof.
  intros o s n v. unfold dec_uint, enc_int. rewrite to_le_invol, unle_le, N2Nat.id.
  assert (Hpos : (0 < 2 ^ (8 * Z.of_N n))%Z) by (apply Z.pow_pos_nonneg; lia).
  pose proof (Z.mod_pos_bound v _ Hpos) as Hm. pose proof (pow256_Z n) as Hp.
  rewrite N.mod_small by lia. lia.
Qed.

Lemma int_roundtrip : forall o s n v,
  0 < n -> (int_lo s n <= v <= int_hi s n)%Z ->
  dec_int o s n (enc_int o s n v) = v.
Proof.
  intros o s n v Hn Hv.
  pose proof (half_double n Hn) as Hh.
  assert (Hpos : (0 < 2 ^ (8 * Z.of_N n - 1))%Z) by (apply Z.pow_pos_nonneg; lia).
  unfold dec_int. rewrite dec_uint_enc.
  unfold int_lo, int_hi in Hv.
  destruct s; cbn [andb].
  - destruct (Z_lt_le_dec v 0) as [Hneg | Hnn].
    + assert (Hm : (v mod 2 ^ (8 * Z.of_N n) = v + 2 ^ (8 * Z.of_N n))%Z).
      { symmetry. apply Z.mod_unique with (q := (-1)%Z); lia. }
      rewrite Hm. destruct (Z.leb_spec (2 ^ (8 * Z.of_N n - 1)) (v + 2 ^ (8 * Z.of_N n))); lia.
    + rewrite Z.mod_small by lia.
      destruct (Z.leb_spec (2 ^ (8 * Z.of_N n - 1)) v); lia.
  - rewrite Z.mod_small by lia. reflexivity.
Qed.

(* the model is a bijection between well-formed element bytes and in-range values *)
Lemma int_enc_dec : forall o s n bs,
  byte_ok bs = true -> length bs = N.to_nat n -> 0 < n ->
  enc_int o s n (dec_int o s n bs) = bs.
Proof.
  intros o s n bs Hb Hl Hn.
  pose proof (dec_uint_bound o bs n Hb Hl) as Hu.
  pose proof (half_double n Hn) as Hh.
  assert (Hmod : ((dec_int o s n bs) mod 2 ^ (8 * Z.of_N n) = Z.of_N (dec_uint o bs))%Z).
  { unfold dec_int. destruct s; cbn [andb].
    - destruct (Z.leb_spec (2 ^ (8 * Z.of_N n - 1)) (Z.of_N (dec_uint o bs))).
      + symmetry. apply Z.mod_unique with (q := (-1)%Z); lia.
      + apply Z.mod_small. lia.
    - apply Z.mod_small. lia. }
  unfold enc_int. rewrite Hmod, N2Z.id. unfold dec_uint.
  rewrite <- Hl, <- (to_le_length o bs).
  rewrite le_unle by (apply to_le_bytes, Hb).
  apply to_le_invol.
Qed.

Lemma firstn_N_app : forall s r, firstn_N (length s) (s ++ r) = s.
Proof. induction s; intro r; cbn; [now destruct r | now rewrite IHs]. Qed.

Lemma firstn_N_all : forall n s, (length s <= n)%nat -> firstn_N n s = s.
Proof.
  induction n; intros s H.
  - destruct s; [reflexivity | cbn in H; lia].
  - destruct s; [reflexivity|]. cbn in *. rewrite IHn by lia. reflexivity.
Qed.

Lemma until_nul_app : forall s r, no_byte 0 s = true -> until_nul (s ++ 0 :: r) = s.
Proof.
  induction s as [|b s IH]; intros r H; cbn.
  - reflexivity.
  - cbn in H. apply andb_true_iff in H as [Hb Hs].
    destruct (b =? 0) eqn:E; [discriminate|]. now rewrite IH.
Qed.

Lemma until_nul_no_nul : forall bs, no_byte 0 (until_nul bs) = true.
Proof.
  induction bs as [|b r IH]; cbn [until_nul]; [reflexivity|].
  destruct (b =? 0) eqn:E; [reflexivity|].
  unfold no_byte in *. cbn [forallb]. rewrite E, IH. reflexivity.
Qed.

Lemma until_nul_prefix : forall bs, exists r, bs = until_nul bs ++ r /\ (r = [] \/ exists r', r = 0 :: r').
Proof.
  induction bs as [|b r IH]; cbn.
  - exists []. split; [reflexivity | now left].
  - destruct (b =? 0) eqn:E.
    + exists (b :: r). split; [reflexivity|]. right. exists r. f_equal. lia.
    + destruct IH as [t [Ht Hc]]. exists t. split; [cbn; now rewrite <- Ht | exact Hc].
Qed.

Lemma drop_while_repeat : forall c k s, last_not c s = true -> drop_while c (repeat c k ++ rev s) = rev s.
Proof.
  intros c k s H. induction k; cbn [repeat app].
  - unfold last_not in H. destruct (rev s) as [|b t]; [reflexivity|]. cbn. now destruct (b =? c).
  - cbn [drop_while]. rewrite N.eqb_refl. exact IHk.
Qed.

Lemma rev_repeat : forall (c : N) k, rev (repeat c k) = repeat c k.
Proof.
  intros c k. induction k; [reflexivity|]. cbn [repeat rev]. rewrite IHk.
  clear IHk. induction k; [reflexivity|]. cbn [repeat app]. now rewrite IHk.
Qed.

Lemma trim_right_pad : forall c k s, last_not c s = true -> trim_right c (s ++ repeat c k) = s.
Proof.
  intros c k s H. unfold trim_right. rewrite rev_app_distr, rev_repeat, drop_while_repeat by exact H.
  apply rev_involutive.
Qed.

Lemma drop_while_spec : forall c bs, exists k, bs = repeat c k ++ drop_while c bs /\
  match drop_while c bs with [] => True | b :: _ => (b =? c) = false end.
Proof.
  intros c. induction bs as [|b r IH].
  - exists 0%nat. split; [reflexivity | exact I].
  - cbn [drop_while]. destruct (b =? c) eqn:E.
    + destruct IH as [k [Hk Hl]]. exists (S k). split; [|exact Hl].
      cbn [repeat app]. f_equal; [lia | exact Hk].
    + exists 0%nat. split; [reflexivity | exact E].
Qed.

Lemma trim_right_spec : forall c bs, exists k, bs = trim_right c bs ++ repeat c k /\ last_not c (trim_right c bs) = true.
Proof.
  intros c bs. unfold trim_right. destruct (drop_while_spec c (rev bs)) as [k [Hk Hl]].
  exists k. split.
  - set (d := drop_while c (rev bs)) in *.
    rewrite <- (rev_involutive bs) at 1. rewrite Hk, rev_app_distr, rev_repeat. reflexivity.
  - unfold last_not. rewrite rev_involutive. destruct (drop_while c (rev bs)); [reflexivity | now rewrite Hl].
Qed.

Lemma string_roundtrip : forall p size s,
  representable p size s = true -> dec_string p size (enc_string p size s) = s.
Proof.
  intros p size s H. unfold dec_string, enc_string.
  assert (Hlen : (length s <= N.to_nat size)%nat).
  { destruct p; cbn [representable] in H; apply andb_true_iff in H as [H _]; lia. }
  assert (Hall : firstn_N (N.to_nat size) (s ++ repeat (pad_char p) (N.to_nat size - length s))
                 = s ++ repeat (pad_char p) (N.to_nat size - length s)).
  { apply firstn_N_all. rewrite app_length, repeat_length. lia. }
  rewrite Hall. destruct p; cbn [representable pad_char] in *; apply andb_true_iff in H as [Hl Hr].
  - assert (Hk : exists k, (N.to_nat size - length s)%nat = S k) by (exists (N.to_nat size - length s - 1)%nat; lia).
    destruct Hk as [k Hk]. rewrite Hk. cbn [repeat]. now apply until_nul_app.
  - now apply trim_right_pad.
  - now apply trim_right_pad.
Qed.

Lemma string_nullterm : forall size bs,
  no_byte 0 (dec_string NullTerm size bs) = true /\
  exists r, firstn_N (N.to_nat size) bs = dec_string NullTerm size bs ++ r /\ (r = [] \/ exists r', r = 0 :: r').
Proof. split; [apply until_nul_no_nul | apply until_nul_prefix]. Qed.

Lemma string_nullpad : forall size bs, exists k,
  firstn_N (N.to_nat size) bs = dec_string NullPad size bs ++ repeat 0 k /\ last_not 0 (dec_string NullPad size bs) = true.
Proof. intros. apply trim_right_spec. Qed.

Lemma string_spacepad : forall size bs, exists k,
  firstn_N (N.to_nat size) bs = dec_string SpacePad size bs ++ repeat 32 k /\ last_not 32 (dec_string SpacePad size bs) = true.
Proof. intros. apply trim_right_spec. Qed.

(* tall.h5, attribute attr2 of "/" (H5T_STD_I32BE): bytes 00 00 00 01 are the value 1 (the Go attribute reader
   returns 16777216, the little-endian reading) *)
Example int_be_example : dec_int BE true 4 [0;0;0;1] = 1%Z /\ dec_int LE true 4 [0;0;0;1] = 16777216%Z.
Proof. split; vm_compute; reflexivity. Qed.

(* tattrintsize.h5 attribute DU32BITS (H5T_STD_U32LE): ff ff ff ff is 4294967295; as signed it is -1 *)
Example int_unsigned_example : dec_int LE false 4 [255;255;255;255] = 4294967295%Z /\ dec_int LE true 4 [255;255;255;255] = (-1)%Z.
Proof. split; vm_compute; reflexivity. Qed.

Example string_examples :
  dec_string NullTerm 5 [115;49;0;120;0] = [115;49] /\
  dec_string NullPad 8 [97;98;99;100;48;0;0;0] = [97;98;99;100;48] /\
  dec_string SpacePad 6 [97;98;32;99;32;32] = [97;98;32;99].
Proof. repeat split; vm_compute; reflexivity. Qed.


Lemma attr_pinned_ok_le_signed : forall n bs, go_attr_int_pinned LE true n bs = dec_int LE true n bs.
Proof. reflexivity. Qed.

Lemma attr_fixed_ok_signed : forall o n bs, go_attr_int_fixed o true n bs = dec_int o true n bs.
Proof. reflexivity. Qed.

(* tall.h5 "/" attr2[1] (H5T_STD_I32BE, bytes 00 00 00 01): the reference reports 1, the reader 16777216 *)
Lemma attr_pinned_byte_order_refuted :
  exists bs, byte_ok bs = true /\ length bs = 4%nat /\ go_attr_int_pinned BE true 4 bs <> dec_int BE true 4 bs.
Proof. exists [0;0;0;1]. repeat split; try reflexivity. vm_compute. discriminate. Qed.

(* tattrintsize.h5 "/" DU32BITS[0] (H5T_STD_U32LE, bytes ff ff ff ff): the reference reports 4294967295, the reader -1;
   the byte-order repair does not change this one *)
Lemma attr_unsigned_refuted :
  exists bs, byte_ok bs = true /\ length bs = 4%nat /\
    go_attr_int_pinned LE false 4 bs <> dec_int LE false 4 bs /\ go_attr_int_fixed LE false 4 bs <> dec_int LE false 4 bs.
Proof. exists [255;255;255;255]. repeat split; try reflexivity; vm_compute; discriminate. Qed.

Lemma attr_pinned_full_refuted : ~ attr_int_full go_attr_int_pinned.
Proof.
  intro H. specialize (H BE true 4 [0;0;0;1] eq_refl eq_refl (or_introl eq_refl)).
  vm_compute in H. discriminate.
Qed.

Lemma attr_fixed_full_refuted : ~ attr_int_full go_attr_int_fixed.
Proof.
  intro H. specialize (H LE false 4 [255;255;255;255] eq_refl eq_refl (or_introl eq_refl)).
  vm_compute in H. discriminate.
Qed.
