(* C07: the traversal models of Model/RobustTerm.v never run out of an explicitly given amount of fuel, for EVERY
   file graph (including cyclic and self-referential ones), and their step counts / recursion depths are bounded. *)
From HV Require Import Base.Prelude Base.Outcome Base.Bytes Model.RobustTerm Proofs.RobustNoPanicBase.

Section V1.
  Variable blk : N -> option (N * list N).
  (* what parseV1MessagesInBlock guarantees: continuation messages are messages, and a block yields at most 65535 *)
  Hypothesis blk_ok : forall a k conts, blk a = Some (k, conts) -> N.of_nat (length conts) <= k /\ k <= 65535.

  Lemma v1_chain_bounded fuel : forall pending visited nmsgs steps,
    nmsgs <= 65535 ->
    (length pending + N.to_nat (65535 - nmsgs) < fuel)%nat ->
    v1_chain blk fuel pending visited nmsgs steps <> TOutOfFuel /\
    forall n s, v1_chain blk fuel pending visited nmsgs steps = TDone (n, s) ->
                n <= 65535 /\ s <= steps + N.of_nat (length pending) + (65535 - nmsgs).
  Proof.
    induction fuel as [|fuel IH]; intros pending visited nmsgs steps Hn Hf; [lia|].
    destruct pending as [|a rest]; cbn [v1_chain].
    - split; [discriminate|]. intros n s [= <- <-]. cbn [length]. lia.
    - dif; [split; [discriminate|discriminate]|].
      destruct (blk a) as [[k conts]|] eqn:Eb; [|split; discriminate].
      destruct (blk_ok _ _ _ Eb) as [Hc Hk].
      unfold maxV1. dif; [split; discriminate|].
      assert (Hn' : nmsgs + k <= 65535) by lia.
      cbn [length] in Hf.
      destruct (IH (rest ++ conts) (a :: visited) (nmsgs + k) (steps + 1) Hn') as [I1 I2].
      { rewrite app_length. lia. }
      split; [exact I1|]. intros n s Hd. destruct (I2 n s Hd) as [J1 J2]. split; [exact J1|].
      rewrite app_length in J2. cbn [length]. lia.
  Qed.

  (* the whole header: 65537 units of fuel are never exhausted; at most 65536 blocks are read; at most 65535 messages *)
  Lemma v1_header_terminates first :
    v1_header blk (N.to_nat 65537) first <> TOutOfFuel /\
    forall n s, v1_header blk (N.to_nat 65537) first = TDone (n, s) -> n <= 65535 /\ s <= 65535.
  Proof.
    unfold v1_header. destruct (blk first) as [[k conts]|] eqn:Eb; [|split; discriminate].
    destruct (blk_ok _ _ _ Eb) as [Hc Hk]. unfold maxV1.
    replace (N.min k 65535) with k by lia.
    destruct (v1_chain_bounded (N.to_nat 65537) conts [first] k 0 Hk) as [I1 I2]; [lia|].
    split; [exact I1|]. intros n s Hd. destruct (I2 n s Hd). split; lia.
  Qed.
End V1.

Section V2.
  Variable blk : N -> option (list N).

  (* lengths are compared in N: a nat literal is unary, and lia and the kernel traverse all 1024 successors wherever it occurs *)
  Lemma v2_register_measure conts : forall pending visited p' v',
    N.of_nat (length visited) <= 1024 ->
    v2_register conts pending visited = Some (p', v') ->
    N.of_nat (length v') <= 1024 /\
    N.of_nat (length p') + (1024 - N.of_nat (length v')) = N.of_nat (length pending) + (1024 - N.of_nat (length visited)).
  Proof.
    induction conts as [|c r IH]; intros pending visited p' v' Hv; cbn [v2_register].
    - intros [= <- <-]. lia.
    - dif; [discriminate|]. intros H.
      destruct (IH (pending ++ [c]) (c :: visited) p' v') as [J1 J2]; [cbn [length]; lia|exact H|].
      split; [exact J1|]. rewrite app_length in J2. cbn [length] in J2. lia.
  Qed.

  Lemma v2_chain_bounded fuel : forall pending visited steps,
    N.of_nat (length visited) <= 1024 ->
    N.of_nat (length pending) + (1024 - N.of_nat (length visited)) < N.of_nat fuel ->
    v2_chain blk fuel pending visited steps <> TOutOfFuel /\
    forall s, v2_chain blk fuel pending visited steps = TDone s ->
              s <= steps + N.of_nat (length pending) + (1024 - N.of_nat (length visited)).
  Proof.
    induction fuel as [|fuel IH]; intros pending visited steps Hv Hf; [lia|].
    destruct pending as [|a rest]; cbn [v2_chain].
    - split; [discriminate|]. intros s [= <-]. lia.
    - destruct (blk a) as [conts|]; [|split; discriminate].
      destruct (v2_register conts rest visited) as [[p' v']|] eqn:Er; [|split; discriminate].
      destruct (v2_register_measure _ _ _ _ _ Hv Er) as [J1 J2]. cbn [length] in Hf.
      destruct (IH p' v' (steps + 1) J1) as [I1 I2]; [lia|].
      split; [exact I1|]. intros s Hd. specialize (I2 s Hd). cbn [length]. lia.
  Qed.

  (* parseV2Header starts with the first chunk pending and nothing visited: 1026 units of fuel suffice, <= 1025 chunks *)
  Lemma v2_header_terminates first :
    v2_chain blk 1026 [first] [] 0 <> TOutOfFuel /\
    forall s, v2_chain blk 1026 [first] [] 0 = TDone s -> s <= 1025.
  Proof.
    destruct (v2_chain_bounded 1026 [first] [] 0) as [I1 I2]; [cbn; lia|reflexivity|].
    split; [exact I1|]. intros s Hd. specialize (I2 s Hd). cbn [length] in I2. lia.
  Qed.
End V2.

Section BTree.
  Variable node : N -> option (N * list N).

  (* recursion depth: the level strictly decreases, so level + 1 units of fuel are never exhausted (level is a uint8:
     256 suffice for every file) *)
  Lemma bt_collect_fuel fuel : forall level children visited,
    (N.to_nat level < fuel)%nat -> bt_collect node fuel level children visited <> TOutOfFuel.
  Proof.
    induction fuel as [|fuel IH]; intros level children visited Hf; [lia|].
    cbn [bt_collect]. dif; [discriminate|].
    generalize 0 as acc. revert visited.
    induction children as [|c r IHc]; intros visited acc; [discriminate|].
    dif; [discriminate|].
    destruct (node c) as [[lv kids]|]; [|discriminate].
    dif; [discriminate|].
    pose proof (IH lv kids (c :: visited)) as Hrec.
    destruct (bt_collect node fuel lv kids (c :: visited)) as [[n v']| |]; [apply IHc|discriminate|].
    exfalso. apply Hrec; [lia|reflexivity].
  Qed.

  Lemma bt_collect_256 level children visited :
    level <= 255 -> bt_collect node 256 level children visited <> TOutOfFuel.
  Proof. intros. apply bt_collect_fuel. lia. Qed.

  Lemma bt_collect_visited fuel : forall level children visited n v',
    bt_collect node fuel level children visited = TDone (n, v') -> exists added, v' = added ++ visited.
  Proof.
    induction fuel as [|fuel IH]; intros level children visited n v'; [discriminate|].
    cbn [bt_collect]. dif; [intros [= <- <-]; exists []; reflexivity|].
    generalize 0 as acc. revert visited.
    induction children as [|c r IHc]; intros visited acc; [intros [= <- <-]; exists []; reflexivity|].
    dif; [discriminate|].
    destruct (node c) as [[lv kids]|]; [|discriminate].
    dif; [discriminate|].
    destruct (bt_collect node fuel lv kids (c :: visited)) as [[m v1]| |] eqn:Eb; try discriminate.
    intros H. destruct (IH _ _ _ _ _ Eb) as [a1 ->]. destruct (IHc _ _ H) as [a2 ->].
    exists (a2 ++ a1 ++ [c]). rewrite <- !app_assoc. reflexivity.
  Qed.
End BTree.

Section Load.
  Variable links : N -> option (list N).

  (* recursion depth <= 1024 + 1 whatever the link graph: 1026 units of fuel are never exhausted *)
  Lemma load_fuel maxLoads fuel : forall a loading count,
    (N.to_nat (1025 - N.of_nat (length loading)) < fuel)%nat -> load links fuel maxLoads a loading count <> TOutOfFuel.
  Proof.
    induction fuel as [|fuel IH]; intros a loading count Hf; [lia|].
    cbn [load]. dif; [discriminate|]. unfold maxDepth. dif; [discriminate|]. dif; [discriminate|].
    destruct (links a) as [cs|]; [|discriminate].
    generalize (count + 1) as cnt.
    induction cs as [|c r IHc]; intros cnt; [discriminate|].
    pose proof (IH c (a :: loading) cnt) as Hrec.
    destruct (load links fuel maxLoads c (a :: loading) cnt) as [n| |]; [apply IHc|discriminate|].
    exfalso. apply Hrec; [cbn [length]; lia|reflexivity].
  Qed.

  Lemma load_terminates maxLoads root : load links 1026 maxLoads root [] 0 <> TOutOfFuel.
  Proof. apply load_fuel. cbn [length]. lia. Qed.

  (* the number of objects loaded never exceeds maxLoads (= filesize/8 + 1024 in Open) *)
  Lemma load_count maxLoads fuel : forall a loading count n,
    count <= maxLoads -> load links fuel maxLoads a loading count = TDone n -> count <= n /\ n <= maxLoads.
  Proof.
    induction fuel as [|fuel IH]; intros a loading count n Hc; [discriminate|].
    cbn [load]. dif; [intros [= <-]; lia|]. dif; [discriminate|]. dif; [discriminate|].
    destruct (links a) as [cs|]; [|discriminate].
    assert (Hc1 : count + 1 <= maxLoads) by lia.
    assert (G : forall cs cnt n, cnt <= maxLoads ->
      (fix each (cs : list N) (count : N) {struct cs} : tres N :=
         match cs with
         | [] => TDone count
         | c :: r => match load links fuel maxLoads c (a :: loading) count with
                     | TDone n => each r n | TErr => TErr | TOutOfFuel => TOutOfFuel end
         end) cs cnt = TDone n -> cnt <= n /\ n <= maxLoads).
    { clear cs. induction cs as [|c r IHc]; intros cnt m Hcnt; [intros [= <-]; lia|].
      destruct (load links fuel maxLoads c (a :: loading) cnt) as [k| |] eqn:El; try discriminate.
      destruct (IH _ _ _ _ Hcnt El) as [K1 K2]. intros H. destruct (IHc _ _ K2 H). lia. }
    intros H. destruct (G cs (count + 1) n Hc1 H). lia.
  Qed.
End Load.

(* self-referential examples evaluate to errors, not to OutOfFuel *)
Example v1_self_cycle : v1_header (assoc [(100, (1, [100]))]) 10 100 = TErr.
Proof. vm_compute. reflexivity. Qed.
Example v1_two_cycle : v1_header (assoc [(100, (1, [200])); (200, (1, [100]))]) 10 100 = TErr.
Proof. vm_compute. reflexivity. Qed.
Example v2_self_cycle : v2_chain (assoc [(100, [100])]) 10 [100] [] 0 = TDone 2 \/ v2_chain (assoc [(100, [100])]) 10 [100] [] 0 = TErr.
Proof. vm_compute. auto. Qed.
Example bt_self_child : bt_collect (assoc [(100, (1, [100]))]) 256 1 [100] [] = TErr.
Proof. vm_compute. reflexivity. Qed.
Example bt_shared_child : bt_collect (assoc [(100, (0, [1; 2]))]) 256 1 [100; 100] [] = TErr.
Proof. vm_compute. reflexivity. Qed.
Example load_cycle_is_listed : load (assoc [(1, [2]); (2, [1])]) 1026 100 1 [] 0 = TDone 2.
Proof. vm_compute. reflexivity. Qed.
