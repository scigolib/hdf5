(* C03: the local heap as a byte layout.  A group's heap segment is well formed (gwf) when it is the
   concatenation of its NUL-terminated names followed by zero padding, the node's name offsets are the
   running sums, and the names are non-empty, NUL-free and pairwise distinct.  Under gwf the
   trailing-zero scan of PrepareForModification finds exactly the end of the last name, the reader
   decodes exactly the names, and one linkToParent insertion preserves gwf. *)
From HV Require Import Base.Prelude Base.Bytes Model.GroupNS Proofs.GroupNSBase.

Definition enc (ns : list name) : bytes := flat_map (fun n => n ++ [0]) ns.
Definition nz (n : bytes) : Prop := Forall (fun b => b <> 0) n.
Definition hname_ok (n : name) : Prop := n <> [] /\ nz n.
Definition allzero (z : bytes) : Prop := Forall (fun b => b = 0) z.

Lemma forallb_neq : forall x l, forallb (fun b => negb (b =? x)) l = true <-> Forall (fun b => b <> x) l.
Proof.
  intros. rewrite forallb_forall, Forall_forall. setoid_rewrite negb_true_iff. setoid_rewrite N.eqb_neq. reflexivity.
Qed.

Lemma heap_name_ok_iff : forall n, heap_name_ok n = true <-> hname_ok n.
Proof.
  intro n. unfold heap_name_ok, hname_ok, nz. rewrite andb_true_iff, forallb_neq.
  destruct n; cbn [negb]; intuition congruence.
Qed.

Lemma enc_app : forall a b, enc (a ++ b) = enc a ++ enc b.
Proof. intros. unfold enc. apply flat_map_app. Qed.
Lemma enc_snoc : forall ns n, enc (ns ++ [n]) = enc ns ++ n ++ [0].
Proof. intros. rewrite enc_app. unfold enc at 2. cbn [flat_map]. rewrite app_nil_r. reflexivity. Qed.

Lemma allzero_zeros : forall k, allzero (zeros k).
Proof. intro k. unfold allzero, zeros. apply Forall_forall. intros b Hb. apply repeat_spec in Hb. assumption. Qed.

Lemma get_string_from_nz : forall n rest, nz n -> get_string_from (n ++ 0 :: rest) = Some n.
Proof.
  induction n as [|b n IH]; intros rest H; cbn [app get_string_from].
  - reflexivity.
  - inversion H; subst. destruct (b =? 0) eqn:E; [apply N.eqb_eq in E; contradiction|].
    rewrite IH by assumption. reflexivity.
Qed.

Lemma get_string_at : forall pre n rest, nz n -> get_string (pre ++ n ++ 0 :: rest) (blen pre) = Some n.
Proof.
  intros pre n rest H. unfold get_string.
  destruct (blen (pre ++ n ++ 0 :: rest) <=? blen pre) eqn:E.
  - apply N.leb_le in E. rewrite !blen_app, blen_cons in E. nlia.
  - rewrite to_nat_blen, skipn_length_app. apply get_string_from_nz. assumption.
Qed.

Lemma prep_scan_zeros : forall z rd suffix, allzero z -> prep_scan (z ++ rd) suffix = prep_scan rd (rev z ++ suffix).
Proof.
  induction z as [|b z IH]; intros rd suffix H; [reflexivity|].
  inversion H; subst. cbn [app prep_scan rev]. rewrite N.eqb_refl. rewrite IH by assumption.
  rewrite <- app_assoc. reflexivity.
Qed.

Lemma allzero_rev : forall z, allzero z -> allzero (rev z).
Proof. intros z H. unfold allzero in *. rewrite Forall_forall in *. intros b Hb. apply H. apply in_rev. assumption. Qed.

Lemma used_size_allzero : forall z, allzero z -> used_size z = 0.
Proof.
  intros z H. unfold used_size. rewrite <- (app_nil_r (rev z)). rewrite prep_scan_zeros by (apply allzero_rev; assumption).
  reflexivity.
Qed.

(* data = P ++ [b] ++ [0] ++ Z, b the last non-zero byte: usedSize = index of b + 2 *)
Lemma used_size_last : forall P b Z, b <> 0 -> allzero Z -> used_size (P ++ b :: 0 :: Z) = blen P + 2.
Proof.
  intros P b Z Hb HZ. unfold used_size.
  replace (P ++ b :: 0 :: Z) with ((P ++ [b; 0]) ++ Z) by (rewrite <- app_assoc; reflexivity).
  rewrite rev_app_distr. rewrite prep_scan_zeros by (apply allzero_rev; assumption).
  rewrite rev_app_distr. cbn [rev app]. cbn [prep_scan]. rewrite N.eqb_refl.
  cbn [prep_scan]. destruct (b =? 0) eqn:E; [apply N.eqb_eq in E; contradiction|].
  cbn [find_zero_from]. rewrite N.eqb_refl. unfold blen. rewrite rev_length. nlia.
Qed.

Lemma used_size_enc : forall ns Z, Forall hname_ok ns -> allzero Z -> used_size (enc ns ++ Z) = blen (enc ns).
Proof.
  intros ns Z Hns HZ. induction ns as [|n ns' _] using rev_ind.
  - cbn. apply used_size_allzero. assumption.
  - apply Forall_app in Hns. destruct Hns as [_ Hn]. inversion Hn as [|? ? [Hne Hnz] _]; subst.
    destruct (@exists_last _ n Hne) as [n' [b E]]. subst n.
    apply Forall_app in Hnz. destruct Hnz as [_ Hb]. inversion Hb; subst.
    rewrite enc_snoc.
    replace ((enc ns' ++ (n' ++ [b]) ++ [0]) ++ Z) with ((enc ns' ++ n') ++ b :: 0 :: Z)
      by (rewrite <- !app_assoc; reflexivity).
    rewrite used_size_last by assumption. rewrite !blen_app, !blen_cons, !blen_nil. nlia.
Qed.

Lemma prepare_enc : forall ns Z, Forall hname_ok ns -> allzero Z ->
  prepare_for_modification (enc ns ++ Z) = {| wh_strings := enc ns; wh_dss := blen (enc ns ++ Z) |}.
Proof.
  intros. unfold prepare_for_modification. rewrite used_size_enc by assumption.
  rewrite to_nat_blen, firstn_length_app. reflexivity.
Qed.

Fixpoint offs (base : N) (ns : list name) : list N :=
  match ns with [] => [] | n :: r => base :: offs (base + blen n + 1) r end.

Lemma offs_length : forall ns b, length (offs b ns) = length ns.
Proof. induction ns; intro b; cbn [offs length]; auto. Qed.

Lemma offs_snoc : forall ns b n, offs b (ns ++ [n]) = offs b ns ++ [b + blen (enc ns)].
Proof.
  induction ns as [|m ns IH]; intros b n; cbn [app offs].
  - unfold enc. cbn [flat_map app]. rewrite blen_nil. apply (f_equal (fun z : N => z :: nil)). nlia.
  - rewrite IH. cbn [app]. f_equal. f_equal. unfold enc. cbn [flat_map]. fold (enc ns).
    rewrite !blen_app, !blen_cons, !blen_nil. apply (f_equal (fun z : N => z :: nil)). nlia.
Qed.

Definition gwf (seg : bytes) (ents : list entry) (ns : list name) : Prop :=
  exists k, seg = enc ns ++ zeros k /\ map e_off ents = offs 0 ns /\ Forall hname_ok ns /\ NoDup ns.

Lemma gwf_empty : forall k, gwf (zeros k) [] [].
Proof. intro k. exists k. repeat split; try constructor. Qed.

Lemma gwf_length : forall seg ents ns, gwf seg ents ns -> length ents = length ns.
Proof.
  intros seg ents ns (k & _ & H & _). rewrite <- (map_length e_off ents), H. apply offs_length.
Qed.

Lemma decode_gen : forall ns ents pre rest,
  Forall hname_ok ns -> map e_off ents = offs (blen pre) ns ->
  map (name_of (pre ++ enc ns ++ rest)) ents = map Some ns.
Proof.
  induction ns as [|n ns IH]; intros ents pre rest Hok Hoff.
  - destruct ents; [reflexivity | discriminate].
  - destruct ents as [|e ents]; [discriminate|]. cbn [map offs] in Hoff. inversion Hoff as [[H1 H2]].
    inversion Hok as [|? ? [Hne Hnz] Hok']; subst. cbn [map]. f_equal.
    + unfold name_of. rewrite H1. unfold enc. cbn [flat_map]. fold (enc ns).
      rewrite <- !app_assoc. cbn [app]. apply get_string_at. assumption.
    + unfold enc. cbn [flat_map]. fold (enc ns).
      rewrite <- (app_assoc (n ++ [0])). rewrite (app_assoc pre).
      apply IH; [assumption|]. rewrite H2. f_equal. rewrite !blen_app, !blen_cons, !blen_nil. nlia.
Qed.

Lemma names_decode : forall seg ents ns, gwf seg ents ns -> map (name_of seg) ents = map Some ns.
Proof.
  intros seg ents ns (k & Hs & Ho & Hok & _). subst seg.
  apply (decode_gen ns ents [] (zeros k)); assumption.
Qed.

Lemma has_name_iff : forall seg nm ents,
  existsb (entry_has_name seg nm) ents = true <-> In (Some nm) (map (name_of seg) ents).
Proof.
  intros. rewrite existsb_exists, in_map_iff. unfold entry_has_name. split; intros (e & A & B); exists e.
  - split; [|assumption]. destruct (name_of seg e); [|discriminate]. apply bytes_eqb_eq in B. congruence.
  - rewrite A. split; [assumption | apply bytes_eqb_refl].
Qed.

Lemma dup_check_iff : forall seg ents ns nm, gwf seg ents ns ->
  (existsb (entry_has_name seg nm) ents = true <-> In nm ns).
Proof.
  intros seg ents ns nm H. rewrite has_name_iff, (names_decode _ _ _ H), in_map_iff.
  split; [intros (x & [= ->] & I); exact I | eauto].
Qed.

Lemma find_has_name : forall seg ents ns nm, gwf seg ents ns ->
  match find (entry_has_name seg nm) ents with
  | Some e => In e ents /\ name_of seg e = Some nm
  | None => ~ In nm ns
  end.
Proof.
  intros seg ents ns nm H. destruct (find (entry_has_name seg nm) ents) as [e|] eqn:F.
  - apply find_some in F. destruct F as [I Hn]. split; [assumption|].
    unfold entry_has_name in Hn. destruct (name_of seg e); [|discriminate]. apply bytes_eqb_eq in Hn. congruence.
  - rewrite <- (dup_check_iff _ _ _ nm H), existsb_exists. intros (e & Ie & He).
    rewrite (find_none _ _ F e Ie) in He. discriminate.
Qed.

Lemma NoDup_snoc : forall A (l : list A) x, NoDup l -> ~ In x l -> NoDup (l ++ [x]).
Proof.
  induction l as [|y l IH]; intros x H N; cbn [app].
  - constructor; [intros [] | constructor].
  - inversion H; subst. constructor.
    + intro I. apply in_app_or in I. destruct I as [I|[I|[]]]; [contradiction | subst; apply N; left; reflexivity].
    + apply IH; [assumption | intro I; apply N; right; assumption].
Qed.

Lemma names_size_enc : forall ch, names_size ch = blen (enc (map fst ch)).
Proof.
  induction ch as [|[n c] ch IH]; cbn [names_size map fst]; [reflexivity|].
  unfold enc. cbn [flat_map]. fold (enc (map fst ch)). rewrite IH, !blen_app, blen_cons, blen_nil. nlia.
Qed.

(* one insertion (the heap half of linkToParent) *)
Lemma heap_link : forall seg ents ns nm, gwf seg ents ns -> hname_ok nm -> ~ In nm ns ->
  let h := prepare_for_modification seg in
  (add_string h nm = None <-> blen seg < blen (enc ns) + blen nm + 1) /\
  (forall off h1, add_string h nm = Some (off, h1) ->
     off = blen (enc ns) /\ blen (snd (write_to h1)) = blen seg /\
     forall c, gwf (snd (write_to h1)) (ents ++ [{| e_off := off; e_obj := c |}]) (ns ++ [nm])).
Proof.
  intros seg ents ns nm (k & Hs & Ho & Hok & Hnd) Hnm Hnin h. subst h seg.
  rewrite prepare_enc by (try assumption; apply allzero_zeros).
  unfold add_string. cbn [wh_strings wh_dss].
  destruct (blen (enc ns ++ zeros k) <? blen (enc ns) + (blen nm + 1)) eqn:E.
  - split; [split; intro; [apply N.ltb_lt in E; nlia | reflexivity] | intros; discriminate].
  - apply N.ltb_ge in E. split; [split; intro X; [discriminate | nlia]|].
    intros off h1 X. inversion X; subst; clear X. split; [reflexivity|].
    unfold write_to. cbn [wh_strings wh_dss snd].
    set (L := blen (enc ns ++ zeros k)) in *. set (S' := enc ns ++ nm ++ [0]).
    assert (HS : S' = enc (ns ++ [nm])) by (unfold S'; rewrite enc_snoc; reflexivity).
    assert (HL : blen S' <= L) by (unfold S'; rewrite !blen_app, !blen_cons, !blen_nil; nlia).
    assert (HX : exists k', (if blen S' <? L then S' ++ zeros (L - blen S') else S') = S' ++ zeros k' /\ blen S' + k' = L).
    { destruct (blen S' <? L) eqn:E2.
      - exists (L - blen S'). split; [reflexivity | nlia].
      - apply N.ltb_ge in E2. exists 0. split; [unfold zeros; cbn; rewrite app_nil_r; reflexivity | nlia]. }
    destruct HX as (k' & HX1 & HX2). rewrite HX1. split.
    + rewrite blen_app, blen_zeros. assumption.
    + intro c. exists k'. rewrite HS. repeat split.
      * rewrite map_app. cbn [map e_off]. rewrite Ho, offs_snoc. f_equal.
      * apply Forall_app. split; [assumption | constructor; [assumption | constructor]].
      * apply NoDup_snoc; assumption.
Qed.

Lemma new_heap_segment : forall n, snd (write_to (new_local_heap n)) = zeros (new_heap_size n).
Proof.
  intro n. unfold write_to, new_local_heap. cbn [wh_strings wh_dss snd]. rewrite blen_nil.
  destruct (0 <? new_heap_size n) eqn:E.
  - cbn [app]. f_equal. nlia.
  - apply N.ltb_ge in E. assert (new_heap_size n = 0) by nlia. rewrite H. reflexivity.
Qed.
Lemma new_snod_entries : forall n m, snod_write_at (new_snod n) m = [].
Proof. intros. apply firstn_nil. Qed.
