(* C11, compound datatypes as trees (Model/CodecCompoundTree.v), part 1: the three member loops
   (calculateCompoundPropsLen, parseCompoundV3, parseCompoundV1) on an encoded member list. *)
From HV Require Import Base.Prelude Base.Outcome Base.Bytes Model.CodecType Model.CodecCompound
  Model.CodecCompoundTree Proofs.CodecMsg Proofs.CodecType.

Lemma member_hdr_eq t :
  member_hdr t = dt_header (dt_class t) (dt_version t) (dt_cbf t) (dt_size t) ++ dt_props t.
Proof. unfold member_hdr, dt_header. now rewrite <- app_assoc. Qed.

Lemma blen_member_hdr t : blen (member_hdr t) = 8 + blen (dt_props t).
Proof. rewrite member_hdr_eq, blen_app, blen_dt_header. reflexivity. Qed.

Lemma nfs_length fs : nfs fs = N.of_nat (length (flat_fields fs)).
Proof. induction fs as [|n o t r IH] using cfields_ind; cbn [nfs flat_fields length]; [reflexivity|]. rewrite IH. blia. Qed.

Fixpoint names_ok (fs : cfields) : bool :=
  match fs with
  | CNil => true
  | CCons n o _ r => name_ok n && (o <? 4294967296) && names_ok r
  end.

(* [decsP ef parse fs rest]: every member type, followed by the encoding of the members after it and by
   [rest], is parsed back exactly by [parse] *)
Fixpoint decsP (ef : field -> bytes) (parse : bytes -> outcome datatype) (fs : cfields) (rest : bytes) : Prop :=
  match fs with
  | CNil => True
  | CCons _ _ t r =>
      parse (member_hdr (flat t) ++ concat (map ef (flat_fields r)) ++ rest) = Ok (flat t) /\
      encoded_size (flat t) = 8 + blen (dt_props (flat t)) /\
      decsP ef parse r rest
  end.

Lemma name_ok_inv n : name_ok n = true -> 1 <= blen n /\ forallb (fun b => negb (b =? 0)) n = true.
Proof.
  unfold name_ok. intros H. apply andb_true_iff in H as [H1 H2]. split; auto.
  apply negb_true_iff, Nat.eqb_neq in H1. unfold blen. blia.
Qed.

Lemma blen_enc_field_v3 f : blen (enc_field_v3 f) = blen (fd_name f) + 5 + 8 + blen (dt_props (fd_type f)).
Proof. unfold enc_field_v3. rewrite !blen_app, blen_le, blen_member_hdr. change (blen [0]) with 1. blia. Qed.

Lemma v3_field_reads pre n o t tail :
  name_ok n = true -> o < 4294967296 ->
  let data := pre ++ enc_field_v3 {| fd_name := n; fd_offset := o; fd_type := t |} ++ tail in
  find0 data (blen pre) = blen pre + blen n /\
  blen data = blen pre + blen n + 5 + 8 + blen (dt_props t) + blen tail /\
  slice data (blen pre) (blen pre + blen n) = Ok n /\
  rd_le data (blen pre + blen n + 1) 4 = Ok o /\
  slice_from data (blen pre + blen n + 1 + 4) = Ok (member_hdr t ++ tail).
Proof.
  intros Hn Ho data. apply name_ok_inv in Hn as [_ Hnz].
  assert (E : data = pre ++ (n ++ [0] ++ le 4 o) ++ member_hdr t ++ tail)
    by (unfold data, enc_field_v3; cbn [fd_name fd_offset fd_type]; now rewrite <- !app_assoc).
  assert (F : file_at data (blen pre) (n ++ [0] ++ le 4 o)) by (rewrite E; apply fa_here).
  apply fa_split in F as [Fn F]. apply fa_app_r in F. change (blen [0]) with 1 in F.
  repeat split.
  - rewrite E, <- !app_assoc. now apply find0_app.
  - unfold data. rewrite !blen_app, blen_enc_field_v3. cbn [fd_name fd_type]. blia.
  - now apply (fa_slice Fn).
  - now apply (fa_rd_le F).
  - rewrite E, app_assoc. apply slice_from_app. rewrite !blen_app, blen_le. change (blen [0]) with 1. blia.
Qed.

Lemma cpl_loop_ok parse : forall fs pre rest fuel,
  names_ok fs = true -> decsP enc_field_v3 parse fs rest -> (length (flat_fields fs) <= fuel)%nat ->
  cpl_loop parse fuel (pre ++ concat (map enc_field_v3 (flat_fields fs)) ++ rest) (nfs fs) (blen pre)
  = Ok (blen pre + blen (concat (map enc_field_v3 (flat_fields fs)))).
Proof.
  induction fs as [|n o t r IH] using cfields_ind; intros pre rest fuel Hn Hd Hf.
  - cbn [nfs flat_fields map concat]. destruct fuel; cbn [cpl_loop N.eqb]; f_equal; unfold blen; cbn [length]; blia.
  - cbn [names_ok] in Hn. apply andb_true_iff in Hn as [Hn Hnr]. apply andb_true_iff in Hn as [Hnm Ho].
    apply N.ltb_lt in Ho. cbn [decsP] in Hd. destruct Hd as (Hp & _ & Hdr).
    cbn [flat_fields map concat length] in *.
    destruct fuel as [|fuel]; [blia|]. rewrite <- app_assoc.
    destruct (v3_field_reads pre n o (flat t) (concat (map enc_field_v3 (flat_fields r)) ++ rest) Hnm Ho)
      as (Hfind & HL & _ & _ & Hs).
    cbn [cpl_loop nfs]. rewrite (proj2 (N.eqb_neq _ 0)), Hfind, HL by blia.
    rewrite (proj2 (N.leb_gt _ _)), !ltb_false, Hs by blia. cbn [obind]. rewrite Hp.
    replace (1 + nfs r - 1) with (nfs r) by blia.
    rewrite (app_assoc pre).
    replace (blen pre + blen n + 1 + 4 + 8 + blen (dt_props (flat t))) with (blen (pre ++ enc_field_v3 {| fd_name := n; fd_offset := o; fd_type := flat t |}))
      by (rewrite blen_app, blen_enc_field_v3; cbn [fd_name fd_type]; blia).
    rewrite IH by (auto; blia). f_equal. rewrite !blen_app. blia.
Qed.

Lemma v3_members_ok : forall fs pre rest fuel,
  names_ok fs = true -> decsP enc_field_v3 dec_datatype fs rest -> (length (flat_fields fs) <= fuel)%nat ->
  v3_members fuel (pre ++ concat (map enc_field_v3 (flat_fields fs)) ++ rest) (nfs fs) (blen pre)
  = Ok (flat_fields fs).
Proof.
  induction fs as [|n o t r IH] using cfields_ind; intros pre rest fuel Hn Hd Hf.
  - cbn [nfs flat_fields map concat]. destruct fuel; cbn [v3_members N.eqb]; reflexivity.
  - cbn [names_ok] in Hn. apply andb_true_iff in Hn as [Hn Hnr]. apply andb_true_iff in Hn as [Hnm Ho].
    apply N.ltb_lt in Ho. cbn [decsP] in Hd. destruct Hd as (Hp & _ & Hdr).
    cbn [flat_fields map concat length] in *.
    destruct fuel as [|fuel]; [blia|]. rewrite <- app_assoc.
    destruct (v3_field_reads pre n o (flat t) (concat (map enc_field_v3 (flat_fields r)) ++ rest) Hnm Ho)
      as (Hfind & HL & Hname & Hoff & Hs).
    cbn [v3_members nfs]. rewrite (proj2 (N.eqb_neq _ 0)), Hfind, HL by blia.
    rewrite (proj2 (N.leb_gt _ _)), Hname by blia. cbn [obind]. rewrite ltb_false, Hoff by blia. cbn [obind].
    rewrite ltb_false, Hs by blia. cbn [obind]. rewrite Hp. cbn [obind].
    replace (1 + nfs r - 1) with (nfs r) by blia.
    rewrite (app_assoc pre).
    replace (blen pre + blen n + 1 + 4 + 8 + blen (dt_props (flat t))) with (blen (pre ++ enc_field_v3 {| fd_name := n; fd_offset := o; fd_type := flat t |}))
      by (rewrite blen_app, blen_enc_field_v3; cbn [fd_name fd_type]; blia).
    now rewrite IH by (auto; blia).
Qed.

(* version 1: name padded to the next multiple of 8 (at least one NUL), 28 bytes of array information *)

Lemma pad_name_v1_gt n : n < pad_name_v1 n /\ pad_name_v1 n <= n + 8.
Proof. unfold pad_name_v1. lia. Qed.

Definition v1_pad (n : bytes) : nat := N.to_nat (pad_name_v1 (blen n) - blen n).

Lemma v1_pad_pos n : exists k, v1_pad n = S k.
Proof.
  unfold v1_pad. pose proof (pad_name_v1_gt (blen n)) as [H _].
  exists (Nat.pred (N.to_nat (pad_name_v1 (blen n) - blen n))). blia.
Qed.

Lemma v1_field_layout pre n o t tail :
  pre ++ enc_field_v1 {| fd_name := n; fd_offset := o; fd_type := t |} ++ tail =
  (pre ++ n ++ zeros (v1_pad n)) ++ le 4 o ++ (zeros 28 ++ member_hdr t ++ tail).
Proof. unfold enc_field_v1, v1_pad. cbn [fd_name fd_offset fd_type]. rewrite <- !app_assoc. reflexivity. Qed.

Lemma v1_field_layout3 pre n o t tail :
  pre ++ enc_field_v1 {| fd_name := n; fd_offset := o; fd_type := t |} ++ tail =
  (pre ++ n ++ zeros (v1_pad n) ++ le 4 o ++ zeros 28) ++ (member_hdr t ++ tail).
Proof. unfold enc_field_v1, v1_pad. cbn [fd_name fd_offset fd_type]. rewrite <- !app_assoc. reflexivity. Qed.

Lemma blen_enc_field_v1 f :
  blen (enc_field_v1 f) = pad_name_v1 (blen (fd_name f)) + 4 + 28 + 8 + blen (dt_props (fd_type f)).
Proof.
  unfold enc_field_v1. rewrite !blen_app, blen_le, !blen_zeros, blen_member_hdr.
  pose proof (pad_name_v1_gt (blen (fd_name f))). blia.
Qed.

Lemma v1_members_ok : forall fs pre rest fuel,
  names_ok fs = true -> decsP enc_field_v1 dec_datatype fs rest -> (length (flat_fields fs) <= fuel)%nat ->
  v1_members fuel (pre ++ concat (map enc_field_v1 (flat_fields fs)) ++ rest) (nfs fs) (blen pre)
  = Ok (flat_fields fs).
Proof.
  induction fs as [|n o t r IH] using cfields_ind; intros pre rest fuel Hn Hd Hf.
  - cbn [nfs flat_fields map concat]. destruct fuel; cbn [v1_members N.eqb]; reflexivity.
  - cbn [names_ok] in Hn. apply andb_true_iff in Hn as [Hn Hnr]. apply andb_true_iff in Hn as [Hnm Ho].
    apply N.ltb_lt in Ho. apply name_ok_inv in Hnm as [Hn1 Hnz].
    cbn [decsP] in Hd. destruct Hd as (Hp & Hes & Hdr).
    cbn [flat_fields map concat length] in *.
    destruct fuel as [|fuel]; [blia|].
    set (f := {| fd_name := n; fd_offset := o; fd_type := flat t |}) in *.
    set (tail := concat (map enc_field_v1 (flat_fields r)) ++ rest) in *.
    rewrite <- app_assoc. fold tail.
    assert (Hnf : nfs (CCons n o t r) =? 0 = false) by (cbn [nfs]; apply N.eqb_neq; blia).
    cbn [v1_members]. rewrite Hnf.
    pose proof (pad_name_v1_gt (blen n)) as [Hpg Hpl].
    assert (HL : blen (pre ++ enc_field_v1 f ++ tail)
                 = blen pre + pad_name_v1 (blen n) + 4 + 28 + 8 + blen (dt_props (flat t)) + blen tail).
    { rewrite !blen_app, blen_enc_field_v1. subst f. cbn [fd_name fd_type]. blia. }
    assert (Hfind : find0 (pre ++ enc_field_v1 f ++ tail) (blen pre) = blen pre + blen n).
    { subst f. rewrite v1_field_layout. destruct (v1_pad_pos n) as [k Hk]. rewrite Hk, zeros_S.
      rewrite <- !app_assoc. cbn [app]. apply find0_app; auto. }
    rewrite Hfind, HL, (proj2 (N.leb_gt _ _)) by blia.
    assert (Hname : slice (pre ++ enc_field_v1 f ++ tail) (blen pre) (blen pre + blen n) = Ok n).
    { subst f. rewrite v1_field_layout. rewrite <- !app_assoc. apply slice_app'; reflexivity. }
    rewrite Hname. cbn [obind].
    replace (blen pre + blen n - blen pre) with (blen n) by blia.
    rewrite ltb_false by blia.
    assert (Hoff : rd_le (pre ++ enc_field_v1 f ++ tail) (blen pre + pad_name_v1 (blen n)) 4 = Ok o).
    { subst f. rewrite v1_field_layout. apply (rd_le_at _ 4 4); auto.
      rewrite !blen_app, blen_zeros. unfold v1_pad. blia. }
    rewrite Hoff. cbn [obind].
    rewrite !ltb_false by blia.
    assert (Hs : slice_from (pre ++ enc_field_v1 f ++ tail) (blen pre + pad_name_v1 (blen n) + 4 + 28)
                 = Ok (member_hdr (flat t) ++ tail)).
    { subst f. rewrite v1_field_layout3. apply slice_from_app.
      rewrite !blen_app, blen_le, !blen_zeros. unfold v1_pad. blia. }
    rewrite Hs. cbn [obind]. rewrite Hp. cbn [obind].
    replace (nfs (CCons n o t r) - 1) with (nfs r) by (cbn [nfs]; blia).
    rewrite Hes.
    replace (blen pre + pad_name_v1 (blen n) + 4 + 28 + (8 + blen (dt_props (flat t)))) with (blen (pre ++ enc_field_v1 f))
      by (rewrite blen_app, blen_enc_field_v1; subst f; cbn [fd_name fd_type]; blia).
    replace (pre ++ enc_field_v1 f ++ tail) with ((pre ++ enc_field_v1 f) ++ concat (map enc_field_v1 (flat_fields r)) ++ rest)
      by (subst tail; rewrite <- !app_assoc; reflexivity).
    rewrite IH by (auto; blia). reflexivity.
Qed.
