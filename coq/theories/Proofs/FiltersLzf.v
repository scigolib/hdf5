(* C08 - LZF: the decompressor inverts the compressor on every input (lzf_roundtrip) and never fails at run time on
   any input (lzf_decompress_total).
   Invariant of the compressor loop: the bytes emitted so far decode to input[0:litPos]; every
   back-reference points into that prefix and the bytes it copies were compared equal by the
   compressor.  The hash table only proposes candidates, so nothing is assumed about it. *)
From HV Require Import Base.Prelude Model.Filters Proofs.FiltersFletcher.
From HV Require Base.Bytes.
From Coq Require Import FSets.FMapPositive.

Local Open Scope nat_scope.

Lemma firstn_snoc_nth {A} (l : list A) p d : p < length l -> firstn p l ++ [nth p l d] = firstn (S p) l.
Proof.
  revert l; induction p as [|p IH]; intros l H; destruct l; cbn [length] in H; try lia; cbn [firstn nth app]; auto.
  f_equal. apply IH. lia.
Qed.

Lemma firstn_skipn_glue {A} (l : list A) a b : a <= b -> firstn a l ++ firstn (b - a) (skipn a l) = firstn b l.
Proof.
  revert l b; induction a as [|a IH]; intros l b H.
  - cbn [firstn skipn app]. now rewrite Nat.sub_0_r.
  - destruct b; [lia|]. destruct l; cbn [firstn skipn app Nat.sub]; [now rewrite firstn_nil|].
    f_equal. apply IH. lia.
Qed.

Lemma skipn_cons_nth {A} (l : list A) p x r d : skipn p l = x :: r -> nth p l d = x /\ skipn (S p) l = r /\ p < length l.
Proof.
  revert l; induction p as [|p IH]; intros l H.
  - cbn [skipn] in H. subst l. cbn [nth skipn length]. repeat split; lia.
  - destruct l; cbn [skipn] in H; [discriminate|]. cbn [nth skipn length].
    destruct (IH l H) as (? & ? & ?). repeat split; auto. lia.
Qed.

Lemma lzf_dec_fuel : forall f1 f2 i o, length i <= f1 -> length i <= f2 -> lzf_dec f1 i o = lzf_dec f2 i o.
Proof.
  induction f1 as [|f1 IH]; intros f2 i o H1 H2.
  - destruct i; cbn [length] in H1; [|lia]. now destruct f2.
  - destruct i as [|c r]; [now destruct f2|].
    destruct f2 as [|f2]; cbn [length] in *; [lia|].
    cbn [lzf_dec].
    destruct (c <? 32)%N.
    + destruct (length r <? N.to_nat c + 1); auto.
      apply IH; rewrite skipn_length; lia.
    + destruct r as [|b1 r2]; auto. cbn [length] in *.
      destruct (c / 32 =? 7)%N.
      * destruct r2 as [|lo r3]; auto. cbn [length] in *.
        destruct (length o <? _); auto. apply IH; lia.
      * destruct (length o <? _); auto. apply IH; lia.
Qed.

Lemma lzf_dec_total : forall f i o, length i <= f -> lzf_dec f i o <> OutOfFuel /\ lzf_dec f i o <> Panic.
Proof.
  induction f as [|f IH]; intros i o H.
  - destruct i; cbn [length] in H; [|lia]. cbn [lzf_dec]. split; discriminate.
  - destruct i as [|c r]; [cbn [lzf_dec]; split; discriminate|]. cbn [length] in H.
    cbn [lzf_dec].
    destruct (c <? 32)%N.
    + destruct (length r <? N.to_nat c + 1); [split; discriminate|].
      apply IH; rewrite skipn_length; lia.
    + destruct r as [|lo r2]; [split; discriminate|]. cbn [length] in *.
      destruct (c / 32 =? 7)%N.
      * destruct r2 as [|lb r3]; [split; discriminate|]. cbn [length] in *.
        destruct (length o <? _); [split; discriminate|]. apply IH; lia.
      * destruct (length o <? _); [split; discriminate|]. apply IH; lia.
Qed.

Lemma dec_literal_chunk (l rest out : bytes) F n :
  length l = n -> 1 <= n <= 32 -> length (N.of_nat (n - 1) :: l ++ rest) <= F ->
  lzf_dec F (N.of_nat (n - 1) :: l ++ rest) out = lzf_dec (length rest) rest (out ++ l).
Proof.
  intros <- Hl HF. destruct F as [|F]; [cbn [length] in HF; lia|].
  cbn [lzf_dec].
  replace (N.of_nat (length l - 1) <? 32)%N with true by (symmetry; apply N.ltb_lt; lia).
  replace (N.to_nat (N.of_nat (length l - 1)) + 1) with (length l) by lia.
  replace (length (l ++ rest) <? length l) with false by (symmetry; apply Nat.ltb_ge; rewrite app_length; lia).
  rewrite Bytes.firstn_length_app, Bytes.skipn_length_app.
  apply lzf_dec_fuel; auto. cbn [length] in HF. rewrite app_length in HF. lia.
Qed.

Lemma append_literal_cons fl (lit : bytes) :
  lit <> [] ->
  append_literal (S fl) lit
  = N.of_nat (Nat.min (length lit) 32 - 1)
      :: firstn (Nat.min (length lit) 32) lit ++ append_literal fl (skipn (Nat.min (length lit) 32) lit).
Proof. destruct lit; [congruence|reflexivity]. Qed.

Lemma dec_append_literal : forall fl (lit rest out : bytes) F,
  length lit <= fl -> length (append_literal fl lit ++ rest) <= F ->
  lzf_dec F (append_literal fl lit ++ rest) out = lzf_dec (length rest) rest (out ++ lit).
Proof.
  induction fl as [|fl IH]; intros lit rest out F Hl HF.
  - destruct lit; cbn [length] in Hl; [|lia]. cbn [append_literal app] in *. rewrite app_nil_r.
    now apply lzf_dec_fuel.
  - destruct (list_eq_dec N.eq_dec lit []) as [->|Hne].
    { cbn [append_literal app] in *. rewrite app_nil_r. now apply lzf_dec_fuel. }
    assert (Hpos : 1 <= length lit) by (destruct lit; [exfalso; now apply Hne|cbn [length]; lia]).
    rewrite append_literal_cons in HF by exact Hne. rewrite append_literal_cons by exact Hne.
    set (run := Nat.min (length lit) 32) in *.
    assert (Hrun : 1 <= run <= 32 /\ run <= length lit) by (subst run; lia).
    assert (Hch : length (firstn run lit) = run) by (rewrite firstn_length; lia).
    cbn [app] in *. rewrite <- app_assoc in *.
    rewrite (dec_literal_chunk _ _ _ _ run); [| exact Hch | lia | exact HF].
    cbn [length] in HF. rewrite app_length in HF.
    rewrite IH.
    + rewrite <- app_assoc, firstn_skipn. reflexivity.
    + rewrite skipn_length. lia.
    + lia.
Qed.

Lemma dec_literal (lit rest out : bytes) F :
  length (lzf_literal lit ++ rest) <= F ->
  lzf_dec F (lzf_literal lit ++ rest) out = lzf_dec (length rest) rest (out ++ lit).
Proof. intro H. unfold lzf_literal in *. apply dec_append_literal; auto. Qed.

Lemma dec_backref (off len : nat) (rest out : bytes) F :
  1 <= off -> (N.of_nat off <= 8192)%N -> 3 <= len <= 264 -> off <= length out ->
  length (lzf_backref off len ++ rest) <= F ->
  lzf_dec F (lzf_backref off len ++ rest) out
  = lzf_dec (length rest) rest (copy_back len (length out - off) out).
Proof.
  intros Ho Ho2 Hl Hout HF. unfold lzf_backref in *.
  set (o := N.of_nat (off - 1)) in *. set (l := N.of_nat len) in *.
  assert (Hoo : (o < 8192)%N) by (subst o; lia).
  (* both forms: control byte k*32 + o/256 with 1 <= k <= 7, offset split over its low five bits and a later byte *)
  assert (Hoff : N.to_nat (o / 256 * 256 + o mod 256) + 1 = off) by (subst o; lia).
  assert (Ctrl : forall k, (1 <= k <= 7)%N -> let c := (k * 32 + o / 256)%N in
            wrap8 c = c /\ (c <? 32)%N = false /\ (c / 32)%N = k /\ (c mod 32)%N = (o / 256)%N).
  { intros k Hk c. subst c. unfold wrap8. repeat split; try apply N.ltb_ge; lia. }
  destruct (Nat.leb_spec len 8) as [Hs|Hs]; (destruct F as [|F]; [cbn [length app] in HF; lia|]); cbn [app lzf_dec].
  - destruct (Ctrl (l - 2)%N) as (-> & -> & -> & ->); [subst l; lia|].
    replace (l - 2 =? 7)%N with false by (symmetry; apply N.eqb_neq; subst l; lia).
    rewrite Hoff. replace (N.to_nat (l - 2) + 2) with len by (subst l; lia).
    replace (length out <? off) with false by (symmetry; apply Nat.ltb_ge; lia).
    apply lzf_dec_fuel; auto. cbn [length app] in HF. lia.
  - change 224%N with (7 * 32)%N. destruct (Ctrl 7%N) as (-> & -> & -> & ->); [lia|].
    replace (wrap8 (l - 9)) with (l - 9)%N by (unfold wrap8; subst l; lia).
    cbn [N.eqb Pos.eqb]. rewrite Hoff. replace (N.to_nat (l - 9) + 9) with len by (subst l; lia).
    replace (length out <? off) with false by (symmetry; apply Nat.ltb_ge; lia).
    apply lzf_dec_fuel; auto. cbn [length app] in HF. lia.
Qed.

Lemma copy_back_prefix : forall n p r (input : bytes),
  r < p -> p + n <= length input ->
  (forall k, k < n -> nth (r + k) input 0%N = nth (p + k) input 0%N) ->
  copy_back n r (firstn p input) = firstn (p + n) input.
Proof.
  induction n as [|n IH]; intros p r input Hr Hp Heq; cbn [copy_back].
  - now rewrite Nat.add_0_r.
  - rewrite Bytes.nth_firstn_lt by exact Hr.
    pose proof (Heq 0 ltac:(lia)) as H0. rewrite !Nat.add_0_r in H0. rewrite H0.
    rewrite firstn_snoc_nth by lia.
    rewrite IH; [f_equal; lia | lia | lia |].
    intros k Hk. specialize (Heq (S k) ltac:(lia)).
    now replace (S r + k) with (r + S k) by lia; replace (S p + k) with (p + S k) by lia.
Qed.

Lemma lzf_ext_spec : forall bound (a b : bytes),
  lzf_ext a b bound <= bound /\ forall k, k < lzf_ext a b bound -> nth k a 0%N = nth k b 0%N.
Proof.
  induction bound as [|bound IH]; intros a b.
  - assert (E : lzf_ext a b 0 = 0) by (destruct a; reflexivity). rewrite E. split; [lia|intros; exfalso; lia].
  - destruct a as [|x a]; [cbn [lzf_ext]; split; [lia|intros; exfalso; lia]|].
    destruct b as [|y b]; [cbn [lzf_ext]; split; [lia|intros; exfalso; lia]|].
    cbn [lzf_ext].
    destruct (N.eqb_spec x y) as [->|]; [|split; [lia|intros; exfalso; lia]].
    destruct (IH a b) as [H1 H2]. split; [lia|].
    intros [|k] Hk; cbn [nth]; auto. apply H2. lia.
Qed.

Lemma lzf_loop_decodes (input : bytes) : forall fuel inPos litPos rest t,
  litPos <= inPos -> inPos <= length input -> rest = skipn inPos input ->
  length input - inPos < fuel ->
  let O := lzf_loop fuel input (length input) inPos litPos rest t in
  lzf_dec (length O) O (firstn litPos input) = Ok input.
Proof.
  induction fuel as [|fuel IH]; intros inPos litPos rest t Hlp Hip Hrest Hfuel; [lia|].
  cbn [lzf_loop].
  (* the tail case is shared by the three short shapes of rest *)
  assert (Tail : forall O, O = (if litPos <? length input then lzf_literal (skipn litPos input) else []) ->
                           lzf_dec (length O) O (firstn litPos input) = Ok input).
  { intros O ->. destruct (litPos <? length input) eqn:Hl.
    - rewrite <- (app_nil_r (lzf_literal _)).
      rewrite dec_literal by lia. cbn [length lzf_dec]. now rewrite firstn_skipn.
    - apply Nat.ltb_ge in Hl. cbn [length lzf_dec]. rewrite firstn_all2 by lia. reflexivity. }
  destruct rest as [|b0 [|b1 [|b2 rest3]]]; try (cbv zeta; now apply Tail).
  cbv zeta.
  symmetry in Hrest.
  destruct (skipn_cons_nth input inPos b0 _ 0%N Hrest) as (N0 & Hrest1 & Hlt0).
  destruct (skipn_cons_nth input (S inPos) b1 _ 0%N Hrest1) as (N1 & Hrest2 & Hlt1).
  destruct (skipn_cons_nth input (S (S inPos)) b2 _ 0%N Hrest2) as (N2 & Hrest3 & Hlt2).
  set (h := lzf_hash b0 b1 b2).
  set (ref := htab_get h t).
  destruct ((0 <? ref) && (ref <? inPos) && (N.of_nat (inPos - ref) <=? 8192)%N
            && (nth ref input 0 =? b0)%N && (nth (ref + 1) input 0 =? b1)%N && (nth (ref + 2) input 0 =? b2)%N) eqn:Hc.
  2:{ (* no match: inPos++ *)
      cbn [tl]. apply IH; auto; try lia. }
  rewrite !andb_true_iff, !Nat.ltb_lt, N.leb_le, !N.eqb_eq in Hc.
  destruct Hc as (((((Hr0 & Hri) & Hoff) & E0) & E1) & E2).
  set (maxLen := Nat.min (length input - inPos) 264).
  set (ext := lzf_ext (skipn (ref + 3) input) (skipn 3 (b0 :: b1 :: b2 :: rest3)) (maxLen - 3)).
  destruct (lzf_ext_spec (maxLen - 3) (skipn (ref + 3) input) (skipn 3 (b0 :: b1 :: b2 :: rest3))) as [Hext1 Hext2].
  fold ext in Hext1, Hext2.
  set (matchLen := 3 + ext).
  assert (HmaxLen : 3 <= maxLen /\ maxLen <= 264 /\ maxLen <= length input - inPos) by (subst maxLen; lia).
  assert (HmatchLen : 3 <= matchLen /\ matchLen <= 264 /\ inPos + matchLen <= length input) by (subst matchLen; lia).
  (* the bytes the back-reference copies are equal *)
  assert (Heq : forall k, k < matchLen -> nth (ref + k) input 0%N = nth (inPos + k) input 0%N).
  { intros k Hk. destruct k as [|[|[|k]]].
    - rewrite !Nat.add_0_r. congruence.
    - replace (inPos + 1) with (S inPos) by lia. congruence.
    - replace (inPos + 2) with (S (S inPos)) by lia. congruence.
    - specialize (Hext2 k ltac:(subst matchLen; lia)).
      rewrite <- Hrest in Hext2. rewrite Bytes.skipn_skipn, !Bytes.nth_skipn in Hext2.
      replace (ref + S (S (S k))) with (ref + 3 + k) by lia.
      replace (inPos + S (S (S k))) with (inPos + 3 + k) by lia. exact Hext2. }
  set (rest' := skipn matchLen (b0 :: b1 :: b2 :: rest3)).
  assert (Hrest' : rest' = skipn (inPos + matchLen) input).
  { subst rest'. rewrite <- Hrest. apply Bytes.skipn_skipn. }
  set (t2 := htab_fill _ _ _ _).
  set (O' := lzf_loop fuel input (length input) (inPos + matchLen) (inPos + matchLen) rest' t2).
  specialize (IH (inPos + matchLen) (inPos + matchLen) rest' t2 ltac:(lia) ltac:(lia) Hrest' ltac:(lia)).
  cbv zeta in IH. fold O' in IH.
  set (lit := if litPos <? inPos then lzf_literal (firstn (inPos - litPos) (skipn litPos input)) else []).
  (* literal part brings the output to input[0:inPos] *)
  assert (Hlit : forall R F, length (lit ++ R) <= F ->
                 lzf_dec F (lit ++ R) (firstn litPos input) = lzf_dec (length R) R (firstn inPos input)).
  { intros R F HF. subst lit. destruct (litPos <? inPos) eqn:Hl.
    - rewrite dec_literal by exact HF. rewrite firstn_skipn_glue by lia. reflexivity.
    - apply Nat.ltb_ge in Hl. replace litPos with inPos by lia. cbn [app] in *. now apply lzf_dec_fuel. }
  rewrite Hlit by lia.
  rewrite dec_backref by (rewrite ?firstn_length; lia).
  rewrite firstn_length. replace (Nat.min inPos (length input)) with inPos by lia.
  replace (inPos - (inPos - ref)) with ref by lia.
  rewrite copy_back_prefix; auto; lia.
Qed.

Theorem lzf_roundtrip x : lzf_decompress (lzf_compress x) = Ok x.
Proof.
  destruct x as [|a x']; [reflexivity|]. set (x := a :: x').
  unfold lzf_compress. fold x.
  pose proof (lzf_loop_decodes x (S (length x)) 0 0 x (PositiveMap.empty nat)
               ltac:(lia) ltac:(lia) eq_refl ltac:(lia)) as H.
  cbv zeta in H. cbn [firstn] in H.
  unfold lzf_decompress.
  destruct (lzf_loop _ _ _ _ _ _ _) as [|c O]; [cbn [length lzf_dec] in H; subst x; discriminate|].
  exact H.
Qed.

(* the decompressor on arbitrary (malformed) input: an error or a value, never a run-time failure *)
Theorem lzf_decompress_total i : lzf_decompress i <> OutOfFuel /\ lzf_decompress i <> Panic.
Proof.
  unfold lzf_decompress. destruct i; [split; discriminate|]. now apply lzf_dec_total.
Qed.
