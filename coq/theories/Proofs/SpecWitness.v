(* C05: smallest witnesses, by evaluation, for the encoders whose general theorem is not (yet) proved for all inputs, and the
   refutations of the two deviations KNOWN_FINDINGS.json does not list. *)
From HV Require Import Base.Prelude Base.Outcome Base.Bytes Spec.Lookup3 Spec.Parse Spec.Format Spec.FormatMsg
  Model.CodecMsg Model.CodecType Model.CodecLink Model.CodecAttr Model.CodecFilter Model.CodecCompound Model.CodecOhdr.

Definition tags_of {A} (o : outcome (A * list tag)) : option (list N) :=
  match o with Ok (_, tg) => Some (map tag_code tg) | _ => None end.

(* filter pipeline: version byte 2 with the version-1 layout *)
Definition gzip6 : wfilter := {| wf_id := 1; wf_name := ascii_bytes "deflate"; wf_flags := 0; wf_cd := [6] |}.
Lemma pipeline_v2_with_v1_layout_refuted :
  wf_pipeline [gzip6] = true /\
  spec_dec_pipeline strict false (enc_pipeline [gzip6]) = Err /\
  spec_dec_pipeline tolerant false (enc_pipeline [gzip6]) =
    Ok ([{| fl_id := 1; fl_flags := 0; fl_name := ascii_bytes "deflate"; fl_cd := [6] |}], [T_pipeline_v2_with_v1_layout]).
Proof. repeat split; vm_compute; reflexivity. Qed.

(* links: hard and soft links conform; the external link value layout deviates *)
Definition hard_link : linkmsg :=
  {| lk_version := 1; lk_flags := 0; lk_type := 0; lk_corder := 0; lk_charset := 0; lk_name := ascii_bytes "d0"; lk_value := le 8 4096 |}.
Definition soft_link : linkmsg :=
  {| lk_version := 1; lk_flags := 8; lk_type := 1; lk_corder := 0; lk_charset := 0; lk_name := ascii_bytes "s";
     lk_value := le 2 2 ++ ascii_bytes "/a" |}.
Definition ext_link : linkmsg :=
  {| lk_version := 1; lk_flags := 8; lk_type := 64; lk_corder := 0; lk_charset := 0; lk_name := ascii_bytes "e";
     lk_value := le 2 4 ++ ascii_bytes "f.h5" ++ le 2 2 ++ ascii_bytes "/x" |}.
Lemma link_hard_soft_conform :
  wf_link 8 hard_link = true /\ wf_link 8 soft_link = true /\
  spec_dec_link strict 8 false (enc_link hard_link) =
    Ok ({| ls_flags := 0; ls_corder := None; ls_cset := 0; ls_name := ascii_bytes "d0"; ls_value := LHard 4096 |}, []) /\
  spec_dec_link strict 8 false (enc_link soft_link) =
    Ok ({| ls_flags := 8; ls_corder := None; ls_cset := 0; ls_name := ascii_bytes "s"; ls_value := LSoft (ascii_bytes "/a") |}, []).
Proof. repeat split; vm_compute; reflexivity. Qed.
Lemma extlink_value_layout_refuted :
  wf_link 8 ext_link = true /\
  spec_dec_link strict 8 false (enc_link ext_link) = Err /\
  spec_dec_link tolerant 8 false (enc_link ext_link) =
    Ok ({| ls_flags := 8; ls_corder := None; ls_cset := 0; ls_name := ascii_bytes "e";
           ls_value := LExternal (ascii_bytes "f.h5") (ascii_bytes "/x") |}, [T_extlink_value_layout]).
Proof. repeat split; vm_compute; reflexivity. Qed.

(* attribute (version 3): conformant framing; the deviations are those of the datatype inside *)
Definition int32_t : datatype := {| dt_class := DT_FIXED; dt_version := 1; dt_size := 4; dt_cbf := 8; dt_props := [] |}.
Definition ref_t : datatype := {| dt_class := DT_REFERENCE; dt_version := 1; dt_size := 8; dt_cbf := 0; dt_props := [] |}.
Definition attr_int : attribute :=
  {| at_name := ascii_bytes "a"; at_dt := int32_t; at_ds := {| ds_dims := [2]; ds_maxdims := [] |}; at_data := le 4 7 ++ le 4 9 |}.
Definition attr_ref : attribute :=
  {| at_name := ascii_bytes "r"; at_dt := ref_t; at_ds := {| ds_dims := [1]; ds_maxdims := [] |}; at_data := le 8 800 |}.
Lemma attribute_v3_framing :
  wf_attribute attr_int = true /\ wf_attribute attr_ref = true /\
  tags_of (spec_dec_attribute strict 8 false (enc_attribute attr_ref)) = Some [] /\
  spec_dec_attribute strict 8 false (enc_attribute attr_int) = Err /\
  tags_of (spec_dec_attribute tolerant 8 false (enc_attribute attr_int)) = Some [tag_code T_fixed_props_malformed].
Proof. repeat split; vm_compute; reflexivity. Qed.

(* NOT LISTED: version 3 compound datatypes.  The specification (IV.A.2.d, class 6): class bits 0-15 hold the number of members
        (all versions); version 3: "Byte Offset of Member: ... the field size is the minimum number of bytes necessary, based on
        the size of the datatype element" - 1 byte for the 12-byte compound {int32 x; char s[8]}.  The writer stores class bits 0,
        a 4-byte member count as the first property bytes, and 4-byte offsets. *)
Lemma compound_v3_layout_refuted :
  encok_compound compound_ok_example = true /\
  spec_dec_datatype strict false (enc_compound compound_ok_example) = Err /\
  tags_of (spec_dec_datatype tolerant false (enc_compound compound_ok_example)) =
    Some (map tag_code [T_compound_v3_layout; T_fixed_props_malformed; T_string_extra_prop_byte]).
Proof. repeat split; vm_compute; reflexivity. Qed.

(* with version 1 (fixed 4-byte offsets) the member layout is the specification's; what remains are the listed deviations of the
   member types *)
Definition compound_v1_example : compound :=
  {| cp_version := 1; cp_size := 4; cp_fields := [ {| fd_name := [120]; fd_offset := 0; fd_type := dt_int32 |} ] |}.
Lemma compound_v1_members_conform :
  tags_of (spec_dec_datatype tolerant false (enc_compound compound_v1_example)) = Some [tag_code T_fixed_props_malformed].
Proof. vm_compute. reflexivity. Qed.

(* NOT LISTED: version 3 enumerations are written as (name padded to a multiple of 8 bytes, value) pairs; the specification
        stores all names (version 3: unpadded) followed by all values *)
Definition enum_example : enumdt :=
  {| en_base := enc_datatype int32_t; en_names := [ascii_bytes "A"; ascii_bytes "B"]; en_values := le 4 0 ++ le 4 1; en_size := 4 |}.
Lemma enum_v3_layout_refuted :
  wf_enum enum_example = true /\
  spec_dec_datatype strict false (enc_enum enum_example) = Err /\
  tags_of (spec_dec_datatype tolerant false (enc_enum enum_example)) =
    Some (map tag_code [T_fixed_props_malformed; T_enum_v3_layout]).
Proof. repeat split; vm_compute; reflexivity. Qed.

(* array (version 3): conformant *)
Definition array_example : arraydt := {| ar_base := enc_datatype ref_t; ar_dims := [3; 2]; ar_size := 48 |}.
Lemma array_v3_conforms :
  wf_array array_example = true /\
  spec_dec_datatype strict false (enc_array array_example) = Ok (DArray 3 48 [3; 2] (DReference 1 8 0), []).
Proof. split; vm_compute; reflexivity. Qed.

(* variable-length (repaired header, /repo 71914eb): conformant framing around the base type *)
Definition vlen_str : datatype :=
  {| dt_class := DT_VLEN; dt_version := 1; dt_size := 16; dt_cbf := 1;
     dt_props := enc_datatype {| dt_class := DT_STRING; dt_version := 1; dt_size := 1; dt_cbf := 0; dt_props := [] |} |}.
Lemma vlen_string_framing :
  wf_vlen vlen_str = true /\
  spec_dec_datatype strict false (enc_datatype vlen_str) = Err /\
  spec_dec_datatype tolerant false (enc_datatype vlen_str) = Ok (DVlen 1 16 1 0 0 (DString 1 1 0 0), [T_string_extra_prop_byte]).
Proof. repeat split; vm_compute; reflexivity. Qed.

(* version 1 object header: conformant when every message body is a multiple of 8 bytes long (the only version 1 header the
        writer produces is the root group's: one 16-byte symbol table message); otherwise the size field holds the unpadded length,
        which the specification forbids *)
Definition ohdr1_root : ohdr :=
  {| oh_version := 1; oh_flags := 0; oh_refcount := 1; oh_msgs := [ {| hm_type := 17; hm_data := le 8 136 ++ le 8 680 |} ] |}.
Definition ohdr1_unaligned : ohdr :=
  {| oh_version := 1; oh_flags := 0; oh_refcount := 1; oh_msgs := [ {| hm_type := 3; hm_data := enc_datatype int32_t |} ] |}.
Lemma ohdr1_root_conforms :
  wf_ohdr_v1 ohdr1_root = true /\
  spec_dec_ohdr1 (enc_ohdr_v1 ohdr1_root) =
    Ok ({| o1_nmsgs := 1; o1_refcount := 1; o1_size := 24;
           o1_msgs := [ {| ms_type := 17; ms_flags := 0; ms_corder := None; ms_data := le 8 136 ++ le 8 680 |} ] |}, []).
Proof. split; vm_compute; reflexivity. Qed.
Lemma ohdr1_unpadded_size_refuted :
  wf_ohdr_v1 ohdr1_unaligned = true /\ spec_dec_ohdr1 (enc_ohdr_v1 ohdr1_unaligned) = Err.
Proof. split; vm_compute; reflexivity. Qed.
