(* C01 end to end, chunked: ReadSuperblock and hdf5.Open's loader on image_v2_chunked, a one-dataset file (Proofs/FileImageGenOpen.v)
   without data. *)
From HV Require Import Base.Prelude Model.Chunk Base.Outcome Base.Bytes Model.RobustTerm Model.ChunkIndex.
From HV Require Import Model.IOProg Proofs.IOProg Model.IOProgReader Model.IOProgOpen.
From HV Require Import Model.CodecSuper Model.CodecOhdr Model.CodecMsg Model.CodecType Model.CodecLink Model.GroupWire.
From HV Require Import Proofs.CodecSuper Proofs.CodecOhdr.
From HV Require Import Proofs.ChunkCoords.
From HV Require Import Model.FileImage Proofs.FileImage Proofs.FileImageOhdr Proofs.FileImageData Proofs.FileImageGroup Proofs.FileImageOpen
  Proofs.FileImageProd Proofs.FileImageMain Proofs.FileImageGenOpen
  Model.FileImageChunked Proofs.ChunkRefine Proofs.FileImageChunked Proofs.FileImageChunkedRead Proofs.FileImageChunkedMain.

Local Open Scope N_scope.

Section ImageC.
Variable name : bytes.
Variables class size cbf : N.
Variables dims cdims : list N.
Variable data : bytes.
Hypothesis Hname : link_name_ok name = true.
Hypothesis Hdt : basic_dtype class size cbf = true.
Hypothesis Hdims : dims_ok_chunked dims = true.
Hypothesis Hcd : cdims_ok dims cdims = true.
Hypothesis Hlen : blen data = prodN dims * size.
Hypothesis Hbound : blen data < 4294967296.
Hypothesis Hchunk : prodN cdims * size <= 1073741824.
Hypothesis Hcap : total_chunks (num_chunks dims cdims) <= 65535.

Local Notation f := (image_v2_chunked name class size cbf dims cdims data).
Local Notation dso := (c_dset_ohdr class size cbf dims cdims data).
Local Notation inst L :=
  (L (c_eof size dims cdims data) name (@nil N) dso (zeros (N.to_nat (OHDR_RESERVE - size_ohdr_v2 dso)))
     (map snd (c_chunks size dims cdims data) ++ [c_leaf size dims cdims data])) (only parsing).

Lemma open_chunked_gen n hfuel : (3 < hfuel)%nat ->
  run0 f p_superblock = Ok SB' /\
  run0 f (p_open true (blen f) (S (S (S n))) hfuel) = Ok (Grp [47] 2168 [Dset name 2195]).
Proof using Hname Hdt Hdims Hcd Hlen Hbound Hchunk Hcap.
  intros Hhf. pose proof (c_dso_ok class size cbf dims cdims data Hdt Hdims Hcd Hlen Hbound Hchunk Hcap) as Hok.
  assert (Heof : c_eof size dims cdims data < 18446744073709551616)
    by (pose proof (c_eof_bound class size cbf dims cdims data Hdt Hdims Hcd Hlen Hchunk Hcap) as B; unfold MAXI64 in B; blia).
  split; [exact (inst v2_superblock Hname Heof) | exact (inst v2_open Hname Heof Hok eq_refl [] eq_refl eq_refl hfuel Hhf n)].
Qed.
End ImageC.

Lemma file_open_chunked_stmt : forall name class size cbf dims cdims data fuel hfuel,
  link_name_ok name = true -> basic_dtype class size cbf = true -> dims_ok_chunked dims = true -> cdims_ok dims cdims = true ->
  blen data = product dims * size -> blen data < 4294967296 -> product cdims * size <= 1073741824 ->
  total_chunks (num_chunks dims cdims) <= 65535 -> (3 <= fuel)%nat -> (3 < hfuel)%nat ->
  let f := image_v2_chunked name class size cbf dims cdims data in
  run0 f p_superblock = Ok SB' /\
  run0 f (p_open true (blen f) fuel hfuel) = Ok (Grp [47] ROOT_ADDR [Dset name CHDR_ADDR]).
Proof.
  intros name class size cbf dims cdims data fuel hfuel Hname Hdt Hdims Hcd Hlen Hbound Hchunk Hcap Hf Hh f.
  rewrite product_prodN in Hlen, Hchunk.
  destruct fuel as [|[|[|n]]]; try blia.
  exact (open_chunked_gen name class size cbf dims cdims data Hname Hdt Hdims Hcd Hlen Hbound Hchunk Hcap n hfuel Hh).
Qed.
