(* C03: witnesses for the named exclusions (each is a reproducible defect of the Go code; the same
   histories are replayed against the real code by tools/props/c03unit.py and by the `hist` harness). *)
From HV Require Import Base.Prelude Model.GroupNS Proofs.GroupNSBase Proofs.GroupNSHeap Proofs.GroupNSInv.

Definition b (s : string) : bytes := map N_of_ascii (list_ascii_of_string s).
Definition go (h : list op) := run (step go_cfg) (init go_cfg) h.          (* the tree as it is *)
Definition gob (h : list op) := run (step base_cfg) (init base_cfg) h.      (* before the repairs *)
Definition sp (h : list op) := run (spec_step go_cfg) s_empty h.
Definition all_ok (rs : list result) : bool := forallb is_ok rs.

(* replace a closed term by its value, computed once: the kernel would otherwise replay the same
   history for every conjunct that mentions it *)
Ltac eval_once t :=
  let E := fresh in eassert (E : t = _) by (vm_compute; reflexivity); rewrite E; clear E.

(* (1) a group reachable through two paths: children listed only under the first path visited *)
Definition h_group_hardlink : list op := [MkGroup (b "/g"); MkGroup (b "/g/x"); HardLink (b "/h") (b "/g")].
Lemma group_hardlink_refuted :
  names_ok go_cfg h_group_hardlink = true /\ all_ok (snd (go h_group_hardlink)) = true /\ all_ok (snd (sp h_group_hardlink)) = true /\
  read_tree go_cfg (fst (go h_group_hardlink)) <> spec_tree (fst (sp h_group_hardlink)) /\
  read_tree go_cfg (fst (go h_group_hardlink)) =
    Some (TNode 0 KGroup [(b "g", TNode 1 KGroup [(b "x", TNode 2 KGroup [])]); (b "h", TNode 1 KGroup [])]).
Proof.
  eval_once (sp h_group_hardlink). eval_once (go h_group_hardlink).
  vm_compute. repeat split; try reflexivity. discriminate.
Qed.

(* (1a) a hard link to an enclosing group.  cyc_cfg is the reader of 653ef00 .. 8c0b97a, whose own-ancestor
   check is an error: Open fails; go_cfg lists the link as a group without children *)
Definition cyc_cfg : cfg := {| heap_cap := 256; snod_cap := 32; soft_max := 244; max_depth := 1024;
                               strict_names := true; canon_group_key := true; rc_rollback_fix := true;
                               cycle_is_error := true; check_first := true |}.
Definition h_ancestor_link : list op := [MkGroup (b "/g"); MkGroup (b "/g/h"); HardLink (b "/g/h/up") (b "/g")].
Lemma ancestor_link_refuted :
  all_ok (snd (go h_ancestor_link)) = true /\ all_ok (snd (sp h_ancestor_link)) = true /\
  read_tree cyc_cfg (fst (run (step cyc_cfg) (init cyc_cfg) h_ancestor_link)) = None /\
  read_tree go_cfg (fst (go h_ancestor_link)) =
    Some (TNode 0 KGroup [(b "g", TNode 1 KGroup [(b "h", TNode 2 KGroup [(b "up", TNode 1 KGroup [])])])]).
Proof. eval_once (go h_ancestor_link). vm_compute. repeat split; reflexivity. Qed.

(* (1b) fw.groups does not know the second path: creating under it is refused *)
Definition h_alias_parent : list op := [MkGroup (b "/g"); HardLink (b "/h") (b "/g"); MkGroup (b "/h/x")].
Lemma alias_parent_refuted :
  map is_ok (snd (go h_alias_parent)) = [true; true; false] /\ map is_ok (snd (sp h_alias_parent)) = [true; true; true].
Proof. vm_compute. split; reflexivity. Qed.

(* (2) soft (and external) link objects are shown as empty groups *)
Definition h_soft : list op := [MkDataset (b "/d"); SoftLink (b "/s") (b "/d")].
Lemma soft_link_refuted :
  adm go_cfg s_empty h_soft = true /\ all_ok (snd (go h_soft)) = true /\
  read_tree go_cfg (fst (go h_soft)) = Some (TNode 0 KGroup [(b "d", TNode 1 KData []); (b "s", TNode 2 KGroup [])]) /\
  spec_tree (fst (sp h_soft)) = Some (TNode 0 KGroup [(b "d", TNode 1 KData []); (b "s", TNode 2 KSoft [])]).
Proof. eval_once (go h_soft). vm_compute. repeat split; reflexivity. Qed.

(* (3) the empty name: CreateGroup("//") and CreateDataset("/") are accepted; the next insertion lands on
   the same heap offset (PrepareForModification's scan finds no used bytes / stops before the lone NUL) *)
Definition h_empty_name : list op := [MkGroup (b "//"); MkGroup (b "/x")].
Lemma empty_name_refuted :
  all_ok (snd (gob h_empty_name)) = true /\
  group_names (fst (gob h_empty_name)) 0 = Some [Some (b "x"); Some (b "x")] /\
  ~ NoDup [Some (b "x"); Some (b "x")].
Proof.
  eval_once (gob h_empty_name). repeat split.
  intro H. inversion H as [|? ? H1 H2]; subst. apply H1. left. reflexivity.
Qed.
Definition h_dataset_root : list op := [MkDataset (b "/"); MkDataset (b "/x")].
Lemma dataset_root_refuted :
  all_ok (snd (gob h_dataset_root)) = true /\ group_names (fst (gob h_dataset_root)) 0 = Some [Some (b "x"); Some (b "x")].
Proof. eval_once (gob h_dataset_root). split; reflexivity. Qed.

(* (4) a NUL byte in a name: accepted, read back truncated, duplicates an existing name *)
Definition h_nul_name : list op := [MkGroup (b "/a"); MkGroup (b "/a" ++ [0] ++ b "b")].
Lemma nul_name_refuted :
  all_ok (snd (gob h_nul_name)) = true /\ group_names (fst (gob h_nul_name)) 0 = Some [Some (b "a"); Some (b "a")].
Proof. eval_once (gob h_nul_name). split; reflexivity. Qed.

(* (5) trailing slash: the group is linked as "a" but registered under the key "/a/";
   nothing can be created under "/a" afterwards (while "/a//b" works) *)
Definition h_trailing_slash : list op := [MkGroup (b "/a/"); MkGroup (b "/a/b"); MkGroup (b "/a//b")].
Lemma trailing_slash_refuted :
  snd (gob h_trailing_slash) = [Ok; Err ENoParent; Ok] /\
  read_tree base_cfg (fst (gob h_trailing_slash)) = Some (TNode 0 KGroup [(b "a", TNode 1 KGroup [(b "b", TNode 3 KGroup [])])]).
Proof. eval_once (gob h_trailing_slash). split; reflexivity. Qed.

(* (6) a hard link that fails in linkToParent (duplicate name, full group) leaves the target's stored
   reference count at 2: the rollback decrements the in-memory count to 1 but the RefCount message,
   added when the count became 2, is only rewritten when the count is > 1 *)
Definition h_rollback : list op := [MkDataset (b "/d")].
Definition o_rollback : op := HardLink (b "/d") (b "/d").
Lemma hardlink_rollback_refuted :
  let w := fst (gob h_rollback) in let w' := fst (step_body base_cfg w o_rollback) in
  snd (step_body base_cfg w o_rollback) = Err EDup /\
  option_map refcount (alookup 1 (objects w)) = Some 1 /\ option_map refcount (alookup 1 (objects w')) = Some 2 /\
  ~ same_all (clock w) w w'.
Proof.
  cbv zeta. eval_once (gob h_rollback). cbn [fst]. match goal with |- context [step_body ?c ?w ?o] => eval_once (step_body c w o) end.
  repeat split. intros [_ H]. specialize (H 1 eq_refl). discriminate H.
Qed.

(* with the three candidate repairs switched on *)
Definition fixed_cfg : cfg := {| heap_cap := 256; snod_cap := 32; soft_max := 244; max_depth := 1024;
                                 strict_names := true; canon_group_key := true; rc_rollback_fix := true; cycle_is_error := false; check_first := true |}.
Definition gof (h : list op) := run (step fixed_cfg) (init fixed_cfg) h.

Lemma repairs_remove_witnesses :
  snd (gof h_empty_name) = [Err EInvalidPath; Ok] /\ snd (gof h_dataset_root) = [Err EInvalidPath; Ok] /\
  snd (gof h_nul_name) = [Ok; Err EInvalidPath] /\
  snd (gof h_trailing_slash) = [Ok; Ok; Err ENoParent] /\
  (let w := fst (gof h_rollback) in
   option_map refcount (alookup 1 (objects (fst (step_body fixed_cfg w o_rollback)))) = Some 1).
Proof. vm_compute. repeat split; reflexivity. Qed.

Lemma no_dup_repaired : forall c h g names, strict_names c = true -> group_names (reach c h) g = Some names ->
  NoDup names /\ Forall (fun x => x <> None) names.
Proof. intros c h g names S. apply no_dup_reach. unfold names_ok. rewrite S. reflexivity. Qed.

(* not_too_deep: with the depth limit at 2, three nested groups cannot be read back *)
Definition shallow_cfg : cfg := {| heap_cap := 256; snod_cap := 32; soft_max := 244; max_depth := 2;
                                   strict_names := true; canon_group_key := true; rc_rollback_fix := true; cycle_is_error := false; check_first := true |}.
Definition h_deep : list op := [MkGroup (b "/a"); MkGroup (b "/a/b"); MkGroup (b "/a/b/c"); MkGroup (b "/a/b/c/d")].
Lemma too_deep_refuted :
  adm shallow_cfg s_empty h_deep = true /\ all_ok (snd (run (step shallow_cfg) (init shallow_cfg) h_deep)) = true /\
  read_tree shallow_cfg (fst (run (step shallow_cfg) (init shallow_cfg) h_deep)) = None /\
  spec_tree (fst (run (spec_step shallow_cfg) s_empty h_deep)) <> None.
Proof.
  eval_once (run (step shallow_cfg) (init shallow_cfg) h_deep).
  vm_compute. repeat split; try reflexivity. discriminate.
Qed.
