(* C06, reader against specification: the three witnesses that refute the superblock statement for the reader as it is
   (ReaderSpecSuper.v) are decoded correctly by the REPAIRED reader (Model/CodecSuper.v dec_superblock_gen true =
   dec_superblock = internal/core/superblock.go with notes/fixes/c06-superblock-sizes.patch applied), and for that reader the
   statement holds for every size of offsets and size of lengths (instances of the theorems of ReaderSpecSuperOk.v). *)
From HV Require Import Base.Prelude Base.Outcome Base.Bytes Spec.Parse Spec.Format Model.CodecSuper
  Proofs.ReaderSpecBase Proofs.ReaderSpecSuper Proofs.ReaderSpecSuperOk.

Definition repaired_view (bs : bytes) : outcome (N * N * N * N * N * N * N) :=
  s <- dec_superblock_gen true bs;;
  Ok (spp_version s, spp_offsize s, spp_lensize s, spp_base s, spp_root s, spp_rootbtree s, spp_rootheap s).

Lemma superblock_repaired_witnesses :
  repaired_view sb2_witness_8_4 = Ok (2, 8, 4, 0, 48, 0, 0) /\
  repaired_view sb2_witness_4_4 = Ok (3, 4, 4, 0, 48, 0, 0) /\
  repaired_view sb0_witness_4 = Ok (0, 4, 4, 0, 96, 136, 680).
Proof. repeat split; vm_compute; reflexivity. Qed.

Lemma superblock_v23_repaired_reader_spec (bs : bytes) (s : superblock_spec) (tg : list tag) (r : bytes) :
  spec_dec_superblock strict bs = Ok (s, tg, r) ->
  sbs_version s = 2 \/ sbs_version s = 3 ->
  err_or (sb_agree s) (dec_superblock_gen true bs).
Proof. intros; eapply superblock_v23_reader_spec; eauto. Qed.

Lemma superblock_v0_repaired_reader_spec (bs : bytes) (s : superblock_spec) (tg : list tag) (r : bytes) :
  spec_dec_superblock strict bs = Ok (s, tg, r) ->
  sbs_version s = 0 ->
  err_or (sb_agree s) (dec_superblock_gen true bs).
Proof. intros; eapply superblock_v0_reader_spec; eauto. Qed.
