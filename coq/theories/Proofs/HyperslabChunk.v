(* C09: chunked layout.  With the output position computed from the selection indices, the
   chunk-by-chunk extraction returns the selection in row-major order, whatever the order in
   which the chunks are visited.  General in the rank. *)
From HV Require Import Base.Prelude Base.Bytes Model.Hyperslab Proofs.HyperslabBase Proofs.HyperslabRaw.

(* (position in the selection, coordinates) of every leaf, in the order of the recursion *)
Fixpoint idx_coords (s : list axis) (pos : N) (pre : list N) : list (N * list N) :=
  match s with
  | [] => [(pos, pre)]
  | a :: s' =>
      flat_map (fun t => idx_coords s' ((pos * a_count a + fst (fst t)) * a_block a + snd (fst t))
                                    (pre ++ [snd t]))
               (axis_cbx a)
  end.

Lemma idx_coords_snd : forall s pos pre,
  map snd (idx_coords s pos pre) = map (app pre) (sel_coords s).
Proof.
  induction s as [|a s IH]; intros pos pre; cbn [idx_coords sel_coords map].
  - rewrite app_nil_r. reflexivity.
  - rewrite !map_flat_map. rewrite <- (axis_cbx_idx a), flat_map_map.
    apply flat_map_ext_in. intros t _. rewrite IH, map_map. apply map_ext. intros z.
    rewrite <- app_assoc. reflexivity.
Qed.

Lemma idx_coords_fst : forall s pos pre,
  map fst (idx_coords s pos pre) = nseq (pos * selN s) (N.to_nat (selN s)).
Proof.
  induction s as [|a s IH]; intros pos pre; cbn [idx_coords map].
  - unfold selN. cbn [map prodN]. rewrite N.mul_1_r. reflexivity.
  - assert (E : selN (a :: s) = a_count a * a_block a * selN s) by reflexivity.
    rewrite map_flat_map. unfold axis_cbx. rewrite flat_map_flat_map.
    (* the leaves below one block index are one run, and so are the runs of one count index *)
    rewrite (flat_map_ext_in _ (fun c => nseq (pos * selN (a :: s) + c * (a_block a * selN s))
                                              (N.to_nat (a_block a * selN s)))).
    + unfold nrange. rewrite flat_map_nseq_runs, E, !N2Nat.inj_mul. f_equal; lia.
    + intros c _. rewrite flat_map_map. cbn [fst snd].
      rewrite (flat_map_ext_in _ (fun b => nseq ((pos * a_count a + c) * a_block a * selN s + b * selN s)
                                                (N.to_nat (selN s)))) by (intros; rewrite IH; f_equal; lia).
      unfold nrange. rewrite flat_map_nseq_runs, E, !N2Nat.inj_mul. f_equal; lia.
Qed.

Lemma idx_coords_length s pos pre : length (idx_coords s pos pre) = N.to_nat (selN s).
Proof. rewrite <- (map_length fst), idx_coords_fst, nseq_length. reflexivity. Qed.

Lemma nth_pair {A B} (l : list (A * B)) k d :
  nth k l d = (nth k (map fst l) (fst d), nth k (map snd l) (snd d)).
Proof. rewrite !map_nth. apply surjective_pairing. Qed.

Lemma idx_coords_nth s (k : nat) : (k < length (sel_coords s))%nat ->
  nth k (idx_coords s 0 []) (0, []) = (N.of_nat k, nth k (sel_coords s) []).
Proof.
  intros Hk. rewrite sel_coords_length in Hk.
  rewrite nth_pair, idx_coords_fst, idx_coords_snd. cbn [fst snd].
  rewrite nth_nseq by assumption.
  rewrite (map_ext _ (fun x => x)) by reflexivity. rewrite map_id. f_equal.
Qed.

Lemma idx_coords_in s t : In t (idx_coords s 0 []) ->
  exists k, (k < length (sel_coords s))%nat /\ t = (N.of_nat k, nth k (sel_coords s) []).
Proof.
  intros H. apply (In_nth _ _ (0, [])) in H. destruct H as (k & Hk & <-).
  rewrite idx_coords_length, <- sel_coords_length in Hk.
  exists k. split; [assumption|apply idx_coords_nth; assumption].
Qed.

Lemma idx_coords_prefix : forall s pos pre t, In t (idx_coords s pos pre) -> exists rest, snd t = pre ++ rest.
Proof.
  intros s pos pre t H. apply (in_map snd) in H. rewrite idx_coords_snd in H.
  apply in_map_iff in H. destruct H as (z & <- & _). eauto.
Qed.

Lemma in_chunk_beyond : forall pre cs cep e rce x rest,
  length cep = length pre -> length cs = length (cep ++ e :: rce) -> e <= x ->
  in_chunk (pre ++ x :: rest) cs (cep ++ e :: rce) = false.
Proof.
  induction pre as [|p pre IH]; intros [|c cs] [|e0 cep] e rce x rest L1 L2 Hle;
    cbn [length app] in *; try discriminate; cbn [in_chunk].
  - destruct (N.ltb_spec x c); cbn [orb]; [reflexivity|].
    destruct (N.leb_spec e x); [reflexivity|lia].
  - destruct ((p <? c) || (e0 <=? p)); [reflexivity|]. apply IH; lia.
Qed.

Definition leafw (chunk cs ce cdims : list N) (st : list N * N) (t : N * list N) : list N * N :=
  chunk_leaf chunk cs ce cdims (snd t) (fst t) st.

Lemma chunk_rec_spec chunk cs ce cdims : forall s rce cep pre pos st,
  ce = cep ++ rce -> length cep = length pre -> length rce = length s -> length cs = length ce ->
  chunk_rec chunk cs ce cdims s rce pre pos st
  = fold_left (leafw chunk cs ce cdims) (idx_coords s pos pre) st.
Proof.
  induction s as [|a s IH]; intros [|e rce] cep pre pos st Hce L1 L2 L3; cbn [length] in L2; try discriminate.
  - reflexivity.
  - cbn [chunk_rec idx_coords]. rewrite axis_loop_cbx, fold_left_flat_map.
    apply fold_left_ext_in. intros st0 [[c b] x] _. cbn [fst snd].
    destruct (N.leb_spec e x) as [Hle|Hgt].
    + symmetry. apply fold_left_id_in. intros st1 t Ht.
      destruct (idx_coords_prefix _ _ _ _ Ht) as (rest & Hr).
      unfold leafw, chunk_leaf. rewrite Hr, <- app_assoc. cbn [app]. subst ce.
      rewrite in_chunk_beyond by (try assumption; lia). reflexivity.
    + apply (IH rce (cep ++ [e])).
      * subst ce. rewrite <- app_assoc. reflexivity.
      * rewrite !app_length. cbn [length]. lia.
      * lia.
      * assumption.
Qed.

Lemma all_coords_length ext : length (all_coords ext) = N.to_nat (prodN ext).
Proof.
  induction ext as [|d r IH]; cbn [all_coords prodN length]; [reflexivity|].
  rewrite flat_map_length_const with (k := length (all_coords r)) by (intros; apply map_length).
  rewrite nrange_length, IH. lia.
Qed.

Lemma all_coords_lin ext : map (lin ext) (all_coords ext) = nrange (prodN ext).
Proof.
  induction ext as [|d r IH]; [reflexivity|]. cbn [all_coords prodN]. rewrite map_flat_map.
  rewrite (flat_map_ext_in _ (fun i => nseq (0 + i * prodN r) (N.to_nat (prodN r)))).
  - unfold nrange. rewrite flat_map_nseq_runs, N2Nat.inj_mul. reflexivity.
  - intros i _. rewrite map_map. cbn [lin]. rewrite <- (map_map (lin r) (N.add (i * prodN r))), IH.
    unfold nrange. rewrite map_add_nseq. f_equal. lia.
Qed.

Lemma in_all_coords : forall ext x, In x (all_coords ext) <-> Forall2 N.lt x ext.
Proof.
  induction ext as [|d r IH]; intros x; cbn [all_coords].
  - split; [intros [<-|[]]; constructor|]. intros H; inversion H; left; reflexivity.
  - rewrite in_flat_map_cons. split.
    + intros (i & y & -> & Hi & Hy). constructor; [apply in_nrange; assumption|apply IH; assumption].
    + intros H. inversion H as [|i ? y ? Hi Hy]; subst. exists i, y.
      split; [reflexivity|]. split; [apply in_nrange; assumption|apply IH; assumption].
Qed.

Lemma lin_inj : forall dims x y, Forall2 N.lt x dims -> Forall2 N.lt y dims -> lin dims x = lin dims y -> x = y.
Proof.
  induction dims as [|d ds IH]; intros x y Hx Hy E;
    inversion Hx as [|a ? xs ? Ha Hxs]; inversion Hy as [|b ? ys ? Hb Hys]; subst; [reflexivity|].
  cbn [lin] in E. pose proof (lin_bound _ _ Hxs). pose proof (lin_bound _ _ Hys).
  assert (a = b) by nia. subst b. f_equal. apply IH; auto. lia.
Qed.

Lemma all_coords_nth ext rel : Forall2 N.lt rel ext -> nth (N.to_nat (lin ext rel)) (all_coords ext) [] = rel.
Proof.
  intros H. pose proof (lin_bound _ _ H) as B.
  assert (K : (N.to_nat (lin ext rel) < length (all_coords ext))%nat) by (rewrite all_coords_length; lia).
  (* the element at that position is in the box and has the same row-major index *)
  apply (lin_inj ext); [apply in_all_coords, nth_In, K|assumption|].
  rewrite <- (map_nth (lin ext)), all_coords_lin. unfold nrange. rewrite nth_nseq by lia. lia.
Qed.

Definition chunk_elem (full dims cdims cc rel : list N) : N :=
  let x := vadd (vmul cc cdims) rel in if inb x dims then nthN full (lin dims x) else 0.

Lemma chunk_of_length full dims cdims cc : lenN (chunk_of full dims cdims cc) = prodN cdims.
Proof. unfold lenN, chunk_of. rewrite map_length, all_coords_length. lia. Qed.

Lemma chunk_of_nth full dims cdims cc rel : Forall2 N.lt rel cdims ->
  nthN (chunk_of full dims cdims cc) (lin cdims rel) = chunk_elem full dims cdims cc rel.
Proof.
  intros H. unfold nthN, chunk_of. fold (chunk_elem full dims cdims cc).
  pose proof (lin_bound _ _ H).
  rewrite nth_indep with (d' := chunk_elem full dims cdims cc [])
    by (rewrite map_length, all_coords_length; lia).
  rewrite map_nth, all_coords_nth by assumption. reflexivity.
Qed.

Lemma inb_true : forall x dims, Forall2 N.lt x dims -> inb x dims = true.
Proof.
  unfold inb. induction 1 as [|a d x dims H _ IH]; cbn [forall2b]; [reflexivity|].
  rewrite IH. destruct (N.ltb_spec a d); [reflexivity|lia].
Qed.

Lemma vmul_length : forall a b, length a = length b -> length (vmul a b) = length a.
Proof. induction a; intros [|y b] H; cbn [length vmul] in *; try discriminate; [reflexivity|]. rewrite IHa by lia. reflexivity. Qed.

Lemma chunk_end_length : forall cs cdims dims, length cs = length dims -> length cdims = length dims ->
  length (chunk_end cs cdims dims) = length dims.
Proof.
  induction cs as [|s cs IH]; intros [|c cd] [|d ds] H1 H2; cbn [length chunk_end] in *; try discriminate; [reflexivity|].
  rewrite IH by lia. reflexivity.
Qed.

Lemma in_chunk_rel : forall x cc cdims dims,
  length cc = length x -> length cdims = length x -> length dims = length x ->
  in_chunk x (vmul cc cdims) (chunk_end (vmul cc cdims) cdims dims) = true ->
  Forall2 N.lt (vsub x (vmul cc cdims)) cdims /\ vadd (vmul cc cdims) (vsub x (vmul cc cdims)) = x.
Proof.
  induction x as [|xi x IH]; intros [|c cc] [|cd cdims] [|d dims] L1 L2 L3 H;
    cbn [length] in *; try discriminate; cbn [vmul chunk_end in_chunk vsub vadd] in *.
  - split; [constructor|reflexivity].
  - destruct (N.ltb_spec xi (c * cd)); cbn [orb] in H; [discriminate|].
    destruct (N.leb_spec (if d <? c * cd + cd then d else c * cd + cd) xi) as [|Hlt]; [discriminate|].
    destruct (IH cc cdims dims) as (R1 & R2); try lia; [assumption|].
    split.
    + constructor; [|assumption]. destruct (N.ltb_spec d (c * cd + cd)); lia.
    + rewrite R2. f_equal. lia.
Qed.

Lemma in_chunk_div x cd d k : 0 < cd -> x < d ->
  (k * cd <= x < (if d <? k * cd + cd then d else k * cd + cd)) <-> k = x / cd.
Proof.
  intros Hc Hx. split.
  - intros H. apply (N.div_unique x cd k (x - k * cd)); destruct (N.ltb_spec d (k * cd + cd)); lia.
  - intros ->. pose proof (N.mul_div_le x cd ltac:(lia)). pose proof (N.mul_succ_div_gt x cd ltac:(lia)).
    destruct (N.ltb_spec d (x / cd * cd + cd)); lia.
Qed.

Lemma in_chunk_own : forall x cdims dims,
  Forall2 N.lt x dims -> Forall (fun c => 0 < c) cdims -> length cdims = length x ->
  in_chunk x (vmul (map2 N.div x cdims) cdims) (chunk_end (vmul (map2 N.div x cdims) cdims) cdims dims) = true.
Proof.
  induction x as [|xi x IH]; intros [|cd cdims] [|d dims] H Hc L; inversion H; subst;
    cbn [length] in *; try discriminate; cbn [map2 vmul chunk_end in_chunk]; [reflexivity|].
  inversion Hc; subst.
  destruct (proj2 (in_chunk_div xi cd d _ ltac:(assumption) ltac:(assumption)) eq_refl).
  destruct (N.ltb_spec xi (xi / cd * cd)); [lia|]. cbn [orb].
  destruct (N.leb_spec (if d <? xi / cd * cd + cd then d else xi / cd * cd + cd) xi); [lia|].
  apply IH; try assumption. lia.
Qed.

Lemma in_gen_chunk_coords_cons fl r cc :
  In cc (gen_chunk_coords (fl :: r)) <-> exists i y, cc = i :: y /\ In i (span_idx fl) /\ In y (gen_chunk_coords r).
Proof. apply in_flat_map_cons. Qed.

Lemma gen_chunk_coords_len : forall spans cc, In cc (gen_chunk_coords spans) -> length cc = length spans.
Proof.
  induction spans as [|fl r IH]; intros cc H.
  - destruct H as [<-|[]]. reflexivity.
  - apply in_gen_chunk_coords_cons in H. destruct H as (i & y & -> & _ & Hy). cbn [length]. rewrite (IH _ Hy). reflexivity.
Qed.

Lemma spans_of_length : forall s cdims dims, length cdims = length s -> length dims = length s ->
  length (spans_of s cdims dims) = length s.
Proof.
  induction s as [|a s IH]; intros [|c cd] [|d ds] H1 H2; cbn [length spans_of] in *; try discriminate; [reflexivity|].
  rewrite IH by lia. reflexivity.
Qed.

Lemma own_in_overlap : forall s cdims dims x,
  axes_valid s dims -> Forall (fun c => 0 < c) cdims -> length cdims = length s ->
  In x (sel_coords s) -> In (map2 N.div x cdims) (gen_chunk_coords (spans_of s cdims dims)).
Proof.
  induction s as [|a s IH]; intros [|cd cdims] dims x V Hc L Hx; inversion V as [|? d ? ds Ha Vs]; subst;
    cbn [length] in *; try discriminate.
  - destruct Hx as [<-|[]]. left. reflexivity.
  - apply in_sel_coords_cons in Hx. destruct Hx as (i & y & -> & Hi & Hy).
    inversion Hc; subst.
    cbn [spans_of map2]. apply in_gen_chunk_coords_cons. exists (i / cd), (map2 N.div y cdims).
    split; [reflexivity|]. split; [|apply IH; try assumption; lia].
    destruct (axis_idx_bound _ _ _ Ha Hi) as (B1 & B2 & B3).
    unfold chunk_span, span_idx. cbn [fst snd].
    set (endPos := a_start a + (a_count a - 1) * a_stride a + a_block a - 1) in *.
    set (endPos' := if d <=? endPos then d - 1 else endPos).
    assert (i <= endPos') by (subst endPos'; destruct (N.leb_spec d endPos); lia).
    assert (a_start a / cd <= i / cd) by (apply N.div_le_mono; lia).
    assert (i / cd <= endPos' / cd) by (apply N.div_le_mono; lia).
    apply in_nseq. lia.
Qed.

Lemma extract_chunk_portion_spec chunk cc cdims dims s st :
  length cc = length dims -> length cdims = length dims -> length s = length dims ->
  extract_chunk_portion chunk cc cdims dims s st
  = fold_left (leafw chunk (vmul cc cdims) (chunk_end (vmul cc cdims) cdims dims) cdims) (idx_coords s 0 []) st.
Proof.
  intros L1 L2 L3. unfold extract_chunk_portion.
  assert (length (chunk_end (vmul cc cdims) cdims dims) = length dims)
    by (rewrite chunk_end_length; rewrite ?vmul_length; lia).
  apply (chunk_rec_spec _ _ _ _ s _ [] [] 0 st); try reflexivity; rewrite ?vmul_length; lia.
Qed.

Lemma chunk_leaf_value full dims cdims cc x :
  Forall2 N.lt x dims -> length cc = length dims -> length cdims = length dims ->
  in_chunk x (vmul cc cdims) (chunk_end (vmul cc cdims) cdims dims) = true ->
  calc_lin (vsub x (vmul cc cdims)) cdims + 1 <= lenN (chunk_of full dims cdims cc) /\
  nthN (chunk_of full dims cdims cc) (calc_lin (vsub x (vmul cc cdims)) cdims) = nthN full (lin dims x).
Proof.
  intros Hx L1 L2 Hin. pose proof (Forall2_length _ _ _ Hx) as Lx.
  destruct (in_chunk_rel x cc cdims dims) as (R1 & R2); try lia; [assumption|].
  rewrite calc_lin_spec by apply (Forall2_length _ _ _ R1). rewrite chunk_of_length.
  pose proof (lin_bound _ _ R1). split; [lia|].
  rewrite chunk_of_nth by assumption. unfold chunk_elem. rewrite R2, inb_true by assumption. reflexivity.
Qed.

Definition okstep (T : list N) (f : list N * N -> list N * N) : Prop :=
  forall st, length (fst (f st)) = length (fst st) /\
             forall q, nth q (fst st) 0 = nth q T 0 -> nth q (fst (f st)) 0 = nth q T 0.

Lemma okstep_fold {A} T (F : list N * N -> A -> list N * N) (L : list A) :
  (forall x, In x L -> okstep T (fun st => F st x)) -> okstep T (fun st => fold_left F L st).
Proof.
  induction L as [|x L IH]; intros H st; cbn [fold_left]; [split; auto|].
  destruct (H x (or_introl eq_refl) st) as (H1 & H2).
  destruct (IH (fun y Hy => H y (or_intror Hy)) (F st x)) as (H3 & H4).
  split; [congruence|]. intros q Hq. apply H4, H2, Hq.
Qed.

Lemma establish_fold {A} T (F : list N * N -> A -> list N * N) (L : list A) (x0 : A) (p len : nat) :
  In x0 L -> (forall x, In x L -> okstep T (fun st => F st x)) ->
  (forall st, length (fst st) = len -> nth p (fst (F st x0)) 0 = nth p T 0) ->
  forall st, length (fst st) = len -> nth p (fst (fold_left F L st)) 0 = nth p T 0.
Proof.
  intros Hin Hok He st Hl. apply in_split in Hin. destruct Hin as (L1 & L2 & ->).
  rewrite fold_left_app. cbn [fold_left].
  assert (O1 : okstep T (fun st => fold_left F L1 st)).
  { apply okstep_fold. intros; apply Hok. apply in_or_app; left; assumption. }
  assert (O2 : okstep T (fun st => fold_left F L2 st)).
  { apply okstep_fold. intros; apply Hok. apply in_or_app; right; right; assumption. }
  apply O2. apply He. rewrite (proj1 (O1 st)). assumption.
Qed.

Lemma chunk_leaf_okstep T chunk cs ce cdims x p :
  (in_chunk x cs ce = true -> calc_lin (vsub x cs) cdims + 1 <= lenN chunk ->
   nthN chunk (calc_lin (vsub x cs) cdims) = nth (N.to_nat p) T 0) ->
  okstep T (fun st => chunk_leaf chunk cs ce cdims x p st).
Proof.
  intros H st. unfold chunk_leaf.
  destruct (in_chunk x cs ce); cbn [negb]; [|split; auto].
  destruct (N.leb_spec (calc_lin (vsub x cs) cdims + 1) (lenN chunk)); cbn [andb]; [|split; auto].
  destruct (N.leb_spec (p + 1) (lenN (fst st))); [|split; auto].
  cbn [fst]. split; [apply upd_length|].
  intros q Hq. unfold upd. rewrite nth_upd_nat.
  destruct (Nat.eqb_spec (N.to_nat p) q) as [<-|]; cbn [andb]; [|assumption].
  destruct (Nat.ltb_spec (N.to_nat p) (length (fst st))); [|assumption].
  apply H; [reflexivity|assumption].
Qed.

Lemma find_overlapping_nonempty s cdims dims : s <> [] ->
  find_overlapping_chunks s cdims dims = gen_chunk_coords (spans_of s cdims dims).
Proof. destruct s; [congruence|reflexivity]. Qed.

Theorem read_hyperslab_chunked_correct full dims cdims s :
  axes_valid s dims -> s <> [] -> length cdims = length dims -> Forall (fun c => 0 < c) cdims ->
  read_hyperslab_chunked full dims cdims s = select full dims s.
Proof.
  intros V Hne Lc Hc.
  pose proof (axes_valid_block _ _ V) as Hb. pose proof (axes_valid_length _ _ V) as Ls.
  pose proof (out_elems_pos _ _ V Hne) as Hp.
  unfold read_hyperslab_chunked. destruct (N.eqb_spec (out_elems s) 0); [lia|].
  rewrite out_elems_length in * by assumption.
  set (coords := sel_coords s) in *. set (len := length coords) in *.
  set (T := select full dims s).
  assert (LT : length T = len) by apply map_length.
  assert (TN : forall k, (k < len)%nat -> nth k T 0 = nthN full (lin dims (nth k coords []))).
  { intros k Hk. unfold T, select. fold coords.
    rewrite nth_indep with (d' := nthN full (lin dims [])) by (rewrite map_length; assumption).
    apply (map_nth (fun x => nthN full (lin dims x))). }
  assert (XS : forall k, (k < len)%nat -> Forall2 N.lt (nth k coords []) dims)
    by (intros k Hk; apply (sel_coords_inb _ _ _ V), nth_In, Hk).
  rewrite find_overlapping_nonempty by assumption.
  set (ccs := gen_chunk_coords (spans_of s cdims dims)).
  set (IC := idx_coords s 0 []).
  set (visit := fun st cc => extract_chunk_portion (chunk_of full dims cdims cc) cc cdims dims s st).
  assert (LCC : forall cc, In cc ccs -> length cc = length dims)
    by (intros cc Hcc; rewrite (gen_chunk_coords_len _ _ Hcc), spans_of_length; lia).
  (* every leaf step only ever writes the right value *)
  assert (OK : forall cc, In cc ccs -> forall t, In t IC ->
     okstep T (fun st => leafw (chunk_of full dims cdims cc) (vmul cc cdims)
                               (chunk_end (vmul cc cdims) cdims dims) cdims st t)).
  { intros cc Hcc t Ht. apply idx_coords_in in Ht. destruct Ht as (k & Hk & ->).
    apply chunk_leaf_okstep. cbn [fst snd]. intros Hin _. rewrite Nat2N.id, TN by assumption.
    apply chunk_leaf_value; auto. }
  assert (OKC : forall cc, In cc ccs -> okstep T (fun st => visit st cc)).
  { intros cc Hcc st. unfold visit. rewrite extract_chunk_portion_spec by auto.
    apply (okstep_fold T _ IC (OK cc Hcc)). }
  (* every position is written by the visit of its own chunk *)
  assert (EST : forall k, (k < len)%nat -> forall st, length (fst st) = len ->
     nth k (fst (fold_left visit ccs st)) 0 = nth k T 0).
  { intros k Hk. pose proof (XS k Hk) as Hx. pose proof (Forall2_length _ _ _ Hx) as Lx.
    set (x := nth k coords []) in *. set (cc := map2 N.div x cdims).
    assert (Hcc : In cc ccs) by (apply own_in_overlap; try assumption; [lia|apply nth_In, Hk]).
    apply (establish_fold T _ ccs cc k len Hcc OKC).
    intros st Hl. unfold visit. rewrite extract_chunk_portion_spec by auto.
    assert (Ht : In (N.of_nat k, x) IC).
    { unfold IC, x, coords. rewrite <- (idx_coords_nth s k Hk). apply nth_In.
      rewrite idx_coords_length, <- sel_coords_length. assumption. }
    apply (establish_fold T _ IC (N.of_nat k, x) k len Ht (OK cc Hcc)); [|assumption].
    intros st1 Hl1. unfold leafw, chunk_leaf. cbn [fst snd].
    pose proof (in_chunk_own x cdims dims Hx Hc ltac:(lia)) as Hown. fold cc in Hown. rewrite Hown. cbn [negb].
    destruct (chunk_leaf_value full dims cdims cc x Hx (LCC _ Hcc) Lc Hown) as (B & E).
    apply N.leb_le in B. rewrite B, E. unfold lenN. rewrite Hl1.
    destruct (N.leb_spec (N.of_nat k + 1) (N.of_nat len)); [|lia]. cbn [andb fst].
    unfold upd. rewrite nth_upd_nat, Nat2N.id, Nat.eqb_refl, Hl1, TN by assumption.
    destruct (Nat.ltb_spec k len); [reflexivity|lia]. }
  destruct (okstep_fold T _ ccs OKC (zeros (N.of_nat len), 0)) as (H1 & _).
  cbn [fst] in H1. rewrite zeros_length, Nat2N.id in H1. fold visit.
  destruct ccs as [|cc0 ccr] eqn:ECC.
  { assert (Hx : In (nth 0 coords []) coords) by (apply nth_In; fold len; lia).
    pose proof (own_in_overlap s cdims dims _ V Hc ltac:(lia) Hx) as Hin. fold ccs in Hin. rewrite ECC in Hin. destruct Hin. }
  rewrite <- ECC in *.
  apply nth_ext with (d := 0) (d' := 0); [lia|].
  intros k Hk. apply EST; [lia|]. cbn [fst]. rewrite zeros_length. lia.
Qed.
