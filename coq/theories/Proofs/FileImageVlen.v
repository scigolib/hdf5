(* C12 end to end: image_v2_vlen is a file with one dataset (Proofs/FileImageGenOpen.v) behind whose header the global heap
   collections sit, adjacent (Proofs/FileImageVlenHeap.v): every extent of the heap writer is placed at its address, the file
   ends where the last one ends; Dataset.Read's program returns the 16-byte references; ReadSuperblock and Open. *)
From HV Require Import Base.Prelude Model.GHeap.
From HV Require Proofs.GHeap.
From HV Require Import Base.Outcome Base.Bytes Model.IOProg Proofs.IOProg Model.IOProgReader Model.IOProgOpen.
From HV Require Import Model.CodecSuper Model.CodecOhdr Model.CodecMsg Model.CodecType Model.CodecLink Model.GroupWire.
From HV Require Import Proofs.CodecSuper Proofs.CodecOhdr Proofs.CodecMsg Proofs.CodecType.
From HV Require Import Model.FileImage Proofs.FileImage Proofs.FileImageOhdr Proofs.FileImageData Proofs.FileImageGroup
  Proofs.FileImageOpen Proofs.FileImageProd Proofs.FileImageAttrOhdr Proofs.FileImageGenOpen.
From HV Require Import Model.FileImageVlen Proofs.FileImageVlenHeap.

Local Open Scope N_scope.

Lemma enc_ref_len id : blen (encode_reference id) = 16.
Proof. unfold encode_reference. rewrite !blen_app, !blen_le. reflexivity. Qed.

Lemma refs_len : forall ids, blen (flat_map encode_reference ids) = 16 * N.of_nat (length ids).
Proof.
  induction ids as [|x r IH]; [reflexivity|]. cbn [flat_map length]. rewrite blen_app, enc_ref_len, IH. blia.
Qed.

Lemma refs_nth : forall ids i id, nth_error ids i = Some id ->
  rd (flat_map encode_reference ids) (16 * N.of_nat i) 16 = encode_reference id.
Proof.
  induction ids as [|x r IH]; intros i id H; [destruct i; discriminate|].
  cbn [flat_map]. pose proof (enc_ref_len x) as L. destruct i as [|i]; cbn [nth_error] in H.
  - injection H as <-. change (16 * N.of_nat 0) with 0. unfold rd. change (N.to_nat 0) with 0%nat. cbn [skipn].
    rewrite firstn_app. unfold blen in L. replace (N.to_nat 16 - length (encode_reference x))%nat with 0%nat by blia.
    cbn [firstn]. rewrite app_nil_r. apply firstn_all2. blia.
  - rewrite <- (IH i id H). unfold rd. f_equal.
    replace (N.to_nat (16 * N.of_nat (S i))) with (length (encode_reference x) + N.to_nat (16 * N.of_nat i))%nat
      by (unfold blen in L; blia).
    rewrite skipn_app, skipn_all2 by blia. cbn [app]. f_equal. blia.
Qed.

Lemma vlen_dt_len b : 2 <= blen (enc_datatype (vlen_dt b)) /\ blen (enc_datatype (vlen_dt b)) <= 28.
Proof. destruct b; split; apply N.leb_le; reflexivity. Qed.
Lemma wf_vlen_dt b : wf_vlen (vlen_dt b) = true.
Proof. destruct b; reflexivity. Qed.
Lemma base_dt_decoded b : exists props,
  dec_datatype (dt_props (vlen_dt b)) =
  Ok {| dt_class := fst (fst (base_cls b)); dt_version := 1; dt_size := snd (fst (base_cls b)); dt_cbf := snd (base_cls b);
        dt_props := props |}.
Proof. destruct b; eexists; vm_compute; reflexivity. Qed.
(* the C12 model of the message (Model/GHeap.v enc_vlen, the subject of C12_vlen_datatype_roundtrip) is the same bytes *)
Lemma vlen_dt_is_enc_vlen b : enc_vlen b = GHeap.Ok (enc_datatype (vlen_dt b)).
Proof. destruct b; vm_compute; reflexivity. Qed.

Lemma rank23 dims : dims_ok_vlen dims = true -> dims_ok dims = true /\ (length dims <= 23)%nat.
Proof. unfold dims_ok_vlen. intros H. apply andb_true_iff in H as [H1 H2]. apply Nat.leb_le in H2. auto. Qed.

Section ImageV.
Variable name : bytes.
Variable base : vbase.
Variable dims : list N.
Variable elems : list bytes.
Variable fin : gstate.
Variable ids : list heapid.
Hypothesis Hname : link_name_ok name = true.
Hypothesis Hdims : dims_ok_vlen dims = true.
Hypothesis Hcount : product dims = v_count elems.
Hypothesis Hrun : v_run elems = Some (fin, ids).

Local Notation f := (image_v2_vlen name base dims elems).
Local Notation refs := (v_refs elems).
Local Notation da := (v_dset_addr elems).
Local Notation dso := (v_dset_ohdr base dims).
Local Notation dsb := (v_dset_block base dims).
Local Notation dmsgs := (msgs_at_v2 (oh_msgs dso) (da + 7)).
Local Notation inst L :=
  (L (v_eof elems) name refs dso (zeros (N.to_nat (OHDR_RESERVE - size_ohdr_v2 dso))) (v_colls elems)) (only parsing).

Lemma ids_eq : v_ids elems = ids. Proof using Hrun. unfold v_ids. now rewrite Hrun. Qed.
Lemma disk_eq : v_disk elems = disk fin. Proof using Hrun. unfold v_disk. now rewrite Hrun. Qed.
Lemma eof_eq : v_eof elems = eof fin. Proof using Hrun. unfold v_eof. now rewrite Hrun. Qed.

(* Hrun with v_run unfolded, the form the lemmas of Proofs/GHeap.v take *)
Lemma Hrun' : run_close 4096 4096 (v_e0 elems) (map W elems) = Some (fin, ids).
Proof. exact Hrun. Qed.
Lemma ids_len : length ids = length elems.
Proof.
  pose proof Hrun' as H. unfold run_close in H.
  destruct (Proofs.GHeap.run_inv 4096 4096 Proofs.GHeap.params_shipped (map W elems) _ (Proofs.GHeap.Inv_init 4096 4096 (v_e0 elems)))
    as (st & ids' & Hr & _ & _ & Hlen & _).
  rewrite Hr in H. destruct (flush st); [|discriminate]. injection H as _ <-. now rewrite writes_map_W in Hlen.
Qed.
Lemma refs_blen : blen refs = 16 * v_count elems.
Proof. unfold v_refs. rewrite ids_eq, refs_len, ids_len. reflexivity. Qed.

Lemma wf_ly_v : wf_layout SBP (LContig (v_data_size dims) DATA_ADDR) = true.
Proof. clear.
  unfold wf_layout. cbn [sb_ok SBP sb_offsize sb_lensize sb_version encok_layout].
  change (DATA_ADDR <? 256 ^ 8) with true.
  replace (v_data_size dims <? 256 ^ 8) with true; [reflexivity|]. symmetry. apply N.ltb_lt.
  unfold v_data_size, wrap64. change (256 ^ 8) with 18446744073709551616. apply N.mod_lt. discriminate.
Qed.
Lemma dso_chunk_bound_v : chunk_size_v2 (oh_msgs dso) <= 250.
Proof. clear - Hdims.
  unfold v_dset_ohdr. cbn [oh_msgs]. rewrite !chunk_size_cons. cbn [hm_data].
  rewrite (ds_msg_len dims), (layout_blen _ _ wf_ly_v). change (chunk_size_v2 []) with 0.
  destruct (rank23 dims Hdims) as [_ R]. pose proof (vlen_dt_len base). unfold blen at 2. change (size_layout SBP (LContig (v_data_size dims) DATA_ADDR)) with 18. blia.
Qed.
Lemma dso_ok_v : ohdr_ok2 dso.
Proof. clear - Hdims.
  apply dset_ohdr_ok2; [exact (proj1 (vlen_dt_len base)) | apply Forall_nil | apply (N.le_trans _ 250); [exact dso_chunk_bound_v | blia]].
Qed.
Lemma dsb_len_v : blen dsb = 262.
Proof. clear - Hdims. apply reserve_block_len. pose proof dso_chunk_bound_v. blia. Qed.

Lemma heap_chain : chain (v_e0 elems) (rev (disk fin)) (eof fin).
Proof. exact (run_close_chain 4096 4096 _ elems fin ids Hrun'). Qed.

Lemma colls_at : placed f (v_e0 elems) (concat (v_colls elems)) /\ blen f = v_e0 elems + blen (concat (v_colls elems)).
Proof using Hname Hdims Hrun.
  pose proof (V2_rest (v_eof elems) name refs dsb (v_colls elems) Hname) as H.
  pose proof (v2_len (v_eof elems) name refs dsb (v_colls elems) Hname) as L.
  rewrite dsb_len_v in H, L. unfold dset_addr in H, L. rewrite refs_blen in H, L. split; [exact H | exact L].
Qed.

Lemma colls_chain : (forall a b, In (a, b) (disk fin) -> placed f a b) /\ blen f = eof fin.
Proof using Hname Hdims Hrun.
  destruct colls_at as [(p & suf & E & L) Lf]. unfold v_colls in E, Lf. rewrite disk_eq, <- map_rev in E, Lf.
  destruct (chain_placed _ _ _ p suf heap_chain L) as [HP HL]. rewrite <- E in HP. split.
  - intros a b Hin. apply HP. now apply in_rev in Hin.
  - rewrite Lf, <- L, <- blen_app. exact HL.
Qed.
Lemma colls_placed : forall a b, In (a, b) (disk fin) -> placed f a b.
Proof using Hname Hdims Hrun. exact (proj1 colls_chain). Qed.
Lemma image_len_v : blen f = eof fin.
Proof using Hname Hdims Hrun. exact (proj2 colls_chain). Qed.

(* the file is shorter than 2^62 bytes *)
Hypothesis Hsmall : blen f < 4611686018427387904.
Lemma eof_small : eof fin < 4611686018427387904.
Proof using Hname Hdims Hrun Hsmall. rewrite <- image_len_v. exact Hsmall. Qed.
Lemma eof_W64 : eof fin < Proofs.GHeap.W64.
Proof using Hname Hdims Hrun Hsmall. apply (N.lt_trans _ _ _ eof_small). reflexivity. Qed.

Lemma e0_le_eof : v_e0 elems <= eof fin.
Proof. rewrite <- image_len_v, (proj2 colls_at). blia. Qed.
Lemma eof_small' : v_e0 elems <= eof fin /\ eof fin < 4611686018427387904.
Proof using Hname Hdims Hcount Hrun Hsmall. exact (conj e0_le_eof eof_small). Qed.
Lemma da_bound_v : da + 600 < B63.
Proof using Hname Hdims Hcount Hrun Hsmall.
  unfold v_dset_addr, dset_addr. rewrite refs_blen. pose proof eof_small' as [H Hs].
  unfold v_e0, OHDR_RESERVE in H. unfold B63. blia.
Qed.
Lemma count_small : v_count elems < 18446744073709551616.
Proof. pose proof eof_small' as [H Hs]. unfold v_e0 in H. blia. Qed.
Lemma total_is_count : total_elems dims = v_count elems.
Proof.
  rewrite <- Hcount. apply total_elems_product; [exact (proj1 (rank23 dims Hdims))|]. rewrite Hcount. exact count_small.
Qed.
Lemma count_pos : 0 < v_count elems.
Proof. rewrite <- Hcount. exact (product_pos dims (proj1 (rank23 dims Hdims))). Qed.

Lemma dset_header_v fuel : (3 < fuel)%nat ->
  run0 f (p_ohdr SB' fuel da) = Ok (proj_ohdr_v2 false dso da).
Proof using Hname Hdims Hcount Hrun Hsmall. exact (inst v2_dset_header Hname dso_ok_v da_bound_v fuel). Qed.

Theorem dataset_read_v fuel : (3 < fuel)%nat ->
  run0 f (api_read_raw SB' fuel da) = Ok (RawBytes refs).
Proof using Hname Hdims Hcount Hrun Hsmall.
  intros Hf. apply (inst v2_api_read_raw Hname dso_ok_v da_bound_v fuel [] _ Hf eq_refl).
  pose proof count_pos as HP. pose proof eof_small' as [HE Hs]. unfold v_e0 in HE.
  apply (dataset_raw_contig SB' f fuel dmsgs _ _ dims _ DATA_ADDR refs eq_refl (vlen_roundtrip _ (wf_vlen_dt base)) eq_refl
           (wf_ds dims (proj1 (rank23 dims Hdims))) eq_refl wf_ly_v (V2_data (v_eof elems) name refs _ _ Hname));
    rewrite refs_blen; [rewrite total_is_count; cbn [proj_vlen vlen_dt dt_size] | | unfold MAXI64; change DATA_ADDR with 2195]; blia.
Qed.

(* what the reader decodes from the header: variable length (class 9, element size 16, type indicator) of the base type
   (class, size, signedness of the nested message), and the shape *)
Theorem dataset_type_shape_v fuel : (3 < fuel)%nat ->
  exists h d bd s, run0 f (p_ohdr SB' fuel da) = Ok h /\
    match find_msg 3 (ohp_msgs h) with Some b => dec_datatype b | None => Err end = Ok d /\
    (dt_class d, dt_size d, dt_cbf d) = (DT_VLEN, 16, vl_bits base) /\
    dec_datatype (dt_props d) = Ok bd /\ (dt_class bd, dt_size bd, dt_cbf bd) = base_cls base /\
    match find_msg 1 (ohp_msgs h) with Some b => dec_dataspace b | None => Err end = Ok s /\ dsp_dims s = dims.
Proof using Hname Hdims Hcount Hrun Hsmall.
  intros Hf. destruct (base_dt_decoded base) as (props & Hb).
  eexists. exists (proj_vlen (vlen_dt base)). eexists. exists (proj_dataspace {| ds_dims := dims; ds_maxdims := [] |}).
  split; [exact (dset_header_v fuel Hf)|].
  change (find_msg 3 (ohp_msgs (proj_ohdr_v2 false dso da))) with (Some (enc_datatype (vlen_dt base))).
  change (find_msg 1 (ohp_msgs (proj_ohdr_v2 false dso da))) with (Some (enc_dataspace {| ds_dims := dims; ds_maxdims := [] |})).
  cbv beta iota. rewrite (vlen_roundtrip _ (wf_vlen_dt base)), (dataspace_roundtrip _ (wf_ds dims (proj1 (rank23 dims Hdims)))).
  split; [reflexivity|]. split; [reflexivity|]. split; [exact Hb|]. split; [|split; reflexivity].
  cbn [dt_class dt_size dt_cbf]. now destruct (base_cls base) as [[c s] b].
Qed.

Lemma v_eof_u64 : v_eof elems < 18446744073709551616.
Proof. rewrite eof_eq. pose proof eof_small. blia. Qed.

Lemma open_vlen n hfuel : (3 < hfuel)%nat ->
  run0 f p_superblock = Ok SB' /\
  run0 f (p_open true (blen f) (S (S (S n))) hfuel) = Ok (Grp [47] 2168 [Dset name da]).
Proof using Hname Hdims Hcount Hrun Hsmall.
  intros Hhf. split.
  - exact (inst v2_superblock Hname v_eof_u64).
  - exact (inst v2_open Hname v_eof_u64 dso_ok_v da_bound_v [] eq_refl eq_refl hfuel Hhf n).
Qed.
End ImageV.
