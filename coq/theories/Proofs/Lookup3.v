(* The Go name hash (Model.BT2.jenkins) equals lookup3 hashlittle with initval 0 on every byte string. *)
From HV Require Import Base.Prelude Base.Bytes Spec.Lookup3 Model.BT2.

Local Open Scope N_scope.

Lemma testbit_small a k n : a < 2 ^ k -> k <= n -> N.testbit a n = false.
Proof.
  intros Ha Hk. destruct (N.eq_dec a 0) as [->|Hz]; [apply N.bits_0|].
  apply N.bits_above_log2. apply N.lt_le_trans with k; [|exact Hk].
  apply N.log2_lt_pow2; lia.
Qed.

Lemma lor_mul_add a b k : a < 2 ^ k -> N.lor a (b * 2 ^ k) = a + b * 2 ^ k.
Proof.
  intros Ha. rewrite <- N.shiftl_mul_pow2.
  assert (Hz : N.land a (N.shiftl b k) = 0).
  { apply N.bits_inj_0. intro n. rewrite N.land_spec.
    destruct (N.lt_ge_cases n k) as [Hl|Hg].
    - rewrite N.shiftl_spec_low by exact Hl. apply andb_false_r.
    - rewrite (testbit_small a k n Ha Hg). reflexivity. }
  rewrite <- N.lxor_lor by exact Hz. symmetry. apply N.add_nocarry_lxor. exact Hz.
Qed.

Lemma lxor_lt32 a b : a < 4294967296 -> b < 4294967296 -> N.lxor a b < 4294967296.
Proof.
  intros Ha Hb. change 4294967296 with (2 ^ 32) in *.
  destruct (N.eq_dec (N.lxor a b) 0) as [E|E]; [rewrite E; reflexivity|].
  apply N.log2_lt_pow2; [lia|].
  eapply N.le_lt_trans; [apply N.log2_lxor|].
  apply N.max_lub_lt.
  - destruct (N.eq_dec a 0) as [->|]; [reflexivity|apply N.log2_lt_pow2; lia].
  - destruct (N.eq_dec b 0) as [->|]; [reflexivity|apply N.log2_lt_pow2; lia].
Qed.

Lemma u32shl_small b n : b < 256 -> n <= 24 -> u32shl b n = b * 2 ^ n.
Proof.
  intros Hb Hn. unfold u32shl, wrap32. rewrite N.shiftl_mul_pow2.
  apply N.mod_small.
  assert (2 ^ n <= 2 ^ 24) by (apply N.pow_le_mono_r; lia).
  change (2 ^ 24) with 16777216 in H. nia.
Qed.

(* one `x += word` of the Go loop = the four `x += k[j] << s` of the reference *)
Lemma word_add_eq a b0 b1 b2 b3 : b0 < 256 -> b1 < 256 -> b2 < 256 -> b3 < 256 ->
  wrap32 (a + N.lor (N.lor (N.lor b0 (u32shl b1 8)) (u32shl b2 16)) (u32shl b3 24))
  = add32 (add32 (add32 (add32 a b0) (shl32 b1 8)) (shl32 b2 16)) (shl32 b3 24).
Proof.
  intros H0 H1 H2 H3. change shl32 with u32shl. rewrite !u32shl_small by lia.
  rewrite (lor_mul_add b0), (lor_mul_add (b0 + _)), (lor_mul_add (b0 + _ + _)) by lia.
  unfold add32, wrap32.
  rewrite (N.add_mod_idemp_l (a + b0) _ _) by lia.
  rewrite (N.add_mod_idemp_l (a + b0 + _) _ _) by lia.
  rewrite (N.add_mod_idemp_l (a + b0 + _ + _) _ _) by lia.
  f_equal. lia.
Qed.

Lemma bat_skipn (name : list N) i j : kb (skipn i name) j = bat name (i + j).
Proof. unfold kb, bat. apply nth_skipn. Qed.

Lemma bat_lt (name : list N) i : Forall (fun x => x < 256) name -> bat name i < 256.
Proof.
  intros H. unfold bat. destruct (Nat.lt_ge_cases i (List.length name)) as [Hl|Hg].
  - rewrite Forall_forall in H. apply H. apply nth_In. exact Hl.
  - rewrite nth_overflow by exact Hg. lia.
Qed.

Lemma jmix_mix a b c : jmix a b c = mix a b c.
Proof. unfold jmix, mix, rot, add32. reflexivity. Qed.

Lemma jfinal_final a b c : jfinal a b c = final a b c.
Proof. unfold jfinal, final, rot. reflexivity. Qed.

(* the index-based Go loop visits the same blocks as the pointer-based reference *)
Lemma jloop_blocks fuel : forall (name : list N) i a b c,
  Forall (fun x => x < 256) name -> (i <= List.length name)%nat ->
  exists i' a' b' c',
    jloop fuel name (List.length name) i a b c = (i', a', b', c')
    /\ hl_blocks fuel (skipn i name) a b c = (skipn i' name, a', b', c')
    /\ (i <= i' <= List.length name)%nat
    /\ ((List.length name - i <= 12 * fuel)%nat -> (List.length name - i' <= 12)%nat).
Proof.
  induction fuel as [|fuel IH]; intros name i a b c Hb Hi.
  - exists i, a, b, c. cbn [jloop hl_blocks]. repeat split; lia.
  - cbn [jloop hl_blocks]. rewrite skipn_length.
    destruct (12 <? List.length name - i)%nat eqn:E.
    + apply Nat.ltb_lt in E.
      rewrite !bat_skipn.
      replace (i + 0)%nat with i by lia.
      unfold jword.
      rewrite (word_add_eq a) by (apply bat_lt; exact Hb).
      rewrite (word_add_eq b) by (apply bat_lt; exact Hb).
      rewrite (word_add_eq c) by (apply bat_lt; exact Hb).
      rewrite <- !Nat.add_assoc. cbn [Nat.add].
      rewrite jmix_mix.
      destruct (mix _ _ _) as [[a1 b1] c1].
      rewrite skipn_skipn.
      destruct (IH name (i + 12)%nat a1 b1 c1 Hb ltac:(lia)) as (i' & a' & b' & c' & H1 & H2 & H3 & H4).
      exists i', a', b', c'. repeat split; try assumption; try lia.
    + apply Nat.ltb_ge in E. exists i, a, b, c. repeat split; lia.
Qed.

Lemma jswitch_tail (name : list N) i a b c : (List.length name - i <= 12)%nat ->
  jswitch name i (List.length name - i) a b c = hl_tail (skipn i name) a b c.
Proof.
  intros H. unfold jswitch, hl_tail.
  replace (12 <? List.length name - i)%nat with false by (symmetry; apply Nat.ltb_ge; exact H).
  rewrite skipn_length, !bat_skipn. replace (i + 0)%nat with i by lia. reflexivity.
Qed.

Theorem jenkins_eq_hashlittle : forall s, Forall (fun x => x < 256) s -> jenkins s = hashlittle s 0.
Proof.
  intros s Hb. unfold jenkins, hashlittle. cbv zeta. unfold bytes, byte in *.
  match goal with |- context [jloop _ _ _ _ ?x _ _] => set (init := x) end.
  match goal with |- context [hl_blocks _ _ ?y _ _] => replace y with init end.
  2:{ unfold add32, init, wrap32. rewrite N.add_0_r, N.mod_mod by lia. reflexivity. }
  destruct (jloop_blocks (List.length s) s 0%nat init init init Hb ltac:(lia))
    as (i' & a' & b' & c' & H1 & H2 & H3 & H4).
  rewrite H1. cbn [skipn] in H2. rewrite H2.
  specialize (H4 ltac:(lia)).
  destruct (List.length s - i')%nat as [|r] eqn:Er.
  - assert (Hnil : skipn i' s = []) by (apply List.length_zero_iff_nil; rewrite skipn_length; exact Er).
    rewrite Hnil. reflexivity.
  - destruct (skipn i' s) as [|x t] eqn:Es.
    + apply (f_equal (@List.length N)) in Es. rewrite skipn_length in Es. cbn in Es. exfalso. clear - Es Er. lia.
    + rewrite <- Es, <- Er. rewrite jswitch_tail by (clear - H4 Er; lia).
      destruct (hl_tail _ _ _ _) as [[a2 b2] c2]. rewrite jfinal_final. reflexivity.
Qed.

(* the loop really consumed every full block (the fuel did not run out) *)
Lemma hashlittle_blocks_done : forall s a b c,
  (List.length (fst (fst (fst (hl_blocks (List.length s) s a b c)))) <= 12)%nat.
Proof.
  intros s a b c.
  assert (G : forall fuel k a b c, (List.length k <= 12 * fuel)%nat \/ (List.length k <= 12)%nat ->
             (List.length (fst (fst (fst (hl_blocks fuel k a b c)))) <= 12)%nat).
  { induction fuel as [|f IH]; intros k a0 b0 c0 H.
    - cbn [hl_blocks fst]. lia.
    - cbn [hl_blocks]. destruct (12 <? List.length k)%nat eqn:E.
      + apply Nat.ltb_lt in E. destruct (mix _ _ _) as [[a1 b1] c1]. apply IH. rewrite skipn_length. lia.
      + apply Nat.ltb_ge in E. cbn [fst]. exact E. }
  apply G. lia.
Qed.

Lemma jenkins_lt : forall s, jenkins s < 4294967296.
Proof.
  intros s. unfold jenkins.
  assert (W : forall x, wrap32 x < 4294967296) by (intro x; unfold wrap32; apply N.mod_lt; lia).
  assert (S : forall x y, sub32 x y < 4294967296) by (intros x y; unfold sub32; apply N.mod_lt; lia).
  (* c after the loop is either the initial value or the `c` component of jmix, both < 2^32 *)
  assert (L : forall fuel name len i a b c, c < 4294967296 ->
              snd (jloop fuel name len i a b c) < 4294967296).
  { induction fuel as [|f IH]; intros name len i a b c Hc; cbn [jloop]; [exact Hc|].
    destruct (12 <? len - i)%nat; [|exact Hc].
    destruct (jmix _ _ _) as [[a1 b1] c1] eqn:Em. apply IH.
    unfold jmix in Em. inversion Em. clear Em.
    apply lxor_lt32; [apply S|]. unfold rotl32. apply W. }
  specialize (L (List.length s) s (List.length s) 0%nat
                (wrap32 (3735928559 + wrap32 (N.of_nat (List.length s))))
                (wrap32 (3735928559 + wrap32 (N.of_nat (List.length s))))
                (wrap32 (3735928559 + wrap32 (N.of_nat (List.length s)))) (W _)).
  destruct (jloop _ _ _ _ _ _ _) as [[[i a] b] c]. cbn [snd] in L.
  destruct (List.length s - i)%nat; [exact L|].
  destruct (jswitch _ _ _ _ _ _) as [[a2 b2] c2]. unfold jfinal. apply S.
Qed.
