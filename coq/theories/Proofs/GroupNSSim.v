(* C03: one admissible API call keeps the writer state a representation of the specification tree and
   returns the same ok/err class as the specification (step_sim); lifted to histories (run_sim). *)
From HV Require Import Base.Prelude Model.GroupNS Proofs.GroupNSBase Proofs.GroupNSHeap Proofs.GroupNSPath
  Proofs.GroupNSInv Proofs.GroupNSSpec Proofs.GroupNSRefine.

Lemma path_ok_snoc : forall p, path_ok p = true ->
  exists pcs n, split_path p = Some (pcs ++ [n]) /\ p = render (pcs ++ [n]) /\ names_ok_l (pcs ++ [n]).
Proof.
  intros p H. destruct (path_ok_inv p H) as (m & cs & S & E & Hok).
  destruct (unsnoc_cons_some _ m cs) as (i & y & U). apply unsnoc_inv in U.
  exists i, y. rewrite <- U. auto.
Qed.

Lemma names_ok_snoc : forall pcs n, names_ok_l (pcs ++ [n]) -> names_ok_l pcs /\ name_ok n = true.
Proof. intros pcs n H. apply Forall_app in H. destruct H as [A B]. inversion B; subst. auto. Qed.

Lemma validate_group_render' : forall cs, cs <> [] -> names_ok_l cs -> validate_group_path (render cs) = true.
Proof. intros [|m cs] H Hok; [contradiction | apply validate_group_render; assumption]. Qed.
Lemma validate_link_render' : forall cs, cs <> [] -> names_ok_l cs -> validate_link_path (render cs) = true.
Proof. intros [|m cs] H Hok; [contradiction | apply validate_link_render; assumption]. Qed.
Lemma validate_dataset_render' : forall cs, cs <> [] -> validate_dataset_name (render cs) = true.
Proof. intros [|m cs] H; [contradiction | reflexivity]. Qed.
Lemma snoc_nonempty : forall A (l : list A) x, l ++ [x] <> [].
Proof. intros A [|y l] x; discriminate. Qed.

Definition pre_of (c : cfg) (w : wstate) (nd : snode) : wstate :=
  match nd with
  | SG _ => with_obj (with_structs c w) (clock w) (fresh_obj KGroup)
  | _ => with_obj w (clock w) (fresh_obj (skind nd))
  end.

Lemma pre_facts : forall c w nd,
  groups (pre_of c w nd) = groups w /\ clock (pre_of c w nd) = clock w /\
  (forall x, x <> clock w -> alookup x (heaps (pre_of c w nd)) = alookup x (heaps w) /\
                             alookup x (snods (pre_of c w nd)) = alookup x (snods w)) /\
  alookup (clock w) (objects (pre_of c w nd)) = Some (fresh_obj (skind nd)) /\
  (forall x, x <> clock w -> alookup x (objects (pre_of c w nd)) = alookup x (objects w)).
Proof.
  intros c w nd.
  destruct nd; unfold pre_of, with_obj, with_structs; cbn [groups clock heaps snods objects set_objects set_snods set_heaps skind];
    repeat split; try (rewrite ?alookup_aset_neq by congruence; reflexivity);
    try apply alookup_aset_eq; intros; apply alookup_aset_neq; congruence.
Qed.

Lemma create_ok : forall c w t w' nd pcs n g0 ch seg' ents',
  Rep c w t -> SInv t -> names_ok_l (pcs ++ [n]) ->
  sresolve (s_nodes t) 0 pcs = Some g0 -> alookup g0 (s_nodes t) = Some (SG ch) -> clookup n ch = None ->
  is_leaf_node nd ->
  let wpre := pre_of c w nd in
  gwf seg' ents' (map fst (ch ++ [(n, clock w)])) -> map e_obj ents' = map snd (ch ++ [(n, clock w)]) ->
  match nd with
  | SG _ => w' = tick (set_groups (linked wpre g0 seg' ents') (pset (render (pcs ++ [n])) (clock w) (groups (linked wpre g0 seg' ents'))))
  | _ => w' = tick (linked wpre g0 seg' ents')
  end ->
  Inv1 c w' ->
  Rep c w' (s_tick t (aset (clock w) nd (aset g0 (SG (ch ++ [(n, clock w)])) (s_nodes t)))) /\
  SInv (s_tick t (aset (clock w) nd (aset g0 (SG (ch ++ [(n, clock w)])) (s_nodes t)))).
Proof.
  intros c w t w' nd pcs n g0 ch seg' ents' R I Hok Sr L Hn Hleaf wpre Hwf Ho Hw' I'.
  pose proof (r_clock _ _ _ R) as Hc. rewrite Hc.
  assert (Hg0 : g0 < clock w) by (rewrite Hc; apply (s_bound _ I); rewrite L; discriminate).
  assert (Hne : g0 <> s_clock t) by lia.
  destruct (pre_facts c w nd) as (P1 & P2 & P3 & P4 & P5). fold wpre in P1, P2, P3, P4, P5.
  assert (U : upd (s_nodes t) (aset (s_clock t) nd (aset g0 (SG (ch ++ [(n, s_clock t)])) (s_nodes t))) g0 ch n (s_clock t) (Some (s_clock t, nd)))
    by (apply upd_aset_fresh; assumption).
  split.
  - assert (U' : upd (s_nodes t) (aset (clock w) nd (aset g0 (SG (ch ++ [(n, clock w)])) (s_nodes t))) g0 ch n (clock w) (Some (clock w, nd)))
      by (rewrite Hc; exact U).
    rewrite <- Hc.
    eapply (rep_link_ok c w t w' _ pcs n g0 ch (clock w) (Some (clock w, nd)) seg' ents'); try eassumption.
    + repeat split; assumption.
    + destruct nd; subst w'; cbn [clock tick set_groups linked set_snods set_heaps]; rewrite P2; reflexivity.
    + destruct nd; subst w'; cbn [heaps tick set_groups linked set_snods set_heaps]; apply alookup_aset_eq.
    + destruct nd; subst w'; cbn [snods tick set_groups linked set_snods set_heaps]; apply alookup_aset_eq.
    + intros k Hk1 Hk2. destruct (P3 k ltac:(lia)) as [A B].
      destruct nd; subst w'; cbn [heaps snods tick set_groups linked set_snods set_heaps]; rewrite !alookup_aset_neq by congruence; auto.
    + intros k o Hko. assert (k <> clock w).
      { intro. subst k. rewrite (i_fresh_o _ _ _ (r_inv _ _ _ R) (clock w)) in Hko by lia. discriminate. }
      exists o. split; [|reflexivity].
      destruct nd; subst w'; cbn [objects tick set_groups linked set_snods set_heaps]; rewrite P5 by assumption; assumption.
    + split.
      * exists (fresh_obj (skind nd)). split; [|reflexivity].
        destruct nd; subst w'; cbn [objects tick set_groups linked set_snods set_heaps]; assumption.
      * destruct nd as [chn| |].
        -- subst w'. cbn [groups heaps snods tick set_groups linked set_snods set_heaps]. rewrite P1.
           split; [reflexivity|]. rewrite !alookup_aset_neq by lia. subst wpre. unfold pre_of, with_obj.
           rewrite with_structs_eq. cbn [heaps snods set_objects linked set_snods set_heaps]. rewrite !alookup_aset_eq. auto.
        -- subst w'. cbn [groups tick linked set_snods set_heaps]. assumption.
        -- subst w'. cbn [groups tick linked set_snods set_heaps]. assumption.
  - eapply sinv_upd; try eassumption. repeat split; assumption.
Qed.

Definition SimGoal (c : cfg) (w : wstate) (t : stree) (o : op) : Prop :=
  is_ok (snd (step c w o)) = is_ok (snd (spec_step c t o)) /\
  Rep c (fst (step c w o)) (fst (spec_step c t o)) /\ SInv (fst (spec_step c t o)).

Lemma sim_err : forall c w t o, Rep c w t -> SInv t -> name_cond c (op_link_name c o) ->
  is_ok (snd (step c w o)) = false -> is_ok (snd (spec_step c t o)) = false -> SimGoal c w t o.
Proof.
  intros c w t o R I Hn H1 H2. split; [congruence|].
  destruct (step c w o) as [w' r] eqn:S1. destruct (spec_step c t o) as [t' r'] eqn:S2. cbn [fst snd] in *.
  destruct r as [|e]; [discriminate|]. destruct r' as [|e']; [discriminate|].
  apply spec_err_unchanged in S2. subst t'. split; [eapply step_err_rep; eassumption | apply sinv_tick; assumption].
Qed.

(* what a creation does once its own checks are passed: link from wpre, register if it is a group *)
Definition finish_create (c : cfg) (w wpre : wstate) (p parent : path) (nm : name) (isg : bool) : wstate * result :=
  match link_to_parent c wpre parent nm (clock w) with
  | (w4, Ok) => (if isg then set_groups w4 (pset p (clock w) (groups w4)) else w4, Ok)
  | (w4, Err e) => (w4, Err e)
  end.
Definition nd_is_group (nd : snode) : bool := match nd with SG _ => true | _ => false end.

Lemma s_create_eq : forall c t pcs n nd, names_ok_l (pcs ++ [n]) ->
  s_create c t (render (pcs ++ [n])) nd =
  match s_link c (s_nodes t) (pcs ++ [n]) (s_clock t) with
  | (Some nodes, r) => (s_tick t (aset (s_clock t) nd nodes), r)
  | (None, r) => (s_tick t (s_nodes t), r)
  end.
Proof.
  intros c t pcs n nd H. unfold s_create. destruct (pcs ++ [n]) as [|m cs] eqn:E; [destruct pcs; discriminate|].
  rewrite split_path_render by assumption. reflexivity.
Qed.

Lemma s_create_fails : forall c t pcs n nd, names_ok_l (pcs ++ [n]) ->
  is_ok (snd (s_link c (s_nodes t) (pcs ++ [n]) (s_clock t))) = false ->
  is_ok (snd (s_create c t (render (pcs ++ [n])) nd)) = false.
Proof.
  intros c t pcs n nd H X. rewrite s_create_eq by assumption.
  destruct (s_link c (s_nodes t) (pcs ++ [n]) (s_clock t)) as [[T'|] r]; exact X.
Qed.

Lemma noparent_slink_err : forall c w t pcs n child, Rep c w t -> SInv t -> names_ok_l (pcs ++ [n]) ->
  parent_group w (render pcs) = None -> exists e, s_link c (s_nodes t) (pcs ++ [n]) child = (None, Err e).
Proof.
  intros c w t pcs n child R I Hok P. destruct (names_ok_snoc _ _ Hok) as [Hpcs Hn].
  unfold s_link. rewrite unsnoc_snoc. pose proof (parent_agree c w t pcs R I Hpcs) as PA.
  destruct (sresolve (s_nodes t) 0 pcs) as [g0|]; [|eauto].
  destruct (alookup g0 (s_nodes t)) as [[ch| |]|]; eauto. congruence.
Qed.

Lemma noparent_spec_err : forall c w t pcs n nd, Rep c w t -> SInv t -> names_ok_l (pcs ++ [n]) ->
  parent_group w (render pcs) = None -> is_ok (snd (s_create c t (render (pcs ++ [n])) nd)) = false.
Proof.
  intros c w t pcs n nd R I Hok P. apply s_create_fails; [assumption|].
  destruct (noparent_slink_err c w t pcs n (s_clock t) R I Hok P) as (e & ->). reflexivity.
Qed.


Lemma link_name_render : forall pcs n, names_ok_l (pcs ++ [n]) -> snd (parse_path (render (pcs ++ [n]))) = n.
Proof. intros. rewrite parse_path_render by assumption. reflexivity. Qed.

Lemma trim_render : forall pcs n, names_ok_l (pcs ++ [n]) -> trim_suffix_slash (render (pcs ++ [n])) = render (pcs ++ [n]).
Proof.
  intros pcs n H. destruct (names_ok_snoc _ _ H) as [_ Hn]. apply name_ok_iff in Hn. destruct Hn as (A & _ & B).
  rewrite render_snoc. replace (render pcs ++ SL :: n) with ((render pcs ++ [SL]) ++ n) by (rewrite <- app_assoc; reflexivity).
  apply trim_suffix_nonslash; assumption.
Qed.
Lemma if_same : forall A (b : bool) (x : A), (if b then x else x) = x.
Proof. intros A [|] x; reflexivity. Qed.

Lemma name_cond_render : forall c o pcs n, names_ok_l (pcs ++ [n]) ->
  match o with MkGroup p | MkDataset p | HardLink p _ | SoftLink p _ => p end = render (pcs ++ [n]) ->
  name_cond c (op_link_name c o).
Proof.
  intros c o pcs n Hok E. right. unfold op_link_name.
  replace (op_path_eff c o) with (render (pcs ++ [n]))
    by (destruct o; cbn [op_path_eff]; subst; rewrite ?trim_render by assumption; rewrite ?if_same; reflexivity).
  rewrite link_name_render by assumption. apply name_ok_hname. apply names_ok_snoc in Hok. tauto.
Qed.

Lemma sim_from_body : forall c w t o pcs n mb, Rep c w t -> SInv t -> names_ok_l (pcs ++ [n]) ->
  match o with MkGroup p | MkDataset p | HardLink p _ | SoftLink p _ => p end = render (pcs ++ [n]) ->
  step_body c w o = mb ->
  ((is_ok (snd mb) = false /\ is_ok (snd (spec_step c t o)) = false) \/
   (snd mb = Ok /\ snd (spec_step c t o) = Ok /\
    (Inv1 c (tick (fst mb)) -> Rep c (tick (fst mb)) (fst (spec_step c t o)) /\ SInv (fst (spec_step c t o))))) ->
  SimGoal c w t o.
Proof.
  intros c w t o pcs n mb R I Hok Ho B H. pose proof (name_cond_render c o pcs n Hok Ho) as Hn.
  assert (S : step c w o = (tick (fst mb), snd mb)) by (unfold step; rewrite B; destruct mb; reflexivity).
  destruct H as [[H1 H2]|(H1 & H2 & H3)].
  - apply sim_err; try assumption. rewrite S. assumption.
  - pose proof (step_inv c w o (r_inv _ _ _ R) Hn) as I'. unfold SimGoal. rewrite S in *. cbn [fst snd] in *.
    rewrite H1, H2. split; [reflexivity|]. apply H3. assumption.
Qed.

Lemma step_mkgroup_eq : forall c w pcs n, names_ok_l (pcs ++ [n]) ->
  step_body c w (MkGroup (render (pcs ++ [n]))) =
  if negb (parent_registered w (render pcs)) then (w, Err ENoParent)
  else match precheck c w (render pcs) n with Some e => (w, Err e) | None =>
       finish_create c w (pre_of c w (SG [])) (render (pcs ++ [n])) (render pcs) n true end.
Proof.
  intros c w pcs n H. cbn [step_body]. unfold create_group.
  rewrite validate_group_render' by (assumption || apply snoc_nonempty). cbn [negb]. cbv zeta.
  rewrite trim_render by assumption. rewrite if_same. rewrite parse_path_render by assumption. reflexivity.
Qed.

Lemma step_mkdataset_eq : forall c w pcs n, names_ok_l (pcs ++ [n]) ->
  step_body c w (MkDataset (render (pcs ++ [n]))) =
  match precheck c w (render pcs) n with Some e => (w, Err e) | None =>
  finish_create c w (pre_of c w SD) (render (pcs ++ [n])) (render pcs) n false end.
Proof.
  intros c w pcs n H. cbn [step_body]. unfold create_dataset.
  rewrite validate_dataset_render' by apply snoc_nonempty. rewrite parse_path_render by assumption. cbn [negb].
  destruct (precheck c w (render pcs) n); [reflexivity|].
  unfold finish_create, pre_of, with_obj, fresh_obj. cbn [skind].
  destruct (link_to_parent c _ (render pcs) n (clock w)) as [w4 [|e]]; reflexivity.
Qed.

Lemma step_softlink_eq : forall c w pcs n q, names_ok_l (pcs ++ [n]) ->
  step_body c w (SoftLink (render (pcs ++ [n])) q) =
  if negb (validate_soft_target q) then (w, Err EInvalidPath) else
  if negb (parent_registered w (render pcs)) then (w, Err ENoParent) else
  if soft_max c <? blen n + blen q then (w, Err ETooLong) else
  match precheck c w (render pcs) n with Some e => (w, Err e) | None =>
  finish_create c w (pre_of c w (SS q)) (render (pcs ++ [n])) (render pcs) n false end.
Proof.
  intros c w pcs n q H. cbn [step_body]. unfold create_soft_link.
  rewrite validate_link_render' by (assumption || apply snoc_nonempty). cbn [negb].
  destruct (negb (validate_soft_target q)); [reflexivity|]. rewrite parse_path_render by assumption.
  destruct (negb (parent_registered w (render pcs))); [reflexivity|].
  destruct (soft_max c <? blen n + blen q); [reflexivity|].
  destruct (precheck c w (render pcs) n); [reflexivity|].
  unfold finish_create, pre_of, with_obj, fresh_obj. cbn [skind].
  destruct (link_to_parent c _ (render pcs) n (clock w)) as [w4 [|e]]; reflexivity.
Qed.

Lemma finish_noparent : forall c w wpre p parent nm isg, groups wpre = groups w -> parent_group w parent = None ->
  is_ok (snd (finish_create c w wpre p parent nm isg)) = false.
Proof.
  intros c w wpre p parent nm isg Hg Hp. unfold finish_create, link_to_parent. rewrite (parent_group_groups _ _ _ Hg), Hp.
  destruct (strict_names c && negb (heap_name_ok nm)); reflexivity.
Qed.

Lemma s_link_child_class : forall c T cs a b0, is_ok (snd (s_link c T cs a)) = is_ok (snd (s_link c T cs b0)).
Proof.
  intros c T cs a b0. unfold s_link. destruct (unsnoc cs) as [[pcs n]|]; [|reflexivity].
  destruct (sresolve T 0 pcs) as [g|]; [|reflexivity]. destruct (alookup g T) as [[ch| |]|]; try reflexivity.
  destruct (clookup n ch); [reflexivity|]. destruct (_ <? _); [reflexivity|]. destruct (_ <=? _); reflexivity.
Qed.

Lemma precheck_some_slink : forall c w t pcs n e child, Rep c w t -> SInv t -> names_ok_l (pcs ++ [n]) ->
  precheck c w (render pcs) n = Some e -> is_ok (snd (s_link c (s_nodes t) (pcs ++ [n]) child)) = false.
Proof.
  intros c w t pcs n e child R I Hok PC. destruct (names_ok_snoc _ _ Hok) as [Hpcs Hn].
  unfold precheck in PC. destruct (check_first c); [|discriminate].
  destruct (parent_group w (render pcs)) as [g|] eqn:PG.
  2:{ destruct (noparent_slink_err c w t pcs n child R I Hok PG) as (e' & E). rewrite E. reflexivity. }
  pose proof (parent_agree c w t pcs R I Hpcs) as PA.
  destruct (sresolve (s_nodes t) 0 pcs) as [g0|] eqn:Sr; [|congruence].
  destruct (alookup g0 (s_nodes t)) as [[ch| |]|] eqn:L; try congruence.
  destruct (link_agree c w t w pcs n 0 g0 ch R I eq_refl (fun k _ => conj eq_refl eq_refl) Hpcs Hn Sr L)
    as [(e1 & e2 & E1 & E2)|(seg' & ents' & E1 & E2 & _)].
  - rewrite (s_link_child_class c _ _ child 0), E1. reflexivity.
  - rewrite E2 in PC. discriminate.
Qed.

Lemma precheck_some_create : forall c w t pcs n e nd, Rep c w t -> SInv t -> names_ok_l (pcs ++ [n]) ->
  precheck c w (render pcs) n = Some e -> is_ok (snd (s_create c t (render (pcs ++ [n])) nd)) = false.
Proof. intros c w t pcs n e nd R I Hok PC. apply s_create_fails; [assumption|]. eapply precheck_some_slink; eassumption. Qed.

(* a creating call on a rendered path, once its own syntax checks are passed: the parent check (CreateDataset
   leaves it to linkToParent: chk = false), checkLinkable, then the common tail *)
Lemma create_sim : forall c w t nd pcs n (chk : bool), Rep c w t -> SInv t -> names_ok_l (pcs ++ [n]) -> is_leaf_node nd ->
  let mb := if chk && negb (parent_registered w (render pcs)) then (w, Err ENoParent) else
            match precheck c w (render pcs) n with
            | Some e => (w, Err e)
            | None => finish_create c w (pre_of c w nd) (render (pcs ++ [n])) (render pcs) n (nd_is_group nd)
            end in
  let sb := s_create c t (render (pcs ++ [n])) nd in
  (is_ok (snd mb) = false /\ is_ok (snd sb) = false) \/
  (snd mb = Ok /\ snd sb = Ok /\ (Inv1 c (tick (fst mb)) -> Rep c (tick (fst mb)) (fst sb) /\ SInv (fst sb))).
Proof.
  intros c w t nd pcs n chk R I Hok Hleaf. cbv zeta. destruct (names_ok_snoc _ _ Hok) as [Hpcs Hn].
  destruct (pre_facts c w nd) as (P1 & P2 & P3 & _). rewrite parent_registered_eq.
  destruct (parent_group w (render pcs)) as [g|] eqn:PG.
  2:{ left. split; [|eapply noparent_spec_err; eassumption]. destruct chk; [reflexivity|].
      destruct (precheck c w (render pcs) n); [reflexivity | apply finish_noparent; assumption]. }
  rewrite andb_false_r.
  destruct (precheck c w (render pcs) n) as [e|] eqn:PC; [left; split; [reflexivity | eapply precheck_some_create; eassumption]|].
  pose proof (parent_agree c w t pcs R I Hpcs) as PA.
  destruct (sresolve (s_nodes t) 0 pcs) as [g0|] eqn:Sr; [|congruence].
  destruct (alookup g0 (s_nodes t)) as [[ch| |]|] eqn:L; try congruence.
  destruct (link_agree c w t (pre_of c w nd) pcs n (clock w) g0 ch R I P1 P3 Hpcs Hn Sr L)
    as [(e & e' & E1 & E2)|(seg' & ents' & E1 & E2 & Hwf & Ho & Hcl)];
    unfold finish_create; rewrite E2, s_create_eq by assumption; rewrite <- (r_clock _ _ _ R), E1; [left; auto|].
  right. cbn [fst snd]. split; [reflexivity|]. split; [reflexivity|]. intro I'.
  eapply (create_ok c w t _ nd pcs n g0 ch seg' ents'); try eassumption. destruct nd; reflexivity.
Qed.

Lemma sim_mkgroup : forall c w t p, Rep c w t -> SInv t -> path_ok p = true -> SimGoal c w t (MkGroup p).
Proof.
  intros c w t p R I H. destruct (path_ok_snoc p H) as (pcs & n & Sp & -> & Hok).
  eapply sim_from_body; try eassumption; [reflexivity | apply step_mkgroup_eq; assumption|].
  apply (create_sim c w t (SG []) pcs n true R I Hok). reflexivity.
Qed.

Lemma sim_mkdataset : forall c w t p, Rep c w t -> SInv t -> path_ok p = true -> SimGoal c w t (MkDataset p).
Proof.
  intros c w t p R I H. destruct (path_ok_snoc p H) as (pcs & n & Sp & -> & Hok).
  eapply sim_from_body; try eassumption; [reflexivity | apply step_mkdataset_eq; assumption|].
  apply (create_sim c w t SD pcs n false R I Hok). exact Logic.I.
Qed.

Lemma sim_softlink : forall c w t p q, Rep c w t -> SInv t -> path_ok p = true -> SimGoal c w t (SoftLink p q).
Proof.
  intros c w t p q R I H. destruct (path_ok_snoc p H) as (pcs & n & Sp & -> & Hok).
  eapply sim_from_body; try eassumption; [reflexivity | apply step_softlink_eq; assumption|]. cbn [spec_step].
  destruct (negb (validate_soft_target q)); [left; split; reflexivity|]. rewrite Sp, unsnoc_snoc.
  destruct (soft_max c <? blen n + blen q).
  - left. destruct (negb (parent_registered w (render pcs))); split; reflexivity.
  - apply (create_sim c w t (SS q) pcs n true R I Hok). exact Logic.I.
Qed.


Lemma sim_hardlink : forall c w t p q, Rep c w t -> SInv t ->
  path_ok p = true -> path_ok q = true -> target_is_data t q = true -> SimGoal c w t (HardLink p q).
Proof.
  intros c w t p q R I Hp Hq Ht. destruct (path_ok_snoc p Hp) as (pcs & n & Sp & -> & Hok).
  destruct (path_ok_snoc q Hq) as (qp & qn & Sq & -> & Hqok). destruct (names_ok_snoc _ _ Hok) as [Hpcs Hn].
  eapply (sim_from_body c w t (HardLink _ _) pcs n); try eassumption; [reflexivity | reflexivity |].
  cbn [step_body spec_step]. unfold create_hard_link.
  rewrite !validate_link_render' by (assumption || apply snoc_nonempty). cbn [negb].
  rewrite parse_path_render by assumption. rewrite Sp, Sq.
  rewrite (resolve_agree c w t qp qn R I Hqok).
  unfold target_is_data in Ht. rewrite Sq in Ht.
  rewrite parent_registered_eq.
  destruct (sresolve (s_nodes t) 0 (qp ++ [qn])) as [tid|] eqn:St.
  2:{ left. destruct (parent_group w (render pcs)); split; reflexivity. }
  destruct (alookup tid (s_nodes t)) as [[cht| |]|] eqn:Lt; try discriminate.
  destruct (r_kind _ _ _ R tid SD Lt) as (o & Ho & Hkd). cbn [skind] in Hkd.
  destruct (parent_group w (render pcs)) as [g|] eqn:PG; cbn [negb].
  2:{ left. split; [reflexivity|]. destruct (noparent_slink_err c w t pcs n tid R I Hok PG) as (e & E). rewrite E. reflexivity. }
  rewrite Ho.
  destruct (precheck c w (render pcs) n) as [e0|] eqn:PC.
  { left. split; [reflexivity|]. pose proof (precheck_some_slink c w t pcs n e0 tid R I Hok PC) as X.
    destruct (s_link c (s_nodes t) (pcs ++ [n]) tid) as [[T'|] r]; exact X. }
  set (o1 := write_refcount c o (wrap32 (refcount o + 1))). set (w1 := set_objects w (aset tid o1 (objects w))).
  pose proof (parent_agree c w t pcs R I Hpcs) as PA.
  destruct (sresolve (s_nodes t) 0 pcs) as [g0|] eqn:Sr; [|congruence].
  destruct (alookup g0 (s_nodes t)) as [[ch| |]|] eqn:L; try congruence.
  assert (P1 : groups w1 = groups w) by reflexivity.
  assert (P3 : forall k, k <> clock w -> alookup k (heaps w1) = alookup k (heaps w) /\ alookup k (snods w1) = alookup k (snods w)) by (intros; split; reflexivity).
  destruct (link_agree c w t w1 pcs n tid g0 ch R I P1 P3 Hpcs Hn Sr L)
    as [(e & e' & E1 & E2)|(seg' & ents' & E1 & E2 & Hwf & Hob & Hcl)].
  - left. rewrite E1, E2. split; reflexivity.
  - right. rewrite E1, E2. cbn [fst snd]. split; [reflexivity|]. split; [reflexivity|]. intro I'.
    assert (Hg0 : g0 < clock w) by (rewrite (r_clock _ _ _ R); apply (s_bound _ I); rewrite L; discriminate).
    split.
    + eapply (rep_link_ok c w t _ _ pcs n g0 ch tid None seg' ents'); try eassumption.
      * apply upd_aset.
      * reflexivity.
      * cbn [heaps tick linked set_snods set_heaps]. apply alookup_aset_eq.
      * cbn [snods tick linked set_snods set_heaps]. apply alookup_aset_eq.
      * intros k Hk1 Hk2. cbn [heaps snods tick linked set_snods set_heaps]. rewrite !alookup_aset_neq by congruence. auto.
      * intros k ok Hk. cbn [objects tick linked set_snods set_heaps]. unfold w1. cbn [objects set_objects].
        rewrite alookup_aset. destruct (tid =? k) eqn:E; [|eauto]. apply N.eqb_eq in E. subst k.
        exists o1. split; [reflexivity|]. rewrite Ho in Hk. inversion Hk; subst. reflexivity.
    + eapply sinv_upd; try eassumption; [apply upd_aset | assumption].
Qed.

Lemma step_sim : forall c w t o, Rep c w t -> SInv t -> adm_op t o = true -> SimGoal c w t o.
Proof.
  intros c w t o R I A. destruct o as [p|p|p q|p q]; cbn [adm_op] in A.
  - apply sim_mkgroup; assumption.
  - apply sim_mkdataset; assumption.
  - apply andb_true_iff in A. destruct A as [A A3]. apply andb_true_iff in A. destruct A as [A1 A2].
    apply sim_hardlink; assumption.
  - apply sim_softlink; assumption.
Qed.

Lemma run_sim : forall c h w t, Rep c w t -> SInv t -> adm c t h = true ->
  map is_ok (snd (run (step c) w h)) = map is_ok (snd (run (spec_step c) t h)) /\
  Rep c (fst (run (step c) w h)) (fst (run (spec_step c) t h)) /\ SInv (fst (run (spec_step c) t h)).
Proof.
  intros c h. induction h as [|o h IH]; intros w t R I A; [cbn; auto|].
  cbn [adm] in A. apply andb_true_iff in A. destruct A as [A1 A2].
  destruct (step_sim c w t o R I A1) as (S1 & S2 & S3). cbn [run].
  destruct (step c w o) as [w1 r1]. destruct (spec_step c t o) as [t1 r1']. cbn [fst snd] in *.
  specialize (IH w1 t1 S2 S3 A2).
  destruct (run (step c) w1 h) as [w2 rs]. destruct (run (spec_step c) t1 h) as [t2 rs']. cbn [fst snd map] in *.
  destruct IH as (J1 & J2 & J3). split; [congruence | auto].
Qed.
