(* C02 composition, part 1: the abstract name index of Model/Attr.v (sorted list of (hash, heap id), first match
   by hash, capacity) is simulated by the record list of the detailed B-tree v2 model (Model/BT2.v) under the
   abstraction function [abs_idx].  For every operation the answer classes agree and [abs_idx] commutes. *)
From HV Require Import Base.Prelude Base.Bytes Model.Attr Model.AttrCompose Proofs.AttrBase.
From HV Require Model.BT2 Proofs.BT2.

Lemma id8_bytes_ok id : bytes_ok (id8 id) = true.
Proof.
  change (id8 id) with ([0] ++ le 2 (fst id) ++ le 3 (snd id) ++ [0; 0]). rewrite !bytes_ok_app, !le_bytes_ok. reflexivity.
Qed.

(* binary.LittleEndian.Uint64 of the 8 id bytes, then the 7 low bytes the record keeps *)
Lemma to7_id8 id : BT2.to7 (unle (id8 id)) = id7 id.
Proof.
  unfold BT2.to7. change 8%nat with (List.length (id8 id)). rewrite le_unle by apply id8_bytes_ok. reflexivity.
Qed.

Lemma abs_id7 id : id_ok id -> abs_id (id7 id) = id.
Proof.
  intros [H1 H2]. destruct id as [a b]. cbn [fst snd] in *. unfold abs_id, id7. cbn [fst snd le app skipn firstn unle].
  f_equal; lia.
Qed.

Lemma abs_conc rc : id_ok (snd rc) -> abs_rec (conc_rec rc) = rc.
Proof. intro H. destruct rc as [h id]. unfold abs_rec, conc_rec. cbn [fst snd] in *. rewrite abs_id7 by assumption. reflexivity. Qed.

Definition ids_ok (ix : idx) : Prop := Forall (fun rc : N * hid => id_ok (snd rc)) ix.

Definition ISim (s : BT2.bt2) (ix : idx) : Prop := BT2.recs s = map conc_rec ix /\ ids_ok ix.

Lemma ISim_abs s ix : ISim s ix -> abs_idx s = ix.
Proof.
  intros [E F]. unfold abs_idx. rewrite E. clear E. induction F as [|rc ix H F IH]; [reflexivity|].
  cbn [map]. rewrite abs_conc by assumption. rewrite IH. reflexivity.
Qed.

Lemma ISim_length s ix : ISim s ix -> List.length (BT2.recs s) = List.length ix.
Proof. intros [E _]. rewrite E. apply map_length. Qed.

Lemma find_index_split h id : forall ix1 ix2, ~ In h (map fst ix1) ->
  BT2.find_index (map conc_rec (ix1 ++ (h, id) :: ix2)) h 0 = Some (List.length ix1).
Proof.
  induction ix1 as [|[h' i'] ix1 IH]; intros ix2 NI; cbn [app map conc_rec BT2.find_index fst List.length In] in *.
  - rewrite N.eqb_refl. reflexivity.
  - destruct (N.eqb_spec h' h); [tauto|]. rewrite BT2.find_index_shift, IH by tauto. reflexivity.
Qed.

Lemma find_index_absent h : forall ix, ~ In h (map fst ix) -> BT2.find_index (map conc_rec ix) h 0 = None.
Proof.
  induction ix as [|[h' i'] ix IH]; intro NI; cbn [map conc_rec BT2.find_index fst In] in *; [reflexivity|].
  destruct (N.eqb_spec h' h); [tauto|]. rewrite BT2.find_index_shift, IH by tauto. reflexivity.
Qed.

(* Go's records[:i], records[i], records[i+1:] at the position of that record *)
Lemma conc_middle : forall ix1 rc ix2,
  firstn (List.length ix1) (map conc_rec (ix1 ++ rc :: ix2)) = map conc_rec ix1 /\
  nth (List.length ix1) (map conc_rec (ix1 ++ rc :: ix2)) (0, []) = conc_rec rc /\
  skipn (S (List.length ix1)) (map conc_rec (ix1 ++ rc :: ix2)) = map conc_rec ix2.
Proof.
  induction ix1 as [|y ix1 IH]; intros rc ix2; cbn [List.length app map firstn nth skipn]; [auto|].
  destruct (IH rc ix2) as (E1 & E2 & E3). rewrite E1. auto.
Qed.

(* SearchRecord: found / not found agree, and the 8 bytes handed back (the 7 of the record copied into an 8-byte
   slice) are the id the abstract index holds *)
Lemma search_sim s ix n : ISim s ix ->
  BT2.search_record s n = option_map id8 (idx_search (BT2.jenkins n) ix).
Proof.
  intros [E _]. unfold BT2.search_record. rewrite E. pose proof (idx_search_spec (BT2.jenkins n) ix) as S.
  destruct (idx_search (BT2.jenkins n) ix) as [id|]; cbn [option_map].
  - destruct S as (ix1 & ix2 & -> & NI). rewrite (find_index_split _ id _ _ NI).
    destruct (conc_middle ix1 (BT2.jenkins n, id) ix2) as (_ & -> & _). reflexivity.
  - rewrite (find_index_absent _ _ S). reflexivity.
Qed.

Lemma insert_sorted_conc rc : forall ix,
  BT2.insert_sorted (map conc_rec ix) (conc_rec rc) = map conc_rec (idx_insert_sorted rc ix).
Proof.
  induction ix as [|x ix IH]; [reflexivity|].
  rewrite BT2.insert_sorted_rec. cbn [map idx_insert_sorted].
  change (fst (conc_rec rc)) with (fst rc). change (fst (conc_rec x)) with (fst x).
  destruct (fst rc <=? fst x); [reflexivity|]. cbn [map]. rewrite IH. reflexivity.
Qed.

Lemma ids_ok_insert rc : forall ix, id_ok (snd rc) -> ids_ok ix -> ids_ok (idx_insert_sorted rc ix).
Proof.
  unfold ids_ok. induction ix as [|x ix IH]; intros H F; cbn [idx_insert_sorted].
  - constructor; [assumption | constructor].
  - inversion F; subst. destruct (fst rc <=? fst x); constructor; auto.
Qed.

(* InsertRecord: refused exactly when the abstract index refuses (hash present, or capacity reached);
   otherwise the record is inserted at the same position *)
Lemma insert_sim P s ix n id : ISim s ix -> id_ok id -> p_idxcap P = BT2.max_records (BT2.node_size s) ->
  match idx_insert P (BT2.jenkins n, id) ix with
  | Some ix' => exists s', BT2.insert_record s n (unle (id8 id)) = (s', true) /\ ISim s' ix' /\
                           BT2.recs s' = BT2.insert_sorted (BT2.recs s) (BT2.jenkins n, id7 id)
  | None => BT2.insert_record s n (unle (id8 id)) = (s, false)
  end.
Proof.
  intros [E F] Hid Hcap. unfold idx_insert, BT2.insert_record. cbn [fst]. rewrite to7_id8, E, map_length.
  pose proof (idx_search_spec (BT2.jenkins n) ix) as S. destruct (idx_search (BT2.jenkins n) ix) as [id0|].
  - destruct S as (ix1 & ix2 & -> & NI). rewrite (find_index_split _ id0 _ _ NI). reflexivity.
  - rewrite (find_index_absent _ _ S), Hcap. destruct (BT2.max_records (BT2.node_size s) <=? N.of_nat (List.length ix)); [reflexivity|].
    eexists. split; [reflexivity|]. split; [|reflexivity]. split.
    + cbn [BT2.with_recs BT2.recs]. apply (insert_sorted_conc (BT2.jenkins n, id)).
    + apply ids_ok_insert; assumption.
Qed.

(* UpdateRecord: first record with the hash gets the new id; error exactly when the abstract update fails *)
Lemma update_sim s ix n id : ISim s ix -> id_ok id ->
  match idx_update (BT2.jenkins n) id ix with
  | Some ix' => exists s', BT2.update_record s n (unle (id8 id)) = (s', true) /\ ISim s' ix' /\
                           List.length (BT2.recs s') = List.length (BT2.recs s)
  | None => BT2.update_record s n (unle (id8 id)) = (s, false)
  end.
Proof.
  intros [E F] Hid. unfold BT2.update_record. rewrite to7_id8, E.
  pose proof (idx_update_spec (BT2.jenkins n) id ix) as U. destruct (idx_update (BT2.jenkins n) id ix) as [ix'|].
  - destruct U as (ix1 & [h0 id0] & ix2 & -> & Eh & NI & ->). cbn [fst] in *. subst h0.
    rewrite (find_index_split _ id0 _ _ NI). destruct (conc_middle ix1 (BT2.jenkins n, id0) ix2) as (E1 & E2 & E3).
    cbv zeta. rewrite E1, E2, E3. eexists. split; [reflexivity|]. cbn [BT2.with_recs BT2.recs]. split; [split|].
    + rewrite map_app. reflexivity.
    + apply Forall_app in F. destruct F as [F1 F2]. inversion F2; subst. apply Forall_app. split; [|constructor]; assumption.
    + rewrite map_app, !app_length. reflexivity.
  - rewrite (find_index_absent _ _ U). reflexivity.
Qed.

(* DeleteRecord = DeleteRecordWithRebalancing (single leaf): the first record with the hash is removed *)
Lemma delete_sim s ix n : ISim s ix ->
  match idx_delete (BT2.jenkins n) ix with
  | Some ix' => exists s', BT2.delete_with_rebalancing s n = (s', true) /\ ISim s' ix'
  | None => BT2.delete_with_rebalancing s n = (s, false)
  end.
Proof.
  intros [E F]. unfold BT2.delete_with_rebalancing, BT2.remove_record, BT2.handle_root_depth_decrease. rewrite E.
  pose proof (idx_delete_spec (BT2.jenkins n) ix) as U. destruct (idx_delete (BT2.jenkins n) ix) as [ix'|].
  - destruct U as (ix1 & [h0 id0] & ix2 & -> & Eh & NI & ->). cbn [fst] in *. subst h0.
    rewrite (find_index_split _ id0 _ _ NI). destruct (conc_middle ix1 (BT2.jenkins n, id0) ix2) as (E1 & _ & E3).
    cbv zeta. rewrite E1, E3. eexists. split.
    + match goal with |- (if ?c then _ else _) = _ => destruct c end; reflexivity.
    + cbn [BT2.with_recs BT2.recs]. split; [rewrite map_app; reflexivity|].
      apply Forall_app in F. destruct F as [F1 F2]. inversion F2; subst. apply Forall_app. split; assumption.
  - rewrite (find_index_absent _ _ U). reflexivity.
Qed.

Lemma delete_record_same s n : BT2.delete_record s n = BT2.delete_with_rebalancing s n.
Proof. reflexivity. Qed.

Lemma ISim_new ns : ISim (BT2.new_bt ns) [].
Proof. split; [reflexivity | constructor]. Qed.

(* capacity: 4096-byte nodes hold 371 records *)
Lemma node_capacity : BT2.max_records NODE = 371.
Proof. reflexivity. Qed.
