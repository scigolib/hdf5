(* C20, FP8: the E4M3 and E5M2 encoders round to the nearest representable value, ties to the even code,
   with the IEEE overflow rule (rne_spec on the exact values X32 / V8, both scaled by 2^149); instances of
   LowFloatFP8.enc_mag_rne. *)
From HV Require Import Base.Prelude Model.LowFloat Model.LowFloatTie.
From HV Require Import Proofs.LowFloatBase Proofs.LowFloatBF16 Proofs.LowFloatFP8.

Lemma fp8_rne_E4M3 mag : mag <= 2139095040 -> fp8_rne_ok E4M3 mag (fp8_enc_mag E4M3 mag) = true.
Proof. intros _. apply enc_mag_rne, fmt_ok_std. now left. Qed.

Lemma fp8_rne_E5M2 mag : mag <= 2139095040 -> fp8_rne_ok E5M2 mag (fp8_enc_mag E5M2 mag) = true.
Proof. intros _. apply enc_mag_rne, fmt_ok_std. now right. Qed.

(* on a tie the spec accepts the even code and rejects the odd neighbour; overflow tie must give 0x7F *)
Example rne_tie_accepts : fp8_rne_ok E4M3 1065877504 56 = true. Proof. vm_compute. reflexivity. Qed.
Example rne_tie_rejects : fp8_rne_ok E4M3 1065877504 57 = false. Proof. vm_compute. reflexivity. Qed.
Example rne_overflow_accepts : fp8_rne_ok E4M3 1131937792 127 = true. Proof. vm_compute. reflexivity. Qed.
Example rne_overflow_rejects : fp8_rne_ok E4M3 1131937792 119 = false. Proof. vm_compute. reflexivity. Qed.
Example rne_rejects_far : fp8_rne_ok E5M2 1065353216 61 = false. Proof. vm_compute. reflexivity. Qed.
Example rne_accepts_one : fp8_rne_ok E5M2 1065353216 60 = true. Proof. vm_compute. reflexivity. Qed.
