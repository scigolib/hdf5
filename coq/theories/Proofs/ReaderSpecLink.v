(* C06, reader against specification: the link message (0x0006).
   For every byte string the strict specification decoder accepts, ParseLinkMessage (Model/CodecLink.v dec_link, tied
   to the Go code by C11/C07) returns an error or the same flags, link type, creation order, character set, name and,
   for hard links, the bytes of the object header address (little-endian = the specification's address), for soft
   links the target path; never a panic.  External links: only the link type is compared (the reader hands back the
   raw value bytes). *)
From HV Require Import Base.Prelude Base.Outcome Base.Bytes Spec.Parse Spec.FormatMsg Model.CodecMsg Model.CodecLink
  Proofs.RobustNoPanicBase Proofs.ReaderSpecBase.

Definition lk_agree (l : link_spec) (v : linkmsg) : Prop :=
  match ls_value l with
  | LExternal _ _ => lk_type v = 64
  | val =>
      lk_version v = 1 /\ lk_flags v = ls_flags l /\ lk_name v = ls_name l /\ lk_charset v = ls_cset l /\
      lk_corder v = match ls_corder l with Some c => c | None => 0 end /\
      match val with
      | LHard a => lk_type v = 0 /\ unle (lk_value v) = a
      | LSoft t => lk_type v = 1 /\ lk_value v = t
      | LExternal _ _ => True
      end
  end.

Lemma opt_byte_step (bs : list N) p (c : bool) x r :
  p <= blen bs ->
  (if c then p_byte (at_pos bs p) else Ok (0, at_pos bs p)) = Ok (x, r) ->
  exists p', r = at_pos bs p' /\ p <= p' /\ p' <= blen bs /\
    (if c then if blen bs <? p + 1 then Err else t <- index bs p;; Ok (t, p + 1) else Ok (0, p)) = Ok (x, p').
Proof.
  intros Hp H. destruct c.
  - apply p_byte_at in H as (B & -> & IX); auto. exists (p + 1). repeat split; try blia.
    rewrite ltb_false by blia. rewrite IX. reflexivity.
  - injection H as <- <-. exists p. repeat split; blia.
Qed.

(* the optional character set byte: the specification's range check only removes successes *)
Lemma opt_cset_step (bs : list N) p (c : bool) x r :
  p <= blen bs ->
  (if c then '(k, r) <- p_byte (at_pos bs p);; _ <- guard (k <? 2);; Ok (k, r) else Ok (0, at_pos bs p)) = Ok (x, r) ->
  exists p', r = at_pos bs p' /\ p <= p' /\ p' <= blen bs /\
    (if c then if blen bs <? p + 1 then Err else t <- index bs p;; Ok (t, p + 1) else Ok (0, p)) = Ok (x, p').
Proof.
  intros Hp H. apply opt_byte_step; [exact Hp|]. destruct c; [|exact H].
  destruct (p_byte (at_pos bs p)) as [[k r']| |]; cbn [obind] in H; try discriminate H.
  destruct (k <? 2); [exact H|discriminate H].
Qed.

Lemma opt_corder_step (bs : list N) p (c : bool) x r :
  p <= blen bs ->
  (if c then '(k, r) <- p_u 8 (at_pos bs p);; Ok (Some k, r) else Ok (None, at_pos bs p)) = Ok (x, r) ->
  exists p', r = at_pos bs p' /\ p <= p' /\ p' <= blen bs /\
    (if c then if blen bs <? p + 8 then Err else k <- rd_le bs p 8;; Ok (k, p + 8) else Ok (0, p))
      = Ok (match x with Some k => k | None => 0 end, p').
Proof.
  intros Hp H. destruct c.
  - s_u H k B R. injection H as <- <-. change (N.of_nat 8) with 8 in *. exists (p + 8). repeat split; try blia.
    rewrite ltb_false by blia. rewrite R. reflexivity.
  - injection H as <- <-. exists p. repeat split; blia.
Qed.

Lemma rd_le_slice (bs : list N) p k v : rd_le bs p k = Ok v -> exists b, slice bs p (p + k) = Ok b /\ unle b = v.
Proof.
  unfold rd_le. destruct (slice bs p (p + k)) as [b| |]; cbn [obind]; try discriminate.
  intros H. injection H as <-. eauto.
Qed.

Lemma link_reader_spec (osz : nat) (pad_ok : bool) (bs : bytes) (l : link_spec) (tg : list tag) :
  spec_dec_link strict osz pad_ok bs = Ok (l, tg) ->
  err_or (lk_agree l) (dec_link (N.of_nat osz) bs).
Proof.
  intros H. unfold spec_dec_link in H. rewrite (at_pos_0 bs) in H.
  assert (P0 : 0 <= blen bs) by blia.
  s_byte H ver B1 I0. s_guard H GV. apply N.eqb_eq in GV. subst ver.
  s_byte H fl B2 I1. s_guard H GF.
  change (0 + 1) with 1 in *. change (1 + 1) with 2 in *.
  s_bind H lty r E. apply opt_byte_step in E as (p1 & -> & L1 & U1 & R1); [|blia].
  s_bind H co r E. apply opt_corder_step in E as (p2 & -> & L2 & U2 & R2); [|blia].
  s_bind H cs r E. apply opt_cset_step in E as (p3 & -> & L3 & U3 & R3); [|blia].
  s_u H nl B3 RN. rewrite N2Nat.id in *. s_guard H GN.
  s_take H name B4 SN LN. rewrite N2Nat.id in *.
  unfold dec_link, dec_link_header, lk_has_type, lk_has_corder, lk_has_charset.
  rewrite (ltb_false (blen bs) 2) by blia. rewrite I0. cbn [obind]. rewrite I1. cbn [obind].
  change (negb (1 =? 1)) with false. cbn iota.
  rewrite R1. cbn [obind]. rewrite R2. cbn [obind]. rewrite R3. cbn [obind].
  unfold dec_link_namelen, lk_lensize.
  rewrite ltb_false by blia. rewrite RN. cbn [obind].
  unfold dec_link_name. destruct (1048576 <? nl); [exact I|].
  rewrite ltb_false by blia. rewrite SN. cbn [obind].
  unfold dec_link_value.
  destruct (lty =? 0) eqn:T0.
  - (* hard link *)
    s_u H a B5 RA. s_end H PE PF ZZ. injection H as <- <-.
    rewrite ltb_false by blia.
    destruct (rd_le_slice _ _ _ _ RA) as (b & Sb & Ub). rewrite Sb. cbn [obind].
    apply N.eqb_eq in T0. subst lty. cbn [lk_agree ls_value]. unfold lk_agree. cbn [ls_value ls_flags ls_name ls_cset ls_corder]. repeat split; auto.
  - destruct (lty =? 1) eqn:T1.
    + (* soft link *)
      s_u H vl B5 RV. change (N.of_nat 2) with 2 in *. s_take H tv B6 ST LT. rewrite N2Nat.id in *.
      s_end H PE PF ZZ. injection H as <- <-.
      rewrite ltb_false by blia. rewrite RV. cbn [obind].
      rewrite ltb_false by blia. rewrite ST. cbn [obind].
      apply N.eqb_eq in T1. subst lty. unfold lk_agree. cbn [ls_value ls_flags ls_name ls_cset ls_corder]. repeat split; auto.
    + destruct (lty =? 64) eqn:T64; [|discriminate H].
      (* external link *)
      apply N.eqb_eq in T64. subst lty.
      assert (X : exists f p, ls_value l = LExternal f p).
      { s_u H vl B5 RV. s_take H tv B6 ST LT.
        match type of H with
        | match ?m with Ok _ => _ | Err => _ | Panic => _ end = _ => destruct m as [[fn op]| |]
        end.
        - injection H as <- <-. cbn [ls_value]. eauto.
        - repeat sstep H. discriminate.
        - repeat sstep H. discriminate. }
      destruct X as (f & p & XV). unfold lk_agree. rewrite XV.
      set (off := p3 + N.shiftl 1 (N.land fl 3) + nl).
      destruct (blen bs <? off + 2) eqn:G1; [exact I|]. apply N.ltb_ge in G1.
      destruct (rd_le_ok bs off 2 G1) as (q & ->). cbn [obind].
      destruct (blen bs <? off + 2 + q + 2) eqn:G2; [exact I|]. apply N.ltb_ge in G2.
      destruct (rd_le_ok bs (off + 2 + q) 2 G2) as (q2 & ->). cbn [obind].
      destruct (blen bs <? off + (2 + q + 2 + q2)) eqn:G3; [exact I|]. apply N.ltb_ge in G3.
      destruct (slice_ok bs off (off + (2 + q + 2 + q2))) as (vb & -> & _); [blia|blia|]. cbn [obind].
      reflexivity.
Qed.

Example link_reader_spec_example :
  exists l, spec_dec_link strict 8 false ([1; 0; 3; 97; 98; 99] ++ le 8 1234) = Ok (l, []).
Proof. eexists. vm_compute. reflexivity. Qed.
