(* C17: non-vacuity for the entry points of Model/IOProgSlice.v.  A file written by the library (superblock version 2,
   /c = int32 [7,5] = 0..34 in chunks of [3,2], one compact attribute), byte for byte. *)
From HV Require Import Base.Prelude Base.Outcome Base.Bytes Model.IOProg Proofs.IOProg Model.IOProgReader Model.IOProgSlice.
From HV Require Import Proofs.IOProgExamples Model.CodecSuper.

Definition ex3 : bytes := unhex "894844460d0a1a0a020808000000000000000000ffffffffffffffffc10b000000000000780800000000000045d61016484541500000000000010000000000000100000000000000500000000000000063000000000000000000000000000000000000000000000000000000000000000000000000000000000000000000000000000000000000000000000000000000000000000000000000000000000000000000000000000000000000000000000000000000000000000000000000000000000000000000000000000000000000000000000000000000000000000000000000000000000000000000000000000000000000000000000000000000000000000000000000000000000000000000000000000000000000000000000000000000000000000000000000000000000000000000000000000000000000000000000000000000000000000000000000000000534e4f440100010000000000000000009308000000000000000000000000000000000000000000000000000000000000000000000000000000000000000000000000000000000000000000000000000000000000000000000000000000000000000000000000000000000000000000000000000000000000000000000000000000000000000000000000000000000000000000000000000000000000000000000000000000000000000000000000000000000000000000000000000000000000000000000000000000000000000000000000000000000000000000000000000000000000000000000000000000000000000000000000000000000000000000000000000000000000000000000000000000000000000000000000000000000000000000000000000000000000000000000000000000000000000000000000000000000000000000000000000000000000000000000000000000000000000000000000000000000000000000000000000000000000000000000000000000000000000000000000000000000000000000000000000000000000000000000000000000000000000000000000000000000000000000000000000000000000000000000000000000000000000000000000000000000000000000000000000000000000000000000000000000000000000000000000000000000000000000000000000000000000000000000000000000000000000000000000000000000000000000000000000000000000000000000000000000000000000000000000000000000000000000000000000000000000000000000000000000000000000000000000000000000000000000000000000000000000000000000000000000000000000000000000000000000000000000000000000000000000000000000000000000000000000000000000000000000000000000000000000000000000000000000000000000000000000000000000000000000000000000000000000000000000000000000000000000000000000000000000000000000000000000000000000000000000000000000000000000000000000000000000000000000000000000000000000000000000000000000000000000000000000000000000000000000000000000000000000000000000000000000000000000000000000000000000000000000000000000000000000000000000000000000000000000000000000000000000000000000000000000000000000000000000000000000000000000000000000000000000000000000000000000000000000000000000000000000000000000000000000000000000000000000000000000000000000000000000000000000000000000000000000000000000000000000000000000000000000000000000000000000000000000000000000000000000000000000000000000000000000000000000000000000000000000000000000000000000000000000000000000000000000000000000000000000000000000000000000000000000000000000000000000000000000000000000000000000000000000000000000000000000000000000000000000000000000000000000000000000000000000000000000000000000000000000000000000000000000000000000000000000000000000000000000000000000000000000000000000000000000000000000000000000000000000000000000000000000000000000000000000000000000000000000000000000000000000000000000000005452454500000100ffffffffffffffffffffffffffffffff000000000000000050010000000000000000000000000000000000000000000000000000000000000000000000000000000000000000000000000000000000000000000000000000000000000000000000000000000000000000000000000000000000000000000000000000000000000000000000000000000000000000000000000000000000000000000000000000000000000000000000000000000000000000000000000000000000000000000000000000000000000000000000000000000000000000000000000000000000000000000000000000000000000000000000000000000000000000000000000000000000000000000000000000000000000000000000000000000000000000000000000000000000000000000000000000000000000000000000000000000000000000000000000000000000000000000000000000000000000000000000000000000000000000000000000000000000000000000000000000000000000000000000000000000000000000000000000000000000000000000000000000000000000000000000000000000000000000000000000000000000000000000000000000000000000000000000000000000000000000000000000000000000000000000000000000000000000000000000000000000000000000000000000000000000000000000000000000000000000000000000000000000000004f48445202001411100000580600000000000030000000000000004f484452020076030c00001008000004000000002000000118000001020000000000000700000000000000050000000000000008130000030202710a00000000000003000000020000000c2f0000030002000c00100000610010080000080000000040000001010000000000000100000000000000fbffffffffffffff0000000000000000000000000000000000000000000000000000000000000000000000000000000000000000000000000000000000000000000000000000000000000000000000000000000000000000000000000000000000000000000000000000000000000000000000000000000000000000000000000000000000000000000000000000000000000000000100000005000000060000000a0000000b000000020000000300000007000000080000000c0000000d000000040000000000000009000000000000000e000000000000000f000000100000001400000015000000190000001a000000110000001200000016000000170000001b0000001c000000130000000000000018000000000000001d000000000000001e0000001f000000000000000000000000000000000000002000000021000000000000000000000000000000000000002200000000000000000000000000000000000000000000005452454501000900ffffffffffffffffffffffffffffffff1800000000000000000000000000000000000000000000009909000000000000180000000000000000000000000000000200000000000000b109000000000000180000000000000000000000000000000400000000000000c909000000000000180000000000000003000000000000000000000000000000e109000000000000180000000000000003000000000000000200000000000000f909000000000000180000000000000003000000000000000400000000000000110a000000000000180000000000000006000000000000000000000000000000290a000000000000180000000000000006000000000000000200000000000000410a000000000000180000000000000006000000000000000400000000000000590a0000000000000000000000000000ffffffffffffffffffffffffffffffff".

(* the hypotheses of the damage theorems hold for it *)
Example ex3_sizes : valid_size (spp_lensize (sb_of ex3)) = true.
Proof. vm_compute. reflexivity. Qed.

(* ReadSlice(start [1,1], count [3,2]): B-tree node, then the four chunks the selection touches, 21 I/O calls *)
Example ex3_slice :
  run0 ex3 (api_read_slice (sb_of ex3) 64 2195 [1; 1] [3; 2]) =
  Ok (SlChunks [([0; 0], [0; 0; 0; 0; 1; 0; 0; 0; 5; 0; 0; 0; 6; 0; 0; 0; 10; 0; 0; 0; 11; 0; 0; 0]);
                ([0; 1], [2; 0; 0; 0; 3; 0; 0; 0; 7; 0; 0; 0; 8; 0; 0; 0; 12; 0; 0; 0; 13; 0; 0; 0]);
                ([1; 0], [15; 0; 0; 0; 16; 0; 0; 0; 20; 0; 0; 0; 21; 0; 0; 0; 25; 0; 0; 0; 26; 0; 0; 0]);
                ([1; 1], [17; 0; 0; 0; 18; 0; 0; 0; 22; 0; 0; 0; 23; 0; 0; 0; 27; 0; 0; 0; 28; 0; 0; 0])]) /\
  calls0 ex3 (api_read_slice (sb_of ex3) 64 2195 [1; 1] [3; 2]) = 21%nat.
Proof. apply (run_len_both (fun o => o)). vm_compute. reflexivity. Qed.

(* every one of the 21 calls failing (EIO) or ending the file (0 bytes) gives an error *)
Example ex3_slice_faults :
  forallb (fun k => match fst (run ex3 (fault_at k FailIO) 0 (api_read_slice (sb_of ex3) 64 2195 [1; 1] [3; 2])),
                          fst (run ex3 (fault_at k (ShortRead 0)) 0 (api_read_slice (sb_of ex3) 64 2195 [1; 1] [3; 2])) with
                    | Err, Err => true | _, _ => false end) (seq 0 21) = true.
Proof.
  erewrite forallb_ext by (intros k; rewrite !run_len_eq; reflexivity).
  vm_compute. reflexivity.
Qed.

(* the last chunk the selection needs lies at 2553..2576: one byte less is an error, the rest of the file is not needed *)
Example ex3_slice_cut :
  run0 (firstn 2576 ex3) (api_read_slice (sb_of ex3) 64 2195 [1; 1] [3; 2]) = Err.
Proof. unfold run0. rewrite run_len_eq. vm_compute. reflexivity. Qed.

(* a selection outside the dataset is refused *)
Example ex3_slice_oob : run0 ex3 (api_read_slice (sb_of ex3) 64 2195 [5; 0] [3; 2]) = Err.
Proof. unfold run0. rewrite run_len_eq. vm_compute. reflexivity. Qed.

(* ReadHyperslab, every second index: all nine chunks *)
Example ex3_hyperslab :
  omap (fun x => match x with SlChunks cs => map fst cs | _ => [] end)
       (run0 ex3 (api_read_hyperslab (sb_of ex3) 64 2195 {| s_start := [0; 0]; s_count := [4; 3]; s_stride := Some [2; 2]; s_block := None |})) =
  Ok [[0; 0]; [0; 1]; [0; 2]; [1; 0]; [1; 1]; [1; 2]; [2; 0]; [2; 1]; [2; 2]].
Proof. unfold run0. rewrite run_len_eq. vm_compute. reflexivity. Qed.

(* ChunkIterator: nine chunks of [3,2] in a [7,5] dataset; iterating over all of them makes 148 I/O calls *)
Example ex3_chunk_iterator :
  run0 ex3 (api_chunk_iterator (sb_of ex3) 64 2195) =
  Ok ([[0; 0]; [0; 1]; [0; 2]; [1; 0]; [1; 1]; [1; 2]; [2; 0]; [2; 1]; [2; 2]], [3; 2], [7; 5]).
Proof. unfold run0. rewrite run_len_eq. vm_compute. reflexivity. Qed.
Example ex3_chunk_iterate :
  omap (@length _) (run0 ex3 (api_chunk_iterate (sb_of ex3) 64 2195)) = Ok 9%nat /\
  calls0 ex3 (api_chunk_iterate (sb_of ex3) 64 2195) = 148%nat.
Proof. apply (run_len_both (omap (@length _))). vm_compute. reflexivity. Qed.
