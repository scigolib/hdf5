(* One WriteAttribute / DeleteAttribute call of Model/Attr.v refines one step of a name -> value map:
   representation relation [Rep], abstract effect [eff], and the per-function refinement lemmas. *)
From HV Require Import Base.Prelude Model.Attr Proofs.AttrBase Proofs.AttrDense.
From Coq Require Import Permutation.

Section Step.
Variable name_hash : bytes -> N.
Variable P : params.
Hypothesis Hcap : p_hcap P <= 65536.

Notation dense_rep := (dense_rep name_hash P).
Notation rec_ok := (rec_ok name_hash).

(* [l] = the attribute list the reader returns for storage state [st] *)
Definition Rep (st : state) (l : list attr) : Prop :=
  match st with
  | Compact attrs => l = attrs
  | Dense ix hp => dense_rep ix hp l
  | Broken => False
  end.

Lemma rep_read : forall st l, Rep st l -> read_attrs st = Some l.
Proof.
  intros [attrs|ix hp|] l R; cbn [Rep read_attrs] in *.
  - congruence.
  - destruct R as [F _]. eapply read_dense_rep. exact F.
  - destruct R.
Qed.

Definition EncAll (l : list attr) : Prop := forall x, In x l -> exists s, encode_attr x = EncOk s.

Lemma EncAll_nonempty : forall l, EncAll l -> ~ In [] (map aname l).
Proof.
  intros l E HI. apply in_map_iff in HI. destruct HI as [x [Ex HI]]. destruct (E x HI) as [s Hs].
  apply enc_ok_name in Hs. tauto.
Qed.

Lemma EncAll_app : forall l1 l2, EncAll (l1 ++ l2) <-> EncAll l1 /\ EncAll l2.
Proof.
  intros l1 l2. unfold EncAll. split.
  - intro H. split; intros x HI; apply H; apply in_or_app; tauto.
  - intros [H1 H2] x HI. apply in_app_or in HI. destruct HI; [apply H1 | apply H2]; assumption.
Qed.

Lemma EncAll_cons : forall a l, EncAll (a :: l) <-> (exists s, encode_attr a = EncOk s) /\ EncAll l.
Proof.
  intros a l. unfold EncAll. split.
  - intro H. split; [apply H; left; reflexivity | intros x HI; apply H; right; assumption].
  - intros [H1 H2] x [<-|HI]; [exact H1 | apply H2; assumption].
Qed.

Definition eff (l l' : list attr) (o : op) (r : res) : Prop :=
  match r with
  | ROk =>
    match o with
    | OWrite n (Some v) => forall m, attr_get l' m = if bytes_eqb n m then Some v else attr_get l m
    | OWrite n None => False
    | ODelete n => attr_get l n <> None /\ forall m, attr_get l' m = if bytes_eqb n m then None else attr_get l m
    end
  | RErr => l' = l /\ match o with ODelete n => attr_get l n = None | _ => True end
  end.

Definition step_ok (l l' : list attr) (o : op) (r : res) : Prop :=
  NoDup (map aname l') /\ EncAll l' /\ incl (map aname l') (op_name o :: map aname l) /\ eff l l' o r.

Definition post (l : list attr) (o : op) (st' : state) (r : res) : Prop := exists l', Rep st' l' /\ step_ok l l' o r.

Lemma post_same : forall st l o r, Rep st l -> NoDup (map aname l) -> EncAll l -> eff l l o r -> post l o st r.
Proof. intros st l o r R ND EA E. exists l. repeat split; try assumption. apply incl_tl, incl_refl. Qed.

Lemma replace_ok : forall l1 x l2 n v,
  NoDup (map aname (l1 ++ x :: l2)) -> EncAll (l1 ++ x :: l2) -> aname x = n ->
  (exists s, encode_attr (mkAttr n v) = EncOk s) ->
  step_ok (l1 ++ x :: l2) (l1 ++ mkAttr n v :: l2) (OWrite n (Some v)) ROk.
Proof.
  intros l1 x l2 n v ND EA EN ES. repeat split.
  - eapply NoDup_names_replace_middle; [exact ND | cbn [aname]; congruence].
  - apply EncAll_app in EA. destruct EA as [E1 E2]. apply EncAll_cons in E2. destruct E2 as [_ E2].
    apply EncAll_app. split; [exact E1|]. apply EncAll_cons. split; assumption.
  - intros y HI. right. rewrite map_app in *. cbn [map aname] in *. rewrite EN. exact HI.
  - intro m. rewrite (attr_get_replace_middle l1 x (mkAttr n v) l2 m ND) by (cbn [aname]; congruence).
    cbn [aval]. rewrite EN. reflexivity.
Qed.

Lemma remove_ok : forall l1 x l2,
  NoDup (map aname (l1 ++ x :: l2)) -> EncAll (l1 ++ x :: l2) ->
  step_ok (l1 ++ x :: l2) (l1 ++ l2) (ODelete (aname x)) ROk.
Proof.
  intros l1 x l2 ND EA. destruct (NoDup_names_middle _ _ _ ND) as [NI ND']. repeat split.
  - exact ND'.
  - apply EncAll_app in EA. destruct EA as [E1 E2]. apply EncAll_cons in E2. destruct E2 as [_ E2].
    apply EncAll_app. split; assumption.
  - intros y HI. right. rewrite map_app in *. cbn [map]. apply in_app_or in HI. apply in_or_app.
    destruct HI; [left | right; right]; assumption.
  - intro H. apply attr_get_none_iff in H. apply H. rewrite map_app. cbn [map]. apply in_or_app. right. left. reflexivity.
  - intro m. apply attr_get_remove_middle. exact ND.
Qed.

Lemma insert_ok : forall l1 l2 n v,
  NoDup (map aname (l1 ++ l2)) -> EncAll (l1 ++ l2) -> ~ In n (map aname (l1 ++ l2)) ->
  (exists s, encode_attr (mkAttr n v) = EncOk s) ->
  step_ok (l1 ++ l2) (l1 ++ mkAttr n v :: l2) (OWrite n (Some v)) ROk.
Proof.
  intros l1 l2 n v ND EA NI ES. repeat split.
  - apply NoDup_names_insert; [exact ND | exact NI].
  - apply EncAll_app in EA. destruct EA as [E1 E2]. apply EncAll_app. split; [exact E1|]. apply EncAll_cons. split; assumption.
  - intros y HI. rewrite map_app in *. cbn [map aname] in HI. apply in_app_or in HI.
    destruct HI as [HI|[HI|HI]]; [right; apply in_or_app; tauto | left; exact HI | right; apply in_or_app; tauto].
  - intro m. rewrite (attr_get_insert l1 l2 (mkAttr n v) m) by exact NI. reflexivity.
Qed.

Lemma attr_get_perm : forall l l' m, NoDup (map aname l) -> Permutation l l' -> attr_get l m = attr_get l' m.
Proof.
  intros l l' m ND PM.
  assert (ND' : NoDup (map aname l')) by (eapply Permutation_NoDup; [apply Permutation_map; exact PM | exact ND]).
  destruct (attr_get l m) as [v|] eqn:E.
  - symmetry. apply attr_get_in; [exact ND'|]. eapply Permutation_in; [exact PM|]. apply attr_get_some_in. exact E.
  - symmetry. apply attr_get_none_iff. apply attr_get_none_iff in E. intro HI. apply E.
    eapply Permutation_in; [apply Permutation_sym; apply Permutation_map; exact PM | exact HI].
Qed.

(* transitionToDenseAttributes: the DenseAttributeWriter loop *)

Lemma daw_ok : forall todo seen ix hp l ix' hp',
  dense_rep ix hp l -> (forall m, In m seen <-> In m (map aname l)) ->
  daw_add_all name_hash P seen ix hp todo = TOk ix' hp' ->
  exists l', dense_rep ix' hp' l' /\ Permutation l' (l ++ todo) /\
             (NoDup (map aname l) -> NoDup (map aname l')) /\ (EncAll l -> EncAll l').
Proof.
  induction todo as [|a r IH]; intros seen ix hp l ix' hp' R S H; cbn [daw_add_all] in H.
  - inversion H; subst. exists l. rewrite app_nil_r. split; [exact R|]. split; [apply Permutation_refl | tauto].
  - destruct (aname a) as [|b t] eqn:EN; [discriminate|]. rewrite <- EN in *.
    destruct (existsb (bytes_eqb (aname a)) seen) eqn:EX; [discriminate|].
    destruct (encode_attr a) as [sz|] eqn:EA; try discriminate.
    destruct (heap_insert P hp a) as [hp1 id| |] eqn:HI; try discriminate.
    destruct (idx_insert P (name_hash (aname a), id) ix) as [ix1|] eqn:II; [|discriminate].
    destruct (dense_insert name_hash P Hcap ix hp l a hp1 id ix1 R HI II) as [l1 [l2 [EL R1]]]. subst l.
    assert (NS : ~ In (aname a) (map aname (l1 ++ l2))).
    { intro HIn. apply S in HIn. apply existsb_bytes_in in HIn. congruence. }
    assert (S1 : forall m, In m (aname a :: seen) <-> In m (map aname (l1 ++ a :: l2))).
    { intro m. rewrite map_app. cbn [map In]. rewrite in_app_iff. cbn [In]. rewrite (S m), map_app, in_app_iff. tauto. }
    destruct (IH _ _ _ _ _ _ R1 S1 H) as [l' [R' [PM [ND' EA']]]].
    exists l'. split; [|split; [|split]].
    + exact R'.
    + eapply Permutation_trans; [exact PM|]. rewrite <- !app_assoc. apply Permutation_app_head. cbn [app].
      apply Permutation_middle.
    + intro ND. apply ND'. apply NoDup_names_insert; assumption.
    + intro E. apply EA'. apply EncAll_app in E. destruct E as [E1 E2]. apply EncAll_app. split; [exact E1|].
      apply EncAll_cons. split; [eexists; exact EA | exact E2].
Qed.

Lemma transition_post : forall attrs n v st' r,
  NoDup (map aname attrs) -> EncAll attrs ->
  transition name_hash P attrs (mkAttr n v) = (st', r) -> st' <> Broken ->
  post attrs (OWrite n (Some v)) st' r.
Proof.
  intros attrs n v st' r ND EA H NB. unfold transition in H.
  assert (SAME : post attrs (OWrite n (Some v)) (Compact attrs) RErr).
  { apply post_same; try assumption; [reflexivity | cbn; tauto]. }
  destruct (daw_add_all name_hash P [] [] heap_empty (attrs ++ [mkAttr n v])) as [ix hp| |] eqn:D.
  - destruct (p_limit P <? p_base P + (4 + p_info P)); inversion H; subst; [exact SAME|].
    destruct (daw_ok _ _ _ _ [] _ _ (dense_rep_empty name_hash P Hcap) (fun m => conj (fun x => x) (fun x => x)) D)
      as [l' [R' [PM [ND' EA']]]]. cbn [app] in PM.
    assert (NDall : NoDup (map aname l')) by (apply ND'; constructor).
    assert (NDs : NoDup (map aname (attrs ++ [mkAttr n v]))).
    { eapply Permutation_NoDup; [apply Permutation_map; exact PM | exact NDall]. }
    assert (NI : ~ In n (map aname attrs)).
    { rewrite map_app in NDs. cbn [map aname] in NDs. apply NoDup_remove_2 in NDs. rewrite app_nil_r in NDs. exact NDs. }
    exists l'. split; [exact R'|]. repeat split.
    + exact NDall.
    + apply EA'. intros x [].
    + intros y HI. eapply Permutation_in in HI; [|apply Permutation_map; exact PM].
      rewrite map_app in HI. cbn [map aname] in HI. apply in_app_or in HI. cbn [op_name].
      destruct HI as [HI|[HI|[]]]; [right; exact HI | left; exact HI].
    + intro m. rewrite (attr_get_perm l' (attrs ++ [mkAttr n v]) m NDall PM).
      rewrite (attr_get_insert attrs [] (mkAttr n v) m) by (rewrite app_nil_r; exact NI). rewrite app_nil_r. reflexivity.
  - inversion H; subst. exact SAME.
  - destruct (p_ovf_err P); [inversion H; subst; exact SAME|].
    destruct (p_limit P <? p_base P + (4 + p_info P)); inversion H; subst; [exact SAME | congruence].
Qed.

Lemma write_compact_post : forall attrs n v st' r,
  NoDup (map aname attrs) -> EncAll attrs ->
  write_compact name_hash P attrs (mkAttr n v) = (st', r) -> st' <> Broken ->
  post attrs (OWrite n (Some v)) st' r.
Proof.
  intros attrs n v st' r ND EA H NB. unfold write_compact in H.
  destruct (encode_attr (mkAttr n v)) as [sz|] eqn:EN.
  - cbn [aname] in H. pose proof (replace_name_spec n (mkAttr n v) attrs) as RN.
    destruct (replace_name n (mkAttr n v) attrs) as [attrs'|].
    + destruct (p_limit P <? hdr_size P attrs'); inversion H; subst.
      * apply post_same; try assumption; [reflexivity | cbn; tauto].
      * destruct RN as (l1 & x & l2 & -> & E2 & _ & ->). exists (l1 ++ mkAttr n v :: l2).
        split; [reflexivity | apply replace_ok; try assumption; eexists; exact EN].
    + destruct (p_limit P <? hdr_size P attrs + (4 + sz)).
      * eapply transition_post; eassumption.
      * inversion H; subst. exists (attrs ++ [mkAttr n v]). split; [reflexivity|].
        rewrite <- (app_nil_r attrs) at 1. apply insert_ok; rewrite ?app_nil_r; try assumption. eexists; exact EN.
  - inversion H; subst. apply post_same; try assumption; [reflexivity | cbn; tauto].
Qed.

Lemma write_dense_post : forall ix hp l n v st' r,
  dense_rep ix hp l -> NoDup (map aname l) -> EncAll l ->
  (forall m, In m (map aname l) -> name_hash m = name_hash n -> m = n) ->
  write_dense name_hash P ix hp (mkAttr n v) = (st', r) -> st' <> Broken ->
  post l (OWrite n (Some v)) st' r.
Proof.
  intros ix hp l n v st' r R ND EA Inj H NB. unfold write_dense in H.
  assert (SAME : post l (OWrite n (Some v)) (Dense ix hp) RErr).
  { apply post_same; try assumption; cbn; tauto. }
  destruct (encode_attr (mkAttr n v)) as [sz|] eqn:EN.
  2:{ inversion H; subst. exact SAME. }
  cbn [aname] in H. destruct R as [F [N1 [N2 W]]].
  pose proof (search_split name_hash hp ix l n F Inj) as SS.
  destruct (idx_search (name_hash n) ix) as [id|] eqn:SE.
  - destruct SS as [ix1 [ix2 [l1 [l2 [a [E1 [E2 [E3 [F1 [F2 [G NI]]]]]]]]]]]. subst ix l. rewrite G in H.
    assert (HN : name_hash n = name_hash (aname a)) by congruence.
    rewrite HN in N1, N2.
    pose proof (replace_ok l1 a l2 n v ND EA E3 (ex_intro _ sz EN)) as OK.
    destruct (sz =? snd id).
    + destruct (heap_overwrite_ok P hp id (mkAttr n v) a W G) as [hp' [OV _]]. rewrite OV in H. inversion H; subst st' r.
      exists (l1 ++ mkAttr n v :: l2). split; [|exact OK].
      cbn [Rep]. rewrite HN.
      eapply (dense_overwrite name_hash P ix1 ix2 l1 l2 id a (mkAttr n v) hp hp'); try eassumption. cbn [aname]. congruence.
    + destruct (heap_delete_ok P hp id a W G) as [hp1 [DL _]]. rewrite DL in H.
      destruct (heap_insert P hp1 (mkAttr n v)) as [hp2 id2| |] eqn:HI.
      * rewrite HN in H. rewrite (idx_update_split (name_hash (aname a)) id id2 ix1 ix2) in H by (rewrite <- HN; exact NI).
        inversion H; subst st' r.
        exists (l1 ++ mkAttr n v :: l2). split; [|exact OK].
        cbn [Rep].
        eapply (dense_update name_hash P Hcap ix1 ix2 l1 l2 id a (mkAttr n v) hp hp1 hp2 id2); try eassumption. cbn [aname]. congruence.
      * inversion H; subst. exact SAME.
      * destruct (p_ovf_err P); inversion H; subst; [exact SAME | congruence].
  - destruct (heap_insert P hp (mkAttr n v)) as [hp' id| |] eqn:HI.
    + destruct (idx_insert P (name_hash n, id) ix) as [ix'|] eqn:II.
      * inversion H; subst st' r.
        destruct (dense_insert name_hash P Hcap ix hp l (mkAttr n v) hp' id ix' (conj F (conj N1 (conj N2 W))) HI II) as [l1 [l2 [EL R']]].
        subst l. exists (l1 ++ mkAttr n v :: l2). split; [exact R'|]. apply insert_ok; try assumption. eexists; exact EN.
      * inversion H; subst. exact SAME.
    + inversion H; subst. exact SAME.
    + destruct (p_ovf_err P); inversion H; subst; [exact SAME | congruence].
Qed.

Lemma delete_post : forall st l n st' r,
  Rep st l -> NoDup (map aname l) -> EncAll l ->
  (forall m, In m (map aname l) -> name_hash m = name_hash n -> m = n) ->
  delete_attr name_hash st n = (st', r) ->
  post l (ODelete n) st' r.
Proof.
  intros st l n st' r R ND EA Inj H. destruct st as [attrs|ix hp|]; cbn [Rep delete_attr] in *; [subst l| |destruct R].
  - pose proof (remove_name_spec n attrs) as RM. destruct (remove_name n attrs) as [attrs'|]; inversion H; subst.
    + destruct RM as (l1 & x & l2 & -> & <- & _ & ->). exists (l1 ++ l2). split; [reflexivity | apply remove_ok; assumption].
    + apply post_same; try assumption; [reflexivity|]. cbn [eff]. split; [reflexivity|].
      apply attr_get_none_iff. exact RM.
  - assert (SAME : attr_get l n = None -> post l (ODelete n) (Dense ix hp) RErr).
    { intro G. apply post_same; try assumption. cbn [eff]. tauto. }
    destruct n as [|b t] eqn:En.
    + inversion H; subst. apply SAME. apply attr_get_none_iff. apply EncAll_nonempty. exact EA.
    + rewrite <- En in *. clear En. destruct R as [F [N1 [N2 W]]].
      pose proof (search_split name_hash hp ix l n F Inj) as SS.
      destruct (idx_search (name_hash n) ix) as [id|] eqn:SE.
      * destruct SS as [ix1 [ix2 [l1 [l2 [a [E1 [E2 [E3 [F1 [F2 [G NI]]]]]]]]]]]. subst ix l.
        rewrite (idx_delete_split (name_hash n) id ix1 ix2 NI) in H.
        destruct (heap_delete_ok P hp id a W G) as [hp' [DL _]]. rewrite DL in H. inversion H; subst st' r.
        exists (l1 ++ l2). subst n. split; [|apply remove_ok; assumption].
        cbn [Rep].
        eapply (dense_delete name_hash P ix1 ix2 l1 l2 id a hp hp'); eassumption.
      * inversion H; subst. apply SAME. apply attr_get_none_iff. exact SS.
Qed.

Lemma step_post : forall st l o st' r,
  Rep st l -> NoDup (map aname l) -> EncAll l ->
  (forall m, In m (map aname l) -> name_hash m = name_hash (op_name o) -> m = op_name o) ->
  step name_hash P st o = (st', r) -> st' <> Broken ->
  post l o st' r.
Proof.
  intros st l o st' r R ND EA Inj H NB. destruct o as [n [v|]|n]; cbn [step write_attr op_name] in *.
  - destruct st as [attrs|ix hp|]; cbn [Rep] in R; [subst l| |destruct R].
    + destruct (N.of_nat (List.length attrs) <? p_maxc P).
      * eapply write_compact_post; eassumption.
      * eapply transition_post; eassumption.
    + eapply write_dense_post; eassumption.
  - inversion H; subst. apply post_same; try assumption. cbn [eff]. tauto.
  - eapply delete_post; eassumption.
Qed.

End Step.
