(* C07: the flat message decoders never panic (superblock, dataspace, data layout, symbol table,
   link, link info, attribute info).  All statements are for every byte string and every parameter. *)
From HV Require Import Base.Prelude Base.Outcome Base.Bytes.
From HV Require Import Model.CodecSuper Model.CodecMsg Model.CodecLink.
From HV Require Import Proofs.RobustNoPanicBase.

(* readUint64 clamps the size to the data it is given *)
Lemma read_uint_np data size bigendian : np (read_uint data size bigendian).
Proof.
  unfold read_uint. cbv zeta.
  set (sz := if blen data <? size then blen data else size).
  assert (Hsz : sz <= blen data) by (subst sz; destruct (blen data <? size) eqn:E; blia).
  clearbody sz. np_go.
Qed.
#[export] Hint Resolve read_uint_np : np.

(* the extent loop checks the remaining length before every read *)
Lemma read_dims_np n : forall data dimSize offset, np (read_dims data dimSize n offset).
Proof. induction n as [|n IH]; intros; cbn [read_dims]; np_go. Qed.
#[export] Hint Resolve read_dims_np : np.

Lemma dec_symtab_np bigendian data : np (dec_symtab bigendian data).
Proof. unfold dec_symtab. np_go. Qed.

Lemma read_value_np buf offset size bigendian : np (read_value buf offset size bigendian).
Proof. unfold read_value. np_go. Qed.
#[export] Hint Resolve read_value_np : np.

Lemma superblock_buf_len (file : list N) :
  blen (firstn 128 file ++ zeros (N.to_nat (128 - N.min (blen file) 128))) = 128.
Proof. unfold blen. rewrite app_length, firstn_length, length_zeros. blia. Qed.

(* both variants of the superblock sizes switch *)
Lemma dec_superblock_gen_np rep file : np (dec_superblock_gen rep file).
Proof.
  unfold dec_superblock_gen. cbv zeta.
  pose proof (superblock_buf_len file) as Hb. bnorm.
  set (buf := firstn 128 file ++ _) in *. clearbody buf.
  destruct rep; np_go.
Qed.

Lemma dec_superblock_np file : np (dec_superblock file).
Proof. apply dec_superblock_gen_np. Qed.

Lemma dec_dataspace_np data : np (dec_dataspace data).
Proof. unfold dec_dataspace. np_go. Qed.
#[export] Hint Resolve dec_dataspace_np : np.

Lemma dec_layout_np sb data : np (dec_layout sb data).
Proof. unfold dec_layout. np_go. Qed.

Lemma dec_linkinfo_np sb data : np (dec_linkinfo sb data).
Proof. unfold dec_linkinfo. np_go. Qed.

Lemma read_addr_np data offset os : offset + os <= blen data -> np (read_addr data offset os).
Proof. intros H. unfold read_addr. np_go. Qed.

Lemma dec_attrinfo_np sb data : np (dec_attrinfo sb data).
Proof. unfold dec_attrinfo. np_go; apply read_addr_np; np_side. Qed.

Lemma dec_link_header_np data : np (dec_link_header data).
Proof. unfold dec_link_header. np_go. Qed.

Lemma dec_link_namelen_np data offset flags : np (dec_link_namelen data offset flags).
Proof. unfold dec_link_namelen. np_go. Qed.

Lemma dec_link_name_np data offset nameLength : np (dec_link_name data offset nameLength).
Proof. unfold dec_link_name. np_go. Qed.

Lemma dec_link_value_np offsize data offset ty : np (dec_link_value offsize data offset ty).
Proof. unfold dec_link_value. np_go. Qed.
#[export] Hint Resolve dec_link_header_np dec_link_namelen_np dec_link_name_np dec_link_value_np : np.

Lemma dec_link_np offsize data : np (dec_link offsize data).
Proof. unfold dec_link. np_go. Qed.

Lemma read_uint_no_panic : forall data size bigendian, read_uint data size bigendian <> Panic.
Proof. exact read_uint_np. Qed.
Lemma read_dims_no_panic : forall data dimSize n offset, read_dims data dimSize n offset <> Panic.
Proof. intros. apply read_dims_np. Qed.
