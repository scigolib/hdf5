(* C01 end to end, superblock version 0: the root object header of image_v0 is a VERSION 1 header; p_ohdr at 96 returns its one
   symbol table message (B-tree 136, heap 1480), on every file that holds its 40 bytes there. *)
From HV Require Import Base.Prelude Base.Outcome Base.Bytes Model.IOProg Proofs.IOProg Model.IOProgReader.
From HV Require Import Model.CodecSuper Model.CodecOhdr Model.CodecMsg Model.CodecType Model.CodecLink Model.GroupWire.
From HV Require Import Proofs.CodecSuper Proofs.CodecOhdr.
From HV Require Import Model.FileImage Proofs.FileImage Proofs.FileImageOhdr Proofs.FileImageData Proofs.FileImageGroup.
From HV Require Import Model.FileImageV0 Proofs.FileImageV0.

(* evaluate a closed pure decoding step *)
Ltac eval_lift :=
  match goal with |- context [lift ?e] => let v := eval vm_compute in e in change e with v end.

Definition root0_msgs : list hmsg' := [ {| hmp_type := 17; hmp_offset := 112; hmp_data := root0_mdata |} ].

Section Root.
Variable f : bytes.
Hypothesis HP : placed f 96 (root0_prefix ++ root0_mhdr ++ root0_mdata).

Lemma P0_root_prefix : placed f 96 root0_prefix.
Proof. exact (placed_head _ _ _ _ HP). Qed.
Lemma P0_root_mhdr : placed f 112 root0_mhdr.
Proof. exact (placed_sub f 96 root0_prefix root0_mhdr root0_mdata HP). Qed.
Lemma P0_root_mdata : placed f 120 root0_mdata.
Proof.
  pose proof HP as H. rewrite app_assoc in H. apply placed_tail in H. exact H.
Qed.

Lemma v1_block_end fuel : run0 f (p_v1_block SB0' (S fuel) 136 136 1 1) = Ok [].
Proof. cbn [p_v1_block]. change (136 <? 136) with false. reflexivity. Qed.

Lemma v1_block_root fuel : run0 f (p_v1_block SB0' (S (S fuel)) 112 136 0 1) = Ok root0_msgs.
Proof.
  pose proof (v1_block_end fuel) as HE. set (fuel' := S fuel) in *. clearbody fuel'.
  cbn [p_v1_block].
  change (112 <? 136) with true. change (1 <=? 0) with false. change (136 <? wrap64 (112 + 8)) with false. cbv iota.
  rewrite (run0_read_exact _ f 112 root0_mhdr 8 _ P0_root_mhdr eq_refl).
  cbn [spp_bigendian SB0']. eval_lift. cbn [lift bind fst snd].
  change (16 =? 0) with false. change (136 <? wrap64 (112 + 8 + 16)) with false. cbv iota.
  change (wrap64 (112 + 8)) with 120.
  rewrite (run0_read_exact _ f 120 root0_mdata 16 _ P0_root_mdata eq_refl).
  change (wrap64 (112 + pad_to8 (8 + 16))) with 136. change (wrap16 (0 + 1)) with 1.
  rewrite run0_bind, HE. reflexivity.
Qed.

Lemma v1_header_root fuel : run0 f (p_v1_header SB0' (S (S fuel)) 96) = Ok (root0_msgs, [], 1).
Proof.
  unfold p_v1_header.
  rewrite (run0_read_exact _ f 96 root0_prefix 16 _ P0_root_prefix eq_refl).
  cbn [spp_bigendian SB0'].
  change (index root0_prefix 0) with (@Ok N 1). cbn [lift bind]. change (1 =? 1) with true. cbn [negb]. cbv iota.
  eval_lift. cbn [lift bind fst snd].
  change (wrap64 (96 + 16)) with 112. change (wrap64 (96 + 16 + 24)) with 136.
  rewrite run0_bind, v1_block_root.
  change (find_conts SB0' root0_msgs) with (@nil (N * N)). change (name_v1 root0_msgs) with (@nil N).
  cbn [p_v1_conts]. reflexivity.
Qed.

Definition root0_hdr : ohdr' :=
  {| ohp_version := 1; ohp_flags := 0; ohp_refcount := 1; ohp_name := []; ohp_msgs := root0_msgs |}.

Theorem root0_header_gen fuel : run0 f (p_ohdr SB0' (S (S fuel)) 96) = Ok root0_hdr.
Proof.
  unfold p_ohdr. change (9223372036854775808 <=? 96) with false. cbv iota.
  rewrite (run0_read_placed0 _ f 96 root0_prefix 8 _ P0_root_prefix) by (change (blen root0_prefix) with 16; blia).
  change (rd root0_prefix 0 8) with [1; 0; 1; 0; 1; 0; 0; 0]. cbv beta zeta.
  change (bytes_eqb (firstn 4 [1; 0; 1; 0; 1; 0; 0; 0]) OHDR) with false.
  change (bytes_eqb (rev (firstn 4 [1; 0; 1; 0; 1; 0; 0; 0])) OHDR) with false. cbv iota.
  eval_lift. cbn [lift bind fst snd]. change ((1 =? 1) && (0 =? 0)) with true. cbv iota.
  rewrite run0_bind, v1_header_root. reflexivity.
Qed.
End Root.

Section Image.
Variable name : bytes.
Variables class size cbf : N.
Variable dims : list N.
Variable data : bytes.
Hypothesis Hname : link_name_ok name = true.

Local Notation f := (image_v0 name class size cbf dims data).

Theorem root0_header fuel : (1 < fuel)%nat -> run0 f (p_ohdr SB0' fuel 96) = Ok root0_hdr.
Proof.
  intros Hf. destruct fuel as [|[|n]]; try blia. apply root0_header_gen.
  rewrite <- root0_block_bytes. exact (P0_root name class size cbf dims data Hname).
Qed.
Lemma P0_root_sig : placed f 96 [1; 0; 1; 0].
Proof.
  pose proof (P0_root name class size cbf dims data Hname) as H. rewrite root0_block_bytes in H.
  change root0_prefix with ([1; 0; 1; 0] ++ [1; 0; 0; 0; 24; 0; 0; 0; 0; 0; 0; 0]) in H.
  rewrite <- !app_assoc in H. apply placed_head in H. exact H.
Qed.
End Image.
