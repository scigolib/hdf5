(* C02 at byte level, dense storage: the statements of Props/C02FileDense.v - the composition (stated with the mathematical product
   of the extents), the listing order, the value kinds of WriteAttribute, the file length, and a witness that the hypotheses are
   satisfiable with the transition to dense storage taken. *)
From HV Require Import Base.Prelude Base.Outcome Base.Bytes Model.IOProg Proofs.IOProg Model.IOProgReader Model.IOProgOpen.
From HV Require Import Model.CodecSuper Model.CodecOhdr Model.CodecMsg Model.CodecType Model.CodecLink Model.GroupWire Model.CodecAttr.
From HV Require Import Model.FileImage Model.FileImageAttr Model.FileImageDense Proofs.FileImage Proofs.FileImageData
  Proofs.FileImageProd Proofs.FileImageMain Proofs.FileImageAttrKinds Proofs.FileImageDenseRead Proofs.FileImageDense.
From Coq Require Import Sorting.Permutation Sorting.Sorted.

Lemma dset_det4_dense m3 m1 m8 m21 o3 o1 o8 o21 :
  det_type [ {| hmp_type := 3; hmp_offset := o3; hmp_data := m3 |}; {| hmp_type := 1; hmp_offset := o1; hmp_data := m1 |};
             {| hmp_type := 8; hmp_offset := o8; hmp_data := m8 |}; {| hmp_type := 21; hmp_offset := o21; hmp_data := m21 |} ] = 1.
Proof. reflexivity. Qed.

Section Image.
Variable name : bytes.
Variables class size cbf : N.
Variable dims : list N.
Variable data : bytes.
Variable attrs : list dattr.
Hypothesis Hname : link_name_ok name = true.
Hypothesis Hdt : basic_dtype class size cbf = true.
Hypothesis Hdims : dims_ok dims = true.
Hypothesis Hlen : blen data = total_elems dims * size.
Hypothesis Hbound : blen data < 4294967296.
Hypothesis Hwf : Forall (fun a => wf_attribute (dattr_msg a) = true) attrs.
Hypothesis Hdense : dense_fits class size cbf dims data = true.
Hypothesis Hheap : heap_fits attrs = true.
Hypothesis Hleaf : leaf_fits attrs = true.

Local Notation f := (image_v2_dense name class size cbf dims data attrs).
Local Notation da := (dset_addr data).
Local Notation dho := (dense_ohdr class size cbf dims data).

Lemma attrs_of_header :
  run0 f (p_attrs SB' (ohp_msgs (proj_ohdr_v2 false dho da))) = Ok (map listed (dense_order attrs)).
Proof using Hname Hdt Hdims Hlen Hbound Hwf Hdense Hheap Hleaf.
  exact (attrs_run name class size cbf dims data attrs Hname Hdt Hdims Hlen Hbound Hwf Hdense Hheap Hleaf).
Qed.
End Image.

Lemma file_dense_roundtrip_stmt : forall name class size cbf dims data attrs fuel hfuel,
  link_name_ok name = true -> basic_dtype class size cbf = true -> dims_ok dims = true ->
  blen data = product dims * size -> blen data < 4294967296 ->
  Forall (fun a => wf_attribute (dattr_msg a) = true) attrs ->
  dense_fits class size cbf dims data = true -> heap_fits attrs = true -> leaf_fits attrs = true ->
  (3 <= fuel)%nat -> (4 < hfuel)%nat ->
  let f := image_v2_dense name class size cbf dims data attrs in
  run0 f (api_attributes SB' hfuel (dset_addr data)) = Ok (map listed (dense_order attrs)) /\
  Permutation (dense_order attrs) attrs /\
  StronglySorted N.le (dattr_hashes (dense_order attrs)) /\
  (exists h, run0 f (p_ohdr SB' hfuel (dset_addr data)) = Ok h /\
             (d <- match find_msg 3 (ohp_msgs h) with Some b => dec_datatype b | None => Err end;;
              s <- match find_msg 1 (ohp_msgs h) with Some b => dec_dataspace b | None => Err end;;
              Ok (dt_class d, dt_size d, dt_cbf d, dsp_dims s)) = Ok (class, size, cbf, dims)) /\
  run0 f (api_read_raw SB' hfuel (dset_addr data)) = Ok (RawBytes data) /\
  run0 f p_superblock = Ok SB' /\
  run0 f (p_open true (blen f) fuel hfuel) = Ok (Grp [47] ROOT_ADDR [Dset name (dset_addr data)]).
Proof.
  intros name class size cbf dims data attrs fuel hfuel Hname Hdt Hdims Hlen Hbound Hwf Hdense Hheap Hleaf Hf Hh f.
  pose proof (Hlen' class size cbf dims data Hdt Hdims Hlen Hbound) as HL.
  pose proof (Hpos' class size cbf dims data Hdt Hdims Hlen) as HP.
  repeat split.
  - exact (dataset_attributes_dense name class size cbf dims data attrs Hname Hdt Hdims HL Hbound Hwf Hdense Hheap Hleaf hfuel Hh).
  - apply dense_order_perm.
  - apply dense_order_sorted.
  - exact (dataset_type_shape_dense name class size cbf dims data attrs Hname Hdt Hdims Hbound Hdense hfuel Hh).
  - exact (dataset_read_dense name class size cbf dims data attrs Hname Hdt Hdims HL Hbound Hwf Hdense Hheap Hleaf hfuel HP Hh).
  - exact (superblock_stage_dense name class size cbf dims data attrs Hname Hbound).
  - destruct fuel as [|[|[|n]]]; try blia.
    exact (open_image_dense name class size cbf dims data attrs Hname Hdt Hdims HL Hbound Hwf Hdense Hheap Hleaf n hfuel Hh).
Qed.

Lemma sorted_le_nodup_lt : forall l : list N, StronglySorted N.le l -> NoDup l -> StronglySorted N.lt l.
Proof.
  induction l as [|x r IH]; intros HS HN; [constructor|].
  inversion HS as [|? ? HS' HF]; subst. inversion HN as [|? ? Hx HN']; subst.
  constructor; [now apply IH|]. rewrite Forall_forall in *. intros y Hy. specialize (HF y Hy).
  assert (x <> y) by (intros ->; contradiction). blia.
Qed.
(* with pairwise distinct name hashes (the class in which the writer accepts every attribute) the listing order is STRICTLY ascending
   in the name hash, hence determined by the set of attributes: it does not depend on the order of the WriteAttribute calls *)
Lemma dense_order_strict attrs : NoDup (dattr_hashes attrs) -> StronglySorted N.lt (dattr_hashes (dense_order attrs)).
Proof.
  intros HN. apply sorted_le_nodup_lt; [apply dense_order_sorted|].
  apply (Permutation_NoDup (l := dattr_hashes attrs)); [|exact HN].
  unfold dattr_hashes. apply Permutation_map. symmetry. apply dense_order_perm.
Qed.
Lemma sorted_lt_perm_eq : forall l1 l2 : list N, StronglySorted N.lt l1 -> StronglySorted N.lt l2 -> Permutation l1 l2 -> l1 = l2.
Proof.
  induction l1 as [|x r IH]; intros l2 H1 H2 HP.
  - apply Permutation_nil in HP. now subst.
  - destruct l2 as [|y s]; [apply Permutation_sym, Permutation_nil in HP; discriminate|].
    inversion H1 as [|? ? H1' F1]; subst. inversion H2 as [|? ? H2' F2]; subst. rewrite Forall_forall in F1, F2.
    assert (x = y).
    { assert (Hx : In x (y :: s)) by (apply (Permutation_in _ HP); now left).
      assert (Hy : In y (x :: r)) by (apply (Permutation_in _ (Permutation_sym HP)); now left).
      destruct Hx as [->|Hx]; [reflexivity|]. destruct Hy as [->|Hy]; [reflexivity|].
      specialize (F1 y Hy). specialize (F2 x Hx). blia. }
    subst y. f_equal. apply IH; auto. now apply Permutation_cons_inv in HP.
Qed.
Lemma dense_order_write_order attrs attrs' : NoDup (dattr_hashes attrs) -> Permutation attrs attrs' ->
  dattr_hashes (dense_order attrs) = dattr_hashes (dense_order attrs').
Proof.
  intros HN HP.
  assert (HN' : NoDup (dattr_hashes attrs')).
  { apply (Permutation_NoDup (l := dattr_hashes attrs)); [|exact HN]. unfold dattr_hashes. now apply Permutation_map. }
  apply sorted_lt_perm_eq; try (apply dense_order_strict; assumption).
  unfold dattr_hashes. apply Permutation_map.
  etransitivity; [apply dense_order_perm|]. etransitivity; [exact HP|]. symmetry. apply dense_order_perm.
Qed.

(* the value kinds of WriteAttribute (Model/FileImageAttr.v attr_of_kind) give well-formed attribute messages: the hypothesis on
   the attribute list holds for every list of such attributes *)
Definition dattr_of_kind (a : bytes * N * bytes) : dattr :=
  let '(aname, k, raw) := a in let '(adt, adims, adata) := attr_of_kind k raw in (aname, adt, adims, adata).
Definition kind_ok (a : bytes * N * bytes) : bool :=
  let '(aname, k, raw) := a in attr_name_ok aname && (blen aname <? 65535) && attr_kind_raw_ok k raw && (blen raw <? MaxAttributeSize).
Lemma dense_kinds_wf l : forallb kind_ok l = true -> Forall (fun a => wf_attribute (dattr_msg a) = true) (map dattr_of_kind l).
Proof.
  intros H. rewrite forallb_forall in H. apply Forall_forall. intros a Ha. apply in_map_iff in Ha as (x & <- & Hx).
  specialize (H x Hx). destruct x as [[aname k] raw]. unfold kind_ok in H.
  apply andb_true_iff in H as [H H4]. apply andb_true_iff in H as [H H3]. apply andb_true_iff in H as [H1 H2].
  apply N.ltb_lt in H2, H4. pose proof (attr_kinds_wf aname k raw H1 H2 H3 H4) as W.
  unfold dattr_of_kind. destruct (attr_of_kind k raw) as [[adt adims] adata]. exact W.
Qed.

(* the file ends behind the B-tree v2 header: 146 + 65536 + 4096 + 38 bytes were allocated by the transition, nothing later *)
Lemma image_dense_len_stmt : forall name class size cbf dims data attrs,
  link_name_ok name = true -> basic_dtype class size cbf = true -> dims_ok dims = true ->
  blen data = total_elems dims * size -> blen data < 4294967296 ->
  dense_fits class size cbf dims data = true -> heap_fits attrs = true -> leaf_fits attrs = true ->
  blen (image_v2_dense name class size cbf dims data attrs) = eof_addr data + 146 + 65536 + 4096 + 38.
Proof.
  intros. rewrite image_dense_len by assumption.
  unfold eof_dense, BTH_ADDR, LEAF_ADDR, DB_ADDR, FH_ADDR, MF.HDR_SIZE, HEAP_BLOCK, BT2_NODE. blia.
Qed.

(* the hypotheses are satisfiable and the transition is taken: "/d" = uint8 [1,2,3] with nine int32 attributes a0 .. a8 = 100 .. 108 *)
Definition ex_attrs : list dattr :=
  map (fun i => dattr_of_kind ([97; 48 + i], 2, [100 + i; 0; 0; 0])) [0; 1; 2; 3; 4; 5; 6; 7; 8].
Lemma file_dense_roundtrip_witness :
  link_name_ok [100] = true /\ basic_dtype DT_FIXED 1 0 = true /\ dims_ok [3] = true /\
  blen [1; 2; 3] = product [3] * 1 /\ blen [1; 2; 3] < 4294967296 /\
  Forall (fun a => wf_attribute (dattr_msg a) = true) ex_attrs /\
  dense_fits DT_FIXED 1 0 [3] [1; 2; 3] = true /\ heap_fits ex_attrs = true /\ leaf_fits ex_attrs = true /\
  dense_taken DT_FIXED 1 0 [3] ex_attrs = true /\ n_compact DT_FIXED 1 0 [3] ex_attrs = 4%nat /\
  NoDup (dattr_names ex_attrs) /\ NoDup (dattr_hashes ex_attrs).
Proof.
  split; [reflexivity|]. split; [reflexivity|]. split; [reflexivity|]. split; [reflexivity|].
  split; [reflexivity|].
  split; [apply (dense_kinds_wf (map (fun i => ([97; 48 + i], 2, [100 + i; 0; 0; 0])) [0; 1; 2; 3; 4; 5; 6; 7; 8])); vm_compute; reflexivity|].
  split; [vm_compute; reflexivity|]. split; [vm_compute; reflexivity|]. split; [vm_compute; reflexivity|].
  split; [vm_compute; reflexivity|]. split; [vm_compute; reflexivity|].
  split.
  - apply (NoDup_map_inv (fun n => nth 1 n 0)).
    assert (E : map (fun n : list N => nth 1 n 0) (dattr_names ex_attrs) = [48; 49; 50; 51; 52; 53; 54; 55; 56]) by (vm_compute; reflexivity).
    rewrite E. repeat (constructor; [cbn [In]; intuition discriminate|]). constructor.
  - remember (dattr_hashes ex_attrs) as l eqn:El. vm_compute in El. subst l.
    repeat (constructor; [cbn [In]; intuition discriminate|]). constructor.
Qed.

Lemma dense_order_stmt : forall attrs, NoDup (dattr_hashes attrs) ->
  StronglySorted N.lt (dattr_hashes (dense_order attrs)) /\
  forall attrs', Permutation attrs attrs' -> dattr_hashes (dense_order attrs) = dattr_hashes (dense_order attrs').
Proof.
  intros attrs H. split; [exact (dense_order_strict attrs H)|]. intros attrs' P. exact (dense_order_write_order attrs attrs' H P).
Qed.
