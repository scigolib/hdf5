(* C09: the (repaired) selection validation accepts exactly the valid selections. *)
From HV Require Import Base.Prelude Base.Bytes Model.Hyperslab Proofs.HyperslabBase.

Definition okb (r : vres) : bool := match r with Ok => true | Err => false end.

Lemma okb_ok r : r = Ok <-> okb r = true.
Proof. destruct r; cbn [okb]; intuition congruence. Qed.

Lemma safe_multiply_eq a b :
  safe_multiply a b = if a * b <? 18446744073709551616 then Some (a * b) else None.
Proof.
  unfold safe_multiply, u64max.
  destruct (N.ltb_spec (a * b) 18446744073709551616) as [H|H].
  - rewrite wrap64_small by assumption.
    destruct (N.eqb_spec a 0); [reflexivity|]. destruct (N.eqb_spec b 0); [reflexivity|]. cbn [orb].
    destruct (N.ltb_spec (18446744073709551615 / b) a); [|reflexivity].
    assert (a <= 18446744073709551615 / b) by (apply N.div_le_lower_bound; lia). lia.
  - destruct (N.eqb_spec a 0); [subst; lia|]. destruct (N.eqb_spec b 0); [subst; lia|]. cbn [orb].
    destruct (N.ltb_spec (18446744073709551615 / b) a); [reflexivity|].
    pose proof (N.mul_div_le 18446744073709551615 b ltac:(assumption)). nia.
Qed.

(* Each per-dimension check as the boolean the I/O program computes (Model/IOProgSlice.v), then as a proposition. *)
Lemma vhb_dim_eq s c st d : u64 c -> u64 d ->
  okb (vhb_dim true s c st d)
  = negb (c =? 0) && ((c - 1) * st <? 18446744073709551616) && negb ((d <=? s) || (d - s <=? (c - 1) * st)).
Proof.
  unfold vhb_dim, u64, u64max. intros Hc Hd.
  destruct (N.eqb_spec c 0); [reflexivity|]. rewrite sub64_small, safe_multiply_eq by lia.
  destruct ((c - 1) * st <? 18446744073709551616); [|reflexivity].
  destruct (N.leb_spec d s); [reflexivity|]. rewrite sub64_small by lia.
  destruct (d - s <=? (c - 1) * st); reflexivity.
Qed.

Lemma vdb_dim_eq a d : u64 (a_count a) -> u64 d ->
  okb (vdb_dim true a d)
  = let lbs := wrap64 (a_start a + wrap64 ((a_count a - 1) * a_stride a)) in
    negb (a_count a =? 0) && negb (a_stride a =? 0) && negb (a_block a =? 0) &&
    negb ((d <=? lbs) || (d - lbs <? a_block a)).
Proof.
  unfold vdb_dim, u64, u64max. intros Hc Hd. cbv zeta.
  destruct (N.eqb_spec (a_count a) 0); [reflexivity|].
  destruct (a_stride a =? 0); [reflexivity|]. destruct (a_block a =? 0); [reflexivity|].
  rewrite (sub64_small (a_count a)) by lia.
  destruct (N.leb_spec d (wrap64 (a_start a + wrap64 ((a_count a - 1) * a_stride a)))); [reflexivity|].
  rewrite sub64_small by lia. destruct (_ <? a_block a); reflexivity.
Qed.

Lemma slice_dim_eq s c d : u64 d -> okb (slice_dim true s c d) = negb ((d <? c) || (d - c <? s)).
Proof.
  unfold slice_dim, u64, u64max. intros Hd.
  destruct (N.ltb_spec d c); [reflexivity|]. rewrite sub64_small by lia. destruct (d - c <? s); reflexivity.
Qed.

Lemma vhb_dim_ok s c st d :
  u64 c -> u64 d -> (vhb_dim true s c st d = Ok <-> 0 < c /\ s + (c - 1) * st < d).
Proof.
  intros Hc Hd. rewrite okb_ok, vhb_dim_eq by assumption. unfold u64, u64max in *.
  rewrite !andb_true_iff, !negb_true_iff, orb_false_iff, N.eqb_neq, N.ltb_lt, !N.leb_gt. lia.
Qed.

(* the bounds check has made sure that the last block starts inside the dimension *)
Lemma vdb_dim_ok a d :
  u64 (a_count a) -> u64 d -> a_start a + (a_count a - 1) * a_stride a < d ->
  (vdb_dim true a d = Ok <-> axis_valid a d).
Proof.
  intros Hc Hd Hlt. rewrite okb_ok, vdb_dim_eq by assumption. unfold u64, u64max, axis_valid in *. cbv zeta.
  rewrite (wrap64_small (_ * _)), wrap64_small by lia.
  rewrite !andb_true_iff, !negb_true_iff, orb_false_iff, !N.eqb_neq, N.leb_gt, N.ltb_ge. lia.
Qed.

Lemma slice_dim_ok s c d : u64 d -> (slice_dim true s c d = Ok <-> s + c <= d).
Proof.
  intros Hd. rewrite okb_ok, slice_dim_eq by assumption.
  rewrite negb_true_iff, orb_false_iff, !N.ltb_ge. lia.
Qed.

Lemma loops_ok : forall d s c st b,
  length s = length d -> length c = length d -> length st = length d -> length b = length d ->
  Forall u64 c -> Forall u64 d ->
  (vhb_loop true s c st d = Ok /\ vdb_loop true (zip4 s c st b) d = Ok <-> Forall2 axis_valid (zip4 s c st b) d).
Proof.
  induction d as [|d0 d IH]; intros [|s0 s] [|c0 c] [|st0 st] [|b0 b] Ls Lc Lst Lb Uc Ud;
    cbn [length] in *; try discriminate; cbn [zip4 vhb_loop vdb_loop].
  - split; [constructor|split; reflexivity].
  - inversion Uc; inversion Ud; subst.
    specialize (IH s c st b ltac:(lia) ltac:(lia) ltac:(lia) ltac:(lia) ltac:(assumption) ltac:(assumption)).
    pose proof (vhb_dim_ok s0 c0 st0 d0 ltac:(assumption) ltac:(assumption)) as Hh.
    pose proof (vdb_dim_ok (mkAxis s0 c0 st0 b0) d0 ltac:(assumption) ltac:(assumption)) as Hv.
    cbn [a_start a_count a_stride] in Hv.
    split.
    + destruct (vhb_dim true s0 c0 st0 d0); [|intros [? _]; discriminate].
      destruct (vdb_dim true _ d0); [|intros [_ ?]; discriminate].
      intros HL. constructor; [apply Hv; [apply Hh|]; reflexivity|apply IH, HL].
    + intros V. inversion V as [|? ? ? ? AV VR]; subst. apply IH in VR.
      assert (P : 0 < c0 /\ s0 + (c0 - 1) * st0 < d0).
      { destruct AV as (A1 & A2 & A3 & A4). cbn [a_start a_count a_stride a_block] in *. lia. }
      rewrite (proj2 Hh P), (proj2 (Hv (proj2 P)) AV). exact VR.
Qed.

Lemma ones_length n : length (ones n) = n.
Proof. apply repeat_length. Qed.

Lemma vsd_ok h n : validate_selection_dimensions h n = Ok <-> lens_ok h n.
Proof.
  unfold validate_selection_dimensions, lens_ok, stride_of, block_of.
  destruct (Nat.eqb_spec (length (h_start h)) n); cbn [negb]; [|split; [discriminate|tauto]].
  destruct (Nat.eqb_spec (length (h_count h)) n); cbn [negb]; [|split; [discriminate|tauto]].
  destruct (h_stride h) as [l|]; [destruct (Nat.eqb_spec (length l) n); cbn [negb]; [|split; [discriminate|tauto]]|];
  (destruct (h_block h) as [l'|]; [destruct (Nat.eqb_spec (length l') n); cbn [negb]; [|split; [discriminate|tauto]]|]);
  rewrite ?ones_length; tauto.
Qed.

Definition u64_sel (h : hsel) (n : nat) : Prop :=
  Forall u64 (h_start h) /\ Forall u64 (h_count h) /\ Forall u64 (stride_of h n) /\ Forall u64 (block_of h n).

Lemma validate_sound h dims :
  u64_sel h (length dims) -> Forall u64 dims -> validate h dims = Ok -> valid h dims.
Proof.
  unfold validate, validate_gen, valid. intros (U1 & U2 & U3 & U4) Ud.
  destruct (validate_selection_dimensions h (length dims)) eqn:E0; [|discriminate].
  apply vsd_ok in E0. destruct E0 as (L1 & L2 & L3 & L4).
  unfold validate_hyperslab_bounds. rewrite L1, L2, L3, !Nat.eqb_refl. cbn [andb negb].
  destruct (vhb_loop true _ _ _ _) eqn:E1; [|discriminate].
  destruct (calculate_hyperslab_elements _); [|discriminate].
  intros E2. split; [repeat split; assumption|].
  apply loops_ok; auto.
Qed.

Lemma che_loop_some : forall count total r, che_loop total count = Some r -> r = total * prodN count.
Proof.
  induction count as [|c cs IH]; intros total r H; cbn [che_loop prodN] in *.
  - injection H as <-. lia.
  - destruct (c =? 0); [discriminate|]. rewrite safe_multiply_eq in H.
    destruct (total * c <? 18446744073709551616); [|discriminate]. rewrite (IH _ _ H). lia.
Qed.

Lemma che_loop_ok count : Forall (fun c => 0 < c) count -> forall total,
  total * prodN count <= u64max -> che_loop total count = Some (total * prodN count).
Proof.
  induction 1 as [|c r Hc Hr IH]; intros total Hle; cbn [che_loop prodN] in *; [f_equal; lia|].
  pose proof (prodN_pos r Hr). unfold u64max in *.
  destruct (N.eqb_spec c 0); [lia|]. rewrite safe_multiply_eq.
  destruct (N.ltb_spec (total * c) 18446744073709551616); [|nia].
  rewrite IH by lia. f_equal. lia.
Qed.

Lemma validate_complete h dims :
  u64_sel h (length dims) -> Forall u64 dims -> dims <> [] ->
  prodN (h_count h) <= max_hyperslab_elements ->
  valid h dims -> validate h dims = Ok.
Proof.
  unfold validate, validate_gen, valid. intros (U1 & U2 & U3 & U4) Ud Hne Hlim (L & V).
  pose proof L as (L1 & L2 & L3 & L4).
  apply vsd_ok in L. rewrite L.
  unfold validate_hyperslab_bounds. rewrite L1, L2, L3, !Nat.eqb_refl. cbn [andb negb].
  destruct (proj2 (loops_ok dims (h_start h) (h_count h) (stride_of h (length dims)) (block_of h (length dims))
                            L1 L2 L3 L4 U2 Ud) V) as (E1 & E2).
  rewrite E1. unfold axes_of. rewrite E2.
  assert (Hpos : Forall (fun c => 0 < c) (h_count h)).
  { clear -V L1 L2 L3 L4. unfold axes_of in V.
    revert V L1 L2 L3 L4. generalize (h_start h) (h_count h) (stride_of h (length dims)) (block_of h (length dims)).
    induction dims as [|d0 d IH]; intros [|s0 s] [|c0 c] [|st0 st] [|b0 b] V Ls Lc Lst Lb;
      cbn [length] in *; try discriminate; [constructor|].
    cbn [zip4] in V. inversion V; subst. constructor; [apply H2|].
    eapply IH; try eassumption; lia. }
  unfold calculate_hyperslab_elements.
  destruct (h_count h) as [|c0 cr] eqn:EC.
  { destruct dims; [congruence|discriminate]. }
  rewrite che_loop_ok by (try assumption; unfold u64max, max_hyperslab_elements in *; lia).
  rewrite N.mul_1_l.
  pose proof (prodN_pos _ Hpos).
  destruct (N.eqb_spec (prodN (c0 :: cr)) 0); [lia|]. cbn [orb].
  destruct (N.ltb_spec max_hyperslab_elements (prodN (c0 :: cr))); [lia|reflexivity].
Qed.

Lemma slice_validate_ok start count dims :
  Forall u64 dims -> (slice_validate start count dims = Ok <-> slice_valid start count dims).
Proof.
  unfold slice_validate, slice_validate_gen, slice_valid. intros Ud.
  destruct (Nat.eqb_spec (length start) (length dims)) as [L1|]; cbn [negb]; [|split; [discriminate|tauto]].
  destruct (Nat.eqb_spec (length count) (length dims)) as [L2|]; cbn [negb]; [|split; [discriminate|tauto]].
  assert (slice_loop true start count dims = Ok <->
          Forall2 (fun sc d => fst sc + snd sc <= d) (combine start count) dims); [|tauto].
  revert start count L1 L2. induction Ud as [|d0 d Hd0 Hd IH]; intros [|s0 s] [|c0 c] L1 L2;
    cbn [length] in *; try discriminate; cbn [slice_loop combine].
  - split; [constructor|reflexivity].
  - pose proof (slice_dim_ok s0 c0 d0 Hd0) as D. destruct (slice_dim true s0 c0 d0).
    + rewrite IH by lia. split.
      * intros. constructor; [apply D; reflexivity|assumption].
      * intros V. inversion V; assumption.
    + split; [discriminate|]. intros V. inversion V; subst. cbn [fst snd] in *.
      apply D in H2. discriminate.
Qed.
