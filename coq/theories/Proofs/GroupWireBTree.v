(* C11 / C03: the group B-tree node (version 1 B-tree, node type 0) at byte level (Model/GroupWire.v): closed form and size of
   what BTreeNodeV1.WriteAt emits for at most 2k (key, child) pairs; the child-pointer pass of ReadGroupBTreeEntries
   (Model/RobustGroup.v gnode_read) on ANY file holding those bytes returns the children that are neither 0 nor the undefined
   address; on a file that also holds a symbol table node at the child address ReadGroupBTreeEntries returns the node's entries
   (the entry budget of 336a458 never fires on what the writer wrote). *)
From HV Require Import Base.Prelude Base.Outcome Base.Bytes Model.RobustAlloc Model.RobustGroup Model.GroupWire
  Proofs.GroupWireHeap Proofs.GroupWireSnod.

Local Open Scope N_scope.

Definition enc_pair (kc : N * N) : bytes := le 8 (fst kc) ++ le 8 (snd kc).
Definition bt_header (b : btnode) : bytes :=
  sigTREE ++ [btn_type b; btn_level b] ++ le 2 (btn_used b) ++ le 8 (btn_left b) ++ le 8 (btn_right b).
(* [kcs]: the (key, child) pairs; [k2] = 2k *)
Definition bt_bytes (b : btnode) (kcs : list (N * N)) (k2 : nat) : bytes :=
  bt_header b ++ flat_map enc_pair kcs ++ zeros (16 * (k2 - length kcs)) ++ zeros 8.

Definition pairs_of (b : btnode) (kcs : list (N * N)) : Prop :=
  btn_keys b = map fst kcs /\ btn_children b = map snd kcs.

Lemma length_enc_pair kc : length (enc_pair kc) = 16%nat.
Proof. unfold enc_pair. now rewrite app_length, !length_le. Qed.
Lemma length_flat_pairs kcs : length (flat_map enc_pair kcs) = (16 * length kcs)%nat.
Proof. induction kcs as [|x r IH]; cbn [flat_map length]; [reflexivity|]. rewrite app_length, length_enc_pair, IH. lia. Qed.

Lemma bt_slots_split b mc : forall a c i,
  bt_slots (a + c) i b 8 mc = bt_slots a i b 8 mc ++ bt_slots c (i + N.of_nat a) b 8 mc.
Proof.
  induction a as [|a IH]; intros c i.
  - cbn [Nat.add bt_slots app]. now replace (i + N.of_nat 0) with i by lia.
  - cbn [Nat.add bt_slots]. rewrite IH. replace (i + 1 + N.of_nat a) with (i + N.of_nat (S a)) by lia.
    now rewrite <- !app_assoc.
Qed.

Lemma bt_slots_used b mc : forall n p1 p2,
  pairs_of b (p1 ++ p2) -> (n <= length p2)%nat -> N.of_nat (length p1 + n) <= mc ->
  bt_slots n (N.of_nat (length p1)) b 8 mc = flat_map enc_pair (firstn n p2).
Proof.
  induction n as [|n IH]; intros p1 p2 [Hk Hc] Hn Hm; [reflexivity|].
  destruct p2 as [|[key ch] p2]; [cbn [length] in Hn; lia|].
  cbn [bt_slots firstn flat_map]. rewrite Nat2N.id, Hk, Hc, !map_app.
  rewrite !app_nth2 by (rewrite map_length; lia). rewrite !map_length, Nat.sub_diag. cbn [map nth fst snd].
  replace (N.of_nat (length p1) <? mc) with true by (symmetry; apply N.ltb_lt; lia).
  unfold write_address, enc_pair. change (N.to_nat 8) with 8%nat. cbn [fst snd]. rewrite <- !app_assoc. do 2 f_equal.
  replace (N.of_nat (length p1) + 1) with (N.of_nat (length (p1 ++ [(key, ch)]))) by (rewrite app_length; cbn [length]; lia).
  apply IH.
  - split; rewrite <- app_assoc; assumption.
  - cbn [length] in Hn. lia.
  - rewrite app_length. cbn [length]. lia.
Qed.

Lemma le8_0 : le 8 0 = zeros 8. Proof. reflexivity. Qed.

(* slots beyond the pairs: key 0, child 0 while i < 2k *)
Lemma bt_slots_unused b mc : forall n i,
  N.of_nat (length (btn_keys b)) <= i -> N.of_nat (length (btn_children b)) <= i -> i + N.of_nat n <= mc ->
  bt_slots n i b 8 mc = zeros (16 * n).
Proof.
  induction n as [|n IH]; intros i Hk Hc Hm; [reflexivity|].
  cbn [bt_slots]. rewrite !nth_overflow by lia.
  replace (i <? mc) with true by (symmetry; apply N.ltb_lt; lia).
  unfold write_address. change (N.to_nat 8) with 8%nat. rewrite le8_0, IH by lia.
  rewrite <- !zeros_app. f_equal. lia.
Qed.

(* the last key slot (i = 2k): a key, no child *)
Lemma bt_slots_last b mc i :
  N.of_nat (length (btn_keys b)) <= i -> mc <= i -> bt_slots 1 i b 8 mc = zeros 8.
Proof.
  intros Hk Hm. cbn [bt_slots]. rewrite nth_overflow by lia.
  replace (i <? mc) with false by (symmetry; apply N.ltb_ge; lia).
  unfold write_address. change (N.to_nat 8) with 8%nat. now rewrite le8_0, !app_nil_r.
Qed.

Lemma bt_write_at_closed b kcs k :
  pairs_of b kcs -> (length kcs <= 2 * k)%nat ->
  bt_write_at b 8 (N.of_nat k) = bt_bytes b kcs (2 * k).
Proof.
  intros Hp Hn. unfold bt_write_at, bt_bytes, bt_header, write_address. change (N.to_nat 8) with 8%nat.
  rewrite <- !app_assoc. do 5 f_equal.
  set (n := length kcs).
  replace (N.to_nat (2 * N.of_nat k + 1)) with (n + ((2 * k - n) + 1))%nat by lia.
  replace (2 * N.of_nat k) with (N.of_nat (2 * k)) by lia.
  rewrite !bt_slots_split.
  rewrite (bt_slots_used b _ n [] kcs) by (auto; cbn [length]; fold n; lia).
  rewrite firstn_all2 by (fold n; lia). f_equal.
  destruct Hp as [Hk Hc].
  assert (Lk : length (btn_keys b) = n) by (rewrite Hk; apply map_length).
  assert (Lc : length (btn_children b) = n) by (rewrite Hc; apply map_length).
  cbn [length N.of_nat N.add]. f_equal.
  - apply bt_slots_unused; lia.
  - apply bt_slots_last; lia.
Qed.

Lemma bt_bytes_size b kcs k2 : (length kcs <= k2)%nat -> blen (bt_bytes b kcs k2) = 24 + (N.of_nat k2 + 1) * 8 + N.of_nat k2 * 8.
Proof.
  intros H. unfold bt_bytes, bt_header, blen. rewrite !app_length, !length_le, length_flat_pairs, !length_zeros.
  cbn [length sigTREE]. lia.
Qed.

(* length (enc x) = 24 + (2K+1)*8 + 2K*8 (= 544 for K = 16, the btree_size of Model/Store.v) *)
Lemma bt_write_at_size b kcs k :
  pairs_of b kcs -> (length kcs <= 2 * k)%nat ->
  blen (bt_write_at b 8 (N.of_nat k)) = 24 + (2 * N.of_nat k + 1) * 8 + 2 * N.of_nat k * 8.
Proof. intros Hp Hn. rewrite (bt_write_at_closed b kcs k Hp Hn), bt_bytes_size by exact Hn. lia. Qed.

Definition live (a : N) : bool := negb ((a =? 0) || (a =? MaxUint64)).

Lemma gnode_children_enc kcs : forall (p r : list N),
  Forall (fun kc => snd kc < 18446744073709551616) kcs ->
  gnode_children (length kcs) (p ++ flat_map enc_pair kcs ++ r) (blen p) 8 = Ok (filter live (map snd kcs)).
Proof.
  induction kcs as [|[key ch] kcs IH]; intros p r H; [reflexivity|].
  apply Forall_cons_iff in H as [Hc Hr]. cbn [snd] in Hc.
  cbn [length gnode_children flat_map map filter]. change (enc_pair (key, ch)) with (le 8 key ++ le 8 ch). cbn [fst snd]. rewrite <- !app_assoc.
  replace (p ++ le 8 key ++ le 8 ch ++ flat_map enc_pair kcs ++ r) with ((p ++ le 8 key) ++ le 8 ch ++ flat_map enc_pair kcs ++ r)
    by (now rewrite <- app_assoc).
  rewrite slice_from_app by (rewrite blen_app, blen_le; blia). cbn [obind].
  rewrite read_address_le8 by exact Hc. cbn [obind].
  replace ((p ++ le 8 key) ++ le 8 ch ++ flat_map enc_pair kcs ++ r) with ((p ++ le 8 key ++ le 8 ch) ++ flat_map enc_pair kcs ++ r)
    by (now rewrite <- !app_assoc).
  replace (blen p + 8 + 8) with (blen (p ++ le 8 key ++ le 8 ch)) by (rewrite !blen_app, !blen_le; blia).
  rewrite IH by exact Hr. cbn [obind]. change (live ch) with (negb ((ch =? 0) || (ch =? MaxUint64))). destruct ((ch =? 0) || (ch =? MaxUint64)); reflexivity.
Qed.

Definition bt_group_ok (b : btnode) (kcs : list (N * N)) : Prop :=
  pairs_of b kcs /\ btn_type b = 0 /\ btn_level b = 0 /\ btn_used b = N.of_nat (length kcs) /\
  btn_left b < 18446744073709551616 /\ btn_right b < 18446744073709551616 /\
  Forall (fun kc => snd kc < 18446744073709551616) kcs.

Theorem gnode_read_bytes b kcs k2 (pre suf : list N) :
  bt_group_ok b kcs -> (length kcs <= k2)%nat -> N.of_nat k2 < 32768 -> blen pre + blen (bt_bytes b kcs k2) <= MaxInt64 ->
  fst (gnode_read (pre ++ bt_bytes b kcs k2 ++ suf) (blen pre) 8) = Ok (filter live (map snd kcs)).
Proof.
  intros (Hp & Ht & Hl & Hu & Hlt & Hrt & Hcs) Hn Hk Hb. rewrite bt_bytes_size in Hb by exact Hn. rewrite MaxInt64_val in Hb.
  unfold gnode_read. change (8 + 2 * 8) with 24.
  unfold bt_bytes. rewrite <- !app_assoc.
  assert (Lh : blen (bt_header b) = 24) by (unfold bt_header; rewrite !blen_app, !blen_le; reflexivity).
  rewrite read_at_app with (mid := bt_header b); [|reflexivity | now rewrite Lh | rewrite MaxInt64_val; blia].
  assert (S4 : bytes_eqb (firstn 4 (bt_header b)) sigTREE = true) by reflexivity.
  assert (I4 : index (bt_header b) 4 = Ok 0) by (unfold bt_header; rewrite Ht; reflexivity).
  assert (I5 : index (bt_header b) 5 = Ok 0) by (unfold bt_header; rewrite Hl; reflexivity).
  assert (R6 : rd_le (bt_header b) 6 2 = Ok (btn_used b)).
  { unfold bt_header.
    change (sigTREE ++ [btn_type b; btn_level b] ++ le 2 (btn_used b) ++ le 8 (btn_left b) ++ le 8 (btn_right b))
      with ((sigTREE ++ [btn_type b; btn_level b]) ++ le 2 (btn_used b) ++ (le 8 (btn_left b) ++ le 8 (btn_right b))).
    apply rd_le_at; [reflexivity | reflexivity | rewrite Hu; change (256 ^ 2) with 65536; lia]. }
  cbn [obind]. rewrite S4, I4, I5, R6. cbn [negb]. change (negb (0 =? 0)) with false. cbv iota. rewrite Hu.
  destruct (N.of_nat (length kcs) =? 0) eqn:E0.
  - apply N.eqb_eq in E0. destruct kcs; [reflexivity | cbn [length] in E0; lia].
  - set (tail := zeros (16 * (k2 - length kcs)) ++ zeros 8).
    assert (Ht8 : (8 <= length tail)%nat) by (unfold tail; rewrite app_length, !length_zeros; lia).
    assert (Hs : tail = firstn 8 tail ++ skipn 8 tail) by (symmetry; apply firstn_skipn).
    assert (L8 : length (firstn 8 tail) = 8%nat) by (rewrite firstn_length; lia).
    replace (pre ++ bt_header b ++ flat_map enc_pair kcs ++ zeros (16 * (k2 - length kcs)) ++ zeros 8 ++ suf)
      with ((pre ++ bt_header b) ++ (flat_map enc_pair kcs ++ firstn 8 tail) ++ (skipn 8 tail ++ suf)).
    2:{ rewrite <- !app_assoc. do 3 f_equal. rewrite (app_assoc (firstn 8 tail)), <- Hs. unfold tail. now rewrite <- app_assoc. }
    rewrite read_at_app with (mid := flat_map enc_pair kcs ++ firstn 8 tail).
    + pose proof (gnode_children_enc kcs [] (firstn 8 tail) Hcs) as G. cbn [app] in G. change (blen []) with 0 in G.
      rewrite Nat2N.id, G. reflexivity.
    + rewrite blen_app, Lh. reflexivity.
    + unfold blen. rewrite app_length, length_flat_pairs, L8. lia.
    + rewrite MaxInt64_val. unfold blen in *. lia.
Qed.

(* the node createGroupStructures writes: NewBTreeNodeV1(0, 16); AddKey(0, stNodeAddr) *)
Lemma writer_node a : a < 18446744073709551616 ->
  exists b, add_key (new_btnode 0 GROUP_K) 0 a = Ok b /\ bt_group_ok b [(0, a)] /\
            bt_write_at b 8 GROUP_K = bt_bytes b [(0, a)] 32.
Proof.
  intros Ha. eexists. split; [reflexivity|]. split.
  - repeat split; cbn; auto; try lia.
  - change GROUP_K with (N.of_nat 16). apply (bt_write_at_closed _ [(0, a)] 16); [split; reflexivity | cbn [length]; lia].
Qed.

Theorem read_group_btree_written f b s m (pre1 suf1 pre2 suf2 : list N) :
  bt_group_ok b [(0, blen pre2)] -> live (blen pre2) = true ->
  f = pre1 ++ bt_bytes b [(0, blen pre2)] 32 ++ suf1 -> blen pre1 + 544 <= MaxInt64 ->
  f = pre2 ++ snod_bytes s m ++ suf2 -> snode_ok s = true -> (length (stn_entries s) <= m)%nat ->
  blen pre2 + 8 + 40 * N.of_nat m <= MaxInt64 ->
  read_group_btree_entries f (blen pre1) 8 = Ok (map bentry_of (stn_entries s)).
Proof.
  intros Hb Hlive Hf1 Hb1 Hf2 Hs Hm Hb2. unfold read_group_btree_entries.
  rewrite Hf1 at 1. rewrite gnode_read_bytes; [|exact Hb | cbn [length]; lia | lia | ].
  2:{ rewrite bt_bytes_size by (cbn [length]; lia). rewrite MaxInt64_val in *. lia. }
  cbn [map snd filter obind]. rewrite Hlive. cbn [gwalk_entries].
  rewrite Hf2, parse_snod_bytes by assumption. cbn [obind].
  change (2 * 8 + 24) with 40. cbn [llen length N.of_nat N.add]. rewrite N.max_0_l.
  rewrite wrap64_le_max by (unfold llen; lia). replace (blen pre2 + 8 + llen (stn_entries s) * 40 <? (0 + llen (stn_entries s)) * 40) with false
    by (symmetry; apply N.ltb_ge; lia).
  reflexivity.
Qed.

Example ex_group_file : bytes :=
  zeros 64 ++ snod_bytes ex_snode 32 ++ bt_write_at (match add_key (new_btnode 0 16) 0 64 with Ok b => b | _ => new_btnode 0 16 end) 8 16.
Example ex_group_read :
  blen ex_group_file = 64 + 1288 + 544 /\
  read_group_btree_entries ex_group_file (64 + 1288) 8 = Ok (map bentry_of (stn_entries ex_snode)).
Proof. vm_compute. split; reflexivity. Qed.
