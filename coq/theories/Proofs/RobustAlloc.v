(* C07: every allocation request of the size computations in Model/RobustAlloc.v is bounded by k * |file| + c,
   for ALL inputs (uint64 field values, any file), and none of them panics. *)
From HV Require Import Base.Prelude Base.Outcome Base.Bytes Model.RobustAlloc Proofs.RobustNoPanicBase.

Definition u64 (x : N) : Prop := x < 18446744073709551616.

Lemma ab_nil k c f : alloc_bounded k c f [].
Proof. constructor. Qed.
Lemma ab_cons k c f n l : n <= k * blen f + c -> alloc_bounded k c f l -> alloc_bounded k c f (n :: l).
Proof. intros; constructor; auto. Qed.
Lemma ab_app k c f a b : alloc_bounded k c f a -> alloc_bounded k c f b -> alloc_bounded k c f (a ++ b).
Proof. unfold alloc_bounded. intros. apply Forall_app; auto. Qed.
Lemma ab_one k c f n : n <= k * blen f + c -> alloc_bounded k c f [n].
Proof. intros. apply ab_cons; [assumption|apply ab_nil]. Qed.
Lemma ab_weaken {k c f l} k' c' : alloc_bounded k c f l -> k <= k' -> c <= c' -> alloc_bounded k' c' f l.
Proof.
  unfold alloc_bounded. intros H Hk Hc. eapply Forall_impl; [|exact H].
  cbv beta. intros a Ha. assert (k * blen f <= k' * blen f) by (apply N.mul_le_mono_r; auto). lia.
Qed.
Lemma ab_of_Forall k c f m l : Forall (fun n => n <= m) l -> m <= k * blen f + c -> alloc_bounded k c f l.
Proof. intros H Hm. eapply Forall_impl; [|exact H]. cbv beta. intros; lia. Qed.

(* the leaf of a reader that returns an error: no panic, the log so far is bounded (by the bounds of its parts, which are
   in the context), nothing is claimed of a value *)
Ltac err_leaf := cbn [fst snd]; split; [discriminate|split; [auto using ab_nil, ab_app|intros; discriminate]].
Lemma alloc_bounded_b_spec k c f l : alloc_bounded_b k c f l = true <-> alloc_bounded k c f l.
Proof.
  unfold alloc_bounded_b, alloc_bounded. rewrite forallb_forall, Forall_forall.
  split; intros H x Hx; specialize (H x Hx); lia.
Qed.

Lemma safe_multiply_ok a b v : u64 a -> u64 b -> safe_multiply a b = Ok v -> v = a * b /\ u64 v.
Proof.
  unfold safe_multiply, u64, MaxUint64, wrap64. intros Ha Hb.
  dif; [intros [= <-]; lia|]. dif; [discriminate|]. intros [= <-].
  assert (a * b <= 18446744073709551615) by nia. lia.
Qed.
Lemma safe_multiply_exact a b v : u64 a -> u64 b -> safe_multiply a b = Ok v -> v = a * b.
Proof. intros Ha Hb H. apply (safe_multiply_ok a b v Ha Hb H). Qed.
Lemma safe_multiply_no_panic a b : safe_multiply a b <> Panic.
Proof. unfold safe_multiply. repeat dif; discriminate. Qed.

Lemma read_bytes_at_spec file off size :
  u64 off -> u64 size ->
  fst (read_bytes_at file off size) <> Panic /\
  alloc_bounded 1 0 file (snd (read_bytes_at file off size)) /\
  (forall s, fst (read_bytes_at file off size) = Ok s -> blen s = size /\ size <= blen file).
Proof.
  unfold read_bytes_at, u64, MaxInt64, wrap64. intros Ho Hs.
  pose proof (ab_nil 1 0 file) as B0.
  dif. { cbn [fst snd]. split; [discriminate|split; [exact B0|]]. intros s [= <-]. unfold blen at 1. cbn [length]. lia. }
  dif; [err_leaf|]. dif; [err_leaf|].
  destruct (slice_ok file off (off + size)) as (s & -> & Hlen); [lia|lia|].
  cbn [fst snd]. split; [discriminate|split; [apply ab_one; lia|]]. intros s' [= <-]. lia.
Qed.

Lemma convert_to_float64_bounded raw es n : Forall (fun r => r <= 8 * blen raw) (snd (convert_to_float64 raw es n)).
Proof.
  unfold convert_to_float64. dif; cbn [snd]; [constructor|].
  assert (n <= blen raw) by lia.
  repeat dif; cbn [snd]; repeat constructor; lia.
Qed.
Lemma convert_to_float64_no_panic raw es n : fst (convert_to_float64 raw es n) <> Panic.
Proof. unfold convert_to_float64. repeat dif; cbn [fst]; discriminate. Qed.

(* contiguous dataset read: buffer <= |file|, result <= 8 |file| *)
Lemma total_elements_u64 dims : u64 (total_elements dims).
Proof.
  unfold total_elements. assert (G : forall l t, u64 t -> u64 (fold_left (fun t d => wrap64 (t * d)) l t)).
  { induction l; intros t Ht; cbn [fold_left]; auto. apply IHl. unfold u64, wrap64. lia. }
  apply G. unfold u64. lia.
Qed.

Lemma contiguous_read_spec file dims es addr :
  u64 es -> u64 addr ->
  fst (contiguous_read file dims es addr) <> Panic /\ alloc_bounded 8 0 file (snd (contiguous_read file dims es addr)).
Proof.
  intros Hes Ha. unfold contiguous_read.
  pose proof (total_elements_u64 dims) as Ht.
  dif; [cbn; split; [discriminate|apply ab_nil]|].
  destruct (safe_multiply (total_elements dims) es) as [ds| |] eqn:Esm.
  - apply safe_multiply_ok in Esm as [Eds Hds]; auto.
    destruct (read_bytes_at_spec file addr ds Ha Hds) as (Hnp & Hb & Hok).
    destruct (read_bytes_at file addr ds) as [[raw| |] l1] eqn:Er; cbn [fst snd] in *.
    + destruct (Hok raw eq_refl) as [Hl Hle].
      pose proof (convert_to_float64_bounded raw es (total_elements dims)) as Hc.
      pose proof (convert_to_float64_no_panic raw es (total_elements dims)) as Hcn.
      destruct (convert_to_float64 raw es (total_elements dims)) as [r l2]. cbn [fst snd] in *.
      split; auto. apply ab_app; [apply (ab_weaken _ _ Hb); lia|apply (ab_of_Forall _ _ _ _ _ Hc); lia].
    + split; [discriminate|]. apply (ab_weaken _ _ Hb); lia.
    + congruence.
  - cbn; split; [discriminate|apply ab_nil].
  - exfalso. eapply safe_multiply_no_panic; eauto.
Qed.

(* readChunkedData: the request is the declared extent; NOT bounded by the file (refuted for every k, c below 2^40) *)
Lemma chunked_extent_unbounded k c file :
  k * blen file + c < 1099511627776 ->
  exists dims es, u64 es /\ Forall u64 dims /\ ~ alloc_bounded k c file (snd (chunked_total_bytes dims es)).
Proof.
  intros H. exists [1099511627776], 1. split; [unfold u64; lia|]. split; [repeat constructor; unfold u64; lia|].
  assert (E : chunked_total_bytes [1099511627776] 1 = (Ok 1099511627776, [1099511627776])) by (vm_compute; reflexivity).
  rewrite E. cbn [snd]. intros Hb. inversion Hb; subst. lia.
Qed.
(* what does hold: the constant limit 2^40 *)
Lemma chunked_total_bytes_limit dims es : Forall (fun n => n <= 1099511627776) (snd (chunked_total_bytes dims es)).
Proof.
  unfold chunked_total_bytes, validate_buffer_size, MaxChunkSize.
  destruct (safe_multiply (total_elements dims) es); cbn [snd]; try constructor.
  repeat dif; cbn [snd]; repeat constructor. lia.
Qed.

Lemma chunk_read_spec file addr nbytes :
  u64 addr -> u64 nbytes ->
  fst (chunk_read file addr nbytes) <> Panic /\ alloc_bounded 1 0 file (snd (chunk_read file addr nbytes)).
Proof.
  intros Ha Hn. unfold chunk_read, validate_buffer_size.
  repeat dif; cbn [fst snd]; try (split; [discriminate|apply ab_nil]).
  destruct (read_bytes_at_spec file addr nbytes Ha Hn) as (Hnp & Hb & _). auto.
Qed.

(* chunk B-tree node: header constant, body <= |file|, decoded keys <= 4 |file| *)
Lemma btree_node_sizes_spec file addr O nd entries :
  u64 addr -> O <= 8 -> nd <= 255 -> entries <= 65535 ->
  fst (btree_node_sizes file addr O nd entries) <> Panic /\ alloc_bounded 4 24 file (snd (btree_node_sizes file addr O nd entries)).
Proof.
  intros Ha HO Hnd He. unfold btree_node_sizes.
  dif; [cbn; split; [discriminate|apply ab_one; lia]|].
  dif; [cbn; split; [discriminate|apply ab_one; lia]|].
  set (ds := entries * (8 + nd * 8 + O) + (8 + nd * 8)).
  assert (Hds : u64 ds) by (unfold u64, ds; nia).
  assert (Hoff : u64 (wrap64 (addr + (8 + 2 * O)))) by (unfold u64, wrap64; lia).
  destruct (read_bytes_at_spec file (wrap64 (addr + (8 + 2 * O))) ds Hoff Hds) as (Hnp & Hb & Hok).
  destruct (read_bytes_at file (wrap64 (addr + (8 + 2 * O))) ds) as [[raw| |] l] eqn:Er; cbn [fst snd] in *.
  - destruct (Hok raw eq_refl) as [Hl Hle]. split; [discriminate|].
    apply ab_cons; [lia|]. apply ab_app; [apply (ab_weaken _ _ Hb); lia|].
    apply ab_cons; [unfold ds in Hle; nia|]. apply ab_one. unfold ds in Hle; nia.
  - split; [discriminate|]. apply ab_cons; [lia|]. apply (ab_weaken _ _ Hb); lia.
  - congruence.
Qed.

Lemma rd_le_ok_lt (bs : bytes) off w :
  bytes_ok bs = true -> off + w <= blen bs -> exists v, rd_le bs off w = Ok v /\ v < 256 ^ w.
Proof. intros Hb H. destruct (rd_le_ok bs off w H) as (v & E). exists v. split; [exact E|exact (rd_le_lt _ _ _ _ Hb E)]. Qed.
Lemma rd_le_spec (bs : bytes) off w :
  bytes_ok bs = true -> off + w <= blen bs -> w <= 8 -> exists v, rd_le bs off w = Ok v /\ u64 v.
Proof.
  intros Hb H Hw. destruct (rd_le_ok_lt bs off w Hb H) as (v & E & Hv). exists v. split; [exact E|].
  unfold u64. assert (256 ^ w <= 256 ^ 8) by (apply N.pow_le_mono_r; lia).
  change (256 ^ 8) with 18446744073709551616 in *. lia.
Qed.
Lemma rd_field_spec (buf : bytes) pos w :
  bytes_ok buf = true -> pos + w <= blen buf -> w <= 8 -> exists v, rd_field buf pos w = Ok v /\ u64 v.
Proof.
  intros. unfold rd_field. dif; [apply rd_le_spec; auto|]. eexists; split; [reflexivity|unfold u64; lia].
Qed.

Lemma read_bytes_at_bytes_ok file off size s :
  bytes_ok file = true -> fst (read_bytes_at file off size) = Ok s -> bytes_ok s = true.
Proof.
  intros Hb. unfold read_bytes_at.
  dif; [cbn [fst]; intros [= <-]; reflexivity|].
  dif; [cbn [fst]; discriminate|]. dif; [cbn [fst]; discriminate|].
  destruct (slice file off (off + size)) eqn:Es; cbn [fst]; try discriminate.
  intros [= <-]. eapply slice_bytes_ok; eauto.
Qed.

(* local heap: header buffer constant (<= 64), data segment <= |file| *)
Lemma local_heap_load_spec file addr O L :
  bytes_ok file = true -> O <= 8 -> L <= 8 ->
  fst (local_heap_load file addr O L) <> Panic /\ alloc_bounded 1 64 file (snd (local_heap_load file addr O L)).
Proof.
  intros Hb HO HL. unfold local_heap_load.
  assert (B0 : alloc_bounded 1 64 file [2 * (8 + 2 * L + O)]) by (apply ab_one; lia).
  dif; [cbn; split; [discriminate|auto]|].
  destruct (slice_ok file addr (addr + (8 + 2 * L + O))) as (hb & Hs & Hl); [lia|lia|]. rewrite Hs.
  pose proof (slice_bytes_ok _ _ _ _ Hb Hs) as Hhb.
  dif; [cbn; split; [discriminate|auto]|].
  destruct (rd_field_spec hb 8 L Hhb) as (ds & E1 & U1); [lia|lia|]. rewrite E1.
  destruct (rd_field_spec hb (8 + 2 * L) O Hhb) as (da & E2 & U2); [lia|lia|]. rewrite E2.
  destruct (read_bytes_at_spec file da ds U2 U1) as (Hnp & Hbd & _).
  destruct (read_bytes_at file da ds) as [[d| |] l]; cbn [fst snd] in *;
    (split; [congruence|apply ab_app; [auto|apply (ab_weaken _ _ Hbd); lia]]).
Qed.

Lemma heap_get_string_no_panic data off : heap_get_string data off <> Panic.
Proof.
  unfold heap_get_string. dif; [discriminate|]. dif; [discriminate|].
  destruct (slice_ok data off (find0 data off)) as (s & -> & _); [apply find0_ge|lia|]. discriminate.
Qed.

(* global heap collection: every object buffer <= |collection| <= |file|; the object loop ends within its fuel *)
Lemma gcol_objects_spec fuel (cd : bytes) os offset :
  bytes_ok cd = true -> os <= 8 ->
  fst (gcol_objects fuel cd os offset) <> Panic /\ Forall (fun n => n <= blen cd) (snd (gcol_objects fuel cd os offset)).
Proof.
  intros Hb Hos. revert offset. induction fuel as [|fuel IH]; intros offset; cbn [gcol_objects].
  - cbn; split; [discriminate|constructor].
  - dif; [cbn; split; [discriminate|constructor]|].
    dif; [cbn; split; [discriminate|constructor]|].
    destruct (rd_le_spec cd offset 2 Hb) as (id & E1 & _); [lia|lia|]. rewrite E1.
    destruct (rd_le_spec cd (offset + 8) os Hb) as (sz & E2 & _); [lia|lia|]. rewrite E2.
    dif; [dif; cbn; split; try discriminate; constructor|].
    dif; [apply IH|].
    specialize (IH (offset + (8 + os) + (if sz mod 8 =? 0 then sz else sz + (8 - sz mod 8)))).
    destruct (gcol_objects fuel cd os _) as [r l]. cbn [fst snd] in *. destruct IH as [I1 I2].
    split; [destruct r; congruence|]. constructor; [lia|auto].
Qed.

(* with fuel = S (length cd) the loop is never cut short: it advances by at least 8 + os >= 8 per iteration *)
Lemma gcol_objects_fuel fuel (cd : bytes) os offset :
  (N.to_nat (blen cd - offset) < fuel)%nat ->
  forall fuel', (fuel <= fuel')%nat -> gcol_objects fuel cd os offset = gcol_objects fuel' cd os offset.
Proof.
  revert offset. induction fuel as [|fuel IH]; intros offset Hm fuel' Hf; [lia|].
  destruct fuel' as [|fuel']; [lia|]. cbn [gcol_objects].
  dif; [reflexivity|]. dif; [reflexivity|].
  destruct (rd_le cd offset 2) as [id| |]; try reflexivity. destruct (rd_le cd (offset + 8) os) as [sz| |]; try reflexivity.
  dif; [reflexivity|].
  set (nx := offset + (8 + os) + (if sz mod 8 =? 0 then sz else sz + (8 - sz mod 8))).
  assert (Hn : (N.to_nat (blen cd - nx) < fuel)%nat) by (unfold nx; dif; lia).
  rewrite (IH nx Hn fuel') by lia. reflexivity.
Qed.

Lemma gcol_read_spec file addr os :
  bytes_ok file = true -> u64 addr ->
  fst (gcol_read file addr os) <> Panic /\ alloc_bounded 1 16 file (snd (gcol_read file addr os)).
Proof.
  intros Hb Ua. unfold gcol_read. dif; [cbn; split; [discriminate|apply ab_nil]|].
  assert (Hos : os <= 8) by lia.
  assert (B0 : alloc_bounded 1 16 file [8 + os]) by (apply ab_one; lia).
  dif; [cbn; split; [discriminate|auto]|].
  destruct (slice_ok file addr (addr + (8 + os))) as (hb & Hs & Hl); [lia|lia|]. rewrite Hs.
  pose proof (slice_bytes_ok _ _ _ _ Hb Hs) as Hhb.
  dif; [cbn; split; [discriminate|auto]|].
  destruct (index_ok hb 4) as (ver & ->); [lia|].
  destruct (rd_le_spec hb 8 os Hhb) as (cs & E2 & U2); [lia|lia|]. rewrite E2.
  dif; [cbn; split; [discriminate|auto]|]. dif; [cbn; split; [discriminate|auto]|].
  destruct (read_bytes_at_spec file addr cs Ua U2) as (Hnp & Hbd & Hok).
  destruct (read_bytes_at file addr cs) as [[cd| |] l] eqn:Er; cbn [fst snd] in *.
  - destruct (Hok cd eq_refl) as [Hlen Hle].
    assert (Hcd : bytes_ok cd = true) by (eapply read_bytes_at_bytes_ok; [exact Hb|rewrite Er; reflexivity]).
    pose proof (gcol_objects_spec (S (length cd)) cd os (if (8 + os) mod 8 =? 0 then 8 + os else 8 + os + (8 - (8 + os) mod 8)) Hcd Hos) as [G1 G2].
    destruct (gcol_objects _ cd os _) as [r l2]. cbn [fst snd] in *.
    split; auto. apply ab_app; auto. apply ab_app; [apply (ab_weaken _ _ Hbd); lia|apply (ab_of_Forall _ _ _ _ _ G2); lia].
  - split; [discriminate|]. apply ab_app; auto. apply (ab_weaken _ _ Hbd); lia.
  - congruence.
Qed.

Lemma msg_buffer_request_bounded file sz : alloc_bounded 0 65535 file (msg_buffer_request sz).
Proof. unfold msg_buffer_request, wrap16. apply ab_one; lia. Qed.
(* repaired: the buffers of n one-byte messages total n bytes <= the 5 n bytes they occupy in the file *)
Lemma storm_repaired_bounded n : storm_requests false n <= storm_file_bytes n.
Proof. unfold storm_requests, storm_file_bytes. lia. Qed.
(* pooled buffers: for every k < 819 and every c some header exceeds k * (its bytes in the file) + c *)
Lemma storm_pooled_unbounded k c : k < 819 -> exists n, k * storm_file_bytes n + c < storm_requests true n.
Proof. intros Hk. exists (c + 1). unfold storm_requests, storm_file_bytes. nia. Qed.
Lemma inflate_requests_bounded file claimed : alloc_bounded 0 2147484162 file (inflate_requests claimed).
Proof. unfold inflate_requests, inflate_limit, MaxChunkSize. apply ab_one; lia. Qed.
