(* C05 - the whole-file walker on a file with a NEW-STYLE GROUP written by the library (CreateDenseGroup), complete bytes
   (531 291 bytes; runs of zero bytes as PZ n), history
     sb = 2;  mkds /a int32 [1];  mkdense /dg {x -> /a, yy -> /a}
   (sha256 9eb57f08628f1455945a470dba84384a4a6ac6ba09878eb90a930bbc30197041; the library's output is deterministic; the check re-creates such
   files on every run and the Coq walker judges them: tools/props/c05.py judge_dense).
   The tolerant walk accepts, resolves both links of the dense group and reports - besides the listed deviations of the fractal heap,
   v2 B-tree and object header encoders - FOUR deviations that only concern new-style groups; for each of them the walk that
   tolerates every deviation BUT this one rejects the file with exactly that deviation as the reason (200 + code): the refutations
   cited by the proposed findings C05-group-dataspace-msg, C05-dense-link-private-layout, C05-btree2-link-id-truncated,
   C05-refcount-ignores-dense-links (notes/c05-dense-known-findings-proposed.json). *)
From HV Require Import Base.Prelude Base.Outcome Base.Bytes Spec.Parse Spec.Walk Model.Wellformed Model.RefWalkTie Proofs.WalkTol.
Open Scope string_scope.
Open Scope N_scope.

Definition dense_witness_pieces : list piece :=
  [PH "894844460d0a1a0a020808000000000000000000ffffffffffffffff5b1b08000000000078080000000000007a3e422f484541500000000000010000000000000100000000000000500000000000000061006467"; 
   PZ 252; 
   PH "534e4f4401000200000000000000000097080000000000000000000000000000000000000000000000000000000000000200000000000000551a08"; 
   PZ 1229; PH "5452454500000100ffffffffffffffffffffffffffffffff00000000000000005001"; PZ 510; 
   PH "4f4844520200141110000058060000000000003000000000000000000000004f48445202003a030c00001008000004000000002000000110000001010000000000000100000000000000081200000301930800000000000004"; 
   PZ 204; 
   PH "465248500008000000000000010000000000000000000000000000000000e3ff0700000000000000000000000000000008000000000000000800000000001d0000000000000002000000000000000000000000000000000000000000000000000000000000000000000000000000020000000800000000000000080000000000130000002f0a000000000000000023667b8546484442009d090000000000000000000100040001789708000000000000010004000279799708"; 
   PZ 524245; PH "89f2f19442544c4600058f9b4f35000e00000f0000a785acfa000000000e000097f9d4dc"; PZ 4064; 
   PH "425448440005001000000b00000064282f0a08000000000002000200000000000000658080ed4f4844520200220212000000009d090000000000002f1a0800000000000108000001"; 
   PZ 228].
Definition dense_witness : bytes := pieces_bytes dense_witness_pieces.

Definition tol_all_but (code : N) : wtolerance := fun t => negb (wtag_code t =? code).

Definition summary_of (r : walk_result) : list (bytes * list (N * bytes) * list N) :=
  map (fun o => (os_path o, os_links o, os_ltargets o)) (wr_tree r).

Lemma dense_witness_length : blen dense_witness = 531291.
Proof. vm_compute. reflexivity. Qed.

(* The one evaluation of the tolerant walk over the file; what follows evaluates on its stored result. *)
Definition dense_final :=
  Eval vm_compute in walk_all dense_witness 531291 wtolerant default_fuel st0.
Lemma dense_walk_all : walk_all dense_witness (blen dense_witness) wtolerant default_fuel st0 = dense_final.
Proof. rewrite dense_witness_length. vm_compute. reflexivity. Qed.

(* the tolerant walk: accepted, extents in bounds / below the end-of-file address / pairwise disjoint, the dense group /dg lists its two
   links with the object header address of /a as their target, and the tag set *)
Lemma dense_witness_tolerant :
  match walk wtolerant default_fuel dense_witness with
  | Ok r => extents_ok (blen dense_witness) (wr_eof r) (plain (wr_extents r)) = true /\
            summary_of r = [(unhex "2f6467", [(0, unhex "7979"); (0, unhex "78")], [2199; 2199]);
                            (unhex "2f61", [], []);
                            (unhex "2f", [(0, unhex "61"); (0, unhex "6467")], [2199; 531029])] /\
            nodup N.eq_dec (map wtag_code (wr_tags r)) = [114; 111; 112; 108; 113; 13; 12; 10; 11; 19; 3; 105; 17; 2; 1]
  | _ => False
  end.
Proof. unfold walk, walk_run. rewrite dense_walk_all, dense_witness_length. vm_compute. repeat split; reflexivity. Qed.

Lemma dense_witness_walk_ok : walk_ok default_fuel dense_witness = true.
Proof. unfold walk_ok, walk, walk_run. rewrite dense_walk_all, dense_witness_length. vm_compute. reflexivity. Qed.

(* each of the four deviations is necessary: without it the specification walk rejects the file, for that reason.  The tolerant walk
   reported the tag, so the walk that refuses this tag alone stops at it (walk_code_refused). *)
Lemma dense_witness_needs c x0 : 100 < c -> xtag_code x0 = c ->
  In (WX x0) (match dense_final with WOk (_, st) => ws_tags st | WErr _ => [] end) ->
  walk_code (tol_all_but c) default_fuel dense_witness = 200 + c.
Proof.
  intros Hc Hx0 Hin.
  edestruct (walk_code_refused wtolerant (tol_all_but c) default_fuel dense_witness) as (x & Hx & E).
  - intros t. unfold tol_all_but. cbn [wtag_code]. assert (tag_code t < 100) by (destruct t; reflexivity).
    destruct (N.eqb_spec (tag_code t) c); [lia | reflexivity].
  - exact dense_walk_all.
  - exact Hin.
  - unfold tol_all_but. cbn [wtag_code]. rewrite Hx0, N.eqb_refl. reflexivity.
  - unfold tol_all_but in Hx. cbn [wtag_code] in Hx. apply negb_false_iff, N.eqb_eq in Hx. rewrite E, Hx. reflexivity.
Qed.
Lemma dense_witness_needs_group_dataspace_msg : walk_code (tol_all_but 111) default_fuel dense_witness = 311.
Proof. apply (dense_witness_needs 111 X_group_dataspace_msg); [reflexivity | reflexivity | cbn; tauto]. Qed.
Lemma dense_witness_needs_link_private_layout : walk_code (tol_all_but 112) default_fuel dense_witness = 312.
Proof. apply (dense_witness_needs 112 X_dense_link_private_layout); [reflexivity | reflexivity | cbn; tauto]. Qed.
Lemma dense_witness_needs_link_id_truncated : walk_code (tol_all_but 113) default_fuel dense_witness = 313.
Proof. apply (dense_witness_needs 113 X_btree2_link_id_truncated); [reflexivity | reflexivity | cbn; tauto]. Qed.
Lemma dense_witness_needs_refcount_ignores_dense_links : walk_code (tol_all_but 114) default_fuel dense_witness = 314.
Proof. apply (dense_witness_needs 114 X_refcount_ignores_dense_links); [reflexivity | reflexivity | cbn; tauto]. Qed.
Lemma dense_witness_strict_rejects : walk wstrict default_fuel dense_witness = Err.
Proof. vm_compute. reflexivity. Qed.
