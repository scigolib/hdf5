(* What the codec proofs (C11) share: byte-string facts, boolean conjunctions as propositions, and [file_at], which says
   where in a byte string a field lies, with each reader's result at such a place.  Then Model/CodecMsg.v: extents of any
   width, and the round trips of the dataspace and the version 3 layout message. *)
From HV Require Import Base.Prelude Base.Outcome Base.Bytes Model.CodecMsg.

(* a well-formedness check [c1 && ... && cn = true] becomes the conjunction of what the comparisons say *)
Global Hint Rewrite andb_true_iff negb_true_iff N.ltb_lt N.leb_le N.eqb_eq N.eqb_neq
  Nat.leb_le Nat.eqb_eq Nat.eqb_neq : bool_prop.

Lemma firstn_blen (P : bytes) : firstn (N.to_nat (blen P)) P = P.
Proof. rewrite to_nat_blen. apply firstn_all. Qed.
Lemma zeros_S k : zeros (S k) = 0 :: zeros k.
Proof. reflexivity. Qed.
Lemma le1_small v : v < 256 -> le 1 v = [v].
Proof. intros H. cbn [le]. now rewrite N.mod_small. Qed.

Lemma slice_blen (data : list N) a b s : slice data a b = Ok s -> blen s = b - a.
Proof.
  unfold slice. destruct ((a <=? b) && (b <=? blen data)) eqn:E; [|discriminate].
  intros H. injection H as <-. apply andb_true_iff in E as [E1 E2]. apply N.leb_le in E1, E2.
  unfold blen in *. rewrite firstn_length, skipn_length. blia.
Qed.

Lemma slice_mid_firstn (pre v : list N) o a k :
  o = blen pre + a -> a + k <= blen v ->
  slice (pre ++ v) o (o + k) = Ok (firstn (N.to_nat k) (skipn (N.to_nat a) v)).
Proof.
  intros -> H. rewrite <- (firstn_skipn (N.to_nat a) v) at 1.
  assert (La : blen (firstn (N.to_nat a) v) = a) by (unfold blen in *; rewrite firstn_length; blia).
  rewrite app_assoc.
  rewrite <- (firstn_skipn (N.to_nat k) (skipn (N.to_nat a) v)) at 1.
  apply slice_app'.
  - rewrite blen_app, La. reflexivity.
  - f_equal. unfold blen in *. rewrite firstn_length, skipn_length. blia.
Qed.
Lemma rd_le_mid (pre v : list N) o a k :
  o = blen pre + a -> a + k <= blen v ->
  rd_le (pre ++ v) o k = Ok (unle (firstn (N.to_nat k) (skipn (N.to_nat a) v))).
Proof. intros. unfold rd_le. now rewrite (slice_mid_firstn pre v o a k). Qed.

(* [bs] is found in [file] at offset [off] *)
Definition file_at (file : bytes) (off : N) (bs : bytes) : Prop :=
  exists P S, file = P ++ bs ++ S /\ blen P = off.

Lemma fa_here (P bs S : list N) : file_at (P ++ bs ++ S) (blen P) bs.
Proof. exists P, S. auto. Qed.
Lemma fa_whole (bs : list N) : file_at bs 0 bs.
Proof. exists [], []. now rewrite app_nil_r. Qed.
Lemma fa_app_l file off (x y : list N) : file_at file off (x ++ y) -> file_at file off x.
Proof. intros (P & S & -> & <-). exists P, (y ++ S). rewrite <- app_assoc. auto. Qed.
Lemma fa_app_r file off (x y : list N) : file_at file off (x ++ y) -> file_at file (off + blen x) y.
Proof. intros (P & S & -> & <-). exists (P ++ x), S. rewrite <- !app_assoc, blen_app. auto. Qed.
Lemma fa_split file off (x y : list N) :
  file_at file off (x ++ y) -> file_at file off x /\ file_at file (off + blen x) y.
Proof. split; [eapply fa_app_l | apply fa_app_r]; eassumption. Qed.
Lemma fa_eq file off off' bs : file_at file off bs -> off = off' -> file_at file off' bs.
Proof. intros H <-. exact H. Qed.
Lemma fa_bound file off bs : file_at file off bs -> off + blen bs <= blen file.
Proof. intros (P & S & -> & <-). rewrite !blen_app. blia. Qed.

(* The readers, at a place the field is known to lie; the offsets as the decoder computes them. *)
Lemma fa_slice {file off bs} (F : file_at file off bs) o e :
  o = off -> e = off + blen bs -> slice file o e = Ok bs.
Proof. destruct F as (P & S & -> & <-). intros -> ->. now apply slice_app'. Qed.
Lemma fa_slice_from {file off bs} (F : file_at file off bs) o :
  o = off -> exists S, slice_from file o = Ok (bs ++ S).
Proof. destruct F as (P & S & -> & <-). intros ->. exists S. now apply slice_from_app. Qed.
Lemma fa_slice_from_end {file off bs} (F : file_at file off bs) o :
  o = off -> off + blen bs = blen file -> slice_from file o = Ok bs.
Proof.
  destruct F as (P & S & -> & <-). intros -> E. rewrite !blen_app in E.
  destruct S; [|rewrite blen_cons in E; blia]. rewrite app_nil_r. now apply slice_from_app.
Qed.
Lemma fa_index {file off} {b : N} {r : list N} (F : file_at file off (b :: r)) o :
  o = off -> index file o = Ok b.
Proof. destruct F as (P & S & -> & <-). intros ->. cbn [app]. now apply index_app. Qed.
Lemma fa_rd_le {file off k v} (F : file_at file off (le k v)) o kN :
  o = off -> kN = N.of_nat k -> v < 256 ^ kN -> rd_le file o kN = Ok v.
Proof. destruct F as (P & S & -> & <-). intros -> -> Hv. now apply rd_le_app. Qed.
Lemma fa_rd_be {file off k v} (F : file_at file off (be k v)) o kN :
  o = off -> kN = N.of_nat k -> v < 256 ^ kN -> rd_be file o kN = Ok v.
Proof. destruct F as (P & S & -> & <-). intros -> -> Hv. now apply rd_be_app. Qed.

Definition enc_dimsk (k : nat) (l : list N) : bytes := concat (map (le k) l).
Definition fits (k : nat) (l : list N) : Prop := Forall (fun d => d < 256 ^ N.of_nat k) l.

Lemma forallb_ltb_fits k b l : b = 256 ^ N.of_nat k -> forallb (fun d => d <? b) l = true -> fits k l.
Proof. intros -> H. apply Forall_forall. intros d Hd. apply N.ltb_lt. revert d Hd. now apply forallb_forall. Qed.

Lemma blen_enc_dimsk k l : blen (enc_dimsk k l) = N.of_nat k * blen l.
Proof.
  induction l as [|d r IH]; [rewrite blen_nil; cbn; blia|].
  unfold enc_dimsk in *. cbn [map concat]. rewrite blen_app, IH, blen_le, blen_cons. blia.
Qed.
Lemma blen_enc_dims8 l : blen (enc_dims8 l) = 8 * blen l.
Proof. exact (blen_enc_dimsk 8 l). Qed.

Lemma read_dimsk_app k kN ds : forall file off,
  file_at file off (enc_dimsk k ds) -> kN = N.of_nat k -> fits k ds ->
  read_dims file kN (length ds) off = Ok (ds, off + kN * blen ds).
Proof.
  intros file off F ->. revert off F.
  induction ds as [|d r IH]; intros off F Hok.
  - cbn [length read_dims]. rewrite blen_nil. do 2 f_equal. blia.
  - inversion Hok as [|? ? Hd Hr]; subst.
    apply fa_split in F as [Fd Fr]. rewrite blen_le in Fr. pose proof (fa_bound _ _ _ Fd) as B. rewrite blen_le in B.
    cbn [length read_dims]. rewrite ltb_false, (fa_rd_le Fd), IH by auto. cbn [obind].
    rewrite blen_cons. do 2 f_equal. blia.
Qed.

Lemma wf_dataspace_inv x : wf_dataspace x = true ->
  (1 <= length (ds_dims x) <= 255)%nat /\
  (ds_maxdims x = [] \/ length (ds_maxdims x) = length (ds_dims x)) /\
  fits 8 (ds_dims x) /\ fits 8 (ds_maxdims x).
Proof.
  unfold wf_dataspace, encok_dataspace. intros H. autorewrite with bool_prop in H.
  destruct H as ((((Hne & Hmx) & Hr) & Hd) & Hm).
  repeat split; try blia; try (eapply forallb_ltb_fits; [reflexivity|eassumption]).
  apply orb_true_iff in Hmx as [E|E]; apply Nat.eqb_eq in E; auto.
  left. now apply length_zero_iff_nil.
Qed.

Lemma dataspace_blen x : blen (enc_dataspace x) = size_dataspace x.
Proof.
  unfold enc_dataspace, size_dataspace.
  rewrite !blen_app, !blen_enc_dims8, blen_zeros, !blen_cons, blen_nil. blia.
Qed.

Lemma dataspace_roundtrip x : wf_dataspace x = true ->
  dec_dataspace (enc_dataspace x) = Ok (proj_dataspace x).
Proof.
  intros Hwf. apply wf_dataspace_inv in Hwf as (Hrank & Hmax & Hd & Hm).
  pose proof (dataspace_blen x) as Hlen. unfold size_dataspace in Hlen.
  destruct x as [dims mx]; cbn [ds_dims ds_maxdims] in *.
  assert (Hr : blen dims = N.of_nat (length dims)) by reflexivity.
  unfold dec_dataspace. rewrite Hlen, ltb_false by blia. clear Hlen.
  unfold enc_dataspace; cbn [ds_dims ds_maxdims]. rewrite wrap8_small by blia.
  set (flags := match mx with [] => 0 | _ => 1 end).
  (* the extents lie after the 8-byte head *)
  pose proof (fa_here ([1; blen dims; flags] ++ zeros 5) (enc_dims8 dims ++ enc_dims8 mx) []) as F.
  rewrite app_nil_r, <- app_assoc in F. apply fa_split in F as [Fd Fm].
  rewrite blen_enc_dims8 in Fm. change (blen ([1; blen dims; flags] ++ zeros 5)) with 8 in *.
  cbn [app zeros repeat] in *. bnorm. rewrite index0, index1, index2. cbn [obind N.eqb Pos.eqb negb andb].
  rewrite (proj2 (N.eqb_neq _ 0)) by blia.
  rewrite to_nat_blen.
  destruct Hmax as [-> | Hml].
  - subst flags. cbn [N.testbit]. rewrite blen_nil, leb_true by blia. cbn [obind].
    now rewrite (read_dimsk_app 8 8 dims _ 8 Fd).
  - assert (Hml' : blen mx = blen dims) by (unfold blen; now rewrite Hml).
    destruct mx as [|m0 mr]; [cbn [length] in Hml; blia|].
    subst flags. change (N.testbit 1 0) with true. cbv iota. rewrite leb_true by blia. cbn [obind].
    rewrite (read_dimsk_app 8 8 dims _ 8 Fd) by auto. cbn [obind].
    rewrite <- Hml. now rewrite (read_dimsk_app 8 8 (m0 :: mr) _ _ Fm).
Qed.

(* the length of an encoding is never in the region where the decoder would fall back to 4-byte extents *)
Lemma dataspace_not_ambiguous x : wf_dataspace x = true ->
  ambiguous_dataspace_len (blen (ds_dims x)) (negb (length (ds_maxdims x) =? 0)%nat) (blen (enc_dataspace x)) = false.
Proof.
  intros Hwf. apply wf_dataspace_inv in Hwf as (Hrank & Hmax & _).
  unfold ambiguous_dataspace_len. rewrite dataspace_blen. unfold size_dataspace.
  apply andb_false_iff. right. apply N.ltb_ge. unfold blen.
  destruct Hmax as [-> | <-]; [cbn [length Nat.eqb negb]; blia|].
  destruct (ds_maxdims x); cbn [length Nat.eqb negb] in *; blia.
Qed.

Definition size1248 (s : N) : Prop := s = 1 \/ s = 2 \/ s = 4 \/ s = 8.

Lemma size1248_of_bool s : (s =? 1) || (s =? 2) || (s =? 4) || (s =? 8) = true -> size1248 s.
Proof. intros H. unfold size1248. repeat (apply orb_true_iff in H as [H|H]); apply N.eqb_eq in H; auto. Qed.

Lemma sb_ok_inv sb : sb_ok sb = true ->
  size1248 (sb_offsize sb) /\ size1248 (sb_lensize sb) /\ sb_version sb < 4.
Proof.
  unfold sb_ok. intros H. apply andb_true_iff in H as [H Hv]. apply andb_true_iff in H as [Ho Hl].
  apply size1248_of_bool in Ho, Hl. apply N.ltb_lt in Hv. auto.
Qed.

Lemma blen_write_uint v s b : size1248 s -> blen (write_uint v s b) = s.
Proof.
  intros [-> | [-> | [-> | ->]]]; unfold write_uint; cbn [N.eqb Pos.eqb orb];
    destruct b; rewrite ?blen_be, ?blen_le; reflexivity.
Qed.

Lemma read_write_uint v s b suf : size1248 s -> v < 256 ^ s ->
  read_uint (write_uint v s b ++ suf) s b = Ok v.
Proof.
  intros Hs Hv. unfold read_uint.
  rewrite ltb_false by (rewrite blen_app, blen_write_uint by auto; blia).
  unfold write_uint.
  destruct Hs as [-> | [-> | [-> | ->]]]; cbn [N.eqb Pos.eqb orb]; destruct b;
    (apply rd_be_head || apply rd_le_head); auto.
Qed.

(* a field of the superblock's offset or length size, read the way the layout and link-info decoders do *)
Lemma fa_read_uint {A file off v s b} (F : file_at file off (write_uint v s b)) o (K : N -> outcome A) :
  o = off -> size1248 s -> v < 256 ^ s ->
  (d <- slice_from file o;; x <- read_uint d s b;; K x) = K v.
Proof.
  intros E Hs Hv. destruct (fa_slice_from F o E) as (S & ->). cbn [obind]. now rewrite read_write_uint.
Qed.

Lemma enc_chunk_dims cd : u32_ok cd = true ->
  concat (map (fun d => le 4 (wrap32 d)) cd) = enc_dimsk 4 cd /\ fits 4 cd.
Proof.
  intros H. apply (forallb_ltb_fits 4 _ cd eq_refl) in H. split; [|exact H].
  unfold enc_dimsk. f_equal. apply map_ext_in. intros d Hin.
  rewrite wrap32_small; [reflexivity|]. revert d Hin. now apply Forall_forall.
Qed.

Lemma wf_layout_inv sb x : wf_layout sb x = true ->
  size1248 (sb_offsize sb) /\ size1248 (sb_lensize sb) /\ sb_version sb < 4 /\
  match x with
  | LContig size addr => addr < 256 ^ sb_offsize sb /\ size < 256 ^ sb_lensize sb
  | LChunked cd addr => addr < 256 ^ sb_offsize sb /\ (1 <= length cd <= 255)%nat /\ u32_ok cd = true
  end.
Proof.
  unfold wf_layout. intros H. apply andb_true_iff in H as [H Hx]. apply andb_true_iff in H as [Hsb Hok].
  apply sb_ok_inv in Hsb as (Ho & Hl & Hv). repeat split; auto.
  destruct x as [size addr | cd addr]; cbn [encok_layout] in Hok; autorewrite with bool_prop in Hx, Hok.
  - exact Hx.
  - destruct Hok as ((? & ?) & ?). repeat split; auto; blia.
Qed.

Lemma layout_blen sb x : wf_layout sb x = true -> blen (enc_layout sb x) = size_layout sb x.
Proof.
  intros H. apply wf_layout_inv in H as (Ho & Hl & _ & Hx).
  destruct x as [size addr | cd addr]; unfold enc_layout, size_layout.
  - rewrite !blen_app, !blen_write_uint, !blen_cons, blen_nil by auto. blia.
  - destruct Hx as (_ & _ & Hu). apply enc_chunk_dims in Hu as [-> _].
    rewrite !blen_app, blen_write_uint, blen_enc_dimsk, !blen_cons, blen_nil by auto. blia.
Qed.

Lemma layout_roundtrip sb x : wf_layout sb x = true ->
  dec_layout sb (enc_layout sb x) = Ok (proj_layout sb x).
Proof.
  intros Hwf. pose proof (layout_blen sb x Hwf) as Hlen.
  apply wf_layout_inv in Hwf as (Ho & Hl & Hv & Hx).
  assert (Ho' : 1 <= sb_offsize sb) by (destruct Ho as [-> | [-> | [-> | ->]]]; blia).
  unfold dec_layout. rewrite Hlen. clear Hlen.
  destruct x as [size addr | cd addr]; unfold size_layout, proj_layout, enc_layout.
  - destruct Hx as [Ha Hs].
    pose proof (fa_here [3; 1] (write_uint addr (sb_offsize sb) (sb_bigendian sb)
                                ++ write_uint size (sb_lensize sb) (sb_bigendian sb)) []) as F.
    rewrite app_nil_r in F. apply fa_split in F as [Fa Fs]. rewrite blen_write_uint in Fs by auto.
    change (blen [3; 1]) with 2 in *.
    cbn [app] in *. rewrite index0, index1, !ltb_false by blia. cbn [obind].
    cbn [N.ltb N.compare Pos.compare Pos.compare_cont orb N.eqb Pos.eqb].
    rewrite N.ltb_irrefl, (fa_read_uint Fa), (fa_read_uint Fs) by auto. reflexivity.
  - destruct Hx as (Ha & Hr & Hu). apply enc_chunk_dims in Hu as [-> Hu].
    assert (Hb : blen cd = N.of_nat (length cd)) by reflexivity.
    rewrite wrap8_small by blia.
    pose proof (fa_here [3; 2; blen cd] (write_uint addr (sb_offsize sb) (sb_bigendian sb) ++ enc_dimsk 4 cd) []) as F.
    rewrite app_nil_r in F. apply fa_split in F as [Fa Fd]. rewrite blen_write_uint in Fd by auto.
    change (blen [3; 2; blen cd]) with 3 in *.
    cbn [app] in *. rewrite index0, index1, index2, !ltb_false by blia. cbn [obind].
    cbn [N.ltb N.compare Pos.compare Pos.compare_cont orb N.eqb Pos.eqb].
    rewrite !ltb_false, (fa_read_uint Fa) by (auto; blia). cbn [obind].
    unfold chunk_key_size. rewrite (proj2 (N.leb_gt _ _)) by blia.
    rewrite to_nat_blen. bnorm. rewrite (read_dimsk_app 4 4 cd _ _ Fd) by auto. reflexivity.
Qed.
