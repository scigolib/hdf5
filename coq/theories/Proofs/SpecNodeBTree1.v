(* C05: the chunk-index leaf encoder of the writer model (Model/ChunkIndex.v serialize_leaf: version 1 B-tree, node type 1,
   tied byte for byte to the Go code by C01) against the specification decoder Spec/FormatNode.v spec_dec_btree1.

   The decoder is called with node type 1, size of offsets 8, the dimensionality the writer's keys use ([dim] offsets per
   key; the element-size dimension the format adds is the separately listed finding C05-chunk-dims-no-elem-dim of the layout
   message) and K = 32 (default indexed-storage K, node capacity 2K = 64).

   Result: for every well-formed entry list of fewer than 65536 entries the TOLERANT decoder accepts the node, returns the
   logical content the encoder was given and reports T_btree1_node_over_capacity exactly when there are more than 64 entries;
   the STRICT decoder rejects exactly then (spec_btree1_leaf and its corollaries; spec_btree1_written* for the bytes write_index
   leaves in the file).  The 16-bit count: when it wraps the decoder still ACCEPTS the bytes, as a node with fewer entries
   (spec_btree1_wrap_refuted, stated in this file only).  Witnesses for 3, 64 and 65 chunks close the file. *)
From HV Require Import Base.Prelude Base.Outcome Base.Bytes Spec.Parse Spec.FormatNode Model.ChunkIndex Proofs.ChunkIndex.

Local Open Scope N_scope.

(* the key the specification decoder reports for an entry: chunk size, filter mask 0, offsets *)
Definition spec_key_of (e : wentry) : list N := w_nbytes e :: 0 :: w_coord e.
(* the key after the last child *)
Definition spec_last_key (dim : nat) : list N := 0 :: 0 :: repeat U64MAX dim.

Definition spec_leaf (dim : nat) (es : list wentry) : btree1_spec :=
  {| b1_type := 1; b1_level := 0; b1_n := N.of_nat (length es); b1_left := U64MAX; b1_right := U64MAX;
     b1_keys := map spec_key_of es ++ [spec_last_key dim]; b1_children := map w_addr es |}.

Lemma le_U64MAX_lt v : v <= U64MAX -> v < 256 ^ N.of_nat 8.
Proof. change (256 ^ N.of_nat 8) with 18446744073709551616. unfold U64MAX. lia. Qed.

Lemma repeat_U64MAX_le dim : Forall (fun x => x <= U64MAX) (repeat U64MAX dim).
Proof. apply Forall_forall. intros x Hx. apply repeat_spec in Hx. subst x. lia. Qed.

Lemma entries_ok_Forall dim es : forallb (entry_ok dim) es = true -> Forall (fun e => entry_ok dim e = true) es.
Proof. intros H. apply Forall_forall. now apply forallb_forall. Qed.

Lemma p_key_enc dim nb fm cs (r : list N) :
  length cs = dim -> Forall (fun x => x <= U64MAX) cs -> nb < 4294967296 -> fm < 4294967296 ->
  p_key 8 1 dim (enc_key nb fm cs ++ r) = Ok (nb :: fm :: cs, r).
Proof.
  intros <- Hc Hnb Hfm. unfold p_key, enc_key. change (1 =? 0) with false. cbv iota.
  rewrite <- !app_assoc, flat_map_concat_map. do 2 parse p_u_le.
  now rewrite p_us_app, obind_Ok by (eapply Forall_impl; [exact le_U64MAX_lt | exact Hc]).
Qed.

Lemma p_entries_enc dim : forall (es : list wentry) (r : list N),
  Forall (fun e => entry_ok dim e = true) es ->
  p_entries 8 8 1 dim (length es) (flat_map enc_entry es ++ r) = Ok (map spec_key_of es, map w_addr es, r).
Proof.
  induction es as [|e es IH]; intros r He; [reflexivity|].
  apply Forall_cons_iff in He as [He0 Her].
  destruct (entry_ok_spec _ _ He0) as (E1 & E2 & E3 & E4).
  cbn [length p_entries flat_map map]. unfold enc_entry at 1. rewrite <- !app_assoc.
  parse p_key_enc by (auto; lia). parse p_u_le by apply le_U64MAX_lt, E3.
  now rewrite IH, obind_Ok.
Qed.

(* header with the count field of [c], then the entries [es], one more key, and whatever follows: the decoder takes the
   entries the 16-bit count announces *)
Lemma spec_btree1_bytes tol dim c es nb cs (r : list N) :
  wrap16 c = N.of_nat (length es) ->
  Forall (fun e => entry_ok dim e = true) es ->
  length cs = dim -> Forall (fun x => x <= U64MAX) cs -> nb < 4294967296 ->
  spec_dec_btree1 tol 8 8 1 dim 32 (node_header c ++ flat_map enc_entry es ++ enc_key nb 0 cs ++ r) =
    (tg <- devif (64 <? N.of_nat (length es)) tol T_btree1_node_over_capacity;;
     Ok ({| b1_type := 1; b1_level := 0; b1_n := N.of_nat (length es); b1_left := U64MAX; b1_right := U64MAX;
            b1_keys := map spec_key_of es ++ [nb :: 0 :: cs]; b1_children := map w_addr es |}, tg, r)).
Proof.
  intros Hc He Hl Hcs Hnb.
  unfold spec_dec_btree1, node_header. change SIG_TREE with tree_sig. rewrite <- !app_assoc.
  parse p_expect_app. parse p_byte_cons. parse guard_Ok. parse p_byte_cons.
  parse p_u_le by now apply N.mod_lt. rewrite Hc. change (2 * 32) with 64.
  destruct (devif (64 <? N.of_nat (length es)) tol T_btree1_node_over_capacity) as [tg| |]; [|reflexivity..].
  rewrite !obind_Ok. do 2 parse p_u_le. rewrite Nat2N.id. parse p_entries_enc.
  now rewrite p_key_enc, obind_Ok by (auto; lia).
Qed.

Lemma spec_btree1_leaf_app tol dim es (r : list N) :
  Forall (fun e => entry_ok dim e = true) es -> N.of_nat (length es) < 65536 ->
  spec_dec_btree1 tol 8 8 1 dim 32 (serialize_leaf dim es ++ r) =
    (tg <- devif (64 <? N.of_nat (length es)) tol T_btree1_node_over_capacity;;
     Ok (spec_leaf dim es, tg, r)).
Proof.
  intros He Hn. unfold serialize_leaf. rewrite <- !app_assoc.
  rewrite spec_btree1_bytes; auto.
  - apply wrap16_small. exact Hn.
  - apply repeat_length.
  - apply repeat_U64MAX_le.
  - lia.
Qed.

Lemma spec_btree1_leaf tol dim es :
  Forall (fun e => entry_ok dim e = true) es -> N.of_nat (length es) < 65536 ->
  spec_dec_btree1 tol 8 8 1 dim 32 (serialize_leaf dim es) =
    (tg <- devif (64 <? N.of_nat (length es)) tol T_btree1_node_over_capacity;;
     Ok (spec_leaf dim es, tg, [])).
Proof.
  intros He Hn. rewrite <- (app_nil_r (serialize_leaf dim es)). now apply spec_btree1_leaf_app.
Qed.

Lemma spec_btree1_leaf_tolerant dim es :
  Forall (fun e => entry_ok dim e = true) es -> N.of_nat (length es) < 65536 ->
  spec_dec_btree1 tolerant 8 8 1 dim 32 (serialize_leaf dim es) =
    Ok (spec_leaf dim es, if 64 <? N.of_nat (length es) then [T_btree1_node_over_capacity] else [], []).
Proof.
  intros He Hn. rewrite spec_btree1_leaf by assumption.
  destruct (64 <? N.of_nat (length es)); reflexivity.
Qed.

(* the strict decoder accepts iff the node holds at most 2K = 64 chunks *)
Lemma spec_btree1_leaf_strict dim es :
  Forall (fun e => entry_ok dim e = true) es -> N.of_nat (length es) < 65536 ->
  spec_dec_btree1 strict 8 8 1 dim 32 (serialize_leaf dim es) =
    if 64 <? N.of_nat (length es) then Err else Ok (spec_leaf dim es, [], []).
Proof.
  intros He Hn. rewrite spec_btree1_leaf by assumption.
  destruct (64 <? N.of_nat (length es)); reflexivity.
Qed.

Lemma spec_btree1_leaf_strict_iff dim es :
  Forall (fun e => entry_ok dim e = true) es -> N.of_nat (length es) < 65536 ->
  (spec_dec_btree1 strict 8 8 1 dim 32 (serialize_leaf dim es) = Ok (spec_leaf dim es, [], []) <-> N.of_nat (length es) <= 64) /\
  (spec_dec_btree1 strict 8 8 1 dim 32 (serialize_leaf dim es) = Err <-> 64 < N.of_nat (length es)).
Proof.
  intros He Hn. rewrite spec_btree1_leaf_strict by assumption.
  destruct (64 <? N.of_nat (length es)) eqn:E.
  - apply N.ltb_lt in E. split; split; intros H; try discriminate; auto; lia.
  - apply N.ltb_ge in E. split; split; intros H; try discriminate; auto; lia.
Qed.

Lemma write_index_shape rep dim es f eof f' eof' addr :
  write_index rep dim es f eof = Ok (f', eof', addr) ->
  addr = eof /\ exists pre suf, f' = pre ++ serialize_leaf dim (sort_entries es) ++ suf /\ blen pre = addr.
Proof.
  unfold write_index, write_index_st, st_result. intros H.
  destruct (negb (forallb (fun e => Nat.eqb (length (w_coord e)) dim) es)); [discriminate|].
  destruct es as [|e0 er]; [discriminate|].
  destruct (rep && (MAX_ENTRIES <? N.of_nat (length (e0 :: er)))); [discriminate|].
  cbv zeta in H. unfold alloc in H.
  destruct (blen (serialize_leaf dim (sort_entries (e0 :: er))) =? 0); [discriminate|].
  inversion H; subst. split; [reflexivity|].
  destruct (write_at_shape f (serialize_leaf dim (sort_entries (e0 :: er))) addr (serialize_leaf_nonempty _ _))
    as (pre & suf & Hw & Hp).
  exists pre, suf. auto.
Qed.

Lemma skipn_blen_app (pre x : list N) a : blen pre = a -> skipn (N.to_nat a) (pre ++ x) = x.
Proof.
  intros <-. rewrite to_nat_blen. apply skipn_length_app.
Qed.

(* after any successful write_index the bytes of the file from the returned address on decode, under the specification
   decoder, to the SORTED entries; the bytes that remain are the rest of the file *)
Theorem spec_btree1_written_tol tol rep dim es f eof f' eof' addr :
  write_index rep dim es f eof = Ok (f', eof', addr) ->
  Forall (fun e => entry_ok dim e = true) es -> N.of_nat (length es) < 65536 ->
  exists suf,
    skipn (N.to_nat addr) f' = serialize_leaf dim (sort_entries es) ++ suf /\
    spec_dec_btree1 tol 8 8 1 dim 32 (skipn (N.to_nat addr) f') =
      (tg <- devif (64 <? N.of_nat (length es)) tol T_btree1_node_over_capacity;;
       Ok (spec_leaf dim (sort_entries es), tg, suf)).
Proof.
  intros Hw He Hn. destruct (write_index_shape _ _ _ _ _ _ _ _ Hw) as (_ & pre & suf & Hf & Hp).
  exists suf. subst f'. rewrite (skipn_blen_app pre _ addr Hp). split; [reflexivity|].
  rewrite spec_btree1_leaf_app.
  - rewrite sort_entries_length. reflexivity.
  - apply sort_entries_Forall. exact He.
  - rewrite sort_entries_length. exact Hn.
Qed.

Theorem spec_btree1_written rep dim es f eof f' eof' addr :
  write_index rep dim es f eof = Ok (f', eof', addr) ->
  Forall (fun e => entry_ok dim e = true) es -> N.of_nat (length es) < 65536 ->
  exists suf,
    skipn (N.to_nat addr) f' = serialize_leaf dim (sort_entries es) ++ suf /\
    spec_dec_btree1 tolerant 8 8 1 dim 32 (skipn (N.to_nat addr) f') =
      Ok (spec_leaf dim (sort_entries es),
          if 64 <? N.of_nat (length es) then [T_btree1_node_over_capacity] else [], suf).
Proof.
  intros Hw He Hn. destruct (spec_btree1_written_tol tolerant _ _ _ _ _ _ _ _ Hw He Hn) as (suf & H1 & H2).
  exists suf. split; [exact H1|]. rewrite H2.
  destruct (64 <? N.of_nat (length es)); reflexivity.
Qed.

Theorem spec_btree1_written_strict rep dim es f eof f' eof' addr :
  write_index rep dim es f eof = Ok (f', eof', addr) ->
  Forall (fun e => entry_ok dim e = true) es -> N.of_nat (length es) < 65536 ->
  exists suf,
    skipn (N.to_nat addr) f' = serialize_leaf dim (sort_entries es) ++ suf /\
    spec_dec_btree1 strict 8 8 1 dim 32 (skipn (N.to_nat addr) f') =
      if 64 <? N.of_nat (length es) then Err else Ok (spec_leaf dim (sort_entries es), [], suf).
Proof.
  intros Hw He Hn. destruct (spec_btree1_written_tol strict _ _ _ _ _ _ _ _ Hw He Hn) as (suf & H1 & H2).
  exists suf. split; [exact H1|]. rewrite H2.
  destruct (64 <? N.of_nat (length es)); reflexivity.
Qed.

(* the same with the model's ReadAt of exactly the node's bytes (the node ends below 2^63): nothing remains *)
Theorem spec_btree1_written_read rep dim es f eof f' eof' addr :
  write_index rep dim es f eof = Ok (f', eof', addr) ->
  Forall (fun e => entry_ok dim e = true) es -> N.of_nat (length es) < 65536 ->
  addr + blen (serialize_leaf dim es) <= MAXINT64 ->
  read_at f' addr (blen (serialize_leaf dim es)) = Some (serialize_leaf dim (sort_entries es)) /\
  spec_dec_btree1 tolerant 8 8 1 dim 32 (serialize_leaf dim (sort_entries es)) =
    Ok (spec_leaf dim (sort_entries es),
        if 64 <? N.of_nat (length es) then [T_btree1_node_over_capacity] else [], []).
Proof.
  intros Hw He Hn Hm. destruct (write_index_shape _ _ _ _ _ _ _ _ Hw) as (_ & pre & suf & Hf & Hp).
  split.
  - subst f'. apply read_at_app; auto.
    + symmetry. apply blen_serialize_sorted. exact He.
    + unfold MAXINT64 in *. lia.
  - rewrite spec_btree1_leaf_tolerant.
    + rewrite sort_entries_length. reflexivity.
    + apply sort_entries_Forall. exact He.
    + rewrite sort_entries_length. exact Hn.
Qed.

(* When the count does not fit 16 bits the header announces k = count mod 65536 entries.  The specification decoder does NOT
   reject these bytes: it returns a node of the first k entries whose final key is the key of entry k, and leaves the other
   entries unread - for every tolerance.  (k = 0 for 65536 entries: an accepted EMPTY leaf.)  The logical content differs from
   what the encoder was given: [spec_leaf dim (es1 ++ e :: es2)] has more children. *)
Theorem spec_btree1_wrap_refuted tol dim es1 e es2 :
  Forall (fun e => entry_ok dim e = true) (es1 ++ e :: es2) ->
  wrap16 (N.of_nat (length (es1 ++ e :: es2))) = N.of_nat (length es1) ->
  spec_dec_btree1 tol 8 8 1 dim 32 (serialize_leaf dim (es1 ++ e :: es2)) =
    (tg <- devif (64 <? N.of_nat (length es1)) tol T_btree1_node_over_capacity;;
     Ok ({| b1_type := 1; b1_level := 0; b1_n := N.of_nat (length es1); b1_left := U64MAX; b1_right := U64MAX;
            b1_keys := map spec_key_of es1 ++ [spec_key_of e]; b1_children := map w_addr es1 |}, tg,
         le 8 (w_addr e) ++ flat_map enc_entry es2 ++ enc_key 0 0 (repeat U64MAX dim)))
  /\ b1_children (spec_leaf dim (es1 ++ e :: es2)) <> map w_addr es1.
Proof.
  intros He Hc. split.
  - apply Forall_app in He as [He1 He2]. apply Forall_cons_iff in He2 as [He0 He2].
    destruct (entry_ok_spec _ _ He0) as (E1 & E2 & E3 & E4).
    unfold serialize_leaf. rewrite flat_map_app. cbn [flat_map]. unfold enc_entry at 2.
    rewrite <- !app_assoc.
    rewrite spec_btree1_bytes; auto.
  - cbn [spec_leaf b1_children]. rewrite map_app. cbn [map]. intros H.
    apply (f_equal (@length N)) in H. rewrite app_length, !map_length in H. cbn [length] in H. lia.
Qed.

(* k chunks of a one-dimensional dataset: 4 elements per chunk, 16 bytes each, stored one after the other from 4096 *)
Definition cap_entries (k : nat) : list wentry :=
  map (fun i => ([4 * N.of_nat i], 4096 + 16 * N.of_nat i, 16)) (seq 0 k).

Lemma cap_entries_length k : length (cap_entries k) = k.
Proof. unfold cap_entries. now rewrite map_length, seq_length. Qed.

(* finding C05-btree1-node-over-capacity: 65 chunks in one node of capacity 64 *)
Lemma btree1_over_capacity_refuted :
  forallb (entry_ok 1) (cap_entries 65) = true /\ distinct_coords (cap_entries 65) = true /\
  spec_dec_btree1 strict 8 8 1 1 32 (serialize_leaf 1 (cap_entries 65)) = Err /\
  spec_dec_btree1 tolerant 8 8 1 1 32 (serialize_leaf 1 (cap_entries 65)) =
    Ok (spec_leaf 1 (cap_entries 65), [T_btree1_node_over_capacity], []).
Proof.
  assert (W : forallb (entry_ok 1) (cap_entries 65) = true) by (vm_compute; reflexivity).
  assert (L : N.of_nat (length (cap_entries 65)) < 65536) by (rewrite cap_entries_length; lia).
  assert (C : (64 <? N.of_nat (length (cap_entries 65))) = true) by (rewrite cap_entries_length; reflexivity).
  split; [exact W|]. split; [vm_compute; reflexivity|]. split.
  - rewrite spec_btree1_leaf_strict by (auto using entries_ok_Forall). rewrite C. reflexivity.
  - rewrite spec_btree1_leaf_tolerant by (auto using entries_ok_Forall). rewrite C. reflexivity.
Qed.

(* a node at its capacity, and a small one: strictly conformant *)
Lemma btree1_within_capacity_conformant :
  spec_dec_btree1 strict 8 8 1 1 32 (serialize_leaf 1 (cap_entries 64)) = Ok (spec_leaf 1 (cap_entries 64), [], []) /\
  spec_dec_btree1 strict 8 8 1 1 32 (serialize_leaf 1 (cap_entries 3)) = Ok (spec_leaf 1 (cap_entries 3), [], []).
Proof.
  split.
  - assert (W : forallb (entry_ok 1) (cap_entries 64) = true) by (vm_compute; reflexivity).
    rewrite spec_btree1_leaf_strict; [|auto using entries_ok_Forall|rewrite cap_entries_length; lia].
    rewrite cap_entries_length. reflexivity.
  - assert (W : forallb (entry_ok 1) (cap_entries 3) = true) by (vm_compute; reflexivity).
    rewrite spec_btree1_leaf_strict; [|auto using entries_ok_Forall|rewrite cap_entries_length; lia].
    rewrite cap_entries_length. reflexivity.
Qed.

(* the universal lemma agrees with plain evaluation of the decoder on the small witness *)
Example btree1_small_eval :
  spec_dec_btree1 strict 8 8 1 1 32 (serialize_leaf 1 (cap_entries 3)) =
    Ok ({| b1_type := 1; b1_level := 0; b1_n := 3; b1_left := U64MAX; b1_right := U64MAX;
           b1_keys := [[16; 0; 0]; [16; 0; 4]; [16; 0; 8]; [0; 0; U64MAX]];
           b1_children := [4096; 4112; 4128] |}, [], []).
Proof. vm_compute. reflexivity. Qed.
