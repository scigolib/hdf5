(* C11, Model/CodecCompound.v: array and enum datatype messages round-trip; compound member lists: an example, and the
   member whose extent the decoder gets wrong. *)
From HV Require Import Base.Prelude Base.Outcome Base.Bytes Model.CodecType Model.CodecCompound Proofs.CodecMsg Proofs.CodecType.

Lemma array_roundtrip x : wf_array x = true -> dec_datatype (enc_array x) = Ok (proj_array x).
Proof.
  unfold wf_array, encok_array. intros H.
  rewrite !andb_true_iff in H. destruct H as (((((Hne & Hle) & Hbase) & Hd32) & Hsize) & Hd64). apply N.ltb_lt in Hsize. apply Nat.leb_le in Hle.
  destruct x as [base dims size]; cbn [ar_base ar_dims ar_size] in *.
  unfold dec_datatype, enc_array, proj_array. cbn [ar_base ar_dims ar_size].
  assert (Hw : wrap8 (blen dims) = blen dims) by (unfold wrap8, blen; apply N.mod_small; blia).
  rewrite Hw.
  assert (Hm : map (fun d => le 4 (wrap32 d)) dims = map (le 4) dims).
  { apply map_ext_in. intros d Hin. rewrite forallb_forall in Hd32. apply Hd32 in Hin. apply N.leb_le in Hin.
    unfold wrap32. rewrite N.mod_small by blia. reflexivity. }
  rewrite Hm.
  rewrite app_length.
  replace (length (dt_header DT_ARRAY 3 0 size)) with 8%nat
    by (pose proof (blen_dt_header DT_ARRAY 3 0 size) as E; unfold blen in E; blia).
  rewrite dec_dt_header by (auto; unfold DT_ARRAY; blia).
  unfold plen. cbv [DT_ARRAY DT_FIXED DT_FLOAT DT_BITFIELD DT_TIME DT_COMPOUND]. cbn [N.eqb Pos.eqb obind].
  rewrite N.ltb_irrefl, firstn_blen. reflexivity.
Qed.

Lemma enum_roundtrip x : wf_enum x = true -> dec_datatype (enc_enum x) = Ok (proj_enum x).
Proof.
  unfold wf_enum, encok_enum. intros H.
  rewrite !andb_true_iff in H. destruct H as ((((Hne & Hcnt) & Hbase) & Hvals) & Hsize).
  apply N.ltb_lt in Hsize. apply N.leb_le in Hcnt.
  unfold dec_datatype, enc_enum, proj_enum.
  rewrite app_length.
  replace (length (dt_header DT_ENUM 3 (enum_count x) (en_size x))) with 8%nat
    by (pose proof (blen_dt_header DT_ENUM 3 (enum_count x) (en_size x)) as E; unfold blen in E; blia).
  rewrite dec_dt_header by (auto; unfold DT_ENUM; blia).
  unfold plen. cbv [DT_ENUM DT_FIXED DT_FLOAT DT_BITFIELD DT_TIME DT_COMPOUND]. cbn [N.eqb Pos.eqb obind].
  rewrite N.ltb_irrefl, firstn_blen. reflexivity.
Qed.

(* compound: a string member that is not the last one makes the member list unparsable *)
Lemma compound_member_extent_refuted :
  encok_compound compound_witness = true /\ dec_compound (enc_compound compound_witness) = Err.
Proof. vm_compute. split; reflexivity. Qed.

(* ... with the same two members in the other order the list comes back *)
Lemma compound_ok_example_roundtrip :
  dec_compound (enc_compound compound_ok_example)
  = Ok {| cpp_version := 3; cpp_cbf := 0; cpp_size := 12; cpp_members := cp_fields compound_ok_example |}.
Proof. vm_compute. reflexivity. Qed.
