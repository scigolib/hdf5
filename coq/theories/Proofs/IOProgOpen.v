(* C17: hdf5.Open (Model/IOProgOpen.v).
   - with the repaired readSignature the loader is in the strict fragment for every load budget;
   - the unrepaired readSignature is outside the fragment: loadchildren_sig_refuted. *)
From HV Require Import Base.Prelude Base.Outcome Base.Bytes Model.IOProg Proofs.IOProg Model.IOProgReader Proofs.IOProgReader.
From HV Require Import Model.IOProgOpen.
From HV Require Import Model.CodecSuper Model.CodecOhdr Model.CodecMsg Model.CodecType Model.CodecLink.

Section Loader.
Variable sb : superblock'.
Hypothesis Hl : valid_size (spp_lensize sb) = true.
Variable budget : N.
Variable hfuel : nat.

Local Hint Resolve p_ohdr_strict p_attrs_strict p_snod_strict p_local_heap_strict p_group_btree_strict : core.

Lemma p_sig_strict A addr (k : bytes -> prog A) : (forall b, strict (k b)) -> strict (p_sig true addr k).
Proof. intros H. unfold p_sig. now apply st_read. Qed.

Lemma with_header_strict A addr (k : ohdr' -> prog A) : (forall h, strict (k h)) -> strict (with_header sb hfuel addr k).
Proof. exact (ohdr_then_strict sb Hl A hfuel addr k). Qed.

(* strict_auto, knowing the two wrappers of the loader *)
Ltac loader_auto :=
  repeat (first [apply p_sig_strict; intros | apply with_header_strict; intros | strict_step]; try assumption; auto).

Lemma p_btre_entries_strict n : forall addr i, strict (p_btre_entries sb n addr i).
Proof. induction n; intros; cbn [p_btre_entries]; strict_auto. Qed.
Lemma p_btre_strict addr : strict (p_btre sb addr).
Proof. unfold p_btre. strict_auto. apply p_btre_entries_strict. Qed.

Lemma root_heap_strict h : strict (root_heap sb h).
Proof. unfold root_heap. strict_auto. Qed.
Hint Resolve p_btre_strict root_heap_strict : core.

Section WithRec.
Variable rec : req -> lstate -> prog (node * lstate).
Hypothesis Hrec : forall r st, strict (rec r st).

Lemma load_entry_strict heap e st : strict (load_entry rec heap e st).
Proof. destruct e as [[[[lo oa] ct] cb] ch]. unfold load_entry. strict_auto. Qed.
Hint Resolve load_entry_strict : core.

Lemma load_entries_strict heap es : forall st, strict (load_entries rec heap es st).
Proof. induction es; intros; cbn [load_entries]; strict_auto. Qed.
Hint Resolve load_entries_strict : core.

Lemma children_loop_strict heap es : forall st, strict (children_loop true sb rec heap es st).
Proof. induction es as [|e r IH]; intros; cbn [children_loop]; loader_auto. Qed.
Hint Resolve children_loop_strict : core.

Lemma p_children_strict bt hp st : strict (p_children true sb rec bt hp st).
Proof. unfold p_children. loader_auto. Qed.
Hint Resolve p_children_strict : core.

Lemma load_entries_trad_strict heap es : forall st, strict (load_entries_trad rec heap es st).
Proof. induction es as [|e r IH]; intros; cbn [load_entries_trad]; strict_auto. Qed.
Hint Resolve load_entries_trad_strict : core.

(* the root header lookup whose error is dropped: without the header the listing fails (group.go:359) *)
Lemma p_trad_strict addr st : strict (p_trad sb hfuel rec addr st).
Proof.
  unfold p_trad. apply strict_bind; [auto|]. intros es.
  apply st_swallow_fail; [loader_auto | intros [h|]; strict_auto | reflexivity].
Qed.
Hint Resolve p_trad_strict : core.

Lemma load_links_strict ms : forall st, strict (load_links sb rec ms st).
Proof. induction ms as [|m r IH]; intros; cbn [load_links]; strict_auto. Qed.
Hint Resolve load_links_strict : core.

Lemma p_modern_strict addr st : strict (p_modern true sb hfuel rec addr st).
Proof. unfold p_modern. loader_auto. Qed.

(* loadGroup tried for an untyped object of a version 0 file: its error is dropped, and then reported (group.go:635) *)
Lemma p_object_strict addr name st0 : strict (p_object true sb budget hfuel rec addr name st0).
Proof.
  unfold p_object. loader_auto.
  apply st_swallow_fail; [strict_auto | intros [x|]; constructor | reflexivity].
Qed.

Lemma p_group_strict addr st : strict (p_group true rec addr st).
Proof. unfold p_group. loader_auto. Qed.

Lemma p_cached_strict addr name bt hp st : strict (p_cached true sb rec addr name bt hp st).
Proof. unfold p_cached. strict_auto. Qed.

Lemma dispatch_strict r st : strict (dispatch true sb budget hfuel rec r st).
Proof.
  destruct r; cbn [dispatch];
    [apply p_object_strict | apply p_group_strict | apply p_modern_strict | apply p_trad_strict | apply p_cached_strict].
Qed.
End WithRec.

Theorem p_load_strict fuel : forall r st, strict (p_load true sb budget hfuel fuel r st).
Proof.
  induction fuel; intros; cbn [p_load]; [constructor|]. apply dispatch_strict. exact IHfuel.
Qed.
End Loader.

(* the superblock ReadSuperblock returns has validated sizes (superblock.go:131) *)
Lemma dec_sb_buf_valid buf n sb : dec_sb_buf buf n = Ok sb -> valid_size (spp_lensize sb) = true.
Proof.
  unfold dec_sb_buf.
  destruct (n <? 48); [discriminate|].
  apply obind_ok_elim; intros sig. destruct (negb _); [discriminate|].
  apply obind_ok_elim; intros version. destruct (negb _); [discriminate|]. destruct (_ && _); [discriminate|].
  apply obind_ok_elim; intros [[be1 o1] l1]. cbv zeta.
  destruct (valid_size _ && valid_size _) eqn:E; cbn [negb]; [|discriminate].
  apply andb_true_iff, proj2 in E.
  (* the record is built after three more reads, with the length size just validated *)
  destruct (version =? 0); do 3 (apply obind_ok_elim; intros ?); intros H; inversion H; exact E.
Qed.

Theorem p_open_strict fsize fuel hfuel : strict (p_open true fsize fuel hfuel).
Proof.
  unfold p_open. apply st_read. intros s.
  destruct (negb (bytes_eqb s signature)); [constructor|].
  (* the continuation of the superblock read only runs on superblocks the decoder returned *)
  unfold p_superblock. cbn [bind].
  apply st_short.
  - intros b g. destruct (dec_sb_buf b g) as [sb| |] eqn:E; cbn [lift bind]; [|constructor|constructor].
    destruct (fsize <=? spp_root sb); [constructor|].
    apply strict_bind; [|intros; constructor].
    apply p_load_strict. eapply dec_sb_buf_valid; eassumption.
  - exact (short_safe_map _ _ _ _ (fun p => bind p _) (short_safe_lift _ _ _ dec_sb_buf_safe) eq_refl).
Qed.

(* the shape of group.go:447-484 with the readSignature of /repo before 216d529, returning "" on a failed read: 4 bytes are read at [a];
   "SNOD" selects one way of listing the entry, anything else (also "") the other; both succeed *)
Definition sig_dispatch (a : N) : prog N :=
  Swallow (ReadAt a 4 (fun b => Ret b)) [] (fun sg => if bytes_eqb sg SNOD then Ret 1 else Ret 2).

Lemma loadchildren_sig_refuted :
  exists f k, run0 f (sig_dispatch 0) = Ok 1 /\ fst (run f (fault_at k FailIO) 0 (sig_dispatch 0)) = Ok 2.
Proof. exists SNOD, 0%nat. split; vm_compute; reflexivity. Qed.

(* and p_sig false is exactly that shape *)
Lemma p_sig_unrepaired_shape a :
  p_sig false a (fun sg => if bytes_eqb sg SNOD then Ret 1 else Ret 2) = sig_dispatch a.
Proof. reflexivity. Qed.
