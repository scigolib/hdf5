(* C03 end to end, reader stages with symbolic addresses, continued from Proofs/TreeImageHdr.v: loadChildren / loadModernGroup / loadObject on groups placed
   anywhere, the loop over n entries with the loader state threaded, and hdf5.Open on a file whose root has n <= 32 children
   that are datasets or empty groups (depth 1). *)
From HV Require Import Base.Prelude Base.Outcome Base.Bytes Model.IOProg Proofs.IOProg Model.IOProgReader Model.IOProgOpen.
From HV Require Import Model.CodecSuper Model.CodecOhdr Model.CodecMsg Model.CodecType Model.CodecLink Model.GroupWire Model.RobustGroup Model.RobustAlloc.
From HV Require Import Proofs.GroupWireHeap Proofs.GroupWireSnod.
From HV Require Import Model.FileImage Model.TreeImage Proofs.FileImage Proofs.FileImageOhdr Proofs.FileImageData Proofs.FileImageGroup.
From HV Require Import Proofs.TreeImageRead Proofs.TreeImageHdr.

Local Open Scope N_scope.

Lemma filter_leave a l : mem a l = false -> filter (fun x => negb (x =? a)) (a :: l) = l.
Proof.
  intros H. cbn [filter]. rewrite N.eqb_refl. cbn [negb].
  induction l as [|y r IH]; [reflexivity|]. cbn [mem existsb] in H. apply orb_false_iff in H as [H1 H2].
  cbn [filter]. rewrite N.eqb_sym in H1. rewrite H1. cbn [negb]. f_equal. apply IH. exact H2.
Qed.

Section Open.
Variable f : bytes.
Variable B : N.
Variable hfuel : nat.

(* the four blocks of a symbol-table group whose heap is at [a] (the layout of createGroupStructures + header) *)
Definition GroupAt (a : N) (seg : list N) (s : snode) : Prop :=
  placed f a (heap_header (blen seg) 1 (a + 32)) /\ placed f (a + 32) seg /\ blen seg = 256 /\
  placed f (a + 288) (snod_bytes s 32) /\ snode_ok s = true /\ (length (stn_entries s) <= 32)%nat /\
  Forall (fun e => sy_cache e = 0) (stn_entries s) /\
  placed f (a + 1576) (bt_block (a + 288)) /\
  HdrAt f hfuel (a + 2120) (group_ohdr (a + 1576) a) /\ a + 4000 < 4611686018427387904.

Definition with_vbt (st : lstate) (b : N) : lstate := {| vbt := b :: vbt st; loading := loading st; cnt := cnt st |}.

Section Rec.
Variable rec : req -> lstate -> prog (node * lstate).

Lemma children_placed a seg s st : GroupAt a seg s -> mem (a + 1576) (vbt st) = false ->
  run0 f (p_children true SB' rec (a + 1576) a st) =
  run0 f (children_loop true SB' rec seg (map stentry_of (stn_entries s)) (with_vbt st (a + 1576))).
Proof.
  intros (Hh & Hs & Hl & Hn & Hok & Hm & Hc & Hb & Ho & Hbd) Hv.
  unfold p_children. rewrite Hv.
  rewrite run0_bind, (local_heap_placed f a seg Hh Hs) by (rewrite ?Hl; unfold MAXI64; blia).
  assert (HT : placed f (a + 1576) [84; 82; 69; 69]) by (rewrite bt_block_bytes' in Hb by blia; exact (bt_sig_placed f _ _ Hb)).
  unfold p_sig at 1. rewrite (run0_read_exact _ f (a + 1576) _ 4 _ HT eq_refl).
  change (bytes_eqb [84; 82; 69; 69] [84; 82; 69; 69]) with true. cbv iota.
  rewrite run0_bind, (group_btree_placed f (a + 1576) (a + 288) s Hb) by (auto; blia).
  reflexivity.
Qed.

Lemma modern_placed a seg s st : GroupAt a seg s -> mem (a + 1576) (vbt st) = false ->
  run0 f (p_modern true SB' hfuel rec (a + 2120) st) =
  match run0 f (children_loop true SB' rec seg (map stentry_of (stn_entries s)) (with_vbt st (a + 1576))) with
  | Ok x => Ok (Grp [] (a + 2120) (fst x), snd x) | Err => Err | Panic => Panic end.
Proof.
  intros HG Hv. pose proof HG as (_ & _ & _ & _ & _ & _ & _ & _ & Ho & Hbd).
  destruct (group_ohdr_facts (a + 1576) a (a + 2120)) as (F1 & F2 & F3 & F4 & F5); [blia | blia |].
  unfold p_modern. rewrite (with_header_placed f hfuel _ (a + 2120) _ _ Ho F1).
  cbv zeta. rewrite F2, F3, F4, F5. change (0 =? 0) with true. cbn [orb negb]. cbv iota.
  rewrite run0_bind, (children_placed a seg s st HG Hv). reflexivity.
Qed.

Lemma group_req_placed a x st : HdrAt f hfuel a x -> a <> 0 ->
  run0 f (p_group true rec a st) = run0 f (rec (RModern a) st).
Proof.
  intros Ho Ha. unfold p_group. replace (a =? 0) with false by (symmetry; now apply N.eqb_neq).
  rewrite (sig_placed f _ a _ (HdrAt_sig f hfuel a x Ho)).
  change (bytes_eqb [79; 72; 68; 82] SNOD) with false. reflexivity.
Qed.
End Rec.

Inductive child := CDset (x : ohdr) | CGroup (seg : list N) (s0 : snode).
Definition ChildAt (a : N) (c : child) : Prop :=
  match c with
  | CDset x => HdrAt f hfuel a x /\ no_attr (oh_msgs x) = true /\ kind_of (oh_msgs x) = 1
  | CGroup seg s0 => exists g, a = g + 2120 /\ GroupAt g seg s0 /\ stn_entries s0 = []
  end.
Definition child_node (nm : bytes) (a : N) (c : child) : node :=
  match c with CDset _ => Dset nm a | CGroup _ _ => Grp nm a [] end.
(* the B-tree a child adds to visitedBTrees *)
Definition child_bt (a : N) (c : child) : list N := match c with CDset _ => [] | CGroup _ _ => [a - 2120 + 1576] end.
Definition child_st (st : lstate) (a : N) (c : child) : lstate :=
  {| vbt := child_bt a c ++ vbt st; loading := loading st; cnt := cnt st + 1 |}.

Lemma enter_ok st a : mem a (loading st) = false -> lenN' (loading st) < 1024 -> cnt st + 1 <= B ->
  enter B st a = EOk {| vbt := vbt st; loading := a :: loading st; cnt := cnt st + 1 |}.
Proof.
  intros H1 H2 H3. unfold enter. rewrite H1.
  replace (1024 <=? lenN' (loading st)) with false by (symmetry; apply N.leb_gt; exact H2).
  replace (B <? cnt st + 1) with false by (symmetry; apply N.ltb_ge; exact H3). reflexivity.
Qed.

Lemma object_child n a nm c st : ChildAt a c ->
  mem a (loading st) = false -> lenN' (loading st) < 1024 -> cnt st + 1 <= B ->
  Forall (fun b => mem b (vbt st) = false) (child_bt a c) ->
  run0 f (p_object true SB' B hfuel (p_load true SB' B hfuel (S (S n))) a nm st) = Ok (child_node nm a c, child_st st a c).
Proof.
  intros HC H1 H2 H3 Hv. unfold p_object. rewrite (enter_ok st a H1 H2 H3).
  set (st1 := {| vbt := vbt st; loading := a :: loading st; cnt := cnt st + 1 |}).
  destruct c as [x | seg s0].
  - destruct HC as (Ho & Hna & Hk).
    rewrite (sig_placed f _ a _ (HdrAt_sig f hfuel a x Ho)).
    change (bytes_eqb [79; 72; 68; 82] SNOD) with false. cbv iota.
    rewrite (with_header_placed f hfuel _ a x _ Ho Hna). cbv zeta.
    unfold proj_ohdr_v2 at 1 2. cbn [ohp_msgs]. rewrite det_type_at, Hk.
    change (1 =? 0) with false. change (1 =? 1) with true. cbv iota.
    cbn [run0_ret]. unfold leave. cbn [fst snd st1 vbt loading cnt]. rewrite run0_ret.
    rewrite (filter_leave a (loading st) H1). reflexivity.
  - destruct HC as (g & -> & HG & He).
    pose proof HG as (_ & _ & _ & _ & _ & _ & _ & _ & Ho & Hbd).
    destruct (group_ohdr_facts (g + 1576) g (g + 2120)) as (F1 & F2 & F3 & F4 & F5); [blia | blia |].
    rewrite (sig_placed f _ (g + 2120) _ (HdrAt_sig f hfuel _ _ Ho)).
    change (bytes_eqb [79; 72; 68; 82] SNOD) with false. cbv iota.
    rewrite (with_header_placed f hfuel _ (g + 2120) _ _ Ho F1). cbv zeta. rewrite F2.
    change (0 =? 0) with true. cbv iota.
    rewrite run0_bind. cbn [p_load dispatch].
    rewrite (group_req_placed _ (g + 2120) _ st1 Ho) by blia.
    cbn [p_load dispatch].
    assert (Hv1 : mem (g + 1576) (vbt st1) = false).
    { cbn [st1 vbt]. cbn [child_bt] in Hv. inversion Hv as [|? ? Hx _]; subst.
      replace (g + 2120 - 2120 + 1576) with (g + 1576) in Hx by blia. exact Hx. }
    rewrite (modern_placed _ g seg s0 st1 HG Hv1). rewrite He. cbn [map children_loop]. rewrite run0_ret.
    cbn [fst snd]. rewrite run0_ret. unfold leave, child_st, child_node, with_vbt. cbn [fst snd st1 vbt loading cnt child_bt app].
    rewrite (filter_leave (g + 2120) (loading st) H1).
    replace (g + 2120 - 2120 + 1576) with (g + 1576) by blia.
    f_equal. f_equal. unfold rename_nonempty. destruct nm; reflexivity.
Qed.

(* the loop of loadChildren over the entries of a node whose children are all ChildAt; state threaded *)
Fixpoint loop_st (st : lstate) (es : list sym) (cs : list (bytes * child)) : lstate :=
  match es, cs with
  | e :: es', nc :: cs' => loop_st (child_st st (sy_obj e) (snd nc)) es' cs'
  | _, _ => st
  end.
Fixpoint loop_nodes (es : list sym) (cs : list (bytes * child)) : list node :=
  match es, cs with
  | e :: es', nc :: cs' => child_node (fst nc) (sy_obj e) (snd nc) :: loop_nodes es' cs'
  | _, _ => []
  end.
Fixpoint loop_bts (es : list sym) (cs : list (bytes * child)) : list N :=
  match es, cs with
  | e :: es', nc :: cs' => child_bt (sy_obj e) (snd nc) ++ loop_bts es' cs'
  | _, _ => []
  end.

Lemma children_loop_depth1 n (seg : list N) : forall es cs st,
  Forall2 (fun e nc => heap_string seg (sy_name e) = Ok (fst nc) /\ ChildAt (sy_obj e) (snd nc)) es cs ->
  Forall (fun e => mem (sy_obj e) (loading st) = false) es -> lenN' (loading st) < 1024 ->
  cnt st + N.of_nat (length es) <= B ->
  NoDup (loop_bts es cs) -> Forall (fun b => mem b (vbt st) = false) (loop_bts es cs) ->
  run0 f (children_loop true SB' (p_load true SB' B hfuel (S (S (S n)))) seg (map stentry_of es) st)
  = Ok (loop_nodes es cs, loop_st st es cs).
Proof.
  induction es as [|e es IH]; intros cs st HF HL H1024 HB HND HV.
  - inversion HF; subst. reflexivity.
  - inversion HF as [|? nc ? cs' (Hn & HC) HF']; subst. destruct nc as [nm c]. cbn [fst snd] in *.
    apply Forall_cons_iff in HL as [HL0 HL].
    cbn [loop_bts snd] in HND, HV. apply Forall_app in HV as [HV0 HV].
    cbn [map children_loop stentry_of is_soft]. change (0 =? 2) with false. cbv iota.
    assert (Ho : placed f (sy_obj e) [79; 72; 68; 82]).
    { destruct c; cbn [ChildAt] in HC.
      - destruct HC as (Ho & _). exact (HdrAt_sig f hfuel _ _ Ho).
      - destruct HC as (g & -> & HG & _). destruct HG as (_ & _ & _ & _ & _ & _ & _ & _ & Ho & _). exact (HdrAt_sig f hfuel _ _ Ho). }
    rewrite (sig_placed f _ (sy_obj e) _ Ho).
    change (bytes_eqb [79; 72; 68; 82] SNOD) with false. rewrite andb_false_r.
    rewrite run0_bind. unfold load_entry, stentry_of. cbv iota beta. rewrite (run0_lift_ok _ _ _ _ f nm Hn).
    change (0 =? 1) with false. cbn [andb].
    change (p_load true SB' B hfuel (S (S (S n))) (RObject (sy_obj e) nm) st)
      with (p_object true SB' B hfuel (p_load true SB' B hfuel (S (S n))) (sy_obj e) nm st).
    cbn [length] in HB.
    rewrite (object_child n (sy_obj e) nm c st HC HL0 H1024) by (auto; blia).
    cbn [fst snd]. rewrite run0_bind. change (fun e0 : sym => (sy_name e0, sy_obj e0, 0, 0, 0)) with stentry_of.
    assert (S1 : Forall (fun e0 => mem (sy_obj e0) (loading (child_st st (sy_obj e) c)) = false) es) by exact HL.
    assert (S2 : lenN' (loading (child_st st (sy_obj e) c)) < 1024) by exact H1024.
    assert (S3 : cnt (child_st st (sy_obj e) c) + N.of_nat (length es) <= B) by (cbn [child_st cnt]; blia).
    assert (S4 : NoDup (loop_bts es cs')).
    { revert HND. clear. induction (child_bt (sy_obj e) c) as [|z r IHr]; intros H; [exact H|]. cbn [app] in H. inversion H; subst. now apply IHr. }
    assert (S5 : Forall (fun b => mem b (vbt (child_st st (sy_obj e) c)) = false) (loop_bts es cs')).
    { cbn [child_st vbt]. apply Forall_forall. intros b Hb.
      assert (Hb0 : mem b (vbt st) = false) by (exact (proj1 (Forall_forall _ _) HV b Hb)).
      unfold mem. rewrite existsb_app. fold (mem b (vbt st)). rewrite Hb0, orb_false_r.
      destruct (existsb (N.eqb b) (child_bt (sy_obj e) c)) eqn:E; [|reflexivity].
      apply existsb_exists in E as (y & Hy & Hey). apply N.eqb_eq in Hey. subst y.
      exfalso. revert HND Hy Hb. clear. intros HND Hy Hb.
      induction (child_bt (sy_obj e) c) as [|z r IHr]; [contradiction|].
      cbn [app] in HND. inversion HND as [|? ? Hni Hnd]; subst. destruct Hy as [->|Hy].
      * apply Hni. apply in_or_app. now right.
      * now apply IHr. }
    rewrite (IH cs' (child_st st (sy_obj e) c) HF' S1 S2 S3 S4 S5). rewrite run0_ret. reflexivity.
Qed.
End Open.

Theorem open_depth1 e (R : list N) hfuel n seg s cs :
  let f := enc_superblock (sb_eof e) ++ R in
  e < 18446744073709551616 -> 80 <= blen R ->
  GroupAt f hfuel 48 seg s ->
  Forall2 (fun e nc => heap_string seg (sy_name e) = Ok (fst nc) /\ ChildAt f hfuel (sy_obj e) (snd nc)) (stn_entries s) cs ->
  NoDup (1624 :: loop_bts (stn_entries s) cs) ->
  run0 f (p_open true (blen f) (S (S (S (S (S n))))) hfuel) = Ok (Grp [47] 2168 (loop_nodes (stn_entries s) cs)).
Proof.
  intros f He HR HG HF HND. pose proof HG as (_ & _ & _ & _ & _ & Hm & _ & _ & Ho & _).
  unfold p_open. unfold f at 1. rewrite sig_any. fold f.
  change (bytes_eqb signature signature) with true. cbn [negb].
  rewrite run0_bind. unfold f at 1. rewrite (superblock_any e R He HR). fold f. cbn [spp_root SB'].
  assert (Hlen : 2168 < blen f).
  { destruct Ho as (_ & (tail & HP & Ht) & _). apply placed_bound in HP. rewrite blen_app in HP.
    unfold enc_ohdr_v2 in HP. rewrite !blen_app in HP. change (blen [79; 72; 68; 82]) with 4 in HP. blia. }
  replace (blen f <=? 2168) with false by (symmetry; apply N.leb_gt; exact Hlen).
  rewrite run0_bind. set (B := blen f / 8 + 1024). set (st0 := {| vbt := []; loading := []; cnt := 0 |}).
  change (p_load true SB' B hfuel (S (S (S (S (S n))))) (RGroup 2168) st0)
    with (p_group true (p_load true SB' B hfuel (S (S (S (S n))))) (48 + 2120) st0).
  rewrite (group_req_placed f hfuel _ (48 + 2120) _ st0 Ho) by discriminate.
  change (p_load true SB' B hfuel (S (S (S (S n)))) (RModern (48 + 2120)) st0)
    with (p_modern true SB' hfuel (p_load true SB' B hfuel (S (S (S n)))) (48 + 2120) st0).
  rewrite (modern_placed f hfuel _ 48 seg s st0 HG eq_refl).
  inversion HND as [|? ? Hni Hnd]; subst.
  rewrite (children_loop_depth1 f B hfuel n seg (stn_entries s) cs (with_vbt st0 (48 + 1576)) HF).
  - cbn [fst snd rename]. reflexivity.
  - apply Forall_forall. intros; reflexivity.
  - reflexivity.
  - cbn [with_vbt cnt st0]. subst B. blia.
  - exact Hnd.
  - apply Forall_forall. intros b Hb. cbn [with_vbt vbt st0 mem existsb]. rewrite orb_false_r.
    apply N.eqb_neq. intros ->. apply Hni. exact Hb.
Qed.
