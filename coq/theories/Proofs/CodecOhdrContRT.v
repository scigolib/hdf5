(* C11, continuation chunks, part 3: ReadObjectHeader on a first chunk followed by a chain of
   continuation chunks returns the concatenated message list. *)
From HV Require Import Base.Prelude Base.Outcome Base.Bytes Model.CodecOhdr Proofs.CodecMsg Proofs.CodecOhdr
  Model.CodecOhdrCont Proofs.CodecOhdrCont Proofs.CodecOhdrContChain.

Lemma wf_chain_inv os ls flags a0 b0 ks : wf_chain os ls flags a0 b0 ks = true ->
  size_ok os = true /\ size_ok ls = true /\ flags < 256 /\ N.land flags 55 = 0 /\
  wf_msgs_c a0 = true /\ wf_msgs_c b0 = true /\ chunk0_size os ls a0 b0 (is_nil ks) <= 7 + 255 /\
  forallb wf_ochk ks = true /\ (length ks <= 1024)%nat.
Proof.
  unfold wf_chain. intros H. autorewrite with bool_prop in H. repeat split; try tauto. blia.
Qed.

Lemma chain_roundtrip os ls sbBE (pre : bytes) flags a0 b0 ks (suf : bytes) :
  wf_chain os ls flags a0 b0 ks = true ->
  let file := build_chain os ls sbBE pre flags a0 b0 ks suf in
  blen file < 9223372036854775808 -> blen file < 256 ^ os -> blen file < 256 ^ ls ->
  (ks = [] -> 1 <= blen suf) ->
  dec_ohdr_c os ls sbBE file (blen pre) = Ok (proj_chain os ls sbBE (blen pre) flags a0 b0 ks).
Proof.
  intros Hwf file Hfile Hfo Hfl Hsuf.
  apply wf_chain_inv in Hwf as (Hos & Hls & Hflag & Hmask & Hwa & Hwb & Hc0 & Hks & Hn).
  pose proof (size_ok_inv _ Hos) as Hos'. pose proof (size_ok_inv _ Hls) as Hls'.
  set (addr := blen pre) in *.
  set (pos := addr + chunk0_size os ls a0 b0 (is_nil ks)).
  set (ms0 := chunk_msgs os ls sbBE a0 b0 (next_link os ls pos ks)).
  set (cs := chunk_size_v2 ms0).
  assert (Hcs : 7 + cs = chunk0_size os ls a0 b0 (is_nil ks)).
  { subst cs ms0. rewrite chunk_msgs_size. unfold chunk0_size. blia. }
  assert (Hcs255 : cs <= 255) by blia.
  set (ochks := build_ochks os ls sbBE pos ks).
  assert (Hbl : blen file = addr + 7 + cs + blen ochks + blen suf).
  { unfold file, build_chain, enc_chunk0. rewrite !blen_app, ohdr_v2_blen. unfold size_ohdr_v2. cbn [oh_msgs].
    fold addr pos ms0 cs ochks. blia. }
  assert (F : file_at file addr (([79; 72; 68; 82] ++ [2; flags]) ++ le 1 cs ++ body_v2 ms0))
    by exact (fa_here pre _ (ochks ++ suf)).
  apply fa_split in F as [_ F]. apply fa_split in F as [F6 F2].
  change (addr + blen ([79; 72; 68; 82] ++ [2; flags]) + blen (le 1 cs)) with (addr + 6 + 1) in F2.
  change (addr + blen ([79; 72; 68; 82] ++ [2; flags])) with (addr + 6) in F6.
  apply (fa_eq _ _ (addr + 7)) in F2; [|blia].
  assert (F1 : file_at file pos ochks).
  { exists (pre ++ enc_chunk0 flags ms0), suf. split; [apply app_assoc|].
    unfold enc_chunk0. rewrite blen_app, ohdr_v2_blen. subst pos. fold addr. rewrite <- Hcs. reflexivity. }
  (* there is an eighth byte *)
  assert (HR : 1 <= cs + blen ochks + blen suf).
  { destruct ks as [|k r]; [specialize (Hsuf eq_refl); blia|].
    cbn [is_nil] in Hcs. unfold chunk0_size, link_size in Hcs. blia. }
  assert (S8 : slice file addr (addr + 8) = Ok (firstn 8 (enc_chunk0 flags ms0 ++ ochks ++ suf))).
  { apply (slice_mid_firstn pre (enc_chunk0 flags ms0 ++ ochks ++ suf) addr 0 8); [subst addr; blia|].
    unfold enc_chunk0. rewrite !blen_app, ohdr_v2_blen. unfold size_ohdr_v2. cbn [oh_msgs]. fold cs. blia. }
  unfold enc_chunk0, enc_ohdr_v2 in S8. cbn [oh_version oh_flags oh_msgs app firstn] in S8.
  assert (Hloop : v2_loop_c (fuel_c file) file os ls false sbBE 4 false (addr + 7) (addr + 7 + cs - 4) [] []
                  = Ok (msgs_chain os ls sbBE addr a0 b0 ks)).
  { unfold msgs_chain. fold pos ms0.
    pose proof (fuel_c_ge file) as Hfc.
    pose proof (ochk_fuel_bound file os ls sbBE Hfile Hfo Hfl ks pos Hks) as Hfb. fold ochks in Hfb.
    pose proof (length_le_chunk a0) as La. pose proof (length_le_chunk b0) as Lb.
    assert (Hlf : blen file = N.of_nat (length file)) by reflexivity.
    destruct ks as [|k r].
    - specialize (Hsuf eq_refl).
      apply v2_loop_c_mono with (f := (length ms0 + S O)%nat).
      + subst ms0. cbn [next_link chunk_msgs] in *. rewrite app_length.
        cbn [is_nil] in Hcs. unfold chunk0_size in Hcs. blia.
      + cbn [msgs_ochks]. rewrite app_nil_r.
        apply loop_chunk_last; auto; try blia.
        subst ms0. cbn [next_link chunk_msgs]. rewrite wf_msgs_c_app, Hwa, Hwb. reflexivity.
    - cbn [forallb] in Hks. pose proof Hks as Hks0. apply andb_true_iff in Hks0 as [Hk _].
      destruct (ochk_head file os ls sbBE Hfile Hfo Hfl pos k r F1 Hk) as (Hsig & _ & Hb & _ & Hs8 & _).
      subst ms0. cbn [next_link chunk_msgs fst snd] in *.
      set (ad := pos + blen (k_between k)) in *.
      set (sz := ochk_size os ls k (is_nil r)) in *.
      apply v2_loop_c_mono with (f := (length a0 + S (length b0 + S (ochk_fuel (k :: r))))%nat).
      + cbn [is_nil] in Hcs. unfold chunk0_size, link_size in Hcs. blia.
      + apply loop_chunk_link; auto; try blia; try (cbn [length]; blia).
        apply ochks_loop; auto;
          try (constructor; [subst ad; blia|constructor]); try (cbn [length] in *; blia). }
  clearbody file. bnorm.
  unfold dec_ohdr_c, readable.
  rewrite (proj2 (N.leb_gt _ _)), leb_true, S8 by blia. cbn [negb obind firstn].
  change (bytes_eqb [79; 72; 68; 82] OHDR) with true. cbv iota. unfold index.
  change (N.to_nat 4) with 4%nat. change (N.to_nat 5) with 5%nat. cbn [nth_error obind N.eqb Pos.eqb].
  unfold parse_v2_c, readable.
  rewrite (land_bit_false flags 5 55 Hmask), (land_bit_false flags 4 55 Hmask), (land_bit_false flags 2 55 Hmask)
    by reflexivity.
  replace (N.land flags 3) with 0 by (change 3 with (N.land 55 3); now rewrite N.land_assoc, Hmask).
  change (N.shiftl 1 0) with 1. rewrite !wrap64_small by blia.
  rewrite leb_true, (fa_rd_le F6) by (auto; blia). cbn [negb andb obind].
  rewrite !wrap64_small, sub64_small by blia.
  replace (addr + 6 + 1) with (addr + 7) by blia.
  now rewrite Hloop.
Qed.

(* the hypotheses are satisfiable: two continuation chunks, seven messages *)
Definition ex_m (t : N) (d : bytes) : hmsg := {| hm_type := t; hm_data := d |}.
Definition ex_ks : list ochk :=
  [ {| k_between := [9; 9; 9]; k_a := [ex_m 13 [0; 65; 66]]; k_b := [ex_m 1 [5]]; k_gap := [0; 0]; k_ck := [1; 2; 3; 4] |};
    {| k_between := []; k_a := [ex_m 22 [7; 0; 0; 0]]; k_b := []; k_gap := []; k_ck := [1; 2; 3; 4] |} ].
Definition ex_file : bytes := build_chain 8 8 false [0; 0; 0; 0; 0] 8 [ex_m 1 [1; 2; 3]] [ex_m 3 [4]] ex_ks [].

Lemma chain_example :
  wf_chain 8 8 8 [ex_m 1 [1; 2; 3]] [ex_m 3 [4]] ex_ks = true /\
  blen ex_file = 105 /\
  omap (fun o => (ohp_refcount o, ohp_name o, map hmp_type (ohp_msgs o), map hmp_offset (ohp_msgs o)))
       (dec_ohdr_c 8 8 false ex_file 5)
  = Ok (7, [65; 66], [1; 16; 3; 13; 16; 1; 22], [12; 19; 39; 51; 58; 78; 93]) /\
  dec_ohdr_c 8 8 false ex_file 5 = Ok (proj_chain 8 8 false 5 8 [ex_m 1 [1; 2; 3]] [ex_m 3 [4]] ex_ks) /\
  dec_ohdr false ex_file 5 = Err.
Proof. vm_compute. repeat split; reflexivity. Qed.

Definition ochk_min : bytes := OCHK ++ [1; 1; 0; 0; 85] ++ [0; 0; 0; 0].     (* a 13-byte chunk: one message *)

(* a chunk whose linking message names the chunk itself (address 27, already visited): error, no loop *)
Lemma cont_cycle_refused :
  dec_ohdr_c 8 8 false
    (build_chain 8 8 false [] 0 [] []
       [ {| k_between := []; k_a := []; k_b := [cont_msg 8 8 false 27 28]; k_gap := []; k_ck := [0; 0; 0; 0] |} ] []) 0 = Err.
Proof. vm_compute. reflexivity. Qed.

(* two chunks naming each other *)
Lemma cont_cycle2_refused :
  dec_ohdr_c 8 8 false
    (build_chain 8 8 false [] 0 [] []
       [ {| k_between := []; k_a := []; k_b := []; k_gap := []; k_ck := [0; 0; 0; 0] |};
         {| k_between := []; k_a := []; k_b := [cont_msg 8 8 false 27 28]; k_gap := []; k_ck := [0; 0; 0; 0] |} ] []) 0 = Err.
Proof. vm_compute. reflexivity. Qed.

(* size below 8 is refused; the same file with the right size is read *)
Lemma cont_short_size_refused :
  dec_ohdr_c 8 8 false (build_chain 8 8 false [] 0 [] [cont_msg 8 8 false 27 7] [] ochk_min) 0 = Err /\
  oclass (dec_ohdr_c 8 8 false (build_chain 8 8 false [] 0 [] [cont_msg 8 8 false 27 13] [] ochk_min) 0) = 0.
Proof. vm_compute. split; reflexivity. Qed.

(* no "OCHK" at the named address *)
Lemma cont_bad_signature_refused :
  dec_ohdr_c 8 8 false (build_chain 8 8 false [] 0 [] [cont_msg 8 8 false 28 12] [] ochk_min) 0 = Err /\
  dec_ohdr_c 8 8 false (build_chain 8 8 false [] 0 [] [cont_msg 8 8 false 27 13] [] ([79; 67; 72; 88] ++ skipn 4 ochk_min)) 0 = Err.
Proof. vm_compute. split; reflexivity. Qed.

(* the chunk lies beyond the end of the file *)
Lemma cont_beyond_file_refused :
  dec_ohdr_c 8 8 false (build_chain 8 8 false [] 0 [] [cont_msg 8 8 false 1000 13] [] ochk_min) 0 = Err.
Proof. vm_compute. reflexivity. Qed.
