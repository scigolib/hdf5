(* C11, compound datatypes as trees, part 2: leaves, the depth bound, and by structural induction over the tree that
   self-delimiting and well-formed trees are parsed back. *)
From HV Require Import Base.Prelude Base.Outcome Base.Bytes Model.CodecType Model.CodecCompound
  Model.CodecCompoundTree Proofs.CodecMsg Proofs.CodecType Proofs.CodecCompoundTree.

Scheme ctype_mind := Induction for ctype Sort Prop
  with cfields_mind := Induction for cfields Sort Prop.
Combined Scheme ctree_mutind from ctype_mind, cfields_mind.

Lemma hdr_ok_inv d : hdr_ok d = true ->
  dt_class d < 16 /\ dt_version d < 16 /\ dt_cbf d < 16777216 /\ dt_size d < 4294967296.
Proof.
  unfold hdr_ok. intros H. rewrite !andb_true_iff in H. destruct H as (((H1 & H2) & H3) & H4). apply N.ltb_lt in H1, H2, H3, H4. auto.
Qed.

Lemma fixed_plen_some fuel c v P n : fixed_plen c = Some n -> plen fuel c v P = Ok n /\ c <> DT_COMPOUND.
Proof.
  unfold fixed_plen, plen, DT_FIXED, DT_FLOAT, DT_BITFIELD, DT_TIME, DT_COMPOUND.
  destruct (N.eqb_spec c 0); [intros [= <-]; split; [reflexivity|lia]|].
  destruct (N.eqb_spec c 1); [intros [= <-]; split; [reflexivity|lia]|].
  destruct (N.eqb_spec c 4); [intros [= <-]; split; [reflexivity|lia]|].
  destruct (N.eqb_spec c 2); [intros [= <-]; split; [reflexivity|lia]|]. discriminate.
Qed.

Lemma fixed_plen_none fuel c v P : fixed_plen c = None -> c <> DT_COMPOUND -> plen fuel c v P = Ok (blen P).
Proof.
  unfold fixed_plen, plen, DT_FIXED, DT_FLOAT, DT_BITFIELD, DT_TIME, DT_COMPOUND. intros H Hc.
  destruct (c =? 0); [discriminate|]. destruct (c =? 1); [discriminate|].
  destruct (c =? 4); [discriminate|]. destruct (c =? 2); [discriminate|].
  destruct (N.eqb_spec c 6); [contradiction|]. reflexivity.
Qed.

Lemma firstn_app_exact (P rest : bytes) : firstn (N.to_nat (blen P)) (P ++ rest) = P.
Proof. rewrite to_nat_blen. apply firstn_length_app. Qed.

Lemma datatype_eta d :
  {| dt_class := dt_class d; dt_version := dt_version d; dt_size := dt_size d; dt_cbf := dt_cbf d;
     dt_props := dt_props d |} = d.
Proof. destruct d; reflexivity. Qed.

Lemma leaf_sd_dec d fuel rest : leaf_sd d = true -> dec_dt (S fuel) (member_hdr d ++ rest) = Ok d.
Proof.
  unfold leaf_sd. intros H. apply andb_true_iff in H as [Hh Hp].
  apply hdr_ok_inv in Hh as (H1 & H2 & H3 & H4).
  rewrite member_hdr_eq, <- app_assoc, dec_dt_header by auto.
  destruct (fixed_plen (dt_class d)) as [n|] eqn:E; [|discriminate]. apply N.eqb_eq in Hp.
  destruct (fixed_plen_some fuel _ (dt_version d) (dt_props d ++ rest) _ E) as [-> _]. cbn [obind].
  rewrite ltb_false by (rewrite blen_app; blia).
  rewrite <- Hp, firstn_app_exact. now rewrite datatype_eta.
Qed.

Lemma leaf_ok_dec d fuel : leaf_ok d = true -> dec_dt (S fuel) (member_hdr d) = Ok d.
Proof.
  unfold leaf_ok. intros H. apply andb_true_iff in H as [H Hp]. apply andb_true_iff in H as [Hh Hc].
  apply hdr_ok_inv in Hh as (H1 & H2 & H3 & H4). apply negb_true_iff, N.eqb_neq in Hc.
  rewrite member_hdr_eq, dec_dt_header by auto.
  destruct (fixed_plen (dt_class d)) as [n|] eqn:E.
  - apply N.eqb_eq in Hp. destruct (fixed_plen_some fuel _ (dt_version d) (dt_props d) _ E) as [-> _]. cbn [obind].
    rewrite <- Hp, N.ltb_irrefl, firstn_blen. now rewrite datatype_eta.
  - rewrite fixed_plen_none by auto. cbn [obind]. rewrite N.ltb_irrefl, firstn_blen. now rewrite datatype_eta.
Qed.

Lemma esize_fixed d : match fixed_plen (dt_class d) with Some n => blen (dt_props d) =? n | None => true end = true ->
  encoded_size d = 8 + blen (dt_props d).
Proof.
  unfold fixed_plen, encoded_size, DT_FIXED, DT_FLOAT, DT_BITFIELD, DT_TIME.
  destruct (dt_class d =? 0); [intros H; apply N.eqb_eq in H; blia|].
  destruct (dt_class d =? 1); [intros H; apply N.eqb_eq in H; blia|].
  destruct (dt_class d =? 4); [intros H; apply N.eqb_eq in H; blia|].
  destruct (dt_class d =? 2); [intros H; apply N.eqb_eq in H; blia|]. reflexivity.
Qed.

Lemma sd_esize t : sd t = true -> encoded_size (flat t) = 8 + blen (dt_props (flat t)).
Proof.
  destruct t as [d|v s fs]; cbn [sd flat]; intros H; [|reflexivity].
  unfold leaf_sd in H. apply andb_true_iff in H as [_ H]. apply esize_fixed.
  destruct (fixed_plen (dt_class d)); [exact H|discriminate].
Qed.

Lemma wf_esize t : wf_ctype t = true -> encoded_size (flat t) = 8 + blen (dt_props (flat t)).
Proof.
  destruct t as [d|v s fs]; cbn [wf_ctype flat]; intros H; [|reflexivity].
  unfold leaf_ok in H. apply andb_true_iff in H as [_ H]. now apply esize_fixed.
Qed.

(* depth is bounded by the encoded length (every level costs 8 header bytes) *)

Lemma length_member_hdr t : length (member_hdr t) = (8 + length (dt_props t))%nat.
Proof. unfold member_hdr. rewrite !app_length, !length_le. reflexivity. Qed.

Lemma depth_le_mut :
  (forall t, (depth t <= length (member_hdr (flat t)))%nat) /\
  (forall fs, forall v, (depth_fields fs <= length (comp_props v (flat_fields fs)))%nat).
Proof.
  apply ctree_mutind.
  - intros d. cbn [depth]. lia.
  - intros v s fs IH. cbn [depth flat]. rewrite length_member_hdr. cbn [dt_props]. specialize (IH v). lia.
  - intros v. cbn [depth_fields]. lia.
  - intros n o t IHt r IHr v. specialize (IHr v). cbn [depth_fields flat_fields].
    unfold comp_props in *. destruct (v =? 1); cbn [map concat length].
    + rewrite app_length. unfold enc_field_v1 at 1. cbn [fd_type]. rewrite !app_length. lia.
    + rewrite !app_length in *. rewrite !length_le in *. unfold enc_field_v3 at 1. cbn [fd_type]. rewrite !app_length. lia.
Qed.

Lemma depth_le t : (depth t <= length (member_hdr (flat t)))%nat.
Proof. apply depth_le_mut. Qed.

Fixpoint decsF (ef : field -> bytes) (fs : cfields) (rest : bytes) : Prop :=
  match fs with
  | CNil => True
  | CCons _ _ t r =>
      (forall fuel, (depth t < fuel)%nat ->
         dec_dt fuel (member_hdr (flat t) ++ concat (map ef (flat_fields r)) ++ rest) = Ok (flat t)) /\
      encoded_size (flat t) = 8 + blen (dt_props (flat t)) /\
      decsF ef r rest
  end.

Lemma decsF_fuel ef fs rest fuel : decsF ef fs rest -> (depth_fields fs < fuel)%nat -> decsP ef (dec_dt fuel) fs rest.
Proof.
  induction fs as [|n o t r IH] using cfields_ind; cbn [decsF decsP depth_fields]; auto.
  intros (H1 & H2 & H3) Hf. repeat split; auto; [apply H1|apply IH; auto]; lia.
Qed.

Lemma decsF_datatype ef fs rest : decsF ef fs rest -> decsP ef dec_datatype fs rest.
Proof.
  induction fs as [|n o t r IH] using cfields_ind; cbn [decsF decsP]; auto.
  intros (H1 & H2 & H3). repeat split; auto.
  unfold dec_datatype. apply H1. pose proof (depth_le t). rewrite app_length. lia.
Qed.

Lemma length_fields_le_v3 (l : list field) : (length l <= length (concat (map enc_field_v3 l)))%nat.
Proof.
  induction l as [|f l IH]; cbn [map concat length]; [lia|]. rewrite app_length.
  unfold enc_field_v3 at 1. rewrite !app_length. cbn [length]. lia.
Qed.
Lemma length_fields_le_v1 (l : list field) : (length l <= length (concat (map enc_field_v1 l)))%nat.
Proof.
  induction l as [|f l IH]; cbn [map concat length]; [lia|]. rewrite app_length.
  unfold enc_field_v1 at 1. rewrite !app_length, !length_le. lia.
Qed.

Lemma dec_dt_comp3 fuel s fs rest :
  s < 4294967296 -> nfs fs < 4294967296 -> names_ok fs = true ->
  decsP enc_field_v3 (dec_dt fuel) fs rest ->
  dec_dt (S fuel) (member_hdr (flat (CComp 3 s fs)) ++ rest) = Ok (flat (CComp 3 s fs)).
Proof.
  intros Hs Hn Hnm Hd.
  rewrite member_hdr_eq, <- app_assoc. cbn [flat dt_class dt_version dt_cbf dt_size dt_props].
  unfold comp_cbf, comp_props. cbn [N.eqb Pos.eqb].
  rewrite dec_dt_header by (unfold DT_COMPOUND; lia).
  set (l := flat_fields fs). set (body := concat (map enc_field_v3 l)).
  assert (Hw : wrap32 (N.of_nat (length l)) = nfs fs) by (subst l; rewrite <- nfs_length; rewrite wrap32_small; lia).
  rewrite Hw.
  unfold plen. cbv [DT_COMPOUND DT_FIXED DT_FLOAT DT_BITFIELD DT_TIME]. cbn [N.eqb Pos.eqb].
  unfold compound_props_len. cbn [N.eqb Pos.eqb negb].
  rewrite ltb_false by (rewrite !blen_app, blen_le; blia).
  rewrite <- app_assoc.
  rewrite (rd_le_head 4 4) by (auto; lia). cbn [obind].
  pose proof (cpl_loop_ok (dec_dt fuel) fs (le 4 (nfs fs)) rest (S (length (le 4 (nfs fs) ++ body ++ rest))) Hnm Hd) as HC.
  rewrite blen_le in HC. change (N.of_nat 4) with 4 in HC. fold l in HC. fold body in HC.
  rewrite HC.
  2:{ pose proof (length_fields_le_v3 l). fold body in H. rewrite !app_length. lia. }
  cbn [obind].
  rewrite ltb_false by (rewrite !blen_app, blen_le; blia).
  replace (4 + blen body) with (blen (le 4 (nfs fs) ++ body)) by (rewrite blen_app, blen_le; blia).
  rewrite app_assoc, firstn_app_exact. reflexivity.
Qed.

Lemma dec_dt_comp1 fuel s fs :
  s < 4294967296 -> nfs fs <= 65535 ->
  dec_dt (S fuel) (member_hdr (flat (CComp 1 s fs))) = Ok (flat (CComp 1 s fs)).
Proof.
  intros Hs Hn.
  rewrite member_hdr_eq. cbn [flat dt_class dt_version dt_cbf dt_size dt_props].
  unfold comp_cbf, comp_props. cbn [N.eqb Pos.eqb].
  assert (Hw : wrap16 (N.of_nat (length (flat_fields fs))) = nfs fs) by (rewrite <- nfs_length; rewrite wrap16_small; lia).
  rewrite Hw.
  rewrite dec_dt_header by (unfold DT_COMPOUND; lia).
  unfold plen. cbv [DT_COMPOUND DT_FIXED DT_FLOAT DT_BITFIELD DT_TIME]. cbn [N.eqb Pos.eqb].
  unfold compound_props_len. cbn [N.eqb Pos.eqb negb obind].
  rewrite N.ltb_irrefl, firstn_blen. reflexivity.
Qed.

Lemma size_ok_inv s : size_ok s = true -> s <> 0 /\ s < 4294967296.
Proof. unfold size_ok. intros H. apply andb_true_iff in H as [H1 H2]. apply negb_true_iff, N.eqb_neq in H1. apply N.ltb_lt in H2. auto. Qed.

Lemma sd_dec_mut :
  (forall t, sd t = true -> forall fuel rest, (depth t < fuel)%nat ->
     dec_dt fuel (member_hdr (flat t) ++ rest) = Ok (flat t)) /\
  (forall fs, sd_fields fs = true -> names_ok fs = true /\ forall ef rest, decsF ef fs rest).
Proof.
  apply ctree_mutind.
  - intros d H fuel rest Hf. destruct fuel; [lia|]. now apply leaf_sd_dec.
  - intros v s fs IH H fuel rest Hf. cbn [sd] in H.
    rewrite !andb_true_iff in H. destruct H as ((((Hv & Hs) & Hn) & Hne) & Hsd).
    apply N.eqb_eq in Hv. subst v. apply N.ltb_lt in Hn. apply size_ok_inv in Hs as [_ Hs].
    destruct (IH Hsd) as [Hnm HF].
    cbn [depth] in Hf. destruct fuel as [|fuel]; [lia|].
    apply dec_dt_comp3; auto. apply decsF_fuel; [apply HF|lia].
  - intros _. split; [reflexivity|]. intros; exact I.
  - intros n o t IHt r IHr H. cbn [sd_fields] in H.
    rewrite !andb_true_iff in H. destruct H as (((Hn & Ho) & Ht) & Hr).
    destruct (IHr Hr) as [Hnm HF]. split.
    + cbn [names_ok]. rewrite Hn, Ho, Hnm. reflexivity.
    + intros ef rest. cbn [decsF]. repeat split; [|now apply sd_esize|apply HF].
      intros fuel Hf. now apply IHt.
Qed.

Lemma sd_dec t fuel rest : sd t = true -> (depth t < fuel)%nat -> dec_dt fuel (member_hdr (flat t) ++ rest) = Ok (flat t).
Proof. intros H Hf. now apply (proj1 sd_dec_mut). Qed.

Lemma wf_dec_mut :
  (forall t, wf_ctype t = true -> forall fuel, (depth t < fuel)%nat ->
     dec_dt fuel (member_hdr (flat t)) = Ok (flat t)) /\
  (forall fs, wf_fields fs = true -> names_ok fs = true /\ forall ef, decsF ef fs []).
Proof.
  apply ctree_mutind.
  - intros d H fuel Hf. destruct fuel; [lia|]. now apply leaf_ok_dec.
  - intros v s fs IH H fuel Hf. cbn [wf_ctype] in H.
    rewrite !andb_true_iff in H. destruct H as ((((Hv & Hs) & Hn) & Hne) & Hwf).
    apply size_ok_inv in Hs as [_ Hs]. destruct (IH Hwf) as [Hnm HF].
    cbn [depth] in Hf. destruct fuel as [|fuel]; [lia|].
    apply orb_true_iff in Hv as [Hv|Hv]; apply N.eqb_eq in Hv; subst v; cbn [N.eqb Pos.eqb] in Hn.
    + apply N.leb_le in Hn. now apply dec_dt_comp1.
    + apply N.ltb_lt in Hn. rewrite <- (app_nil_r (member_hdr _)).
      apply dec_dt_comp3; auto. apply decsF_fuel; [apply HF|lia].
  - intros _. split; [reflexivity|]. intros; exact I.
  - intros n o t IHt r IHr H. cbn [wf_fields] in H.
    rewrite !andb_true_iff in H. destruct H as (((Hn & Ho) & Ht) & Hr).
    destruct (IHr Hr) as [Hnm HF]. split.
    + cbn [names_ok]. rewrite Hn, Ho, Hnm. reflexivity.
    + intros ef. cbn [decsF]. destruct r as [|n2 o2 t2 r2].
      * cbn iota in Ht. split; [|split]; [|now apply wf_esize|exact I].
        intros fuel Hf. cbn [flat_fields map concat app]. rewrite app_nil_r. now apply IHt.
      * cbn iota in Ht. split; [|split]; [|now apply sd_esize|apply HF].
        intros fuel Hf. now apply sd_dec.
Qed.

Lemma wf_dec t : wf_ctype t = true -> dec_datatype (member_hdr (flat t)) = Ok (flat t).
Proof.
  intros H. unfold dec_datatype. apply (proj1 wf_dec_mut); auto. pose proof (depth_le t). lia.
Qed.

Lemma sd_wf_mut : (forall t, sd t = true -> wf_ctype t = true) /\ (forall fs, sd_fields fs = true -> wf_fields fs = true).
Proof.
  apply ctree_mutind.
  - intros d. cbn [sd wf_ctype]. unfold leaf_sd, leaf_ok. intros H. apply andb_true_iff in H as [Hh Hp].
    rewrite Hh. destruct (fixed_plen (dt_class d)) as [n|] eqn:E; [|discriminate].
    destruct (fixed_plen_some O _ 0 [] _ E) as [_ Hc]. apply N.eqb_neq in Hc. rewrite Hc, Hp. reflexivity.
  - intros v s fs IH H. cbn [sd] in H. cbn [wf_ctype].
    rewrite !andb_true_iff in H. destruct H as ((((Hv & Hs) & Hn) & Hne) & Hsd).
    apply N.eqb_eq in Hv. subst v. cbn [N.eqb Pos.eqb orb]. rewrite Hs, Hn, Hne, (IH Hsd). reflexivity.
  - reflexivity.
  - intros n o t IHt r IHr H. cbn [sd_fields] in H. cbn [wf_fields].
    rewrite !andb_true_iff in H. destruct H as (((Hn & Ho) & Ht) & Hr).
    rewrite Hn, Ho, (IHr Hr). destruct r; [rewrite (IHt Ht)|rewrite Ht]; reflexivity.
Qed.
