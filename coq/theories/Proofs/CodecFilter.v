(* C11: the filter pipeline message (Model/CodecFilter.v).
   ParseFilterPipelineMessage inverts EncodePipelineMessage for every list of 1..255 filters,
   every NUL-free name of at most 65528 bytes and every list of at most 65535 client values. *)
From HV Require Import Base.Prelude Base.Outcome Base.Bytes Model.CodecFilter Proofs.CodecMsg.
From HV Require Proofs.CodecType.

(* pad to a multiple of 8, no machine arithmetic *)
Definition pad8 (n : N) : N := (n + 7) / 8 * 8.
(* what the reader computes (as int): nameLength, or nameLength + (8 - nameLength mod 8) *)
Definition reader_pad (n : N) : N := if n mod 8 =? 0 then n else n + (8 - n mod 8).

Definition size_filter (f : wfilter) : N := 8 + pad8 (blen (wf_name f)) + 4 * blen (wf_cd f).
Definition size_pipeline (fs : list wfilter) : N := 8 + fold_right (fun f a => size_filter f + a) 0 fs.

Lemma reader_pad_pad8 n : reader_pad n = pad8 n.
Proof. unfold reader_pad, pad8. destruct (N.eqb_spec (n mod 8) 0); lia. Qed.

(* the writer's uint16 computation is the mathematical padding up to 65528 ... *)
Lemma padded_name_w_pad8 n : n <= 65528 -> padded_name_w n = pad8 n.
Proof.
  intros H. unfold padded_name_w, pad8.
  destruct (N.ltb_spec 0 n) as [Hp|Hz].
  - rewrite (wrap16_small (n + 7)) by lia. apply wrap16_small. lia.
  - replace n with 0 by lia. reflexivity.
Qed.
(* ... hence equal to the reader's padding *)
Lemma padded_name_w_reader n : n <= 65528 -> padded_name_w n = reader_pad n.
Proof. intros H. rewrite padded_name_w_pad8 by auto. symmetry. apply reader_pad_pad8. Qed.
(* ... and the bound is tight: for a 65529..65535 byte name the uint16 sum wraps to 0 *)
Lemma padded_name_w_wraps n : 65528 < n < 65536 -> padded_name_w n = 0 /\ reader_pad n = 65536.
Proof.
  intros H. unfold padded_name_w, reader_pad, wrap16.
  replace (0 <? n) with true by (symmetry; apply N.ltb_lt; lia).
  destruct (N.eqb_spec (n mod 8) 0); split; lia.
Qed.

(* [pad8] is the padding of the datatype message's opaque tag, Model.CodecType.pad8, under a name of this file *)
Lemma pad8_ge n : n <= pad8 n.
Proof. exact (Proofs.CodecType.pad8_ge n). Qed.
Lemma pad8_0 : pad8 0 = 0.
Proof. reflexivity. Qed.

Definition enc_cd (cd : list N) : bytes := concat (map (fun v => le 4 (wrap32 v)) cd).

Lemma wf_filter_inv f : wf_filter f = true ->
  wf_id f < 65536 /\ wf_flags f < 65536 /\ blen (wf_name f) <= 65528 /\
  forallb (fun b => negb (b =? 0)) (wf_name f) = true /\
  blen (wf_cd f) <= 65535 /\ Forall (fun v => v < 4294967296) (wf_cd f).
Proof.
  unfold wf_filter. intros H.
  apply andb_true_iff in H as [H Hcd]. apply andb_true_iff in H as [H Hncd].
  apply andb_true_iff in H as [H Hnz]. apply andb_true_iff in H as [H Hnl].
  apply andb_true_iff in H as [Hid Hfl].
  apply N.ltb_lt in Hid, Hfl. apply N.leb_le in Hnl, Hncd.
  repeat split; auto.
  - apply forallb_forall. intros b Hb. rewrite forallb_forall in Hnz. apply Hnz in Hb.
    apply andb_true_iff in Hb as [Hb _]. exact Hb.
  - apply Forall_forall. intros v Hv. rewrite forallb_forall in Hcd. apply Hcd in Hv.
    apply N.ltb_lt in Hv. exact Hv.
Qed.

Lemma blen_enc_cd cd : blen (enc_cd cd) = 4 * blen cd.
Proof.
  induction cd as [|c r IH]; [reflexivity|].
  unfold enc_cd in *. cbn [map concat]. rewrite blen_app, IH, blen_le, blen_cons. blia.
Qed.

(* the cut in the writer's name field (copy into the exactly sized buffer) does nothing up to 65528 bytes *)
Lemma namefield_whole (name : bytes) : blen name <= 65528 ->
  firstn (N.to_nat (padded_name_w (blen name))) (name ++ zeros (N.to_nat (padded_name_w (blen name) - blen name)))
  = name ++ zeros (N.to_nat (padded_name_w (blen name) - blen name)).
Proof.
  intros H. apply firstn_all2. rewrite app_length, length_zeros.
  rewrite padded_name_w_pad8 by auto. pose proof (pad8_ge (blen name)). unfold blen in *. blia.
Qed.

Lemma blen_namepart (name : bytes) : blen name <= 65528 ->
  blen (if 0 <? blen name then name ++ zeros (N.to_nat (padded_name_w (blen name) - blen name)) else [])
  = pad8 (blen name).
Proof.
  intros H. rewrite padded_name_w_pad8 by auto. pose proof (pad8_ge (blen name)) as G.
  destruct (N.ltb_spec 0 (blen name)) as [Hp|Hz].
  - rewrite blen_app, blen_zeros. blia.
  - replace (blen name) with 0 by blia. reflexivity.
Qed.

Lemma filter_blen f : wf_filter f = true -> blen (enc_filter f) = size_filter f.
Proof.
  intros Hwf. destruct (wf_filter_inv f Hwf) as (Hid & Hfl & Hnl & Hnz & Hncd & Hcd).
  unfold enc_filter, size_filter. fold (enc_cd (wf_cd f)).
  rewrite (wrap16_small (blen (wf_name f))) by blia.
  brewrite (namefield_whole (wf_name f) Hnl).
  pose proof (blen_namepart (wf_name f) Hnl) as Lnp. bnorm.
  rewrite !blen_app, !blen_le, blen_enc_cd, Lnp. blia.
Qed.

Lemma pipeline_blen fs : wf_pipeline fs = true -> blen (enc_pipeline fs) = size_pipeline fs.
Proof.
  unfold wf_pipeline. intros H. apply andb_true_iff in H as [_ H].
  unfold enc_pipeline, size_pipeline. rewrite !blen_app, blen_zeros.
  change (blen [2; wrap8 (N.of_nat (length fs))]) with 2.
  enough (E : blen (concat (map enc_filter fs)) = fold_right (fun f a => size_filter f + a) 0 fs) by (rewrite E; blia).
  induction fs as [|f r IH]; [reflexivity|].
  cbn [forallb] in H. apply andb_true_iff in H as [Hf Hr].
  cbn [map concat fold_right]. rewrite blen_app, filter_blen, IH by auto. reflexivity.
Qed.

Lemma read_cd_app cd : forall file off,
  file_at file off (enc_cd cd) -> Forall (fun v => v < 4294967296) cd ->
  read_cd file (length cd) off = Ok cd.
Proof.
  induction cd as [|c r IH]; intros file off F H; [reflexivity|].
  inversion H as [|? ? Hc Hr]; subst.
  unfold enc_cd in F. cbn [map concat] in F. fold (enc_cd r) in F. rewrite wrap32_small in F by auto.
  apply fa_split in F as [Fc Fr]. rewrite blen_le in Fr. change (N.of_nat 4) with 4 in Fr.
  cbn [length read_cd]. now rewrite (fa_rd_le Fc), (IH _ _ Fr) by auto.
Qed.

(* a name without NUL is returned whole (also the empty one) *)
Lemma filter_name_nonul (name : bytes) :
  forallb (fun b => negb (b =? 0)) name = true -> filter_name name = name.
Proof.
  intros H. unfold filter_name, find0. change (N.to_nat 0) with 0%nat. cbn [skipn].
  rewrite find0_aux_nonul by auto.
  replace (0 + blen name <? blen name) with false by (symmetry; apply N.ltb_ge; blia).
  reflexivity.
Qed.

Lemma parse_filters_step f n (pre suf : bytes) off :
  off = blen pre -> wf_filter f = true ->
  parse_filters (S n) (pre ++ enc_filter f ++ suf) 2 true off =
  (rest <- parse_filters n (pre ++ enc_filter f ++ suf) 2 true (off + size_filter f);;
   Ok (proj_filter f :: rest)).
Proof.
  intros Hoff Hwf. destruct (wf_filter_inv f Hwf) as (Hid & Hfl & Hnl & Hnz & Hncd & Hcd).
  destruct f as [id name flags cd]. cbn [wf_id wf_name wf_flags wf_cd] in *.
  unfold enc_filter, size_filter, proj_filter. cbn [wf_id wf_name wf_flags wf_cd].
  fold (enc_cd cd).
  rewrite (wrap16_small id), (wrap16_small flags), (wrap16_small (blen name)), (wrap16_small (blen cd)) by blia.
  brewrite (namefield_whole name Hnl).
  pose proof (blen_namepart name Hnl) as Lnp. bnorm.
  set (namepart := if 0 <? blen name then name ++ zeros (N.to_nat (padded_name_w (blen name) - blen name)) else []) in *.
  unfold parse_filters.
  match goal with |- parse_filters_gen _ _ (pre ++ ?e ++ suf) _ _ _ = _ => pose proof (fa_here pre e suf) as F end.
  match goal with |- parse_filters_gen _ _ ?d _ _ _ = _ => remember d as D eqn:ED in * end.
  assert (LD : blen D = off + 8 + pad8 (blen name) + 4 * blen cd + blen suf).
  { rewrite ED, !blen_app, !blen_le, Lnp, blen_enc_cd. blia. }
  clear ED. rewrite <- Hoff in F. apply fa_split in F as [R1 F]. apply fa_split in F as [R2 F]. apply fa_split in F as [R3 F].
  apply fa_split in F as [R4 F]. apply fa_split in F as [Fn Fc]. rewrite !blen_le, ?Lnp in *.
  change (N.of_nat 2) with 2 in *.
  cbn [parse_filters_gen orb].
  rewrite ltb_false, (fa_rd_le R1), (fa_rd_le R2) by (auto; change (256 ^ 2) with 65536; blia). cbn [obind].
  rewrite (fa_rd_le R3), (fa_rd_le R4) by (auto; change (256 ^ 2) with 65536; blia). cbn [obind andb].
  match goal with |- obind ?e _ = _ =>
    assert (HN : e = Ok (name, off + 2 + 2 + 2 + 2 + pad8 (blen name))) end.
  { destruct (N.ltb_spec 0 (blen name)) as [Hp|Hz].
    - fold (reader_pad (blen name)). rewrite <- padded_name_w_reader, padded_name_w_pad8 by auto.
      unfold namepart in Fn. apply fa_app_l in Fn.
      rewrite ltb_false, (fa_slice Fn) by blia. cbn [obind]. now rewrite filter_name_nonul.
    - destruct name; [|rewrite blen_cons in Hz; blia]. rewrite blen_nil, pad8_0. do 2 f_equal. blia. }
  rewrite HN. cbn [obind].
  match goal with |- obind ?e _ = _ =>
    assert (HC : e = Ok (match cd with [] => None | c => Some c end,
                         off + 2 + 2 + 2 + 2 + pad8 (blen name) + 4 * blen cd)) end.
  { destruct cd as [|c0 cr]; [rewrite blen_nil, N.ltb_irrefl; do 2 f_equal; blia|].
    pose proof (blen_cons c0 cr) as Lc.
    rewrite (proj2 (N.ltb_lt 0 _)), ltb_false, to_nat_blen, (read_cd_app _ _ _ Fc) by (auto; blia).
    cbn [obind]. change (2 =? 1) with false. cbn [andb]. do 2 f_equal. blia. }
  rewrite HC. cbn [obind].
  replace (off + 2 + 2 + 2 + 2 + pad8 (blen name) + 4 * blen cd)
    with (off + (8 + pad8 (blen name) + 4 * blen cd)) by blia.
  destruct cd; reflexivity.
Qed.

Lemma parse_filters_encoded fs : forall (pre suf : bytes) off,
  off = blen pre -> forallb wf_filter fs = true ->
  parse_filters (length fs) (pre ++ concat (map enc_filter fs) ++ suf) 2 true off = Ok (map proj_filter fs).
Proof.
  induction fs as [|f r IH]; intros pre suf off Hoff H; [reflexivity|].
  cbn [forallb] in H. apply andb_true_iff in H as [Hf Hr].
  cbn [length map concat]. rewrite <- app_assoc.
  rewrite parse_filters_step by auto.
  rewrite (app_assoc pre).
  rewrite IH by (auto; rewrite blen_app, filter_blen by auto; blia).
  reflexivity.
Qed.

Lemma wf_pipeline_inv fs : wf_pipeline fs = true ->
  (1 <= length fs <= 255)%nat /\ forallb wf_filter fs = true.
Proof.
  unfold wf_pipeline, encok_pipeline. intros H.
  apply andb_true_iff in H as [H Hf]. apply andb_true_iff in H as [Hne Hle].
  apply negb_true_iff, Nat.eqb_neq in Hne. apply Nat.leb_le in Hle. split; auto. lia.
Qed.

Theorem pipeline_roundtrip fs : wf_pipeline fs = true ->
  dec_pipeline (enc_pipeline fs) = Ok (proj_pipeline fs).
Proof.
  intros Hwf. destruct (wf_pipeline_inv fs Hwf) as [Hlen Hfs].
  unfold dec_pipeline, dec_pipeline_gen, enc_pipeline, proj_pipeline.
  assert (W : wrap8 (N.of_nat (length fs)) = N.of_nat (length fs)) by (unfold wrap8; apply N.mod_small; lia).
  rewrite W. set (n := N.of_nat (length fs)) in *.
  set (C := concat (map enc_filter fs)).
  assert (LD : blen ([2; n] ++ zeros 6 ++ C) = 8 + blen C).
  { rewrite !blen_app, blen_zeros. change (blen [2; n]) with 2. blia. }
  rewrite LD.
  replace (8 + blen C <? 2) with false by (symmetry; apply N.ltb_ge; blia).
  replace (8 <=? 8 + blen C) with true by (symmetry; apply N.leb_le; blia).
  change (index ([2; n] ++ zeros 6 ++ C) 0) with (@Ok byte 2).
  change (index ([2; n] ++ zeros 6 ++ C) 1) with (@Ok byte n).
  cbn [obind].
  change (2 <? 1) with false. change (2 <? 2) with false. change (2 =? 1) with false. change (2 =? 2) with true.
  cbn [orb andb].
  replace (0 <? n) with true by (symmetry; apply N.ltb_lt; subst n; lia).
  brewrite (slice_app' [2; n] (zeros 6) C 2 8) by reflexivity.
  change (forallb (fun b : N => b =? 0) (zeros 6)) with true.
  cbv iota. cbn [andb].
  subst n. rewrite Nat2N.id.
  rewrite (app_assoc [2; N.of_nat (length fs)]). rewrite <- (app_nil_r C). subst C.
  change (parse_filters_gen pipeline_v2_names) with parse_filters.
  rewrite parse_filters_encoded by (auto; reflexivity).
  reflexivity.
Qed.

(* names of 0, 7, 8 and 9 bytes; no client data and three values *)
Definition ex_filters : list wfilter :=
  [ {| wf_id := 3; wf_name := []; wf_flags := 0; wf_cd := [] |};
    {| wf_id := 1; wf_name := [100; 101; 102; 108; 97; 116; 101]; wf_flags := 1; wf_cd := [6; 0; 4294967295] |};
    {| wf_id := 32000; wf_name := [115; 104; 117; 102; 102; 108; 101; 50]; wf_flags := 65535; wf_cd := [] |};
    {| wf_id := 65535; wf_name := [102; 108; 101; 116; 99; 104; 101; 114; 51]; wf_flags := 0; wf_cd := [1; 2; 3] |} ].

Example ex_filters_wf : wf_pipeline ex_filters = true /\ wf_pipeline (firstn 3 ex_filters) = true.
Proof. split; reflexivity. Qed.
Example ex_filters_size : size_pipeline ex_filters = 8 + (8 + 0 + 0) + (8 + 8 + 12) + (8 + 8 + 0) + (8 + 16 + 12).
Proof. reflexivity. Qed.
(* the round trip of this value by evaluation, independently of the theorem *)
Example ex_filters_eval :
  dec_pipeline (enc_pipeline ex_filters) = Ok (proj_pipeline ex_filters) /\
  dec_pipeline (enc_pipeline (firstn 3 ex_filters)) = Ok (proj_pipeline (firstn 3 ex_filters)) /\
  blen (enc_pipeline ex_filters) = 96.
Proof. vm_compute. repeat split; reflexivity. Qed.

(* the name bound of wf_filter is tight
   A name of 65529 bytes (65528 is covered by the theorem): nameLen + 7 wraps to 0 in uint16, the buffer
   has no room for the name, copy() writes nothing, and the message carries name length 65529 with no
   name bytes; the reader refuses it. *)
Definition long_name_filter : wfilter :=
  {| wf_id := 1; wf_name := repeat 65 (N.to_nat 65529); wf_flags := 0; wf_cd := [] |}.

Lemma pipeline_name_65529_not_inverted :
  blen (wf_name long_name_filter) = 65529 /\
  wf_pipeline [long_name_filter] = false /\
  enc_pipeline [long_name_filter] = [2; 1; 0; 0; 0; 0; 0; 0; 1; 0; 249; 255; 0; 0; 0; 0] /\
  dec_pipeline (enc_pipeline [long_name_filter]) = Err.
Proof. vm_compute. repeat split; reflexivity. Qed.

(* the model's cut name field on over-long names, values observed from the Go encoder (harness c11/filterpipe,
   names of 65529 and 65537 bytes 'A' with one client value) *)
Example enc_filter_overlong_names :
  enc_filter {| wf_id := 1; wf_name := repeat 65 (N.to_nat 65529); wf_flags := 0; wf_cd := [7] |}
    = [1; 0; 249; 255; 0; 0; 1; 0; 7; 0; 0; 0] /\
  enc_filter {| wf_id := 1; wf_name := repeat 65 (N.to_nat 65537); wf_flags := 0; wf_cd := [5] |}
    = [1; 0; 1; 0; 0; 0; 1; 0; 65; 65; 65; 65; 65; 65; 65; 65; 5; 0; 0; 0].
Proof. vm_compute. split; reflexivity. Qed.
