(* Non-vacuity: the hypotheses of the C01/C13 theorems are satisfiable on non-trivial inputs and the
   conclusions compute to what they claim (vm_compute on the executable model). *)
From HV Require Import Base.Prelude Model.Chunk Model.Elem.
From Coq Require Import Permutation.

Local Open Scope N_scope.

Definition ex_data (n : nat) : bytes := map (fun i => N.of_nat i mod 251 + 1) (seq 0 n).

(* 3x5, chunks 2x2 (partial edge chunks in both dimensions), 2-byte elements *)
Example ex_shape : shape_ok [3; 5] [2; 2] 2.
Proof. repeat split; try discriminate; repeat constructor. Qed.
Example ex_tiling :
  read_chunked [3; 5] [2; 2] 2 (write_chunks [3; 5] [2; 2] 2 (ex_data 30)) = Ok (ex_data 30).
Proof. vm_compute. reflexivity. Qed.
Example ex_chunks :
  map fst (write_chunks [3; 5] [2; 2] 1 (ex_data 15)) = [[0; 0]; [0; 2]; [0; 4]; [2; 0]; [2; 2]; [2; 4]]
  /\ nth 2 (map snd (write_chunks [3; 5] [2; 2] 1 (ex_data 15))) [] = [5; 0; 10; 0].
Proof. vm_compute. auto. Qed.
Example ex_order :
  read_chunked [3; 5] [2; 2] 2 (rev (write_chunks [3; 5] [2; 2] 2 (ex_data 30))) = Ok (ex_data 30).
Proof. vm_compute. reflexivity. Qed.
(* chunk extent larger than / not dividing the dataset extent, rank 3 *)
Example ex_tiling3 :
  read_chunked [2; 3; 7] [3; 2; 4] 1 (write_chunks [2; 3; 7] [3; 2; 4] 1 (ex_data 42)) = Ok (ex_data 42).
Proof. vm_compute. reflexivity. Qed.

(* resize: shrink one dimension, grow the other *)
Example ex_resize :
  read_after_resize [3; 5] [4; 3] [2; 2] 1 (ex_data 15)
  = Ok [1; 2; 3; 6; 7; 8; 11; 12; 13; 0; 0; 0]
  /\ resize_arr [3; 5] [4; 3] 1 (ex_data 15) = [1; 2; 3; 6; 7; 8; 11; 12; 13; 0; 0; 0].
Proof. vm_compute. auto. Qed.
Example ex_resize_get :
  get_elem [4; 3] 1 (resize_arr [3; 5] [4; 3] 1 (ex_data 15)) [2; 1] = get_elem [3; 5] 1 (ex_data 15) [2; 1]
  /\ get_elem [4; 3] 1 (resize_arr [3; 5] [4; 3] 1 (ex_data 15)) [3; 1] = [0].
Proof. vm_compute. auto. Qed.
Example ex_mid_covers : mid_covers [8] [9] [7] /\ ~ mid_covers [8] [3] [7].
Proof. cbn [mid_covers]. split; [lia|]. intros [H _]. lia. Qed.

Example ex_int :
  enc_int 4 (-2)%Z = [254; 255; 255; 255] /\ dec_int 4 true (enc_int 4 (-2)%Z) = (-2)%Z
  /\ dec_int 4 false (enc_int 4 4294967295%Z) = 4294967295%Z
  /\ dec_int 4 true (enc_int 4 4294967295%Z) = (-1)%Z
  /\ dec_int 8 false (enc_int 8 18446744073709551615%Z) = 18446744073709551615%Z
  /\ in_range 4 false 2147483649%Z.
Proof. vm_compute. repeat split; congruence. Qed.
Example ex_string :
  enc_string 4 [97; 98] = [97; 98; 0; 0] /\ dec_string 4 (enc_string 4 [97; 98]) = [97; 98]
  /\ enc_string 3 [97; 98; 99; 100] = [97; 98; 99] /\ dec_string 3 (enc_string 3 [97; 0; 98]) = [97].
Proof. vm_compute. auto. Qed.
