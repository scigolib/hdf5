(* C06, reader against specification: the link info message (0x0002) and the attribute info message (0x0015).
   Link info: for every byte string the strict specification decoder accepts, ParseLinkInfoMessage (Model/CodecLink.v
   dec_linkinfo) returns an error or the same flags, maximum creation index, fractal heap address, name B-tree address and
   creation order B-tree address.
   Attribute info: the same statement holds for a message without trailing padding; ParseAttributeInfoMessage skips FOUR
   bytes for the 2-byte maximum creation index, so with flag bit 0 set an exactly-sized message is an error, and a message
   followed by zero padding is decoded to other addresses (attrinfo_padded_refuted). *)
From HV Require Import Base.Prelude Base.Outcome Base.Bytes Spec.Parse Spec.FormatMsg Model.CodecMsg Model.CodecLink
  Proofs.RobustNoPanicBase Proofs.ReaderSpecBase Proofs.ReaderSpecLayout.

Definition li_agree (s : linkinfo_spec) (v : linkinfo) : Prop :=
  li_version v = 0 /\ li_flags v = lis_flags s /\
  li_maxcorder v = match lis_maxcidx s with Some m => m | None => 0 end /\
  li_heap v = lis_heap s /\ li_btname v = lis_btname s /\
  li_btorder v = match lis_btorder s with Some b => b | None => 0 end.

Definition ai_agree (s : attrinfo_spec) (v : attrinfo) : Prop :=
  ai_version v = 0 /\ ai_flags v = ais_flags s /\
  ai_maxcidx v = match ais_maxcidx s with Some m => m | None => 0 end /\
  ai_heap v = ais_heap s /\ ai_btname v = ais_btname s /\
  ai_btorder v = match ais_btorder s with Some b => b | None => 0 end.

Lemma land_252 fl : fl < 4 -> N.land fl 252 = 0.
Proof.
  intros H. assert (C : fl = 0 \/ fl = 1 \/ fl = 2 \/ fl = 3) by blia.
  destruct C as [-> | [-> | [-> | ->]]]; reflexivity.
Qed.

(* readAddress(data[p:p+k], k) *)
Lemma read_addr_at (bs : list N) p k v : rd_le bs p k = Ok v -> size_ok k = true -> read_addr bs p k = Ok v.
Proof.
  intros R Hk. unfold read_addr. unfold rd_le in R.
  destruct (slice bs p (p + k)) as [d| |] eqn:S; cbn [obind] in *; try discriminate. injection R as <-.
  pose proof (slice_len _ _ _ _ S) as L. replace (p + k - p) with k in L by blia.
  unfold read_uint. rewrite L, N.ltb_irrefl.
  replace ((k =? 1) || (k =? 2) || (k =? 4) || (k =? 8)) with true
    by (destruct (size_ok_cases k Hk) as [-> | [-> | ->]]; reflexivity).
  rewrite rd_le_eq by blia. do 2 f_equal. apply firstn_all2. unfold blen in L. change (at_pos d 0) with d. blia.
Qed.

Lemma linkinfo_reader_spec (osz : nat) (sbver lsz : N) (pad_ok : bool) (bs : bytes) (s : linkinfo_spec) :
  size_ok (N.of_nat osz) = true ->
  spec_dec_linkinfo osz pad_ok bs = Ok s ->
  err_or (li_agree s)
         (dec_linkinfo {| sb_version := sbver; sb_offsize := N.of_nat osz; sb_lensize := lsz; sb_bigendian := false |} bs).
Proof.
  intros HO H. unfold spec_dec_linkinfo in H. rewrite (at_pos_0 bs) in H.
  assert (P0 : 0 <= blen bs) by blia.
  s_byte H ver B1 I0. s_guard H GV. apply N.eqb_eq in GV. subst ver.
  s_byte H fl B2 I1. s_guard H GF. apply N.ltb_lt in GF.
  change (0 + 1) with 1 in *. change (1 + 1) with 2 in *.
  unfold dec_linkinfo. cbn [sb_offsize sb_bigendian].
  rewrite (ltb_false (blen bs) 2) by blia. rewrite I0. cbn [obind].
  change (negb (0 =? 0)) with false. cbv beta iota. rewrite I1. cbn [obind].
  rewrite (land_252 fl GF). change (negb (0 =? 0)) with false. cbv beta iota.
  (* the optional maximum creation index: afterwards both sides stand at the same position [off] *)
  s_bind H mc r E.
  match goal with |- err_or _ (obind ?o _) =>
    assert (M : exists off, r = at_pos bs off /\ off <= blen bs /\
                  err_or (eq (match mc with Some m => m | None => 0 end, off)) o)
  end.
  { destruct (N.testbit fl 0).
    - s_u E m B3 RM. injection E as <- <-. change (N.of_nat 8) with 8 in *. change (2 + 8) with 10 in *.
      exists 10. rewrite (ltb_false (blen bs) 10), RM by blia. cbn [obind].
      destruct (9223372036854775808 <=? m); repeat split; blia.
    - injection E as <- <-. exists 2. repeat split; blia. }
  clear E. destruct M as (off & -> & Boff & M).
  match goal with |- err_or _ (obind ?o _) => destruct o as [[mco off']| |]; cbn [obind]; [|exact I|destruct M] end.
  injection M as <- <-.
  s_u H hp B4 RH. s_u H bt B5 RB.
  rewrite ltb_false, (read_uint_step _ _ _ _ _ RH HO) by blia.
  rewrite ltb_false, (read_uint_step _ _ _ _ _ RB HO) by blia.
  s_bind H bo' r E. destruct (N.testbit fl 1).
  - s_u E bo B6 RO. injection E as <- <-. s_end H PE PF ZZ. injection H as <-.
    rewrite ltb_false, (read_uint_step _ _ _ _ _ RO HO) by blia. repeat split.
  - injection E as <- <-. s_end H PE PF ZZ. injection H as <-. repeat split.
Qed.

(* attribute info, message of exactly the specified size *)
Lemma attrinfo_reader_spec (osz : nat) (sbver lsz : N) (bs : bytes) (s : attrinfo_spec) :
  size_ok (N.of_nat osz) = true ->
  spec_dec_attrinfo osz false bs = Ok s ->
  err_or (ai_agree s)
         (dec_attrinfo {| sb_version := sbver; sb_offsize := N.of_nat osz; sb_lensize := lsz; sb_bigendian := false |} bs).
Proof.
  intros HO H. unfold spec_dec_attrinfo in H. rewrite (at_pos_0 bs) in H.
  assert (P0 : 0 <= blen bs) by blia.
  s_byte H ver B1 I0. s_guard H GV. apply N.eqb_eq in GV. subst ver.
  s_byte H fl B2 I1. s_guard H GF. apply N.ltb_lt in GF.
  change (0 + 1) with 1 in *. change (1 + 1) with 2 in *.
  unfold dec_attrinfo. cbn [sb_offsize sb_bigendian].
  rewrite (ltb_false (blen bs) 2) by blia. rewrite I0. cbn [obind]. rewrite I1. cbn [obind].
  destruct (N.testbit fl 0) eqn:T0.
  - (* maximum creation index present: the reader wants two bytes more than the message has *)
    s_bind H mc r E. s_u E m B3 RM. injection E as <- <-. change (N.of_nat 2) with 2 in *. change (2 + 2) with 4 in *.
    s_u H hp B4 RH. s_u H bt B5 RB.
    destruct (blen bs <? 2 + 4); [exact I|]. rewrite RM. cbn [obind].
    destruct (N.testbit fl 1) eqn:T1.
    + s_bind H bo' r E. s_u E bo B6 RO. injection E as <- <-. s_end H PE PF ZZ. injection H as <-.
      pose proof (PF eq_refl) as LEN.
      destruct (blen bs <? 6 + N.of_nat osz) eqn:L1; [exact I|]. apply N.ltb_ge in L1.
      destruct (rd_le_ok bs 6 (N.of_nat osz) L1) as (a1 & A1). rewrite (read_addr_at _ _ _ _ A1 HO). cbn [obind].
      destruct (blen bs <? 6 + N.of_nat osz + N.of_nat osz) eqn:L2; [exact I|]. apply N.ltb_ge in L2.
      destruct (rd_le_ok bs _ (N.of_nat osz) L2) as (a2 & A2). rewrite (read_addr_at _ _ _ _ A2 HO). cbn [obind].
      replace (blen bs <? 6 + N.of_nat osz + N.of_nat osz + N.of_nat osz) with true by (symmetry; apply N.ltb_lt; blia).
      exact I.
    + cbn [obind] in H. s_end H PE PF ZZ. injection H as <-. pose proof (PF eq_refl) as LEN.
      destruct (blen bs <? 6 + N.of_nat osz) eqn:L1; [exact I|]. apply N.ltb_ge in L1.
      destruct (rd_le_ok bs 6 (N.of_nat osz) L1) as (a1 & A1). rewrite (read_addr_at _ _ _ _ A1 HO). cbn [obind].
      replace (blen bs <? 6 + N.of_nat osz + N.of_nat osz) with true by (symmetry; apply N.ltb_lt; blia).
      exact I.
  - cbn [obind] in H. cbn [obind].
    s_u H hp B4 RH. s_u H bt B5 RB.
    rewrite ltb_false by blia. rewrite (read_addr_at _ _ _ _ RH HO). cbn [obind].
    rewrite ltb_false by blia. rewrite (read_addr_at _ _ _ _ RB HO). cbn [obind].
    destruct (N.testbit fl 1) eqn:T1.
    + s_bind H bo' r E. s_u E bo B6 RO. injection E as <- <-. s_end H PE PF ZZ. injection H as <-.
      rewrite ltb_false by blia. rewrite (read_addr_at _ _ _ _ RO HO). cbn [obind]. repeat split.
    + cbn [obind] in H. s_end H PE PF ZZ. injection H as <-. repeat split.
Qed.

(* attribute info followed by zero padding (pad_ok): maximum creation index 5, heap 1000, B-tree 2000; the reader takes the
   heap address two bytes too late *)
Definition attrinfo_padded_witness : bytes := [0; 1; 5; 0] ++ le 8 1000 ++ le 8 2000 ++ zeros 4.
Lemma attrinfo_padded_refuted :
  spec_dec_attrinfo 8 true attrinfo_padded_witness =
    Ok {| ais_flags := 1; ais_maxcidx := Some 5; ais_heap := 1000; ais_btname := 2000; ais_btorder := None |} /\
  dec_attrinfo {| sb_version := 2; sb_offsize := 8; sb_lensize := 8; sb_bigendian := false |} attrinfo_padded_witness =
    Ok {| ai_version := 0; ai_flags := 1; ai_heap := 562949953421312000; ai_btname := 0; ai_maxcidx := 5; ai_btorder := 0 |}.
Proof. split; vm_compute; reflexivity. Qed.

Example linkinfo_reader_spec_example :
  spec_dec_linkinfo 8 false ([0; 3] ++ le 8 7 ++ le 8 1000 ++ le 8 2000 ++ le 8 3000) =
    Ok {| lis_flags := 3; lis_maxcidx := Some 7; lis_heap := 1000; lis_btname := 2000; lis_btorder := Some 3000 |}.
Proof. vm_compute. reflexivity. Qed.
Example attrinfo_reader_spec_example :
  spec_dec_attrinfo 8 false ([0; 0] ++ le 8 1000 ++ le 8 2000) =
    Ok {| ais_flags := 0; ais_maxcidx := None; ais_heap := 1000; ais_btname := 2000; ais_btorder := None |}.
Proof. vm_compute. reflexivity. Qed.
