(* C05 - the sweep [extents_ok] (sort by start, compare neighbours) decides "inside the file and pairwise disjoint"; the blocks of the
   append-only allocator tile [initial, next_offset), hence are disjoint and pass the sweep; the end-of-file field, written once at
   creation, is stale after the first allocation. *)
From HV Require Import Base.Prelude Model.Wellformed.
From Coq Require Import Permutation Sorted.

Lemma insert_perm : forall e l, Permutation (e :: l) (insert_ext e l).
Proof.
  induction l as [|x r IH]; cbn [insert_ext]; [reflexivity|].
  destruct (fst e <=? fst x); [reflexivity|].
  eapply perm_trans; [apply perm_swap|]. apply perm_skip. exact IH.
Qed.

Lemma sort_perm : forall l, Permutation l (sort_ext l).
Proof.
  induction l as [|x r IH]; cbn [sort_ext]; [constructor|].
  eapply perm_trans; [apply perm_skip; exact IH|]. apply insert_perm.
Qed.

Definition le_start (a b : ext) : Prop := fst a <= fst b.

Lemma insert_sorted : forall e l, StronglySorted le_start l -> StronglySorted le_start (insert_ext e l).
Proof.
  induction l as [|x r IH]; intros Hs; cbn [insert_ext].
  - repeat constructor.
  - destruct (fst e <=? fst x) eqn:E.
    + constructor; [exact Hs|]. inversion Hs; subst. constructor; [unfold le_start; lia|].
      eapply Forall_impl; [|eassumption]. unfold le_start. intros; lia.
    + inversion Hs; subst. constructor; [auto|].
      eapply Permutation_Forall; [apply insert_perm|]. constructor; [unfold le_start; lia|assumption].
Qed.

Lemma sort_sorted : forall l, StronglySorted le_start (sort_ext l).
Proof. induction l; cbn [sort_ext]; [constructor|]. apply insert_sorted. assumption. Qed.

Lemma disjoint_sym : forall a b, disjoint a b -> disjoint b a.
Proof. unfold disjoint. intros; tauto. Qed.

Lemma fop_cons : forall (R : ext -> ext -> Prop) x l,
  ForallOrdPairs R (x :: l) <-> Forall (R x) l /\ ForallOrdPairs R l.
Proof. intros; split; [inversion 1; auto|intros [? ?]; constructor; auto]. Qed.

Lemma fop_perm : forall l l', Permutation l l' -> ForallOrdPairs disjoint l -> ForallOrdPairs disjoint l'.
Proof.
  induction 1; intros Hf.
  - exact Hf.
  - apply fop_cons in Hf. destruct Hf as [H1 H2]. apply fop_cons. split; [|auto].
    eapply Permutation_Forall; eassumption.
  - apply fop_cons in Hf. destruct Hf as [H1 H2]. apply fop_cons in H2. destruct H2 as [H2 H3].
    inversion H1; subst. apply fop_cons. split.
    + constructor; [apply disjoint_sym; assumption|assumption].
    + apply fop_cons. split; assumption.
  - auto.
Qed.

(* the sweep on a list sorted by start; the converse needs the extents non-empty *)
Lemma chain_sound : forall l, StronglySorted le_start l -> chain_ok l = true -> ForallOrdPairs disjoint l.
Proof.
  induction l as [|a r IH]; intros Hs Hc; [constructor|].
  inversion Hs as [|? ? Hs' Hall]; subst.
  destruct r as [|b r']; [repeat constructor|].
  cbn [chain_ok] in Hc. apply andb_true_iff in Hc. destruct Hc as [Hab Hc].
  constructor; [|apply IH; assumption].
  inversion Hall as [|? ? Hb Hr]; subst. inversion Hs' as [|? ? _ Hbr]; subst.
  constructor; [left; lia|].
  rewrite Forall_forall in *. intros x Hx. left. specialize (Hbr x Hx). unfold le_start in *. lia.
Qed.

Lemma chain_complete : forall l, StronglySorted le_start l -> Forall (fun e => fst e < snd e) l ->
  ForallOrdPairs disjoint l -> chain_ok l = true.
Proof.
  induction l as [|a r IH]; intros Hs Hne Hd; [reflexivity|].
  destruct r as [|b r']; [reflexivity|].
  inversion Hs as [|? ? Hs' Hall]; subst. inversion Hne as [|? ? Ha Hne']; subst.
  apply fop_cons in Hd. destruct Hd as [Hd1 Hd2].
  cbn [chain_ok]. apply andb_true_iff. split; [|apply IH; assumption].
  inversion Hall; subst. inversion Hd1; subst. inversion Hne'; subst.
  unfold le_start, disjoint in *. lia.
Qed.

Lemma ext_in_spec : forall fs eof e, ext_in fs eof e = true <-> ext_inside fs eof e.
Proof. unfold ext_in, ext_inside. intros. rewrite !andb_true_iff. lia. Qed.

Lemma extents_ok_sound : forall fs eof l, extents_ok fs eof l = true ->
  Forall (ext_inside fs eof) l /\ pairwise_disjoint l.
Proof.
  unfold extents_ok. intros fs eof l H. apply andb_true_iff in H. destruct H as [H1 H2]. split.
  - rewrite forallb_forall in H1. apply Forall_forall. intros x Hx. apply ext_in_spec. auto.
  - unfold pairwise_disjoint. eapply fop_perm; [apply Permutation_sym, sort_perm|].
    apply chain_sound; [apply sort_sorted|assumption].
Qed.

Lemma extents_ok_complete : forall fs eof l,
  Forall (ext_inside fs eof) l -> pairwise_disjoint l -> extents_ok fs eof l = true.
Proof.
  unfold extents_ok, pairwise_disjoint. intros fs eof l H1 H2. apply andb_true_iff. split.
  - apply forallb_forall. intros x Hx. apply ext_in_spec. rewrite Forall_forall in H1. auto.
  - apply chain_complete; [apply sort_sorted| |eapply fop_perm; [apply sort_perm|assumption]].
    eapply Permutation_Forall; [apply sort_perm|]. eapply Forall_impl; [|eassumption].
    unfold ext_inside. intros; tauto.
Qed.

Lemma extents_ok_iff : forall fs eof l,
  extents_ok fs eof l = true <-> (Forall (ext_inside fs eof) l /\ pairwise_disjoint l).
Proof. intros; split; [apply extents_ok_sound|intros [? ?]; apply extents_ok_complete; assumption]. Qed.

Lemma tiles_app : forall l s m b, tiles s l m -> fst b = m -> fst b < snd b -> tiles s (l ++ [b]) (snd b).
Proof.
  induction l as [|x r IH]; intros s m b Ht Hb Hlt; cbn [tiles app] in *.
  - subst. auto.
  - destruct Ht as (? & ? & ?). repeat split; try assumption. eapply IH; eassumption.
Qed.

Lemma tiles_le : forall l s e, tiles s l e -> s <= e.
Proof.
  induction l as [|x r IH]; intros s e Ht; cbn [tiles] in Ht; [lia|].
  destruct Ht as (? & ? & Ht). apply IH in Ht. lia.
Qed.

Lemma tiles_bounds : forall l s e, tiles s l e -> Forall (fun b => s <= fst b /\ fst b < snd b /\ snd b <= e) l.
Proof.
  induction l as [|x r IH]; intros s e Ht; cbn [tiles] in Ht; [constructor|].
  destruct Ht as (H1 & H2 & Ht). constructor.
  - pose proof (tiles_le _ _ _ Ht). lia.
  - eapply Forall_impl; [|apply IH; eassumption]. cbn beta. intros; lia.
Qed.

Lemma tiles_disjoint : forall l s e, tiles s l e -> ForallOrdPairs disjoint l.
Proof.
  induction l as [|x r IH]; intros s e Ht; cbn [tiles] in Ht; [constructor|].
  destruct Ht as (H1 & H2 & Ht). constructor; [|eapply IH; eassumption].
  eapply Forall_impl; [|apply tiles_bounds; eassumption]. unfold disjoint. cbn beta. intros; lia.
Qed.

Lemma tiles_sorted : forall l s e, tiles s l e -> StronglySorted (fun a b => snd a <= fst b) l.
Proof.
  induction l as [|x r IH]; intros s e Ht; cbn [tiles] in Ht; [constructor|].
  destruct Ht as (H1 & H2 & Ht). constructor; [eapply IH; eassumption|].
  eapply Forall_impl; [|apply tiles_bounds; eassumption]. cbn beta. intros; lia.
Qed.

Lemma block_exts_app : forall bl b nx,
  block_exts {| blocks := bl ++ [b]; next_offset := nx |} = map block_ext bl ++ [block_ext b].
Proof. intros. unfold block_exts. cbn [blocks]. rewrite map_app. reflexivity. Qed.

(* invariant of the allocator: its blocks tile [initial, nextOffset) *)
Lemma allocate_all_tiles : forall reqs a init,
  tiles init (block_exts a) (next_offset a) ->
  next_offset a + sum_sizes reqs < 18446744073709551616 ->
  tiles init (block_exts (allocate_all a reqs)) (next_offset (allocate_all a reqs)) /\
  next_offset (allocate_all a reqs) = next_offset a + sum_sizes reqs.
Proof.
  induction reqs as [|s r IH]; intros a init Ht Hb; cbn [allocate_all sum_sizes fold_right] in *.
  - split; [assumption|lia].
  - fold (sum_sizes r) in *. unfold allocate. destruct (N.eqb_spec s 0) as [->|Hs]; cbn [fst].
    + rewrite N.add_0_l in *. apply IH; assumption.
    + unfold wrap64. rewrite N.mod_small by lia.
      edestruct IH as [H1 H2]; [| |split; [exact H1|rewrite H2]]; cbn [next_offset].
      * rewrite block_exts_app. apply (tiles_app _ _ _ (block_ext (next_offset a, s)) Ht); cbn; lia.
      * lia.
      * lia.
Qed.

Lemma alloc_disjoint : forall initial reqs,
  initial + sum_sizes reqs < 18446744073709551616 ->
  let a := allocate_all (new_allocator initial) reqs in
  pairwise_disjoint (block_exts a) /\
  StronglySorted (fun x y => snd x <= fst y) (block_exts a) /\
  tiles initial (block_exts a) (end_of_file a) /\
  end_of_file a = initial + sum_sizes reqs.
Proof.
  intros initial reqs Hb a.
  destruct (allocate_all_tiles reqs (new_allocator initial) initial) as [Ht He].
  - reflexivity.
  - exact Hb.
  - fold a in Ht, He. unfold end_of_file. repeat split.
    + eapply tiles_disjoint; eassumption.
    + eapply tiles_sorted; eassumption.
    + assumption.
    + exact He.
Qed.

Lemma alloc_extents_ok : forall initial reqs,
  initial + sum_sizes reqs < 18446744073709551616 ->
  let a := allocate_all (new_allocator initial) reqs in
  extents_ok (end_of_file a) (end_of_file a) (block_exts a) = true.
Proof.
  intros initial reqs Hb a. destruct (alloc_disjoint initial reqs Hb) as (Hd & _ & Ht & _). fold a in Hd, Ht.
  apply extents_ok_complete; [|assumption].
  eapply Forall_impl; [|apply tiles_bounds; eassumption]. unfold ext_inside. cbn beta. intros; lia.
Qed.

(* As written: after the first successful allocation some block ends beyond the recorded address. *)
Lemma eof_stale_general : forall initial s reqs, s <> 0 ->
  initial + sum_sizes (s :: reqs) < 18446744073709551616 ->
  ~ below_eof (wf_close (wf_allocs (wf_create initial) (s :: reqs))).
Proof.
  intros initial s reqs Hs Hb Hbelow. unfold below_eof, wf_close, wf_allocs, wf_create in Hbelow. cbn [sb_eof wf_alloc] in Hbelow.
  destruct (alloc_disjoint initial (s :: reqs) Hb) as (_ & _ & Ht & He).
  set (a := allocate_all (new_allocator initial) (s :: reqs)) in *.
  destruct (block_exts a) as [|b r] eqn:Eb.
  - cbn [tiles] in Ht. rewrite He in Ht. cbn [sum_sizes fold_right] in Ht. lia.
  - cbn [tiles] in Ht. inversion Hbelow; subst. lia.
Qed.

Lemma eof_refuted : exists initial reqs, ~ below_eof (wf_close (wf_allocs (wf_create initial) reqs)).
Proof. exists 48, [32]. apply eof_stale_general; [discriminate | reflexivity]. Qed.

Lemma eof_full_refuted : ~ eof_full.
Proof. intros H. apply (eof_stale_general 48 32 []); [discriminate | reflexivity | apply H; reflexivity]. Qed.

(* With the repair (Close rewrites the field) every block lies at or below the recorded address. *)
Lemma eof_fixed : forall initial reqs, initial + sum_sizes reqs < 18446744073709551616 ->
  below_eof (wf_close_fixed (wf_allocs (wf_create initial) reqs)).
Proof.
  intros initial reqs Hb. unfold below_eof, wf_close_fixed, wf_allocs, wf_create. cbn [sb_eof wf_alloc].
  destruct (alloc_disjoint initial reqs Hb) as (_ & _ & Ht & _).
  eapply Forall_impl; [|apply tiles_bounds; eassumption]. cbn beta. intros; lia.
Qed.

Example extents_ok_ex1 : extents_ok 100 100 [(48,80);(0,48);(80,100)] = true.
Proof. vm_compute. reflexivity. Qed.
Example extents_ok_ex2 : extents_ok 100 100 [(48,81);(0,48);(80,100)] = false.
Proof. vm_compute. reflexivity. Qed.
Example extents_ok_ex3 : extents_ok 100 90 [(48,80);(0,48);(80,100)] = false.
Proof. vm_compute. reflexivity. Qed.
Example extents_ok_ex4 : extents_ok 100 100 [(10,20);(10,20)] = false.
Proof. vm_compute. reflexivity. Qed.
Example alloc_ex : block_exts (allocate_all (new_allocator 48) [288;0;1288;544]) = [(48,336);(336,1624);(1624,2168)].
Proof. vm_compute. reflexivity. Qed.
