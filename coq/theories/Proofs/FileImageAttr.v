(* C02 at byte level: image_v2_attr is a file with one dataset (Proofs/FileImageGenOpen.v) whose object header has four
   messages: datatype, dataspace, layout, attribute.  On the image Dataset.Attributes' program returns exactly the written
   attribute, the attribute message decodes (dec_attribute) to what the writer was given, and Dataset.Read, ReadSuperblock and
   Open return what they return without attribute. *)
From HV Require Import Base.Prelude Base.Outcome Base.Bytes Model.IOProg Proofs.IOProg Model.IOProgReader Model.IOProgOpen.
From HV Require Import Model.CodecSuper Model.CodecOhdr Model.CodecMsg Model.CodecType Model.CodecLink Model.GroupWire Model.CodecAttr.
From HV Require Import Proofs.CodecSuper Proofs.CodecOhdr Proofs.CodecMsg Proofs.CodecType Proofs.CodecAttr.
From HV Require Import Model.FileImage Model.FileImageAttr Proofs.FileImage Proofs.FileImageOhdr Proofs.FileImageData
  Proofs.FileImageGroup Proofs.FileImageMain Proofs.FileImageAttrOhdr Proofs.FileImageGenOpen.

(* the attribute as the reader's parser returns it (ParseAttributeMessage): name, datatype, dataspace, value *)
Definition decoded_attr (h : ohdr') : outcome attribute' :=
  match find_msg 12 (ohp_msgs h) with Some b => dec_attribute false b | None => Err end.

Lemma attr_of_proj x : attr_of (proj_attribute x) = (at_name x, at_data x).
Proof. unfold attr_of, proj_attribute. cbn [atp_name atp_data]. destruct (at_data x); reflexivity. Qed.

Section Image.
Variable name : bytes.
Variables class size cbf : N.
Variable dims : list N.
Variable data : bytes.
Variable aname : bytes.
Variable adt : datatype.
Variable adims : list N.
Variable adata : bytes.
Hypothesis Hname : link_name_ok name = true.
Hypothesis Hdt : basic_dtype class size cbf = true.
Hypothesis Hdims : dims_ok dims = true.
Hypothesis Hlen : blen data = total_elems dims * size.
Hypothesis Hpos : 0 < blen data.
Hypothesis Hbound : blen data < 4294967296.
(* the attribute message is one the encoder accepts and the decoder inverts (Proofs/CodecAttr.v) ... *)
Hypothesis Hwf : wf_attribute (attr_msg aname adt adims adata) = true.
(* ... and the four messages fit the 255-byte header chunk: the compact path of WriteAttribute *)
Hypothesis Hfit : attr_fits class size cbf dims aname adt adims adata = true.

Local Notation f := (image_v2_attr name class size cbf dims data aname adt adims adata).
Local Notation da := (dset_addr data).
Local Notation am := (attr_msg aname adt adims adata).
Local Notation dso := (dset_ohdr class size cbf dims).
Local Notation dsoa := (dset_ohdr_attr class size cbf dims aname adt adims adata).
Local Notation dmsgs := (msgs_at_v2 (oh_msgs dsoa) (da + 7)).
Local Notation inst L :=
  (L (eof_addr data) name data dsoa (zeros (N.to_nat (OHDR_RESERVE - size_ohdr_v2 dsoa))) (@nil bytes)) (only parsing).

Lemma am_len_ge : 11 <= blen (enc_attribute am).
Proof using Hwf. clear - Hwf.
  rewrite (attribute_blen _ Hwf). unfold size_attribute. cbn [at_name attr_msg].
  assert (1 <= blen aname); [|blia].
  unfold wf_attribute, encok_attribute in Hwf. cbn [at_name attr_msg] in Hwf.
  repeat (apply andb_true_iff in Hwf as [Hwf _]).
  apply negb_true_iff, Nat.eqb_neq in Hwf. unfold blen. blia.
Qed.
Lemma dsoa_chunk : chunk_size_v2 (oh_msgs dsoa) = chunk_size_v2 (oh_msgs dso) + 4 + blen (enc_attribute am).
Proof using. clear.
  unfold dset_ohdr_attr, dset_ohdr. cbn [oh_msgs chunk_size_v2 fold_right hm_data]. blia.
Qed.
Lemma dsoa_chunk_bound : chunk_size_v2 (oh_msgs dsoa) <= 255.
Proof using Hfit. clear - Hfit. now apply N.leb_le in Hfit. Qed.

Lemma dsoa_ok : ohdr_ok2 dsoa.
Proof using Hdt Hwf Hfit. clear - Hdt Hwf Hfit.
  apply dset_ohdr_ok2; [| |exact dsoa_chunk_bound].
  - exact (dt_msg_ge2 class size cbf Hdt).
  - repeat constructor; try discriminate. pose proof am_len_ge. cbn [hm_data]. blia.
Qed.

(* WriteAttribute allocates nothing *)
Lemma image_attr_len : blen f = eof_addr data.
Proof using Hname Hfit. clear - Hname Hfit.
  transitivity (da + blen (enc_ohdr_v2 dsoa ++ zeros (N.to_nat (OHDR_RESERVE - size_ohdr_v2 dsoa))) + 0);
    [exact (v2_len (eof_addr data) name data _ [] Hname)|].
  rewrite (reserve_block_len _ dsoa_chunk_bound). unfold eof_addr. blia.
Qed.

(* ParseAttributesFromMessages on the four messages: one compact attribute, no dense storage *)
Lemma attrs_attr : p_attrs SB' dmsgs = Ret [(aname, adata)].
Proof using Hwf. clear - Hwf.
  unfold p_attrs. cbn [oh_msgs dset_ohdr_attr msgs_at_v2 compact_attrs first_ainfo hmp_type hmp_data hm_type hm_data N.eqb Pos.eqb SB' spp_bigendian].
  rewrite (attribute_roundtrip _ Hwf), attr_of_proj. reflexivity.
Qed.

Theorem dataset_attributes fuel : (4 < fuel)%nat ->
  run0 f (api_attributes SB' fuel da) = Ok [(aname, adata)].
Proof using Hname Hdt Hbound Hwf Hfit.
  intros Hf. apply (inst v2_api_attributes Hname dsoa_ok (da_bound data Hbound) fuel _ Hf). now rewrite attrs_attr.
Qed.

Theorem dataset_attr_decoded fuel : (4 < fuel)%nat ->
  exists h, run0 f (p_ohdr SB' fuel da) = Ok h /\ decoded_attr h = Ok (proj_attribute am) /\
            decoded_type_shape h = Ok (class, size, cbf, dims).
Proof using Hname Hdt Hdims Hbound Hwf Hfit.
  intros Hf. eexists. split; [exact (inst v2_dset_header Hname dsoa_ok (da_bound data Hbound) fuel Hf)|]. split.
  - unfold decoded_attr. change (find_msg 12 (ohp_msgs (proj_ohdr_v2 false dsoa da))) with (Some (enc_attribute am)).
    exact (attribute_roundtrip _ Hwf).
  - now apply type_shape_decoded.
Qed.

Theorem dataset_read_attr fuel : (4 < fuel)%nat ->
  run0 f (api_read_raw SB' fuel da) = Ok (RawBytes data).
Proof using Hname Hdt Hdims Hlen Hpos Hbound Hwf Hfit.
  intros Hf. apply (inst v2_read_basic Hname dsoa_ok (da_bound data Hbound) class size cbf dims fuel [(aname, adata)]
                     Hdt Hdims Hlen Hpos Hbound eq_refl eq_refl eq_refl Hf).
  now rewrite attrs_attr.
Qed.

Theorem superblock_stage_a : run0 f p_superblock = Ok SB'.
Proof using Hname Hbound. exact (inst v2_superblock Hname (eof_u64 data Hbound)). Qed.

Theorem open_image_a n hfuel : (4 < hfuel)%nat ->
  run0 f (p_open true (blen f) (S (S (S n))) hfuel) = Ok (Grp [47] 2168 [Dset name da]).
Proof using Hname Hdt Hbound Hwf Hfit.
  intros Hh. apply (inst v2_open Hname (eof_u64 data Hbound) dsoa_ok (da_bound data Hbound) [(aname, adata)]);
    [now rewrite attrs_attr | reflexivity | exact Hh].
Qed.
End Image.
