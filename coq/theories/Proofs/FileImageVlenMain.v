(* C12 end to end: the composition.  On the image of a variable-length dataset the reader programs return the tree, the
   superblock, the 16-byte references, and every reference resolved through ParseGlobalHeapReference, the program of
   ReadGlobalHeapCollection and the object lookup is the element that was written.  Route: the image restricted to the heap
   writer's extents is the `disk` of the C12 model after the same history (colls_placed), so C12_roundtrip applies and the
   reader model it speaks about agrees with the reader program (p_gheap_read_collection). *)
From HV Require Import Base.Prelude Model.GHeap.
From HV Require Proofs.GHeap.
From HV Require Import Base.Outcome Base.Bytes Model.IOProg Proofs.IOProg Model.IOProgReader Model.IOProgOpen.
From HV Require Import Model.CodecSuper Model.CodecOhdr Model.CodecMsg Model.CodecType.
From HV Require Import Model.FileImage Proofs.FileImage Proofs.FileImageOhdr Proofs.FileImageData Proofs.FileImageProd.
From HV Require Import Model.FileImageVlen Proofs.FileImageVlenHeap Proofs.FileImageVlen.

Local Open Scope N_scope.

(* what the harness (c12.go) and the library's readers do with element i of the raw data: ParseGlobalHeapReference, the
   collection through the reader PROGRAM, the object with that index *)
Definition resolved_on (f refs : bytes) (gfuel : nat) (i : nat) (d : bytes) : Prop :=
  exists id objs,
    parse_reference (rd refs (16 * N.of_nat i) 16) = GHeap.Ok id /\
    run0 f (p_gheap SB' gfuel (h_addr id)) = Ok objs /\
    find (fun x => fst x =? h_idx id) objs = Some (h_idx id, d).

Section Main.
Variable name : bytes.
Variable base : vbase.
Variable dims : list N.
Variable elems : list bytes.
Hypothesis Hname : link_name_ok name = true.
Hypothesis Hdims : dims_ok_vlen dims = true.
Hypothesis Hcount : product dims = N.of_nat (length elems).
Local Notation f := (image_v2_vlen name base dims elems).
Hypothesis Hsmall : blen f < 4611686018427387904.

Lemma run_total : exists fin ids, v_run elems = Some (fin, ids).
Proof using. exact (Proofs.GHeap.C12_total_lemma 4096 4096 (v_e0 elems) (map W elems) Proofs.GHeap.params_shipped). Qed.

Lemma element_lookup gfuel : (N.to_nat (blen f / 16) + 2 <= gfuel)%nat ->
  forall i d, nth_error elems i = Some d ->
  exists id id' objs, rd (v_refs elems) (16 * N.of_nat i) 16 = encode_reference id /\
    parse_reference (encode_reference id) = GHeap.Ok id' /\ v_e0 elems <= h_addr id' /\
    run0 f (p_gheap SB' gfuel (h_addr id')) = Ok objs /\ find (fun x => fst x =? h_idx id') objs = Some (h_idx id', d).
Proof using Hname Hdims Hsmall. clear Hcount.
  intros Hg i d Hi. destruct run_total as (fin & ids & Hrun).
  pose proof (eof_W64 name base dims elems fin ids Hname Hdims Hrun Hsmall) as Hw.
  destruct (Proofs.GHeap.C12_roundtrip_lemma 4096 4096 _ _ fin ids Proofs.GHeap.params_shipped
              (Hrun' elems fin ids Hrun) Hw) as [_ Hres].
  rewrite writes_map_W in Hres. destruct (Hres i d Hi) as (id & Hid & Hr).
  unfold resolve in Hr.
  destruct (parse_reference (encode_reference id)) as [id'|] eqn:Ep; [|discriminate].
  destruct (read_collection (disk fin) (h_addr id')) as [rc|] eqn:Ec; [|discriminate].
  destruct (get_object (r_objs rc) (h_idx id')) as [o|] eqn:Eo; [|discriminate].
  injection Hr as <-.
  exists id, id', (map obj_pair (r_objs rc)). split; [|split; [exact Ep|split; [|split]]].
  - unfold v_refs. rewrite (ids_eq elems fin ids Hrun). exact (refs_nth ids i id Hid).
  - apply (read_collection_ge (disk fin) _ rc); [|exact Ec]. intros a0 b Hin.
    apply (chain_ge _ _ _ a0 b (heap_chain elems fin ids Hrun)). now apply in_rev in Hin.
  - apply (p_gheap_read_collection f (disk fin) (colls_placed name base dims elems fin ids Hname Hdims Hrun) SB' eq_refl);
      [unfold MAXI64; blia | exact Ec | exact Hg].
  - exact (get_object_find _ _ _ Eo).
Qed.

Theorem elements_resolved gfuel : (N.to_nat (blen f / 16) + 2 <= gfuel)%nat ->
  forall i d, nth_error elems i = Some d -> resolved_on f (v_refs elems) gfuel i d.
Proof using Hname Hdims Hsmall.
  intros Hg i d Hi. destruct (element_lookup gfuel Hg i d Hi) as (id & id' & objs & Hrd & Ep & _ & Hr & Hf).
  exists id', objs. rewrite Hrd. auto.
Qed.

(* the library's own resolution path for a variable-length string element (readVariableString, dataset_reader_compound.go:262 =
   Model/IOProgReader.v api_vlen_string), run on element i of the raw data, returns elems[i] *)
Theorem elements_vlen_string gfuel : (N.to_nat (blen f / 16) + 2 <= gfuel)%nat ->
  forall i d, nth_error elems i = Some d ->
  run0 f (api_vlen_string SB' gfuel (rd (v_refs elems) (16 * N.of_nat i) 16)) = Ok d.
Proof using Hname Hdims Hcount Hsmall.
  intros Hg i d Hi. destruct (element_lookup gfuel Hg i d Hi) as (id & id' & objs & -> & Ep & Hpos & Hr & Hf).
  pose proof (enc_ref_len id) as L. generalize dependent (encode_reference id). intros ref Ep L.
  unfold parse_reference in Ep. rewrite gblen, L in Ep. injection Ep as <-. cbn [h_addr h_idx] in *.
  unfold api_vlen_string. cbn [SB' spp_offsize]. change (negb ((8 =? 4) || (8 =? 8))) with false. cbv iota.
  rewrite L. change (16 <? 8 + 4) with false. cbv iota.
  unfold rd_le, Bytes.slice. rewrite L.
  change ((0 <=? 0 + 8) && (0 + 8 <=? 16)) with true. change ((8 <=? 8 + 4) && (8 + 4 <=? 16)) with true. cbv iota.
  cbn [obind lift bind fst snd].
  change (firstn (N.to_nat (0 + 8 - 0)) (skipn (N.to_nat 0) ref)) with (GHeap.slice ref 0 8).
  change (firstn (N.to_nat (8 + 4 - 8)) (skipn (N.to_nat 8) ref)) with (GHeap.slice ref 8 4).
  replace (unle (GHeap.slice ref 0 8) =? 0) with false
    by (symmetry; apply N.eqb_neq; unfold v_e0 in Hpos; change DATA_ADDR with 2195 in Hpos; blia).
  rewrite run0_bind, Hr, Hf. reflexivity.
Qed.

(* the file ends where the heap writer's last collection ends = the end-of-file address Close records in the superblock *)
Theorem image_vlen_length : blen f = v_eof elems.
Proof using Hname Hdims Hcount.
  destruct run_total as (fin & ids & Hrun). rewrite (eof_eq elems fin ids Hrun).
  exact (image_len_v name base dims elems fin ids Hname Hdims Hrun).
Qed.
End Main.

Lemma file_roundtrip_vlen_stmt : forall name base dims elems fuel hfuel gfuel,
  link_name_ok name = true -> dims_ok_vlen dims = true -> product dims = N.of_nat (length elems) ->
  let f := image_v2_vlen name base dims elems in
  blen f < 4611686018427387904 ->
  (3 <= fuel)%nat -> (3 < hfuel)%nat -> (N.to_nat (blen f / 16) + 2 <= gfuel)%nat ->
  let da := v_dset_addr elems in let refs := v_refs elems in
  run0 f (p_open true (blen f) fuel hfuel) = Ok (Grp [47] ROOT_ADDR [Dset name da]) /\
  run0 f p_superblock = Ok SB' /\
  run0 f (api_read_raw SB' hfuel da) = Ok (RawBytes refs) /\
  blen refs = 16 * N.of_nat (length elems) /\
  (forall i d, nth_error elems i = Some d -> resolved_on f refs gfuel i d) /\
  (exists h d bd s, run0 f (p_ohdr SB' hfuel da) = Ok h /\
    match find_msg 3 (ohp_msgs h) with Some b => dec_datatype b | None => Err end = Ok d /\
    (dt_class d, dt_size d, dt_cbf d) = (DT_VLEN, 16, vl_bits base) /\
    dec_datatype (dt_props d) = Ok bd /\ (dt_class bd, dt_size bd, dt_cbf bd) = base_cls base /\
    match find_msg 1 (ohp_msgs h) with Some b => dec_dataspace b | None => Err end = Ok s /\ dsp_dims s = dims).
Proof.
  intros name base dims elems fuel hfuel gfuel Hname Hdims Hcount f Hsmall Hf Hh Hg da refs.
  destruct (run_total elems) as (fin & ids & Hrun).
  destruct fuel as [|[|[|n]]]; try blia.
  destruct (open_vlen name base dims elems fin ids Hname Hdims Hcount Hrun Hsmall n hfuel Hh) as [Hsb Hop].
  split; [exact Hop|]. split; [exact Hsb|].
  split; [exact (dataset_read_v name base dims elems fin ids Hname Hdims Hcount Hrun Hsmall hfuel Hh)|].
  split; [exact (refs_blen elems fin ids Hrun)|].
  split; [exact (elements_resolved name base dims elems Hname Hdims Hsmall gfuel Hg)|].
  exact (dataset_type_shape_v name base dims elems fin ids Hname Hdims Hcount Hrun Hsmall hfuel Hh).
Qed.

(* the hypotheses are satisfiable: "/v" = three strings "hi", "", "x" *)
Example file_roundtrip_vlen_witness :
  link_name_ok [118] = true /\ dims_ok_vlen [3] = true /\ product [3] = N.of_nat (length [[104; 105]; []; [120]]) /\
  blen (image_v2_vlen [118] VString [3] [[104; 105]; []; [120]]) = 6601.
Proof. vm_compute. repeat split. Qed.
