(* C09: contiguous layout.  The single-read path is correct exactly under the (repaired)
   contiguity test; together with the 2-D and the selection-run path the contiguous reader
   returns the selection for every valid selection.  General in the rank. *)
From HV Require Import Base.Prelude Base.Bytes Model.Hyperslab Proofs.HyperslabBase Proofs.HyperslabRaw.

Lemma axis_idx_run a :
  a_count a = 1 \/ a_stride a = a_block a ->
  axis_idx a = nseq (a_start a) (N.to_nat (a_count a * a_block a)).
Proof.
  intros [H|H]; unfold axis_idx.
  - rewrite H. change (nrange 1) with [0]. cbn [flat_map]. rewrite app_nil_r.
    rewrite (map_ext _ (N.add (a_start a))) by (intros; lia).
    unfold nrange. rewrite map_add_nseq. rewrite N.add_0_r, N.mul_1_l. reflexivity.
  - rewrite H.
    rewrite (flat_map_ext_in _ (fun c => nseq (a_start a + c * a_block a) (N.to_nat (a_block a)))).
    + unfold nrange at 1. rewrite flat_map_nseq_runs. rewrite N2Nat.inj_mul.
      f_equal. lia.
    + intros c _. rewrite (map_ext _ (N.add (a_start a + c * a_block a))) by (intros; lia).
      unfold nrange. rewrite map_add_nseq. f_equal. lia.
Qed.

Lemma map_lin_cons d ds (L : list (list N)) i :
  map (lin (d :: ds)) (map (cons i) L) = map (N.add (i * prodN ds)) (map (lin ds) L).
Proof. rewrite !map_map. apply map_ext. intros x. reflexivity. Qed.

Lemma contig_run : forall s dims, axes_valid s dims -> forall fl, contig_go s dims = (true, fl) ->
  map (lin dims) (sel_coords s) = nseq (lin dims (map a_start s)) (length (sel_coords s))
  /\ (fl = true -> lin dims (map a_start s) = 0 /\ N.of_nat (length (sel_coords s)) = prodN dims).
Proof.
  induction 1 as [|a d s ds Ha V IH]; intros fl E.
  - cbn. split; [reflexivity|]. intros _. split; reflexivity.
  - cbn [contig_go] in E. destruct (contig_go s ds) as [ok' fl'].
    destruct ok'; cbn [negb] in E; [|discriminate].
    destruct (IH fl' eq_refl) as (R & F). clear IH.
    assert (ML : map (lin (d :: ds)) (sel_coords (a :: s))
                 = flat_map (fun i => nseq (i * prodN ds + lin ds (map a_start s)) (length (sel_coords s))) (axis_idx a)).
    { cbn [sel_coords]. rewrite map_flat_map. apply flat_map_ext_in. intros i _.
      rewrite map_lin_cons, R, map_add_nseq. reflexivity. }
    assert (LEN : length (sel_coords (a :: s)) = (length (axis_idx a) * length (sel_coords s))%nat).
    { cbn [sel_coords]. apply flat_map_length_const. intros. apply map_length. }
    rewrite ML, LEN. cbn [map lin].
    destruct fl'; cbn [negb] in E.
    + (* the tail is selected in full *)
      destruct (F eq_refl) as (F0 & FN). clear F.
      destruct (negb (a_count a =? 1) && negb (a_stride a =? a_block a)) eqn:EC; [discriminate|].
      assert (RUN : a_count a = 1 \/ a_stride a = a_block a).
      { destruct (N.eqb_spec (a_count a) 1); [left; assumption|].
        destruct (N.eqb_spec (a_stride a) (a_block a)); [right; assumption|]. discriminate. }
      rewrite (axis_idx_run a RUN), nseq_length, F0.
      assert (LP : length (sel_coords s) = N.to_nat (prodN ds)) by lia.
      rewrite LP.
      rewrite (flat_map_ext_in _ (fun i => nseq (0 + i * prodN ds) (N.to_nat (prodN ds))))
        by (intros; f_equal; lia).
      rewrite flat_map_nseq_runs. split; [f_equal; lia|].
      intros ->.
      destruct (N.eqb_spec (a_start a) 0) as [S0|]; cbn [negb orb] in E; [|discriminate].
      destruct (N.eqb_spec (a_count a * a_block a) d) as [CB|]; cbn [negb] in E; [|discriminate].
      cbn [prodN]. split; [rewrite S0; lia|]. rewrite <- CB. lia.
    + (* the tail is one run but not everything: this dimension selects a single index *)
      destruct (N.eqb_spec (a_count a) 1) as [C1|]; cbn [negb orb] in E; [|discriminate].
      destruct (N.eqb_spec (a_block a) 1) as [B1|]; cbn [negb] in E; [|discriminate].
      injection E as <-.
      assert (AI : axis_idx a = [a_start a]).
      { rewrite (axis_idx_run a (or_introl C1)), C1, B1. reflexivity. }
      rewrite AI. cbn [flat_map length]. rewrite app_nil_r, Nat.mul_1_l. split; [reflexivity|discriminate].
Qed.

Lemma contig_is_run s dims : axes_valid s dims -> is_contiguous_selection s dims = true ->
  map (lin dims) (sel_coords s) = nseq (lin dims (map a_start s)) (length (sel_coords s)).
Proof.
  unfold is_contiguous_selection. intros V C. destruct (contig_go s dims) as [ok fl] eqn:E.
  cbn [fst] in C. subst ok. apply (contig_run _ _ V _ E).
Qed.

Lemma contig_fits s dims : axes_valid s dims -> s <> [] -> is_contiguous_selection s dims = true ->
  lin dims (map a_start s) + out_elems s <= prodN dims.
Proof.
  intros V Hne C. pose proof (out_elems_pos _ _ V Hne) as Hp.
  rewrite out_elems_length in * by (try assumption; eapply axes_valid_block; eassumption).
  (* the last index of the run is the index of a selected coordinate *)
  assert (Hin : In (lin dims (map a_start s) + N.of_nat (length (sel_coords s) - 1)) (map (lin dims) (sel_coords s)))
    by (rewrite (contig_is_run _ _ V C); apply in_nseq; lia).
  apply in_map_iff in Hin. destruct Hin as (x & Hx & Hxin).
  pose proof (lin_bound _ _ (sel_coords_inb _ _ _ V Hxin)). lia.
Qed.

Theorem read_contiguous_optimized_correct full dims s :
  axes_valid s dims -> s <> [] -> lenN full = prodN dims ->
  is_contiguous_selection s dims = true ->
  read_contiguous_optimized full dims s = select full dims s.
Proof.
  intros V Hne Hlen C.
  pose proof (axes_valid_block _ _ V) as Hb. pose proof (axes_valid_length _ _ V) as Ls.
  pose proof (out_elems_pos _ _ V Hne). pose proof (contig_fits _ _ V Hne C) as Hfit. rewrite <- Hlen in Hfit.
  assert (G : read_at full (lin dims (map a_start s)) (out_elems s) = select full dims s).
  { rewrite read_at_spec, out_elems_length, Nat2N.id by assumption.
    unfold select. rewrite <- (contig_is_run _ _ V C), map_map. reflexivity. }
  unfold read_contiguous_optimized. destruct (N.eqb_spec (out_elems s) 0); [lia|].
  destruct dims as [|d0 [|d1 dr]].
  - destruct s; [congruence|discriminate].
  - destruct s as [|a [|a' s']]; try discriminate. rewrite <- G. cbn [map lin prodN]. f_equal. lia.
  - rewrite calc_lin_spec by (rewrite map_length; assumption). exact G.
Qed.

Theorem read_hyperslab_contiguous_correct full dims s :
  axes_valid s dims -> s <> [] -> lenN full = prodN dims ->
  read_hyperslab_contiguous full dims s = select full dims s.
Proof.
  intros V Hne Hlen. unfold read_hyperslab_contiguous.
  destruct (is_contiguous_selection s dims) eqn:C.
  - apply read_contiguous_optimized_correct; assumption.
  - unfold read_contiguous_row_by_row.
    pose proof (axes_valid_length _ _ V) as Ls. pose proof (out_elems_pos _ _ V Hne).
    destruct (N.eqb_spec (out_elems s) 0); [lia|].
    destruct dims as [|d0 [|d1 [|d2 dr]]]; destruct s as [|a0 [|a1 [|a2 sr]]]; try discriminate; try congruence;
      try (apply selection_run_correct; assumption).
    apply read_contiguous_2d_correct; assumption.
Qed.
