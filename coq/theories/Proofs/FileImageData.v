(* C01 end to end: the DATASET stage, for every file in which a contiguous dataset's object header and its data are placed:
   Dataset.Read's I/O program (api_read_raw) run on the header returns exactly the bytes that were written, having decoded
   the datatype, dataspace and layout messages the writer encoded.  Then where the blocks of image_v2 sit. *)
From HV Require Import Base.Prelude Base.Outcome Base.Bytes Model.IOProg Proofs.IOProg Model.IOProgReader.
From HV Require Import Model.CodecSuper Model.CodecOhdr Model.CodecMsg Model.CodecType Model.CodecLink Model.GroupWire.
From HV Require Import Proofs.CodecSuper Proofs.CodecOhdr Proofs.CodecMsg Proofs.CodecType.
From HV Require Import Model.FileImage Proofs.FileImage Proofs.FileImageOhdr.

(* what ReadSuperblock returns on every image: nothing in it depends on the inputs *)
Definition SB' : superblock' :=
  {| spp_version := 2; spp_offsize := 8; spp_lensize := 8; spp_bigendian := false; spp_base := 0; spp_root := 2168;
     spp_superext := UNDEF; spp_driverinfo := 0; spp_rootbtree := 0; spp_rootheap := 0 |}.

Lemma addrs : (HEAP_ADDR, SNOD_ADDR, BTREE_ADDR, ROOT_ADDR, DATA_ADDR) = (48, 336, 1624, 2168, 2195).
Proof. reflexivity. Qed.

Lemma snod_one e :
  snod_write_at {| stn_version := 1; stn_num := 1; stn_entries := [e]; stn_cap := SNOD_CAP |} 8 SNOD_CAP
  = Ok ([83; 78; 79; 68; 1; 0; 1; 0] ++ enc_sym 8 e ++ zeros 1240).
Proof. destruct e. vm_compute. reflexivity. Qed.

(* the header of a group B-tree leaf with one entry and no siblings *)
Definition bt_leaf_hdr : bytes := [84; 82; 69; 69; 0; 0; 1; 0] ++ le 8 UNDEF ++ le 8 UNDEF.
Lemma bt_block_bytes :
  bt_write_at (final_btnode) 8 GROUP_K
  = [84; 82; 69; 69; 0; 0; 1; 0] ++ le 8 UNDEF ++ le 8 UNDEF ++ (le 8 0 ++ le 8 336 ++ le 8 0) ++ zeros 496.
Proof. vm_compute. reflexivity. Qed.

Lemma root_block_bytes :
  enc_ohdr_v2 root_ohdr = [79; 72; 68; 82; 2; 0; 20; 17; 16; 0; 0] ++ le 8 1624 ++ le 8 48.
Proof. vm_compute. reflexivity. Qed.


(* CreateDataset's header (datatype, dataspace, contiguous layout at daddr) for a file with superblock parameters P *)
Definition contig_ohdr (P : sbparams) (class size cbf : N) (dims : list N) (daddr : N) : ohdr :=
  {| oh_version := 2; oh_flags := 0; oh_refcount := 1;
     oh_msgs := [ {| hm_type := 3; hm_data := enc_datatype (dtype_msg class size cbf) |};
                  {| hm_type := 1; hm_data := enc_dataspace {| ds_dims := dims; ds_maxdims := [] |} |};
                  {| hm_type := 8; hm_data := enc_layout P (LContig (data_size size dims) daddr) |} ] |}.

Lemma dset_attrs sb m3 m1 m8 o3 o1 o8 :
  p_attrs sb [ {| hmp_type := 3; hmp_offset := o3; hmp_data := m3 |}; {| hmp_type := 1; hmp_offset := o1; hmp_data := m1 |};
               {| hmp_type := 8; hmp_offset := o8; hmp_data := m8 |} ] = Ret [].
Proof. reflexivity. Qed.

Lemma dataset_raw_contig sb f fuel ms m3 dt dims sz daddr data :
  find_msg 3 ms = Some m3 -> dec_datatype m3 = Ok dt ->
  find_msg 1 ms = Some (enc_dataspace {| ds_dims := dims; ds_maxdims := [] |}) ->
  wf_dataspace {| ds_dims := dims; ds_maxdims := [] |} = true ->
  find_msg 8 ms = Some (enc_layout (sbp sb) (LContig sz daddr)) -> wf_layout (sbp sb) (LContig sz daddr) = true ->
  placed f daddr data -> blen data = total_elems dims * dt_size dt -> 0 < blen data -> daddr + blen data <= MAXI64 ->
  run0 f (p_dataset_raw sb fuel ms) = Ok (RawBytes data).
Proof.
  intros E3 Ed E1 Wds E8 Wly HP Hlen Hpos Hb. unfold p_dataset_raw. rewrite E3, E1, E8, Ed, (dataspace_roundtrip _ Wds).
  rewrite (layout_roundtrip _ _ Wly).
  cbn [obind lift bind fst snd proj_dataspace proj_layout dsp_type dsp_dims ds_dims ly_class ly_addr N.eqb Pos.eqb].
  fold (total_elems dims). rewrite <- Hlen.
  replace (total_elems dims =? 0) with false by (symmetry; apply N.eqb_neq; intros E; rewrite E in Hlen; blia).
  replace (18446744073709551616 <=? blen data) with false by (symmetry; apply N.leb_gt; unfold MAXI64 in Hb; blia).
  now rewrite run0_bind, (run0_read_bytes_at f daddr data (blen data) HP eq_refl Hpos Hb).
Qed.

(* The DATASET stage, for every file in which such a header (in its 262-byte reserve) and the data are placed: the reader's
   superblock' sb has 8-byte little-endian fields, and the header was written with its parameters. *)
Section Contig.
Variable sb : superblock'.
Variables class size cbf : N.
Variable dims : list N.
Variable data : bytes.
Variable daddr : N.
Hypothesis Hdt : basic_dtype class size cbf = true.
Hypothesis Hdims : dims_ok dims = true.
(* the data Write accepts: exactly product(dims) * size bytes (uint64 product as calculateTotalElements computes it),
   not empty, less than 4 GiB *)
Hypothesis Hlen : blen data = total_elems dims * size.
Hypothesis Hpos : 0 < blen data.
Hypothesis Hbound : blen data < 4294967296.
Hypothesis Ho : spp_offsize sb = 8.
Hypothesis Hl : spp_lensize sb = 8.
Hypothesis Hbe : spp_bigendian sb = false.
Hypothesis Hv : spp_version sb < 4.
Hypothesis Hda : daddr < 4294967296.

Local Notation dso := (contig_ohdr (sbp sb) class size cbf dims daddr).
Local Notation pad := (zeros (N.to_nat (OHDR_RESERVE - size_ohdr_v2 dso))).

Lemma rank_bounds : (1 <= length dims <= 24)%nat.
Proof using Hdims. clear - Hdims.
  unfold dims_ok in Hdims. apply andb_true_iff in Hdims as [H _]. apply andb_true_iff in H as [H1 H2].
  apply Nat.leb_le in H2. destruct dims; [discriminate|]. cbn [length] in *. blia.
Qed.
Lemma dims_u64 : u64_ok dims = true.
Proof using Hdims. clear - Hdims.
  unfold dims_ok in Hdims. apply andb_true_iff in Hdims as [_ H]. unfold u64_ok.
  rewrite forallb_forall in *. intros x Hx. specialize (H x Hx). apply andb_true_iff in H as [_ H]. exact H.
Qed.
Lemma wf_ds : wf_dataspace {| ds_dims := dims; ds_maxdims := [] |} = true.
Proof using Hdims. clear - Hdims.
  destruct rank_bounds as [R1 R2]. unfold wf_dataspace, encok_dataspace. cbn [ds_dims ds_maxdims length].
  rewrite dims_u64. cbn [u64_ok forallb andb orb Nat.eqb].
  replace (length dims =? 0)%nat with false by (symmetry; apply Nat.eqb_neq; blia).
  replace (length dims <=? 255)%nat with true by (symmetry; apply Nat.leb_le; blia). reflexivity.
Qed.
Lemma dtype_cases :
  (class = DT_FIXED /\ (size = 1 \/ size = 2 \/ size = 4 \/ size = 8) /\ (cbf = 0 \/ cbf = 8)) \/
  (class = DT_FLOAT /\ (size = 4 \/ size = 8) /\ cbf = 0).
Proof using Hdt. clear - Hdt.
  unfold basic_dtype in Hdt. apply orb_true_iff in Hdt as [H|H]; [left|right];
    apply andb_true_iff in H as [H H3]; apply andb_true_iff in H as [H1 H2]; apply N.eqb_eq in H1;
    repeat (apply orb_true_iff in H2 as [H2|H2]); repeat (apply orb_true_iff in H3 as [H3|H3]);
    apply N.eqb_eq in H2; apply N.eqb_eq in H3; auto 10.
Qed.
Lemma wf_dt : wf_datatype (dtype_msg class size cbf) = true.
Proof using Hdt. clear - Hdt.
  destruct dtype_cases as [(-> & Hs & Hc)|(-> & Hs & ->)];
    repeat (destruct Hs as [->|Hs]); try subst size; try (destruct Hc as [->| ->]); reflexivity.
Qed.
Lemma dt_msg_len : blen (enc_datatype (dtype_msg class size cbf)) = if class =? DT_FIXED then 12 else 20.
Proof using Hdt. clear - Hdt.
  rewrite datatype_blen by exact wf_dt.
  destruct dtype_cases as [(-> & _)|(-> & _)]; reflexivity.
Qed.
Lemma dt_msg_ge2 : 2 <= blen (enc_datatype (dtype_msg class size cbf)).
Proof using Hdt. clear - Hdt. rewrite dt_msg_len. destruct (class =? DT_FIXED); blia. Qed.
Lemma size_pos : 1 <= size <= 8.
Proof using Hdt. clear - Hdt.
  destruct dtype_cases as [(_ & Hs & _)|(_ & Hs & _)]; repeat (destruct Hs as [->|Hs]); try subst size; blia.
Qed.

Lemma data_size_eq : data_size size dims = blen data.
Proof using Hlen Hbound. clear - Hlen Hbound. unfold data_size. rewrite <- Hlen. apply wrap64_small. blia. Qed.
Lemma wf_ly_at : wf_layout (sbp sb) (LContig (data_size size dims) daddr) = true.
Proof using Hlen Hbound Ho Hl Hv Hda. clear - Hlen Hbound Ho Hl Hv Hda.
  rewrite data_size_eq. unfold wf_layout, sb_ok, sbp. cbn [sb_offsize sb_lensize sb_version encok_layout]. rewrite Ho, Hl.
  replace (spp_version sb <? 4) with true by (symmetry; apply N.ltb_lt; exact Hv).
  replace (daddr <? 256 ^ 8) with true by (symmetry; apply N.ltb_lt; change (256 ^ 8) with 18446744073709551616; blia).
  replace (blen data <? 256 ^ 8) with true by (symmetry; apply N.ltb_lt; change (256 ^ 8) with 18446744073709551616; blia).
  reflexivity.
Qed.
Lemma ds_msg_len : blen (enc_dataspace {| ds_dims := dims; ds_maxdims := [] |}) = 8 + 8 * blen dims.
Proof using. clear - dims. rewrite dataspace_blen. unfold size_dataspace. cbn [ds_dims ds_maxdims]. change (blen []) with 0. blia. Qed.
Lemma ly_msg_len : blen (enc_layout (sbp sb) (LContig (data_size size dims) daddr)) = 18.
Proof using Hlen Hbound Ho Hl Hv Hda. clear - Hlen Hbound Ho Hl Hv Hda.
  rewrite layout_blen by exact wf_ly_at. cbn [size_layout sbp sb_offsize sb_lensize]. now rewrite Ho, Hl.
Qed.

Lemma contig_chunk : chunk_size_v2 (oh_msgs dso) = (if class =? DT_FIXED then 12 else 20) + 8 * blen dims + 38.
Proof using Hdt Hlen Hbound Ho Hl Hv Hda. clear - Hdt Hlen Hbound Ho Hl Hv Hda.
  cbn [contig_ohdr oh_msgs chunk_size_v2 fold_right hm_data].
  rewrite dt_msg_len, ds_msg_len, ly_msg_len. blia.
Qed.
Lemma contig_chunk_bound : chunk_size_v2 (oh_msgs dso) <= 250.
Proof using Hdt Hdims Hlen Hbound Ho Hl Hv Hda. clear - Hdt Hdims Hlen Hbound Ho Hl Hv Hda.
  rewrite contig_chunk. destruct rank_bounds as [_ R]. unfold blen. destruct (class =? DT_FIXED); blia.
Qed.
Lemma contig_ok : ohdr_ok dso.
Proof using Hdt Hdims Hlen Hbound Ho Hl Hv Hda. clear - Hdt Hdims Hlen Hbound Ho Hl Hv Hda.
  unfold ohdr_ok. split; [reflexivity|]. split; [reflexivity|]. split; [pose proof contig_chunk_bound; blia|].
  split; [discriminate|].
  cbn [contig_ohdr oh_msgs]. repeat constructor; cbn [hm_type hm_data]; unfold MSG_CONT; try blia; try discriminate.
  - rewrite dt_msg_len; destruct (class =? DT_FIXED); blia.
  - rewrite ds_msg_len; blia.
  - rewrite ly_msg_len; blia.
Qed.
Lemma contig_block_len : blen (enc_ohdr_v2 dso ++ pad) = OHDR_RESERVE.
Proof using Hdt Hdims Hlen Hbound Ho Hl Hv Hda. clear - Hdt Hdims Hlen Hbound Ho Hl Hv Hda.
  rewrite blen_app, blen_zeros, Proofs.CodecOhdr.ohdr_v2_blen.
  pose proof contig_chunk_bound. unfold size_ohdr_v2, OHDR_RESERVE in *. blia.
Qed.

Section File.
Variable f : bytes.
Variable da : N.
Variable fuel : nat.
Hypothesis Pdset : placed f da (enc_ohdr_v2 dso ++ pad).
Hypothesis Hdab : da + 600 < B63.
Hypothesis Hf : (3 < fuel)%nat.

Lemma contig_header : run0 f (p_ohdr sb fuel da) = Ok (proj_ohdr_v2 false dso da).
Proof using Hdt Hdims Hlen Hbound Ho Hl Hbe Hv Hda Pdset Hdab Hf.
  rewrite <- Hbe. apply (p_ohdr_placed sb fuel f da dso pad contig_ok Pdset); [|exact Hf|exact Hdab].
  rewrite blen_zeros. unfold size_ohdr_v2, OHDR_RESERVE. pose proof contig_chunk_bound as Hc. clear - Hc. blia.
Qed.

Lemma proj_dtype_size : dt_size (proj_datatype (dtype_msg class size cbf)) = size.
Proof using Hdt. clear - Hdt.
  unfold proj_datatype, dtype_msg. cbn [dt_class dt_size]. destruct dtype_cases as [(-> & _)|(-> & _)]; reflexivity.
Qed.

Theorem contig_read : placed f daddr data -> run0 f (api_read_raw sb fuel da) = Ok (RawBytes data).
Proof.
  intros Pdata. unfold api_read_raw. rewrite run0_bind, contig_header, run0_swallow.
  unfold proj_ohdr_v2. cbn [contig_ohdr oh_msgs oh_flags msgs_at_v2 ohp_msgs hm_type hm_data].
  rewrite dset_attrs. cbn [bind]. rewrite run0_ret.
  eapply (dataset_raw_contig sb f fuel _ _ _ dims _ daddr data);
    [reflexivity | exact (datatype_roundtrip _ wf_dt) | reflexivity | exact wf_ds | reflexivity | exact wf_ly_at | exact Pdata
    | now rewrite proj_dtype_size | exact Hpos | unfold MAXI64; blia].
Qed.
End File.
End Contig.

Section Name.
Variable name : bytes.
Variable data : bytes.
Hypothesis Hname : link_name_ok name = true.

Lemma name_len : 1 <= blen name /\ blen name < 256.
Proof using Hname. clear - Hname.
  unfold link_name_ok in Hname. apply andb_true_iff in Hname as [H H4]. apply andb_true_iff in H as [H _].
  apply andb_true_iff in H as [H1 _]. apply N.ltb_lt in H4. split; [|exact H4].
  unfold blen. destruct name; [discriminate|]. cbn [length]. blia.
Qed.

(* WriteTo pads the strings to the 256-byte segment and stores the segment's address, 32 behind the header's *)
Lemma heap_image_at a : a + 32 < 18446744073709551616 ->
  heap_image (final_heap name) a = heap_header 256 1 (a + 32) ++ (name ++ [0]) ++ zeros (N.to_nat (256 - (blen name + 1))).
Proof using Hname. clear - Hname.
  intros Ha. destruct name_len as [H1 H2].
  unfold heap_image, heap_write_to, final_heap. cbn [hw_strings hw_dss hw_free hw_daddr].
  rewrite wrap64_small by exact Ha. change HEAP_INIT with 256.
  rewrite blen_app. change (blen [0]) with 1.
  destruct (blen name + 1 <? 256) eqn:E; [reflexivity|]. apply N.ltb_ge in E.
  replace (256 - (blen name + 1)) with 0 by blia. cbn [N.to_nat zeros repeat]. now rewrite app_nil_r.
Qed.
Lemma heap_block_bytes :
  heap_image (final_heap name) HEAP_ADDR
  = heap_header 256 1 80 ++ (name ++ [0]) ++ zeros (N.to_nat (256 - (blen name + 1))).
Proof using Hname. exact (heap_image_at HEAP_ADDR eq_refl). Qed.
Lemma heap_seg_len : blen ((name ++ [0]) ++ zeros (N.to_nat (256 - (blen name + 1)))) = 256.
Proof using Hname. clear - Hname. destruct name_len. rewrite !blen_app, blen_zeros. change (blen [0]) with 1. blia. Qed.
Lemma heap_block_len : blen (heap_image (final_heap name) HEAP_ADDR) = 288.
Proof using Hname. clear - Hname. rewrite heap_block_bytes, blen_app, heap_seg_len. reflexivity. Qed.

Lemma snod_block_bytes :
  snod_block data = [83; 78; 79; 68; 1; 0; 1; 0] ++ enc_sym 8 (final_sym data) ++ zeros 1240.
Proof. unfold snod_block, final_snode. now rewrite snod_one. Qed.
Lemma enc_sym_len e : blen (enc_sym 8 e) = 40.
Proof. unfold enc_sym, write_address. rewrite !blen_app, !blen_le, blen_zeros. reflexivity. Qed.
Lemma snod_block_len : blen (snod_block data) = 1288.
Proof. rewrite snod_block_bytes, !blen_app, enc_sym_len, blen_zeros. reflexivity. Qed.

Lemma bt_block_len : blen (bt_write_at final_btnode 8 GROUP_K) = 544.
Proof. vm_compute. reflexivity. Qed.
Lemma root_block_len : blen (enc_ohdr_v2 root_ohdr) = 27.
Proof. reflexivity. Qed.
End Name.

(* the superblock of a version 2 file as Close leaves it: the images differ in the end-of-file address only *)
Definition v2_sb (eof : N) : superblock :=
  {| sp_version := 2; sp_offsize := 8; sp_lensize := 8; sp_base := 0; sp_root := ROOT_ADDR; sp_superext := 0;
     sp_rootbtree := BTREE_ADDR; sp_rootheap := HEAP_ADDR; sp_eof := eof |}.
Lemma wf_v2_sb eof : eof < 18446744073709551616 -> wf_superblock (v2_sb eof) = true.
Proof.
  intros H. unfold wf_superblock, v2_sb, encok_superblock.
  cbn [sp_version sp_offsize sp_lensize sp_base sp_root sp_superext sp_rootbtree sp_rootheap sp_eof].
  replace (CodecSuper.u64 eof) with true; [reflexivity|]. symmetry. now apply N.ltb_lt.
Qed.
Lemma v2_sb_len eof : blen (enc_superblock (v2_sb eof)) = 48.
Proof. now rewrite superblock_blen. Qed.

(* A version 2 file that holds one dataset: the five blocks of the root group (Model/FileImage.v: superblock, local heap with
   the link name, symbol table node, group B-tree node, root object header), the dataset's raw data d at 2195, the block dsb
   of the dataset's object header behind the data, and whatever is allocated behind it.  image_v2, image_v2_attr,
   image_v2_dense and image_v2_vlen are such files, image_v2_chunked is one without data. *)
Definition v2_blocks (eof : N) (name d dsb : bytes) (rest : list bytes) : list bytes :=
  [ enc_superblock (v2_sb eof); heap_image (final_heap name) HEAP_ADDR; snod_block d; bt_write_at final_btnode 8 GROUP_K;
    enc_ohdr_v2 root_ohdr; d; dsb ] ++ rest.

Section Layout.
Variable eof : N.
Variables name d dsb : bytes.
Variable rest : list bytes.
Hypothesis Hname : link_name_ok name = true.

Local Notation blocks := (v2_blocks eof name d dsb rest).
Local Notation f := (place_all blocks).

Lemma v2_lens : map blen blocks = 48 :: 288 :: 1288 :: 544 :: 27 :: blen d :: blen dsb :: map blen rest.
Proof using Hname.
  cbn [v2_blocks app map]. now rewrite v2_sb_len, (heap_block_len name Hname), snod_block_len, bt_block_len, root_block_len.
Qed.

(* the addresses of the first five blocks evaluate *)
Lemma V2_sb_rest : placed f 0 (enc_superblock (v2_sb eof) ++ concat (skipn 1 blocks)).
Proof using Hname. exact (placed_from blocks _ 0 v2_lens). Qed.
Lemma V2_heap : placed f 48 (heap_image (final_heap name) HEAP_ADDR).
Proof using Hname. exact (placed_block blocks _ 1 _ v2_lens eq_refl). Qed.
Lemma V2_snod : placed f 336 (snod_block d).
Proof using Hname. exact (placed_block blocks _ 2 _ v2_lens eq_refl). Qed.
Lemma V2_bt : placed f 1624 (bt_write_at final_btnode 8 GROUP_K).
Proof using Hname. exact (placed_block blocks _ 3 _ v2_lens eq_refl). Qed.
Lemma V2_root_rest : placed f 2168 (enc_ohdr_v2 root_ohdr ++ d ++ dsb ++ concat rest).
Proof using Hname. exact (placed_from blocks _ 4 v2_lens). Qed.
Lemma V2_data : placed f 2195 d.
Proof using Hname. exact (placed_block blocks _ 5 _ v2_lens eq_refl). Qed.
Lemma V2_dset_rest : placed f (dset_addr d) (dsb ++ concat rest).
Proof using Hname. exact (placed_tail f 2195 d _ (placed_tail f 2168 _ _ V2_root_rest)). Qed.
Lemma V2_dset : placed f (dset_addr d) dsb.
Proof using Hname. exact (placed_head _ _ _ _ V2_dset_rest). Qed.
Lemma V2_rest : placed f (dset_addr d + blen dsb) (concat rest).
Proof using Hname. exact (placed_tail _ _ _ _ V2_dset_rest). Qed.

Lemma v2_len : blen f = dset_addr d + blen dsb + blen (concat rest).
Proof using Hname.
  rewrite (place_all_len _ _ v2_lens). cbn [sumN fold_right]. fold (sumN (map blen rest)).
  rewrite <- (place_all_len rest _ eq_refl). unfold dset_addr, place_all. change DATA_ADDR with 2195. blia.
Qed.
End Layout.

Section Image.
Variable name : bytes.
Variables class size cbf : N.
Variable dims : list N.
Variable data : bytes.
Hypothesis Hname : link_name_ok name = true.
Hypothesis Hdt : basic_dtype class size cbf = true.
Hypothesis Hdims : dims_ok dims = true.
Hypothesis Hlen : blen data = total_elems dims * size.
Hypothesis Hbound : blen data < 4294967296.

Local Notation f := (image_v2 name class size cbf dims data).
Local Notation da := (dset_addr data).
Local Notation dso := (dset_ohdr class size cbf dims).
Local Notation dsb := (dset_block class size cbf dims).

(* image_v2 is such a file, with nothing behind the dataset's header *)
Lemma P_data : placed f 2195 data.
Proof using Hname. exact (V2_data (eof_addr data) name data dsb [] Hname). Qed.
Lemma P_dset : placed f da dsb.
Proof using Hname. exact (V2_dset (eof_addr data) name data dsb [] Hname). Qed.

Lemma wf_ly : wf_layout SBP (LContig (data_size size dims) DATA_ADDR) = true.
Proof using Hlen Hbound. exact (wf_ly_at SB' size dims data DATA_ADDR Hlen Hbound eq_refl eq_refl eq_refl eq_refl). Qed.
Lemma dso_chunk_bound : chunk_size_v2 (oh_msgs dso) <= 250.
Proof using Hdt Hdims Hlen Hbound. exact (contig_chunk_bound SB' class size cbf dims data DATA_ADDR Hdt Hdims Hlen Hbound eq_refl eq_refl eq_refl eq_refl). Qed.
Lemma dsb_len : blen dsb = OHDR_RESERVE.
Proof using Hdt Hdims Hlen Hbound.
  exact (contig_block_len SB' class size cbf dims data DATA_ADDR Hdt Hdims Hlen Hbound eq_refl eq_refl eq_refl eq_refl).
Qed.
Lemma eof_u64 : eof_addr data < 18446744073709551616.
Proof using Hbound. clear - Hbound. unfold eof_addr, dset_addr, OHDR_RESERVE. change DATA_ADDR with 2195. blia. Qed.
Lemma da_bound : da + 600 < B63.
Proof using Hbound. clear - Hbound. unfold da, dset_addr, B63. change DATA_ADDR with 2195. blia. Qed.

Lemma dset_header fuel : (3 < fuel)%nat ->
  run0 f (p_ohdr SB' fuel da) = Ok (proj_ohdr_v2 false dso da).
Proof using Hname Hdt Hdims Hlen Hbound.
  exact (contig_header SB' class size cbf dims data DATA_ADDR Hdt Hdims Hlen Hbound eq_refl eq_refl eq_refl eq_refl eq_refl f da fuel P_dset da_bound).
Qed.
End Image.
