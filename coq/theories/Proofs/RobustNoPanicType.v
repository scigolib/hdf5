(* C07: the nested decoders never panic: filter pipeline, datatype (any nesting depth), compound member
   lists, attribute message.  All statements are for every byte string. *)
From HV Require Import Base.Prelude Base.Outcome Base.Bytes.
From HV Require Import Model.CodecMsg Model.CodecType Model.CodecCompound Model.CodecFilter Model.CodecAttr.
From HV Require Import Proofs.RobustNoPanicBase Proofs.RobustNoPanicMsg.

(* the client-data loop is entered only after  offset + ncd*4 <= len(data)  was checked *)
Lemma read_cd_np n : forall data offset, offset + 4 * N.of_nat n <= blen data -> np (read_cd data n offset).
Proof.
  induction n as [|n IH]; intros data offset H; cbn [read_cd]; np_go.
  apply IH. blia.
Qed.

(* both variants of the version 2 filter name switch *)
Lemma parse_filters_gen_np rep n : forall data version v1 offset, np (parse_filters_gen rep n data version v1 offset).
Proof.
  induction n as [|n IH]; intros; cbn [parse_filters_gen]; np_go.
  all: try (apply read_cd_np; rewrite N2Nat.id; np_side).
  all: repeat match goal with
       | H : context [if ?c then _ else _] |- np (slice _ _ _) => destruct c eqn:?
       end; apply slice_np; np_side.
Qed.
#[export] Hint Resolve parse_filters_gen_np : np.

Lemma parse_filters_np n : forall data version v1 offset, np (parse_filters n data version v1 offset).
Proof. intros. apply parse_filters_gen_np. Qed.
#[export] Hint Resolve parse_filters_np : np.

Lemma dec_pipeline_gen_np rep data : np (dec_pipeline_gen rep data).
Proof. unfold dec_pipeline_gen. np_go. Qed.

Lemma dec_pipeline_np data : np (dec_pipeline data).
Proof. apply dec_pipeline_gen_np. Qed.

(* calculateCompoundPropsLen's loop, for ANY member parser (a failing member parse is an error) *)
Lemma cpl_loop_np parse fuel : forall props remaining offset, np (cpl_loop parse fuel props remaining offset).
Proof.
  induction fuel as [|fuel IH]; intros; cbn [cpl_loop]; np_go.
Qed.
#[export] Hint Resolve cpl_loop_np : np.

Lemma compound_props_len_np parse props version : np (compound_props_len parse props version).
Proof. unfold compound_props_len. np_go. Qed.
#[export] Hint Resolve compound_props_len_np : np.

Lemma dec_dt_np fuel : forall data, np (dec_dt fuel data).
Proof.
  induction fuel as [|fuel IH]; intros data; cbn [dec_dt]; [apply np_err|].
  np_go.
  all: try (exfalso; eapply compound_props_len_np; eassumption).
  all: match goal with |- np (slice _ _ (8 + (if ?c then _ else _))) => destruct c eqn:? end.
  all: apply slice_np; np_side.
Qed.
#[export] Hint Resolve dec_dt_np : np.

Lemma dec_datatype_np data : np (dec_datatype data).
Proof. unfold dec_datatype. apply dec_dt_np. Qed.
#[export] Hint Resolve dec_datatype_np : np.

Lemma v3_members_np fuel : forall props remaining offset, np (v3_members fuel props remaining offset).
Proof.
  induction fuel as [|fuel IH]; intros; cbn [v3_members]; [np_go|].
  pose proof (find0_ge props offset). np_go.
Qed.

Lemma v1_members_np fuel : forall props remaining offset, np (v1_members fuel props remaining offset).
Proof.
  induction fuel as [|fuel IH]; intros; cbn [v1_members]; [np_go|].
  pose proof (find0_ge props offset). np_go.
Qed.
#[export] Hint Resolve v3_members_np v1_members_np : np.

Lemma parse_compound_np dt : np (parse_compound dt).
Proof. unfold parse_compound. np_go. Qed.
#[export] Hint Resolve parse_compound_np : np.

Lemma dec_compound_np data : np (dec_compound data).
Proof. unfold dec_compound. np_go. Qed.

(* both variants of the version 2 padding switch *)
Lemma dec_attribute_gen_np rep bigendian data : np (dec_attribute_gen rep bigendian data).
Proof. unfold dec_attribute_gen, rd16. np_go. Qed.

Lemma dec_attribute_np bigendian data : np (dec_attribute bigendian data).
Proof. apply dec_attribute_gen_np. Qed.

Lemma read_cd_no_panic : forall n data offset,
  offset + 4 * N.of_nat n <= blen data -> read_cd data n offset <> Panic.
Proof. exact read_cd_np. Qed.
Lemma parse_filters_no_panic : forall n data version v1 offset, parse_filters n data version v1 offset <> Panic.
Proof. exact parse_filters_np. Qed.
Lemma cpl_loop_no_panic : forall parse fuel props remaining offset,
  cpl_loop parse fuel props remaining offset <> Panic.
Proof. intros. apply cpl_loop_np. Qed.
Lemma compound_props_len_no_panic : forall parse props version, compound_props_len parse props version <> Panic.
Proof. exact compound_props_len_np. Qed.
Lemma dec_datatype_no_panic : forall data, dec_datatype data <> Panic.
Proof. exact dec_datatype_np. Qed.
Lemma v3_members_no_panic : forall fuel props remaining offset, v3_members fuel props remaining offset <> Panic.
Proof. exact v3_members_np. Qed.
Lemma v1_members_no_panic : forall fuel props remaining offset, v1_members fuel props remaining offset <> Panic.
Proof. exact v1_members_np. Qed.
Lemma parse_compound_no_panic : forall dt, parse_compound dt <> Panic.
Proof. exact parse_compound_np. Qed.
