(* C11: the second link-message parser (internal/structures/linkmessage.go):
   it inverts core.EncodeLinkMessage, and it agrees with the first parser wherever both accept. *)
From HV Require Import Base.Prelude Base.Outcome Base.Bytes Model.CodecMsg Model.CodecLink Model.CodecLink2
  Proofs.CodecMsg Proofs.CodecLink.

Lemma leb_ltb1 a b : (a <=? b) = (a <? b + 1).
Proof. destruct (N.leb_spec a b), (N.ltb_spec a (b + 1)); auto; blia. Qed.

Lemma slice1 (data : list N) o : o < blen data ->
  exists b, slice data o (o + 1) = Ok [b] /\ index data o = Ok b.
Proof.
  intros H. unfold index, slice. bnorm.
  destruct (nth_error data (N.to_nat o)) as [b|] eqn:E.
  - exists b. apply nth_error_split in E as (l1 & l2 & -> & Hl).
    replace ((o <=? o + 1) && (o + 1 <=? blen (l1 ++ b :: l2))) with true
      by (symmetry; apply andb_true_iff; split; apply N.leb_le; blia).
    split; auto. f_equal. rewrite <- Hl.
    rewrite skipn_app, skipn_all, Nat.sub_diag. cbn [skipn app].
    replace (N.to_nat (o + 1 - o)) with 1%nat by blia. reflexivity.
  - apply nth_error_None in E. unfold blen in H. blia.
Qed.

Lemma rd_le1 (data : list N) o : o < blen data -> rd_le data o 1 = index data o.
Proof.
  intros H. destruct (slice1 data o H) as (b & Hs & Hi). unfold rd_le. bnorm. rewrite Hs, Hi.
  cbn [obind unle]. f_equal. blia.
Qed.

Lemma un_end1 be (b : N) : un_end be [b] = b.
Proof. destruct be; unfold un_end, unbe; cbn [rev app unle]; blia. Qed.

Lemma rd_end_slice be (data : list N) o k :
  rd_end be data o k = (s <- slice data o (o + k);; Ok (un_end be s)).
Proof. unfold rd_end, rd_be, rd_le, un_end. now destruct be. Qed.

Lemma blen_ge2 (a b : N) (r : list N) : (blen (a :: b :: r) <? 2) = false.
Proof. apply N.ltb_ge. unfold blen. cbn [length]. blia. Qed.

Definition hdr12 (t : N * N * N * N * N) : N * N * N * bool * N * N :=
  let '(f, ty, co, cs, off) := t in (f, ty, co, lk_has_corder f, cs, off).

(* The two header parsers are the same program up to [a <=? b] written as [a <? b + 1] and the extra boolean:
   one step simplifies both sides, closes the goal if they now coincide, and otherwise splits on the next
   test or read they both perform (the same term on either side).  Every path through the header has at most
   three tests and three reads, so repeating the step ends. *)
Ltac hstep :=
  cbn [obind omap hdr12]; cbv beta iota; rewrite ?leb_ltb1;
  try match goal with H : lk_has_corder _ = _ |- _ => rewrite ?H end; try reflexivity;
  match goal with
  | |- context [if ?c then _ else _] => destruct c
  | |- context [obind (index ?d ?i) _] => destruct (index d i)
  | |- context [obind (rd_le ?d ?i ?k) _] => destruct (rd_le d i k)
  end.

Lemma link2_header_eq data : dec_link2_header data = omap hdr12 (dec_link_header data).
Proof.
  destruct data as [|a [|b rest]]; [reflexivity | reflexivity |].
  unfold dec_link2_header, dec_link_header. rewrite blen_ge2, index0, index1.
  set (D := a :: b :: rest). cbn [obind].
  destruct (negb (a =? 1)); [reflexivity|].
  destruct (lk_has_corder b) eqn:B2; repeat hstep.
Qed.

Lemma link2_namelen_eq data off f : dec_link2_namelen data off f = dec_link_namelen data off f.
Proof.
  unfold dec_link2_namelen, dec_link_namelen, lk_lensize.
  destruct (land3_cases f) as [E | [E | [E | E]]]; rewrite E; cbn [N.eqb Pos.eqb]; cbv iota.
  - change (N.shiftl 1 0) with 1. rewrite leb_ltb1.
    destruct (N.ltb_spec (blen data) (off + 1)); auto.
    rewrite rd_le1 by blia. reflexivity.
  - reflexivity.
  - reflexivity.
  - reflexivity.
Qed.

Lemma link2_name_dec (data : list N) off name :
  file_at data off name -> 1 <= blen name ->
  dec_link2_name data off (blen name) = Ok (name, off + blen name).
Proof.
  intros F H. unfold dec_link2_name. pose proof (fa_bound _ _ _ F).
  now rewrite (proj2 (N.eqb_neq _ _)), ltb_false, (fa_slice F) by blia.
Qed.

Lemma link2_value_dec os be (data pre v : list N) off ty :
  data = pre ++ v -> off = blen pre -> link_value_ok2 os ty v = true ->
  dec_link2_value os be data off ty
  = Ok (if ty =? 0 then un_end be v else 0, if ty =? 1 then skipn 2 v else []).
Proof.
  unfold link_value_ok2, dec_link2_value. intros -> -> H. rewrite blen_app. bnorm.
  destruct (ty =? 0) eqn:T0; [|destruct (ty =? 1) eqn:T1]; autorewrite with bool_prop in H.
  - destruct H as [Hl Hs]. apply size1248_of_bool in Hs. apply N.eqb_eq in T0. subst ty.
    change (0 =? 1) with false. cbv iota. rewrite ltb_false by blia.
    destruct Hs as [E | [E | [E | E]]]; rewrite E in *; cbn [N.eqb Pos.eqb]; cbv iota.
    + destruct v as [|b [|c r]]; try (unfold blen in Hl; cbn [length] in Hl; blia).
      rewrite index_app by reflexivity. cbn [obind]. now rewrite un_end1.
    + unfold rd_end, rd_be, rd_le. rewrite slice_app_end by (auto; blia). destruct be; reflexivity.
    + unfold rd_end, rd_be, rd_le. rewrite slice_app_end by (auto; blia). destruct be; reflexivity.
    + unfold rd_end, rd_be, rd_le. rewrite slice_app_end by (auto; blia). destruct be; reflexivity.
  - destruct H as [H3 Hn].
    rewrite ltb_false, (rd_le_mid pre v _ 0 2) by blia. cbn [obind].
    change (firstn (N.to_nat 2) (skipn (N.to_nat 0) v)) with (firstn 2 v).
    rewrite Hn, (proj2 (N.eqb_neq _ _)), ltb_false, (slice_mid_firstn pre v _ 2) by blia. cbn [obind].
    do 2 f_equal. apply firstn_all2. change (N.to_nat 2) with 2%nat. unfold blen in *. rewrite skipn_length. blia.
  - now rewrite ltb_false, (rd_le_mid pre v _ 0 2) by blia.
Qed.

Lemma wf_link2_inv os be x : wf_link2 os be x = true ->
  lk_version x = 1 /\ lk_corder x < 256 ^ 8 /\ 1 <= blen (lk_name x) /\
  blen (lk_name x) < 256 ^ lk_lensize (lk_flags x) /\
  (lk_has_type (lk_flags x) = false -> lk_type x = 0) /\
  (lk_has_corder (lk_flags x) = false -> lk_corder x = 0) /\
  (lk_has_charset (lk_flags x) = false -> lk_charset x = 0) /\
  link_value_ok2 os (lk_type x) (lk_value x) = true.
Proof.
  unfold wf_link2, encok_link. intros H. autorewrite with bool_prop in H.
  destruct H as ((((((((((((Hv & Hl) & ?) & ?) & ?) & ?) & Hn) & ?) & ?) & ?) & ?) & ?) & ?).
  repeat split; eauto using absent_zero.
  apply orb_true_iff in Hl as [E|E]; [apply N.eqb_eq in E; rewrite E|apply N.ltb_lt in E; exact E].
  change (256 ^ 8) with 18446744073709551616. blia.
Qed.

Lemma enc_link_fields f ty co cs (name v : list N) :
  let Hd := link_hdr f ty co cs in
  let data := Hd ++ le (N.to_nat (lk_lensize f)) (blen name) ++ name ++ v in
  file_at data (blen Hd) (le (N.to_nat (lk_lensize f)) (blen name)) /\
  file_at data (blen Hd + lk_lensize f) name /\
  data = (Hd ++ le (N.to_nat (lk_lensize f)) (blen name) ++ name) ++ v /\
  blen Hd + lk_lensize f + blen name = blen (Hd ++ le (N.to_nat (lk_lensize f)) (blen name) ++ name).
Proof.
  intros Hd data. pose proof (fa_here Hd (le (N.to_nat (lk_lensize f)) (blen name) ++ name) v) as F.
  rewrite <- app_assoc in F. apply fa_split in F as [FL Fn]. rewrite blen_le, N2Nat.id in Fn.
  repeat split; auto.
  - subst data. now rewrite <- !app_assoc.
  - rewrite !blen_app, blen_le. blia.
Qed.

Lemma link2_roundtrip os be x : wf_link2 os be x = true ->
  dec_link2 os be (enc_link x) = Ok (proj_link2 os be x).
Proof.
  intros Hwf. apply wf_link2_inv in Hwf as (Hv & Hco & Hn1 & Hnf & Ht & Hc & Hs & Hval).
  rewrite enc_link_shape by auto.
  destruct x as [ver f ty co cs name v]; cbn [lk_version lk_flags lk_type lk_corder lk_charset lk_name lk_value] in *.
  subst ver. unfold dec_link2, proj_link2.
  cbn [lk_version lk_flags lk_type lk_corder lk_charset lk_name lk_value].
  destruct (enc_link_fields f ty co cs name v) as (FL & Fn & Ed & El).
  rewrite link2_header_eq.
  bnorm. rewrite link_header_dec by auto. cbn [omap hdr12 obind]. cbv beta iota.
  rewrite link2_namelen_eq, (link_namelen_dec _ _ _ _ FL) by auto. cbn [obind]. cbv beta iota.
  rewrite (link2_name_dec _ _ _ Fn) by auto. cbn [obind]. cbv beta iota.
  rewrite (link2_value_dec os be _ _ v _ ty Ed El) by auto. cbn [obind]. cbv beta iota.
  now destruct (lk_has_corder f).
Qed.

(* a value the first parser's round-trip theorem covers is covered here as soon as the three extra
   requirements hold *)
Lemma wf_link2_of_wf_link os be x :
  wf_link os x = true -> 1 <= blen (lk_name x) ->
  (lk_type x = 0 -> size1248 os) -> (lk_type x = 1 -> 3 <= blen (lk_value x)) ->
  wf_link2 os be x = true.
Proof.
  unfold wf_link, wf_link2. intros H Hn Hh Hsft. autorewrite with bool_prop in *.
  destruct H as ((((((((((? & ?) & ?) & ?) & ?) & Hl) & ?) & ?) & ?) & ?) & V).
  repeat split; auto; try blia.
  unfold link_value_ok in V. unfold link_value_ok2.
  destruct (lk_type x =? 0) eqn:T0; [|destruct (lk_type x =? 1) eqn:T1; [|destruct (lk_type x =? 64); [|discriminate]]];
    autorewrite with bool_prop in *.
  - split; [exact V|]. destruct (Hh T0) as [-> | [-> | [-> | ->]]]; reflexivity.
  - destruct V. auto.
  - destruct V. blia.
Qed.

Lemma link_parsers_agree os be data x y :
  dec_link os data = Ok x -> dec_link2 os be data = Ok y -> y = link2_of_link be x.
Proof.
  unfold dec_link, dec_link2. rewrite link2_header_eq.
  destruct (dec_link_header data) as [[[[[f ty] co] cs] off] | |]; cbn [obind omap hdr12]; try discriminate.
  cbv beta iota. rewrite link2_namelen_eq.
  destruct (dec_link_namelen data off f) as [[nl off2] | |]; cbn [obind]; try discriminate.
  cbv beta iota. unfold dec_link_name, dec_link2_name.
  destruct (1048576 <? nl); [discriminate|].
  destruct (blen data <? off2 + nl); [discriminate|].
  destruct (nl =? 0); [discriminate|].
  destruct (blen data - off2 <? nl); [discriminate|].
  destruct (slice data off2 (off2 + nl)) as [name | |]; cbn [obind]; try discriminate.
  cbv beta iota. set (o := off2 + nl).
  unfold dec_link_value, dec_link2_value, link2_of_link.
  destruct (ty =? 0) eqn:T0.
  - destruct (N.ltb_spec (blen data) (o + os)) as [L|L]; [discriminate|].
    destruct (os =? 1) eqn:O1.
    { apply N.eqb_eq in O1. subst os.
      destruct (slice1 data o) as (b & Hs & Hi); [blia|]. bnorm. rewrite Hs, Hi. cbn [obind].
      intros Hx Hy. injection Hx as <-. injection Hy as <-.
      cbn [lk_version lk_flags lk_type lk_corder lk_charset lk_name lk_value]. rewrite T0, un_end1.
      apply N.eqb_eq in T0. subst ty. reflexivity. }
    rewrite !rd_end_slice.
    destruct (os =? 2) eqn:O2; [apply N.eqb_eq in O2; subst os|
    destruct (os =? 4) eqn:O4; [apply N.eqb_eq in O4; subst os|
    destruct (os =? 8) eqn:O8; [apply N.eqb_eq in O8; subst os|]]];
    try (destruct (slice data o _) as [s | |]; cbn [obind]; try discriminate;
         intros Hx Hy; injection Hx as <-; injection Hy as <-;
         cbn [lk_version lk_flags lk_type lk_corder lk_charset lk_name lk_value]; rewrite T0;
         apply N.eqb_eq in T0; subst ty; reflexivity).
  - destruct (ty =? 1) eqn:T1.
    + destruct (blen data <? o + 2); [discriminate|].
      destruct (rd_le data o 2) as [tl | |]; cbn [obind]; try discriminate.
      destruct (tl =? 0); [intros _ Hy; discriminate|].
      destruct (blen data <? o + 2 + tl); [discriminate|].
      destruct (slice data (o + 2) (o + 2 + tl)) as [p | |]; cbn [obind]; try discriminate.
      intros Hx Hy. injection Hx as <-. injection Hy as <-.
      cbn [lk_version lk_flags lk_type lk_corder lk_charset lk_name lk_value]. rewrite T0, T1. reflexivity.
    + (* other types: only 64 is accepted by the first parser *)
      destruct (ty =? 64); [|discriminate].
      destruct (blen data <? o + 2); [discriminate|].
      destruct (rd_le data o 2) as [fl | |]; cbn [obind]; try discriminate.
      intros Hx Hy. injection Hy as <-.
      destruct (blen data <? o + 2 + fl + 2); [discriminate|].
      destruct (rd_le data (o + 2 + fl) 2) as [pl | |]; cbn [obind] in Hx; try discriminate.
      destruct (blen data <? o + (2 + fl + 2 + pl)); [discriminate|].
      destruct (slice data o (o + (2 + fl + 2 + pl))) as [s | |]; cbn [obind] in Hx; try discriminate.
      injection Hx as <-.
      cbn [lk_version lk_flags lk_type lk_corder lk_charset lk_name lk_value]. rewrite T0, T1. reflexivity.
Qed.

Lemma proj_link2_of_proj os be x : proj_link2 os be x = link2_of_link be (proj_link x).
Proof.
  unfold proj_link2, link2_of_link, proj_link.
  cbn [lk_version lk_flags lk_type lk_corder lk_charset lk_name lk_value].
  destruct (lk_type x =? 0) eqn:T0, (lk_type x =? 1) eqn:T1; try reflexivity.
  apply N.eqb_eq in T0, T1. congruence.
Qed.

(* whatever the first parser accepts, the second accepts too (with the corresponding value), EXCEPT an empty
   name, a hard link under an offset size other than 1,2,4,8, and a soft link with an empty path *)
Lemma link2_accepts os be data x :
  dec_link os data = Ok x -> 1 <= blen (lk_name x) ->
  (lk_type x = 0 -> size1248 os) -> (lk_type x = 1 -> 1 <= blen (lk_value x)) ->
  dec_link2 os be data = Ok (link2_of_link be x).
Proof.
  unfold dec_link, dec_link2. rewrite link2_header_eq.
  destruct (dec_link_header data) as [[[[[f ty] co] cs] off] | |]; cbn [obind omap hdr12]; try discriminate.
  cbv beta iota. rewrite link2_namelen_eq.
  destruct (dec_link_namelen data off f) as [[nl off2] | |]; cbn [obind]; try discriminate.
  cbv beta iota. unfold dec_link_name, dec_link2_name.
  destruct (1048576 <? nl); [discriminate|].
  destruct (N.ltb_spec (blen data) (off2 + nl)) as [L|L]; [discriminate|].
  destruct (slice data off2 (off2 + nl)) as [name | |] eqn:Sn; cbn [obind]; try discriminate.
  cbv beta iota. set (o := off2 + nl) in *.
  destruct (dec_link_value os data o ty) as [v | |] eqn:V; cbn [obind]; try discriminate.
  intros Hx. injection Hx as <-. cbn [lk_version lk_flags lk_type lk_corder lk_charset lk_name lk_value].
  intros Hn Hh Hs. apply slice_blen in Sn.
  replace (nl =? 0) with false by (symmetry; apply N.eqb_neq; blia).
  replace (blen data - off2 <? nl) with false by (symmetry; apply N.ltb_ge; blia).
  cbn [obind]. cbv beta iota. fold o.
  unfold link2_of_link. cbn [lk_version lk_flags lk_type lk_corder lk_charset lk_name lk_value].
  unfold dec_link_value in V. unfold dec_link2_value.
  destruct (ty =? 0) eqn:T0.
  - apply N.eqb_eq in T0. subst ty. change (0 =? 1) with false. cbv iota.
    destruct (N.ltb_spec (blen data) (o + os)) as [L2|L2]; [discriminate|].
    destruct (Hh eq_refl) as [-> | [-> | [-> | ->]]]; cbn [N.eqb Pos.eqb]; cbv iota; rewrite ?rd_end_slice.
    + destruct (slice1 data o) as (b & Hb & Hi); [blia|]. bnorm. rewrite Hi. rewrite Hb in V.
      injection V as <-. cbn [obind]. now rewrite un_end1.
    + bnorm. rewrite V. reflexivity.
    + bnorm. rewrite V. reflexivity.
    + bnorm. rewrite V. reflexivity.
  - destruct (ty =? 1) eqn:T1.
    + apply N.eqb_eq in T1. subst ty.
      destruct (blen data <? o + 2); [discriminate|].
      destruct (rd_le data o 2) as [tl | |]; cbn [obind] in *; try discriminate.
      destruct (blen data <? o + 2 + tl); [discriminate|].
      pose proof (slice_blen _ _ _ _ V) as Lv. specialize (Hs eq_refl).
      replace (tl =? 0) with false by (symmetry; apply N.eqb_neq; blia).
      bnorm. rewrite V. reflexivity.
    + destruct (ty =? 64); [|discriminate].
      destruct (blen data <? o + 2); [discriminate|].
      destruct (rd_le data o 2) as [fl | |]; cbn [obind] in *; try discriminate.
      reflexivity.
Qed.

(* a name longer than 1 MiB: the second parser reads it back (link2_roundtrip), the first refuses it *)
Lemma link_long_name_core_err os be x :
  wf_link2 os be x = true -> 1048576 < blen (lk_name x) -> dec_link os (enc_link x) = Err.
Proof.
  intros Hwf Hlong. apply wf_link2_inv in Hwf as (Hv & Hco & Hn1 & Hnf & Ht & Hc & Hs & Hval).
  rewrite enc_link_shape by auto.
  destruct x as [ver f ty co cs name v]; cbn [lk_version lk_flags lk_type lk_corder lk_charset lk_name lk_value] in *.
  subst ver. unfold dec_link. destruct (enc_link_fields f ty co cs name v) as (FL & _).
  bnorm. rewrite link_header_dec by auto. cbn [obind]. cbv beta iota.
  rewrite (link_namelen_dec _ _ _ _ FL) by auto. cbn [obind]. cbv beta iota. unfold dec_link_name.
  now rewrite (proj2 (N.ltb_lt _ _)).
Qed.

(* byte strings on which the outcomes differ (offset size 8, little-endian) *)
Definition l2w_empty_name : bytes := [1; 0; 0; 1; 2; 3; 4; 5; 6; 7; 8].        (* hard link, name length 0 *)
Definition l2w_empty_soft : bytes := [1; 8; 1; 1; 108; 0; 0].                  (* soft link "l" -> "" *)
Definition l2w_type5      : bytes := [1; 8; 5; 1; 108; 0; 0].                  (* link type 5 *)
Definition l2w_short_ext  : bytes := [1; 8; 64; 1; 108; 0; 0].                 (* external link, 2 value bytes *)
Definition l2w_hard       : bytes := [1; 0; 1; 108; 1; 2; 3].                  (* hard link, offset size 3 *)

Lemma link2_empty_name_differs :
  dec_link 8 l2w_empty_name = Ok {| lk_version := 1; lk_flags := 0; lk_type := 0; lk_corder := 0; lk_charset := 0;
                                    lk_name := []; lk_value := [1; 2; 3; 4; 5; 6; 7; 8] |} /\
  dec_link2 8 false l2w_empty_name = Err.
Proof. vm_compute. split; reflexivity. Qed.

Lemma link2_empty_soft_differs :
  dec_link 8 l2w_empty_soft = Ok {| lk_version := 1; lk_flags := 8; lk_type := 1; lk_corder := 0; lk_charset := 0;
                                    lk_name := [108]; lk_value := [] |} /\
  dec_link2 8 false l2w_empty_soft = Err.
Proof. vm_compute. split; reflexivity. Qed.

Lemma link2_other_type_differs :
  dec_link 8 l2w_type5 = Err /\
  dec_link2 8 false l2w_type5 =
    Ok {| l2_version := 1; l2_flags := 8; l2_type := 5; l2_name := [108]; l2_corder := 0; l2_corder_valid := false;
          l2_charset := 0; l2_addr := 0; l2_target := [] |}.
Proof. vm_compute. split; reflexivity. Qed.

Lemma link2_short_external_differs :
  dec_link 8 l2w_short_ext = Err /\
  dec_link2 8 false l2w_short_ext =
    Ok {| l2_version := 1; l2_flags := 8; l2_type := 64; l2_name := [108]; l2_corder := 0; l2_corder_valid := false;
          l2_charset := 0; l2_addr := 0; l2_target := [] |}.
Proof. vm_compute. split; reflexivity. Qed.

Lemma link2_offsize3_differs :
  dec_link 3 l2w_hard = Ok {| lk_version := 1; lk_flags := 0; lk_type := 0; lk_corder := 0; lk_charset := 0;
                              lk_name := [108]; lk_value := [1; 2; 3] |} /\
  dec_link2 3 false l2w_hard = Err.
Proof. vm_compute. split; reflexivity. Qed.

(* so "both parsers accept the same messages" is false (here by a message only the first accepts; link2_other_type_differs
   has one only the second accepts) *)
Lemma link_parsers_same_outcome_refuted :
  ~ (forall os be data, oclass (dec_link os data) = oclass (dec_link2 os be data)).
Proof. intros H. specialize (H 8 false l2w_empty_name). vm_compute in H. discriminate. Qed.

(* a message with creation order AND character set (flags 0x1C | width), the two fields whose order in the message matters:
   both parsers read creation order first *)
Definition l2w_both : bytes := [1; 28; 0] ++ le 8 72623859790382856 ++ [1; 2; 108; 109] ++ le 8 4096.
Lemma link2_corder_charset_example :
  dec_link 8 l2w_both = Ok {| lk_version := 1; lk_flags := 28; lk_type := 0; lk_corder := 72623859790382856;
                              lk_charset := 1; lk_name := [108; 109]; lk_value := le 8 4096 |} /\
  dec_link2 8 false l2w_both =
    Ok {| l2_version := 1; l2_flags := 28; l2_type := 0; l2_name := [108; 109]; l2_corder := 72623859790382856;
          l2_corder_valid := true; l2_charset := 1; l2_addr := 4096; l2_target := [] |}.
Proof. vm_compute. split; reflexivity. Qed.

(* wf_link2 is satisfiable: hard, soft and external link with type, creation order and charset stored
   (flags 0x1C | width code), under a big-endian superblock for the hard link *)
Definition l2x_hard : linkmsg :=
  {| lk_version := 1; lk_flags := 28; lk_type := 0; lk_corder := 7; lk_charset := 1;
     lk_name := [100; 115]; lk_value := [0; 0; 0; 0; 0; 0; 16; 0] |}.
Definition l2x_soft : linkmsg :=
  {| lk_version := 1; lk_flags := 29; lk_type := 1; lk_corder := 18446744073709551615; lk_charset := 0;
     lk_name := [115]; lk_value := le 2 2 ++ [47; 97] |}.
Definition l2x_ext : linkmsg :=
  {| lk_version := 1; lk_flags := 31; lk_type := 64; lk_corder := 1; lk_charset := 1;
     lk_name := [101]; lk_value := le 2 1 ++ [102] ++ le 2 1 ++ [47] |}.
Lemma wf_link2_examples :
  wf_link2 8 true l2x_hard = true /\ wf_link2 8 false l2x_soft = true /\ wf_link2 4 false l2x_ext = true /\
  l2_addr (proj_link2 8 true l2x_hard) = 4096 /\ l2_target (proj_link2 8 false l2x_soft) = [47; 97].
Proof. vm_compute. repeat split. Qed.
