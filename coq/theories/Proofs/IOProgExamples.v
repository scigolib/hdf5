(* C17: non-vacuity.  Two files written by the library (superblock version 2 with one dataset /d = [1,2,3] of uint8;
   superblock version 0 with an empty root group), byte for byte, run through the transcribed programs. *)
From HV Require Import Base.Prelude Base.Outcome Base.Bytes Model.IOProg Proofs.IOProg Model.IOProgReader Model.IOProgOpen.
From HV Require Import Proofs.IOProgSub Model.CodecSuper.

Definition ex2 : bytes := unhex "894844460d0a1a0a020808000000000000000000ffffffffffffffff9c090000000000007808000000000000e9ed857f484541500000000000010000000000000100000000000000500000000000000064000000000000000000000000000000000000000000000000000000000000000000000000000000000000000000000000000000000000000000000000000000000000000000000000000000000000000000000000000000000000000000000000000000000000000000000000000000000000000000000000000000000000000000000000000000000000000000000000000000000000000000000000000000000000000000000000000000000000000000000000000000000000000000000000000000000000000000000000000000000000000000000000000000000000000000000000000000000000000000000000000000000000000000000000000000534e4f440100010000000000000000009608000000000000000000000000000000000000000000000000000000000000000000000000000000000000000000000000000000000000000000000000000000000000000000000000000000000000000000000000000000000000000000000000000000000000000000000000000000000000000000000000000000000000000000000000000000000000000000000000000000000000000000000000000000000000000000000000000000000000000000000000000000000000000000000000000000000000000000000000000000000000000000000000000000000000000000000000000000000000000000000000000000000000000000000000000000000000000000000000000000000000000000000000000000000000000000000000000000000000000000000000000000000000000000000000000000000000000000000000000000000000000000000000000000000000000000000000000000000000000000000000000000000000000000000000000000000000000000000000000000000000000000000000000000000000000000000000000000000000000000000000000000000000000000000000000000000000000000000000000000000000000000000000000000000000000000000000000000000000000000000000000000000000000000000000000000000000000000000000000000000000000000000000000000000000000000000000000000000000000000000000000000000000000000000000000000000000000000000000000000000000000000000000000000000000000000000000000000000000000000000000000000000000000000000000000000000000000000000000000000000000000000000000000000000000000000000000000000000000000000000000000000000000000000000000000000000000000000000000000000000000000000000000000000000000000000000000000000000000000000000000000000000000000000000000000000000000000000000000000000000000000000000000000000000000000000000000000000000000000000000000000000000000000000000000000000000000000000000000000000000000000000000000000000000000000000000000000000000000000000000000000000000000000000000000000000000000000000000000000000000000000000000000000000000000000000000000000000000000000000000000000000000000000000000000000000000000000000000000000000000000000000000000000000000000000000000000000000000000000000000000000000000000000000000000000000000000000000000000000000000000000000000000000000000000000000000000000000000000000000000000000000000000000000000000000000000000000000000000000000000000000000000000000000000000000000000000000000000000000000000000000000000000000000000000000000000000000000000000000000000000000000000000000000000000000000000000000000000000000000000000000000000000000000000000000000000000000000000000000000000000000000000000000000000000000000000000000000000000000000000000000000000000000000000000000000000000000000000000000000000000000000000000000000000000000000000000000000000000000000000000000000000000000000005452454500000100ffffffffffffffffffffffffffffffff000000000000000050010000000000000000000000000000000000000000000000000000000000000000000000000000000000000000000000000000000000000000000000000000000000000000000000000000000000000000000000000000000000000000000000000000000000000000000000000000000000000000000000000000000000000000000000000000000000000000000000000000000000000000000000000000000000000000000000000000000000000000000000000000000000000000000000000000000000000000000000000000000000000000000000000000000000000000000000000000000000000000000000000000000000000000000000000000000000000000000000000000000000000000000000000000000000000000000000000000000000000000000000000000000000000000000000000000000000000000000000000000000000000000000000000000000000000000000000000000000000000000000000000000000000000000000000000000000000000000000000000000000000000000000000000000000000000000000000000000000000000000000000000000000000000000000000000000000000000000000000000000000000000000000000000000000000000000000000000000000000000000000000000000000000000000000000000000000000000000000000000000000000004f48445202001411100000580600000000000030000000000000000102034f48445202003a030c00001000000001000000000800000110000001010000000000000300000000000000081200000301930800000000000003000000000000000000000000000000000000000000000000000000000000000000000000000000000000000000000000000000000000000000000000000000000000000000000000000000000000000000000000000000000000000000000000000000000000000000000000000000000000000000000000000000000000000000000000000000000000000000000000000000000000000000000000000000000000000000000000000000000000000000000000000000000000000000000000000000000000000000000000".
Definition ex0 : bytes := unhex "894844460d0a1a0a000000000008080004001000000000000000000000000000ffffffffffffffffe806000000000000ffffffffffffffff0000000000000000600000000000000001000000000000008800000000000000c8050000000000000100010001000000180000000000000011001000000000008800000000000000c8050000000000005452454500000100ffffffffffffffffffffffffffffffff0000000000000000c00000000000000000000000000000000000000000000000534e4f44010000000000000000000000000000000000000000000000000000000000000000000000000000000000000000000000000000000000000000000000000000000000000000000000000000000000000000000000000000000000000000000000000000000000000000000000000000000000000000000000000000000000000000000000000000000000000000000000000000000000000000000000000000000000000000000000000000000000000000000000000000000000000000000000000000000000000000000000000000000000000000000000000000000000000000000000000000000000000000000000000000000000000000000000000000000000000000000000000000000000000000000000000000000000000000000000000000000000000000000000000000000000000000000000000000000000000000000000000000000000000000000000000000000000000000000000000000000000000000000000000000000000000000000000000000000000000000000000000000000000000000000000000000000000000000000000000000000000000000000000000000000000000000000000000000000000000000000000000000000000000000000000000000000000000000000000000000000000000000000000000000000000000000000000000000000000000000000000000000000000000000000000000000000000000000000000000000000000000000000000000000000000000000000000000000000000000000000000000000000000000000000000000000000000000000000000000000000000000000000000000000000000000000000000000000000000000000000000000000000000000000000000000000000000000000000000000000000000000000000000000000000000000000000000000000000000000000000000000000000000000000000000000000000000000000000000000000000000000000000000000000000000000000000000000000000000000000000000000000000000000000000000000000000000000000000000000000000000000000000000000000000000000000000000000000000000000000000000000000000000000000000000000000000000000000000000000000000000000000000000000000000000000000000000000000000000000000000000000000000000000000000000000000000000000000000000000000000000000000000000000000000000000000000000000000000000000000000000000000000000000000000000000000000000000000000000000000000000000000000000000000000000000000000000000000000000000000000000000000000000000000000000000000000000000000000000000000000000000000000000000000000000000000000000000000000000000000000000000000000000000000000000000000000000000000000000000000000000000000000000000000000000000000000000000000000000000000000000000000000000000000000000000000000000000000000000000000000000000000000000000000000000000000000000000000000000000000000000000000000000000000000000000000000000000000000000000000000000000000000000000000000000000000000000000000000000000000000000000000000000000000000000000000000000000000000000000000000000000000000000000000000000000000000000000000000000000000000000484541500000000000010000000000000100000000000000e80500000000000000000000000000000000000000000000000000000000000000000000000000000000000000000000000000000000000000000000000000000000000000000000000000000000000000000000000000000000000000000000000000000000000000000000000000000000000000000000000000000000000000000000000000000000000000000000000000000000000000000000000000000000000000000000000000000000000000000000000000000000000000000000000000000000000000000000000000000000000000000000000000000000000000000000000000000000000000000000000000000000000000000000000000000000000000000000".

Definition sb_of (f : bytes) : superblock' :=
  match run0 f p_superblock with Ok s => s | _ =>
    {| spp_version := 9; spp_offsize := 0; spp_lensize := 0; spp_bigendian := false; spp_base := 0; spp_root := 0;
       spp_superext := 0; spp_driverinfo := 0; spp_rootbtree := 0; spp_rootheap := 0 |} end.

Example ex2_superblock : (spp_version (sb_of ex2), spp_offsize (sb_of ex2), spp_root (sb_of ex2)) = (2, 8, 2168).
Proof. vm_compute. reflexivity. Qed.
Example ex2_superblock_cut : run0 (firstn 47 ex2) p_superblock = Err.
Proof. vm_compute. reflexivity. Qed.
(* 48 bytes are enough for a version 2 superblock: the short read is tolerated and the answer is the same *)
Example ex2_superblock_cut48 : run0 (firstn 48 ex2) p_superblock = run0 ex2 p_superblock.
Proof. vm_compute. reflexivity. Qed.
Example ex0_superblock_cut95 : run0 (firstn 95 ex0) p_superblock = Err /\ oclass (run0 (firstn 96 ex0) p_superblock) = 0.
Proof. split; vm_compute; reflexivity. Qed.

Example ex2_open : open_on ex2 nofault 0 64 64 = Ok (Grp [47] 2168 [Dset [100] 2198]).
Proof. unfold open_on. rewrite run_len_eq. vm_compute. reflexivity. Qed.
Example ex0_open : open_on ex0 nofault 0 64 64 = Ok (Grp [47] 96 []).
Proof. unfold open_on. rewrite run_len_eq. vm_compute. reflexivity. Qed.
Example ex2_open_cut : open_on (firstn 2190 ex2) nofault 0 64 64 = Err.
Proof. unfold open_on. rewrite run_len_eq. vm_compute. reflexivity. Qed.
(* the last bytes of the file are reserved header space: Open does not read them *)
Example ex2_open_cut_tail : open_on (firstn 2300 ex2) nofault 0 64 64 = open_on ex2 nofault 0 64 64.
Proof. unfold open_on. rewrite !run_len_eq. vm_compute. reflexivity. Qed.
(* every single failing call of Open on ex2 gives an error (Open makes 25 calls) *)
Example ex2_open_faults :
  calls0 ex2 (p_open true (blen ex2) 64 64) = 25%nat /\
  forallb (fun k => match open_on ex2 (fault_at k FailIO) 0 64 64 with Err => true | _ => false end) (seq 0 25) = true.
Proof.
  split.
  - unfold calls0. rewrite run_len_eq. vm_compute. reflexivity.
  - erewrite forallb_ext by (intros k; unfold open_on; rewrite run_len_eq; reflexivity).
    vm_compute. reflexivity.
Qed.

(* Read of /d: the three bytes; with the data cut off: an error *)
Example ex2_read : run0 ex2 (api_read_raw (sb_of ex2) 64 2198) = Ok (RawBytes [1; 2; 3]).
Proof. unfold run0. rewrite run_len_eq. vm_compute. reflexivity. Qed.
Example ex2_read_cut : run0 (firstn 2197 ex2) (api_read_raw (sb_of ex2) 64 2198) = Err.
Proof. unfold run0. rewrite run_len_eq. vm_compute. reflexivity. Qed.
Example ex2_attributes : run0 ex2 (api_attributes (sb_of ex2) 64 2198) = Ok [].
Proof. unfold run0. rewrite run_len_eq. vm_compute. reflexivity. Qed.
