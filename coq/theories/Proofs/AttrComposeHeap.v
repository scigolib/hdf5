(* C02 composition, part 2: the abstract heap of Model/Attr.v (list of (offset, object), next free offset, ids
   (offset, length), space never reused, capacity = usable bytes of the direct block) is simulated by the detailed
   fractal heap model (Model/FHeap.v) in the configuration the attribute code uses: one 65536-byte direct block,
   capacity rule cap_new.  A fractal heap does not remember which ranges are live, so the abstraction is the
   relation [HSim] = FHeap's representation relation R against the reference state [spec_of hp] computed from the
   ABSTRACT heap.  For every operation the answer classes agree and the relation is kept; a write-out followed by
   a load (what happens between two attribute calls) keeps it as well (from FHeap.load_after_store / R_reloaded). *)
From HV Require Import Base.Prelude Base.Bytes Model.Attr Model.AttrCompose Proofs.AttrBase.
From HV Require Model.FHeap Proofs.FHeap.

Lemma block_ok : FHeap.bs_ok BLOCK = true.
Proof. reflexivity. Qed.
Lemma block_cap : FHeap.cap_new BLOCK = 65517.
Proof. reflexivity. Qed.

Section Heap.
Variable enc : attr -> bytes.
Hypothesis enc_len : forall a sz, encode_attr a = EncOk sz -> FHeap.len (enc a) = sz.

Notation spec_obj := (spec_obj enc).
Notation spec_of := (spec_of enc).

(* a stored object: offset within the 2-byte offset field, and a message EncodeAttributeMessage accepted *)
Definition obj_ok (oa : N * attr) : Prop := fst oa < 65536 /\ exists sz, encode_attr (snd oa) = EncOk sz.

Lemma obj_ok_len oa : obj_ok oa -> FHeap.len (enc (snd oa)) = msg_size (snd oa).
Proof. intros [_ [sz He]]. rewrite (msg_size_enc _ _ He). apply enc_len. exact He. Qed.

Lemma assoc_get_in : forall A (l : list (N * A)) k x, assoc_get k l = Some x -> In (k, x) l.
Proof.
  induction l as [|[k' y] l IH]; intros k x; cbn [assoc_get]; [discriminate|].
  destruct (N.eqb_spec k' k); [intro E; inversion E; subst; left; reflexivity | intro E; right; auto].
Qed.

Definition HSim (h : FHeap.heap) (fs : FHeap.fstate) (hp : heap) : Prop :=
  FHeap.R BLOCK h fs (spec_of hp) /\ Forall obj_ok (hobjs hp).

Lemma HSim_new : HSim (FHeap.new_heap BLOCK) FHeap.fs0 heap_empty.
Proof. split; [apply (FHeap.R_new BLOCK block_ok) | constructor]. Qed.

Lemma HSim_hfree h fs hp : HSim h fs hp -> hfree hp <= 65517.
Proof.
  intros [HR _]. destruct HR. cbn [spec_of FHeap.sp_vol] in *. rewrite block_cap in *. lia.
Qed.

Lemma mkid_neq k1 n1 k2 n2 : k1 < 65536 -> k2 < 65536 -> k1 <> k2 ->
  bytes_eqb (FHeap.mkid k1 n1) (FHeap.mkid k2 n2) = false.
Proof.
  intros H1 H2 NE. apply bytes_eqb_neq. intro E. apply (f_equal FHeap.id_off) in E.
  rewrite !FHeap.id_off_mkid in E by assumption. contradiction.
Qed.

Lemma lookup_spec : forall l off a, Forall obj_ok l -> off < 65536 -> assoc_get off l = Some a ->
  FHeap.lookup (FHeap.mkid off (msg_size a)) (map spec_obj l) = Some (enc a).
Proof.
  induction l as [|[k x] l IH]; intros off a F Ho; cbn [assoc_get map]; [discriminate|].
  inversion F as [|? ? [Hk _] F']; subst. cbn [fst snd] in Hk.
  unfold AttrCompose.spec_obj at 1. cbn [fst snd FHeap.lookup].
  destruct (N.eqb_spec k off) as [->|NE].
  - intro E. inversion E; subst. rewrite bytes_eqb_refl. reflexivity.
  - intro G. rewrite mkid_neq by assumption. apply IH; assumption.
Qed.

Lemma replace_spec : forall l l' off a a', Forall obj_ok l -> off < 65536 -> assoc_get off l = Some a ->
  msg_size a' = msg_size a -> assoc_set off a' l = Some l' ->
  FHeap.replace_id (FHeap.mkid off (msg_size a)) (enc a') (map spec_obj l) = map spec_obj l'.
Proof.
  induction l as [|[k x] l IH]; intros l' off a a' F Ho; cbn [assoc_get assoc_set map]; [discriminate|].
  inversion F as [|? ? [Hk _] F']; subst. cbn [fst snd] in Hk.
  unfold AttrCompose.spec_obj at 1. cbn [fst snd FHeap.replace_id].
  destruct (N.eqb_spec k off) as [->|NE].
  - intros E Hs E2. inversion E; subst. inversion E2; subst. rewrite bytes_eqb_refl.
    cbn [map]. unfold AttrCompose.spec_obj at 2. cbn [fst snd]. rewrite Hs. reflexivity.
  - intros G Hs. destruct (assoc_set off a' l) as [r|] eqn:E; [|discriminate]. intro E2. inversion E2; subst.
    rewrite mkid_neq by assumption. cbn [map]. rewrite (IH r off a a') by assumption. reflexivity.
Qed.

Lemma remove_spec : forall l l' off a, Forall obj_ok l -> off < 65536 -> assoc_get off l = Some a ->
  assoc_del off l = Some l' ->
  FHeap.remove_id (FHeap.mkid off (msg_size a)) (map spec_obj l) = map spec_obj l'.
Proof.
  induction l as [|[k x] l IH]; intros l' off a F Ho; cbn [assoc_get assoc_del map]; [discriminate|].
  inversion F as [|? ? [Hk _] F']; subst. cbn [fst snd] in Hk.
  unfold AttrCompose.spec_obj at 1. cbn [fst snd FHeap.remove_id].
  destruct (N.eqb_spec k off) as [->|NE].
  - intros E E2. inversion E; subst. inversion E2; subst. rewrite bytes_eqb_refl. reflexivity.
  - intros G. destruct (assoc_del off l) as [r|] eqn:E; [|discriminate]. intro E2. inversion E2; subst.
    rewrite mkid_neq by assumption. cbn [map]. rewrite (IH r off a) by assumption. reflexivity.
Qed.

Lemma obj_ok_set : forall l l' off a', Forall obj_ok l -> obj_ok (off, a') -> assoc_set off a' l = Some l' -> Forall obj_ok l'.
Proof.
  intros l l' off a' F Hn E. pose proof (assoc_set_split _ off a' l) as S. rewrite E in S.
  destruct S as (l1 & kv & l2 & -> & <- & _ & ->). apply Forall_app in F. destruct F as [F1 F2]. inversion F2; subst.
  apply Forall_app. split; [|constructor]; assumption.
Qed.

Lemma obj_ok_del : forall l l' off, Forall obj_ok l -> assoc_del off l = Some l' -> Forall obj_ok l'.
Proof.
  intros l l' off F E. pose proof (assoc_del_split _ off l) as S. rewrite E in S.
  destruct S as (l1 & kv & l2 & -> & _ & _ & ->). apply Forall_app in F. destruct F as [F1 F2]. inversion F2; subst.
  apply Forall_app. split; assumption.
Qed.

Lemma HSim_key_lt h fs hp k : HSim h fs hp -> In k (map fst (hobjs hp)) -> k < hfree hp.
Proof.
  intros [HR F] HI. apply in_map_iff in HI. destruct HI as [[k' a] [E HI]]. cbn [fst] in E. subst k'.
  destruct HR. cbn [spec_of FHeap.sp_live FHeap.sp_vol] in *.
  rewrite Forall_forall in R_live, F. specialize (F _ HI). destruct F as [Hk _]. cbn [fst] in Hk.
  specialize (R_live (spec_obj (k, a)) (in_map _ _ _ HI)).
  destruct R_live as (_ & B & C & _). unfold FHeap.eoff, FHeap.elen, AttrCompose.spec_obj in *. cbn [fst snd] in *.
  rewrite FHeap.id_off_mkid in C by assumption. lia.
Qed.

Section Insert.
Variable P : params.
Hypothesis PM : params_match P.

(* fits: same id (offset, length), relation kept *)
Lemma insert_sim_ok h fs hp a sz hp' id pk : HSim h fs hp -> encode_attr a = EncOk sz ->
  heap_insert P hp a = HOk hp' id ->
  exists h', FHeap.insert FHeap.cap_new h (enc a) pk = (h', FHeap.Ok (id8 id)) /\ HSim h' fs hp' /\ id_ok id /\
             id = (hfree hp, sz) /\ hobjs hp' = hobjs hp ++ [(hfree hp, a)] /\ hfree hp' = hfree hp + sz.
Proof.
  intros HS He Hi. pose proof (HSim_hfree _ _ _ HS) as Hf. destruct HS as [HR F].
  destruct PM as (_ & Ph & Pm & _). rewrite block_cap in Ph. change FHeap.MAX_OBJ with 65536 in Pm.
  unfold heap_insert in Hi. rewrite (msg_size_enc _ _ He) in Hi.
  destruct (sz =? 0) eqn:E0; [discriminate|]. destruct (p_maxobj P <? sz) eqn:E1; [discriminate|].
  destruct (hfree hp + sz <=? p_hcap P) eqn:E2; [|discriminate]. inversion Hi; subst hp' id. clear Hi.
  apply N.eqb_neq in E0. apply N.ltb_ge in E1. apply N.leb_le in E2. rewrite Ph in E2. rewrite Pm in E1.
  pose proof (enc_len _ _ He) as Hl.
  destruct (FHeap.insert_R BLOCK h fs (spec_of hp) (enc a) pk block_ok HR) as (h' & Hins & HR').
  { lia. } { change FHeap.MAX_OBJ with 65536. lia. } { rewrite block_cap. cbn [spec_of FHeap.sp_vol]. lia. }
  cbn [spec_of FHeap.sp_vol FHeap.sp_live] in Hins, HR'. rewrite Hl in Hins, HR'.
  assert (Hw : wrap16 (hfree hp) = hfree hp) by (unfold wrap16; apply N.mod_small; lia).
  assert (Hm : sz mod 16777216 = sz) by (apply N.mod_small; lia).
  rewrite Hw, Hm. exists h'. split; [exact Hins|]. split; [|split; [split; cbn [fst snd]; lia | auto]].
  split.
  - unfold AttrCompose.spec_of. cbn [hobjs hfree]. rewrite map_app. cbn [map]. unfold AttrCompose.spec_obj at 2.
    cbn [fst snd]. rewrite (msg_size_enc _ _ He). exact HR'.
  - cbn [hobjs]. apply Forall_app. split; [assumption|]. constructor; [|constructor].
    split; cbn [fst snd]; [lia | exists sz; exact He].
Qed.

(* ErrEmptyObject / ErrObjectTooLarge: refused, heap unchanged *)
Lemma insert_sim_err h hp a sz pk : encode_attr a = EncOk sz ->
  heap_insert P hp a = HErr -> FHeap.insert FHeap.cap_new h (enc a) pk = (h, FHeap.Err).
Proof.
  intros He Hi. destruct PM as (_ & _ & Pm & _).
  unfold heap_insert in Hi. rewrite (msg_size_enc _ _ He) in Hi. unfold FHeap.insert. rewrite (enc_len _ _ He).
  destruct (sz =? 0); [reflexivity|]. rewrite <- Pm. destruct (p_maxobj P <? sz); [reflexivity|].
  destruct (hfree hp + sz <=? p_hcap P); discriminate.
Qed.
End Insert.

(* the indirect-root form is never left, and it cannot be written out *)
Lemma put_block_ind h k b : FHeap.h_ind (FHeap.put_block h k b) = FHeap.h_ind h.
Proof. unfold FHeap.put_block. destruct (_ =? _); reflexivity. Qed.

Lemma insert_indirect_ind cap h d p : FHeap.h_ind (fst (FHeap.insert_indirect cap h d p)) = FHeap.h_ind h.
Proof.
  unfold FHeap.insert_indirect. destruct (nth_error _ _) as [[key b]|].
  - cbn [fst FHeap.bump_stats FHeap.h_ind]. apply put_block_ind.
  - destruct (FHeap.h_ind h) eqn:E.
    + destruct (_ <=? _); cbn [fst FHeap.bump_stats FHeap.h_ind]; rewrite ?put_block_ind; cbn [FHeap.h_ind]; reflexivity.
    + cbn [fst FHeap.h_ind]. reflexivity.
Qed.

Lemma insert_ind cap h d p : FHeap.h_ind h <> None -> FHeap.h_ind (fst (FHeap.insert cap h d p)) <> None.
Proof.
  intro H. unfold FHeap.insert. destruct (_ =? 0); [exact H|]. destruct (_ <? _); [exact H|].
  unfold FHeap.needs_transition. destruct (FHeap.h_ind h) eqn:E; [|contradiction].
  rewrite E. rewrite insert_indirect_ind. rewrite E. discriminate.
Qed.

Lemma store_ind h fs : FHeap.h_ind h <> None -> FHeap.store h fs = FHeap.Err.
Proof. intro H. unfold FHeap.store. destruct (FHeap.h_ind h); [reflexivity | contradiction]. Qed.

(* heap full: InsertObject moves the in-memory heap to an indirect root (whatever it answers) *)
Lemma insert_sim_full P h fs hp a sz pk : params_match P -> HSim h fs hp -> encode_attr a = EncOk sz ->
  heap_insert P hp a = HFull -> FHeap.h_ind (fst (FHeap.insert FHeap.cap_new h (enc a) pk)) <> None.
Proof.
  intros (_ & Ph & Pm & _) [HR _] He Hi. rewrite block_cap in Ph.
  unfold heap_insert in Hi. rewrite (msg_size_enc _ _ He) in Hi. unfold FHeap.insert. rewrite (enc_len _ _ He).
  destruct (sz =? 0); [discriminate|]. rewrite <- Pm. destruct (p_maxobj P <? sz); [discriminate|].
  destruct (hfree hp + sz <=? p_hcap P) eqn:E2; [discriminate|].
  destruct HR. cbn [spec_of FHeap.sp_vol] in *.
  unfold FHeap.needs_transition. rewrite R_ind, R_freeoff, R_size, block_cap, <- Ph, E2. cbn [negb].
  cbn [FHeap.transition FHeap.h_ind]. rewrite insert_indirect_ind. cbn [FHeap.transition FHeap.h_ind]. discriminate.
Qed.

(* an abstract id that addresses a stored object with its length *)
Definition id_live (hp : heap) (id : hid) (a : attr) : Prop :=
  heap_get hp id = Some a /\ snd id = msg_size a /\ fst id < 65536.

Lemma id_live_enc h fs hp id a : HSim h fs hp -> id_live hp id a -> exists sz, encode_attr a = EncOk sz.
Proof.
  intros [_ F] (G & _). unfold heap_get in G. apply assoc_get_in in G. rewrite Forall_forall in F.
  destruct (F _ G) as [_ H]. exact H.
Qed.

Lemma id_live_lookup h fs hp id a : HSim h fs hp -> id_live hp id a ->
  FHeap.lookup (id8 id) (FHeap.sp_live (spec_of hp)) = Some (enc a).
Proof.
  intros [_ F] (G & Hs & Ho). unfold id8. rewrite Hs. cbn [spec_of FHeap.sp_live]. apply lookup_spec; assumption.
Qed.

Lemma get_sim h fs hp id a : HSim h fs hp -> id_live hp id a -> FHeap.get h (id8 id) = FHeap.Ok (enc a).
Proof.
  intros HS L. eapply FHeap.get_R; [exact block_ok | exact (proj1 HS) | eapply id_live_lookup; eassumption].
Qed.

Lemma overwrite_sim h fs hp id old a sz hp' : HSim h fs hp -> id_live hp id old ->
  encode_attr a = EncOk sz -> sz = snd id -> heap_overwrite hp id a = Some hp' ->
  exists h', FHeap.overwrite h (id8 id) (enc a) = (h', FHeap.Ok tt) /\ HSim h' fs hp'.
Proof.
  intros HS L He Hsz Ho. pose proof (id_live_lookup _ _ _ _ _ HS L) as Hl. destruct HS as [HR F].
  destruct L as (G & Hs & Hlt). unfold heap_get in G.
  assert (Hold : FHeap.len (enc old) = msg_size old).
  { apply assoc_get_in in G. rewrite Forall_forall in F. apply (obj_ok_len _ (F _ G)). }
  destruct (FHeap.overwrite_R BLOCK h fs (spec_of hp) (id8 id) (enc a) (enc old) block_ok HR Hl) as (h' & Hov & HR').
  { rewrite (enc_len _ _ He), Hold. congruence. }
  exists h'. split; [exact Hov|].
  unfold heap_overwrite in Ho. destruct (assoc_set (fst id) a (hobjs hp)) as [l|] eqn:E; [|discriminate].
  inversion Ho; subst hp'. split.
  - unfold AttrCompose.spec_of in *. cbn [hobjs hfree FHeap.sp_live FHeap.sp_vol] in *.
    unfold id8 in HR'. rewrite Hs in HR'.
    rewrite (replace_spec (hobjs hp) l (fst id) old a) in HR'; try assumption.
    rewrite (msg_size_enc _ _ He). congruence.
  - cbn [hobjs]. eapply obj_ok_set; [exact F | | exact E]. split; cbn [fst snd]; [assumption|].
    exists sz. assumption.
Qed.

Lemma delete_sim h fs hp id old hp' : HSim h fs hp -> id_live hp id old ->
  heap_delete hp id = Some hp' ->
  exists h', FHeap.delete h (id8 id) = (h', FHeap.Ok tt) /\ HSim h' fs hp'.
Proof.
  intros HS L Hd. pose proof (id_live_lookup _ _ _ _ _ HS L) as Hl. destruct HS as [HR F].
  destruct L as (G & Hs & Hlt). unfold heap_get in G.
  destruct (FHeap.delete_R BLOCK h fs (spec_of hp) (id8 id) (enc old) block_ok HR Hl) as (h' & Hdel & HR').
  exists h'. split; [exact Hdel|].
  unfold heap_delete in Hd. destruct (assoc_del (fst id) (hobjs hp)) as [l|] eqn:E; [|discriminate].
  inversion Hd; subst hp'. split.
  - unfold AttrCompose.spec_of in *. cbn [hobjs hfree FHeap.sp_live FHeap.sp_vol] in *.
    unfold id8 in HR'. rewrite Hs in HR'.
    rewrite (remove_spec (hobjs hp) l (fst id) old) in HR'; assumption.
  - cbn [hobjs]. eapply obj_ok_del; eauto.
Qed.

(* core's reader looks at the first 7 bytes of an id only: what the index keeps of it is enough *)
Lemma core_read_take7 f addr id id' :
  FHeap.take 7 (id ++ FHeap.zeros 7) = FHeap.take 7 (id' ++ FHeap.zeros 7) ->
  FHeap.core_read f addr id = FHeap.core_read f addr id'.
Proof. unfold FHeap.core_read. intros ->. reflexivity. Qed.

(* the header and the direct block go to 2048 / 2194 (first allocation of the region, or in place); loading
   the bytes gives a heap in the same relation, and core's reader finds every live object in the bytes *)
Lemma store_load_sim h fs hp : HSim h fs hp ->
  exists fs', FHeap.store h fs = FHeap.Ok (FHeap.set_addrs h 2048 2194, fs', 2048) /\
              FHeap.load BLOCK (FHeap.f_bytes fs') 2048 = FHeap.Ok (FHeap.reloaded BLOCK h) /\
              HSim (FHeap.reloaded BLOCK h) fs' hp /\
              forall id a, id_live hp id a -> FHeap.core_read (FHeap.f_bytes fs') 2048 (id7 id) = FHeap.Ok (enc a).
Proof.
  intros HS. pose proof HS as [HR F].
  destruct (FHeap.store_files BLOCK h fs (spec_of hp) HR) as [nx Hst].
  eexists. split; [exact Hst|]. cbn [FHeap.f_bytes]. split; [|split; [split|]].
  - apply (FHeap.load_after_store BLOCK h fs (spec_of hp) (FHeap.f_bytes fs) block_ok HR).
  - eapply FHeap.R_reloaded; [exact block_ok | exact HR].
  - exact F.
  - intros id a L. rewrite (core_read_take7 _ _ (id7 id) (id8 id) eq_refl).
    apply (FHeap.core_read_stored BLOCK h fs (spec_of hp) _ block_ok HR). eapply id_live_lookup; eassumption.
Qed.

End Heap.
