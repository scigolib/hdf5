(* C01 end to end, superblock version 0: where the blocks of image_v0 (Model/FileImageV0.v) sit, the SUPERBLOCK stage
   (ReadSuperblock's program returns SB0': version 0, root object header 96, cached B-tree 136 / heap 1480) and the dataset's
   header (the dataset stage of Proofs/FileImageData.v at the data address 1768). *)
From HV Require Import Base.Prelude Base.Outcome Base.Bytes Model.IOProg Proofs.IOProg Model.IOProgReader.
From HV Require Import Model.CodecSuper Model.CodecOhdr Model.CodecMsg Model.CodecType Model.CodecLink Model.GroupWire.
From HV Require Import Proofs.CodecSuper Proofs.CodecOhdr Proofs.CodecMsg Proofs.CodecType.
From HV Require Import Model.FileImage Proofs.FileImage Proofs.FileImageOhdr Proofs.FileImageData Proofs.FileImageGroup Model.FileImageV0.

(* what ReadSuperblock returns on every version 0 image: nothing in it depends on the inputs *)
Definition SB0' : superblock' :=
  {| spp_version := 0; spp_offsize := 8; spp_lensize := 8; spp_bigendian := false; spp_base := 0; spp_root := 96;
     spp_superext := 0; spp_driverinfo := 0; spp_rootbtree := 136; spp_rootheap := 1480 |}.

Lemma addrs0 : (ROOT0_ADDR, BTREE0_ADDR, SNOD0_ADDR, HEAP0_ADDR, DATA0_ADDR) = (96, 136, 192, 1480, 1768).
Proof. reflexivity. Qed.

Definition root0_prefix : bytes := [1; 0; 1; 0; 1; 0; 0; 0; 24; 0; 0; 0; 0; 0; 0; 0].
Definition root0_mhdr : bytes := [17; 0; 16; 0; 0; 0; 0; 0].
Definition root0_mdata : bytes := le 8 136 ++ le 8 1480.
Lemma root0_block_bytes : enc_ohdr_v1 root_ohdr_v0 = root0_prefix ++ root0_mhdr ++ root0_mdata.
Proof. vm_compute. reflexivity. Qed.
Lemma root0_block_len : blen (enc_ohdr_v1 root_ohdr_v0) = 40.
Proof. reflexivity. Qed.

Lemma bt0_block_bytes : bt_block0 = bt_leaf_hdr ++ (le 8 0 ++ le 8 192 ++ le 8 0) ++ zeros 8.
Proof. vm_compute. reflexivity. Qed.
Lemma bt0_block_len : blen bt_block0 = 56.
Proof. reflexivity. Qed.

Section Image.
Variable name : bytes.
Variables class size cbf : N.
Variable dims : list N.
Variable data : bytes.
Hypothesis Hname : link_name_ok name = true.
Hypothesis Hdt : basic_dtype class size cbf = true.
Hypothesis Hdims : dims_ok dims = true.
Hypothesis Hlen : blen data = total_elems dims * size.
Hypothesis Hbound : blen data < 4294967296.

Local Notation f := (image_v0 name class size cbf dims data).
Local Notation da := (dset_addr0 data).
Local Notation dso := (dset_ohdr0 class size cbf dims).
Local Notation dsb := (dset_block0 class size cbf dims).
Local Notation blocks := (blocks_v0 name class size cbf dims data).

Lemma heap0_block_len : blen (heap_image (final_heap name) HEAP0_ADDR) = 288.
Proof using Hname. clear - Hname. rewrite (heap_image_at name Hname HEAP0_ADDR eq_refl), blen_app, (heap_seg_len name Hname). reflexivity. Qed.

Lemma snod0_block_bytes : snod_block0 data = [83; 78; 79; 68; 1; 0; 1; 0] ++ enc_sym 8 (final_sym0 data) ++ zeros 1240.
Proof. unfold snod_block0, final_snode0. now rewrite snod_one. Qed.
Lemma snod0_block_len : blen (snod_block0 data) = 1288.
Proof. rewrite snod0_block_bytes, !blen_app, enc_sym_len, blen_zeros. reflexivity. Qed.
Lemma sb0_block_len : blen (enc_superblock (final_sb0 data)) = 96.
Proof. rewrite superblock_blen. reflexivity. Qed.

Lemma v0_lens : map blen blocks = [96; 40; 56; 1288; 288; blen data; blen dsb].
Proof using Hname. clear - Hname.
  cbn [blocks_v0 map]. now rewrite sb0_block_len, root0_block_len, bt0_block_len, snod0_block_len, heap0_block_len.
Qed.
Lemma P0_sb_rest : placed f 0 (enc_superblock (final_sb0 data) ++ concat (skipn 1 blocks)).
Proof using Hname. exact (placed_from blocks _ 0 v0_lens). Qed.
Lemma P0_root : placed f 96 (enc_ohdr_v1 root_ohdr_v0).
Proof using Hname. exact (placed_block blocks _ 1 _ v0_lens eq_refl). Qed.
Lemma P0_bt : placed f 136 bt_block0.
Proof using Hname. exact (placed_block blocks _ 2 _ v0_lens eq_refl). Qed.
Lemma P0_snod : placed f 192 (snod_block0 data).
Proof using Hname. exact (placed_block blocks _ 3 _ v0_lens eq_refl). Qed.
Lemma P0_heap : placed f 1480 (heap_image (final_heap name) HEAP0_ADDR).
Proof using Hname. exact (placed_block blocks _ 4 _ v0_lens eq_refl). Qed.
Lemma P0_data : placed f 1768 data.
Proof using Hname. exact (placed_block blocks _ 5 _ v0_lens eq_refl). Qed.
Lemma P0_dset : placed f da dsb.
Proof using Hname. exact (placed_sub f 1768 data dsb [] (placed_from blocks _ 5 v0_lens)). Qed.

Lemma dsb0_len : blen dsb = OHDR_RESERVE.
Proof using Hdt Hdims Hlen Hbound.
  exact (contig_block_len SB0' class size cbf dims data DATA0_ADDR Hdt Hdims Hlen Hbound eq_refl eq_refl eq_refl eq_refl).
Qed.
Lemma da0_bound : da + 600 < B63.
Proof using Hbound. clear - Hbound. unfold dset_addr0, B63. change DATA0_ADDR with 1768. blia. Qed.

Lemma image0_len : blen f = eof_addr0 data.
Proof using Hname Hdt Hdims Hlen Hbound. clear - Hname Hdt Hdims Hlen Hbound.
  unfold image_v0. rewrite (place_all_len _ _ v0_lens). cbn [sumN fold_right]. rewrite dsb0_len.
  unfold eof_addr0, dset_addr0. change DATA0_ADDR with 1768. blia.
Qed.

Lemma dset_header0 fuel : (3 < fuel)%nat ->
  run0 f (p_ohdr SB0' fuel da) = Ok (proj_ohdr_v2 false dso da).
Proof using Hname Hdt Hdims Hlen Hbound.
  exact (contig_header SB0' class size cbf dims data DATA0_ADDR Hdt Hdims Hlen Hbound eq_refl eq_refl eq_refl eq_refl eq_refl f da fuel P0_dset da0_bound).
Qed.

Lemma wf_final_sb0 : wf_superblock (final_sb0 data) = true.
Proof using Hbound. clear - Hbound.
  unfold wf_superblock, final_sb0, encok_superblock.
  cbn [sp_version sp_offsize sp_lensize sp_base sp_root sp_superext sp_rootbtree sp_rootheap sp_eof].
  replace (CodecSuper.u64 (eof_addr0 data)) with true; [reflexivity|]. unfold CodecSuper.u64.
  symmetry. apply N.ltb_lt. unfold eof_addr0, dset_addr0, OHDR_RESERVE. change DATA0_ADDR with 1768. blia.
Qed.

Theorem superblock_stage0 : run0 f p_superblock = Ok SB0'.
Proof using Hname Hbound. clear - Hname Hbound.
  apply (superblock_placed f (final_sb0 data) _ SB0' P0_sb_rest).
  - rewrite sb0_block_len. cbn [skipn blocks_v0 concat]. rewrite !blen_app, root0_block_len. blia.
  - intros T HT. apply (dec_sb_buf_prefix _ T wf_final_sb0). rewrite blen_app, HT, sb0_block_len. reflexivity.
Qed.

End Image.
