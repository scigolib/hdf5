(* C03 end to end, depth 1: CreateGroup / CreateDataset under the root preserve FlatInv (Proofs/TreeImageFlat.v) and append
   exactly the expected child when they succeed; any call that leaves the state as it is preserves it trivially. *)
From HV Require Import Base.Prelude Base.Outcome Base.Bytes Model.RobustAlloc Model.RobustGroup Model.GroupWire.
From HV Require Import Model.CodecSuper Model.CodecOhdr Model.CodecMsg Model.CodecType Model.CodecLink Model.IOProgOpen.
From HV Require Import Proofs.CodecOhdr Proofs.CodecLink Proofs.GroupWireHeap Proofs.GroupWireSnod.
From HV Require Import Model.FileImage Model.TreeImage Proofs.FileImage Proofs.FileImageOhdr Proofs.FileImageData.
From HV Require Import Proofs.TreeImageLink Proofs.TreeImageHdr Proofs.TreeImageOpen Proofs.TreeImagePlaced Proofs.TreeImageFlat
  Proofs.TreeImageDecide.
From HV Require Model.GroupNS Proofs.GroupNSBase Proofs.GroupNSHeap.

Local Open Scope N_scope.

Lemma loop_bts_app es cs e nc : length es = length cs ->
  loop_bts (es ++ [e]) (cs ++ [nc]) = loop_bts es cs ++ child_bt (sy_obj e) (snd nc).
Proof.
  revert cs. induction es as [|x r IH]; intros [|y cs'] H; try discriminate.
  - cbn [app loop_bts]. now rewrite app_nil_r.
  - cbn [app loop_bts]. rewrite IH by (cbn in H; lia). now rewrite app_assoc.
Qed.
Lemma loop_nodes_app es cs e nc : length es = length cs ->
  loop_nodes (es ++ [e]) (cs ++ [nc]) = loop_nodes es cs ++ [child_node (fst nc) (sy_obj e) (snd nc)].
Proof.
  revert cs. induction es as [|x r IH]; intros [|y cs'] H; try discriminate.
  - reflexivity.
  - cbn [app loop_nodes]. now rewrite IH by (cbn in H; lia).
Qed.

Lemma dtype_code_basic code : code < 10 -> let '(c, s, b) := dtype_of_code code in basic_dtype c s b = true.
Proof.
  intros H.
  assert (C : code = 0 \/ code = 1 \/ code = 2 \/ code = 3 \/ code = 4 \/ code = 5 \/ code = 6 \/ code = 7 \/ code = 8 \/ code = 9) by lia.
  repeat (destruct C as [->|C]; [reflexivity|]). subst. reflexivity.
Qed.

Lemma dset_hdr_at_ok class size cbf dims da : basic_dtype class size cbf = true -> dims_ok dims = true ->
  dset_hdr_ok (dset_ohdr_at class size cbf dims da).
Proof.
  intros Hdt Hdims.
  assert (Lt := dt_msg_len class size cbf Hdt). assert (Ls := ds_msg_len dims).
  assert (Ll : blen (enc_layout SBP (LContig (data_size size dims) da)) = 18).
  { unfold enc_layout, write_uint. cbn [SBP sb_offsize sb_lensize sb_bigendian]. cbn [N.eqb Pos.eqb orb].
    rewrite !blen_app, !blen_le. reflexivity. }
  destruct (rank_bounds dims Hdims) as [R1 R2].
  assert (Hc : chunk_size_v2 (oh_msgs (dset_ohdr_at class size cbf dims da)) <= 250).
  { unfold dset_ohdr_at. cbn [oh_msgs chunk_size_v2 fold_right hm_data]. rewrite Lt, Ls, Ll. unfold blen.
    destruct (class =? DT_FIXED); blia. }
  unfold dset_hdr_ok. split; [|split; [blia|]; split; [reflexivity|]; split; [reflexivity | cbn; lia]].
  unfold ohdr_ok. split; [reflexivity|]. split; [reflexivity|]. split; [blia|]. split; [discriminate|].
  unfold dset_ohdr_at. cbn [oh_msgs]. repeat constructor; cbn [hm_type hm_data]; unfold MSG_CONT; try blia; try discriminate. all: try (rewrite Lt; destruct (class =? DT_FIXED); blia); try (rewrite Ls; blia).
Qed.

Lemma Forall2_imp {A B} (P Q : A -> B -> Prop) l l' : (forall a b, P a b -> Q a b) -> Forall2 P l l' -> Forall2 Q l l'.
Proof. intros H. induction 1; constructor; auto. Qed.

Lemma NoDup_snoc_lt (L : list N) B b : NoDup L -> Forall (fun x => x < B) L -> B <= b -> NoDup (L ++ [b]).
Proof.
  intros Hn Hf Hb. apply GH.NoDup_snoc; [exact Hn|]. intros Hin.
  pose proof (proj1 (Forall_forall _ _) Hf b Hin). blia.
Qed.

(* checkLinkable, an appended item, linkToParent into the root: the content invariant holds whatever the answers are, and the
   item is listed exactly when the call succeeds *)
Lemma flat_create st nodes seg s rest cs ns it oa c parent nm groups' :
  t_file st = image (flat_lay seg s rest) ->
  blen seg = 256 -> snode_ok s = true -> (length (stn_entries s) <= 32)%nat -> Forall item_ok rest ->
  GH.gwf seg (map abs_sym (stn_entries s)) ns -> map fst cs = ns ->
  Forall2 (fun e nc => sy_cache e = 0 /\ EntryItem rest (sy_obj e) (snd nc)) (stn_entries s) cs ->
  NoDup (1624 :: loop_bts (stn_entries s) cs) ->
  Forall (fun b => b < 2195 + lsize rest) (1624 :: loop_bts (stn_entries s) cs) ->
  nodes = loop_nodes (stn_entries s) cs -> item_ok it ->
  ItemChild (2195 + lsize rest) it oa c -> oa < 18446744073709551616 ->
  Forall (fun b => 2195 + lsize rest <= b /\ b < 2195 + lsize (rest ++ [it])) (child_bt oa c) ->
  NS.is_root_parent parent = true ->
  let r := create_linked st parent nm (image (flat_lay seg s (rest ++ [it]))) oa groups' in
  FlatInv (fst r) (if snd r then nodes ++ [child_node nm oa c] else nodes).
Proof.
  intros Hf Hs Hok Hm Hr Hg Hns HF Hnd Hlt Hn Hit HIC Hoa Hbt Hroot r. subst r. unfold create_linked.
  destruct (prepare_link st parent nm 0);
    [|exists seg, s, rest, cs, ns; repeat (split; [assumption|]); assumption..].
  assert (Hr1 : Forall item_ok (rest ++ [it])) by (apply Forall_app; split; [assumption | now constructor]).
  assert (HF1 : Forall2 (fun e nc => sy_cache e = 0 /\ EntryItem (rest ++ [it]) (sy_obj e) (snd nc)) (stn_entries s) cs).
  { eapply Forall2_imp; [|exact HF]. intros e nc [H1 H2]. split; [exact H1 | now apply EntryItem_app]. }
  assert (Hlt1 : Forall (fun b => b < 2195 + lsize (rest ++ [it])) (1624 :: loop_bts (stn_entries s) cs)).
  { eapply Forall_impl; [|exact Hlt]. intros b Hb. rewrite lsize_app. blia. }
  destruct (link_to_parent _ parent nm oa) as [f2| |] eqn:HL; cbn [fst snd];
    [|exists seg, s, (rest ++ [it]), cs, ns; split; [reflexivity|]; repeat (split; [assumption|]); assumption..].
  destruct (link_root (with_file st (image (flat_lay seg s (rest ++ [it])))) seg s (rest ++ [it]) ns parent nm oa f2 eq_refl Hs Hok Hm Hg Hoa Hroot HL)
    as (seg' & s1 & off & -> & Hs' & Hok' & He' & Hm' & Hg').
  assert (Hlen : length (stn_entries s) = length cs) by (eapply Forall2_length; exact HF).
  exists seg', s1, (rest ++ [it]), (cs ++ [(nm, c)]), (ns ++ [nm]).
  split; [reflexivity|]. do 4 (split; [assumption|]). split; [exact Hg'|].
  split; [rewrite map_app, Hns; reflexivity|].
  rewrite He', (loop_bts_app _ _ _ (nm, c) Hlen), (loop_nodes_app _ _ _ (nm, c) Hlen). cbn [fst snd new_sym sy_obj].
  split; [|split; [|split; [|now rewrite Hn]]].
  - apply Forall2_app; [exact HF1|]. constructor; [|constructor]. split; [reflexivity|].
    exists rest, it, []. split; [reflexivity | exact HIC].
  - change (NoDup ((1624 :: loop_bts (stn_entries s) cs) ++ child_bt oa c)).
    destruct (child_bt oa c) as [|b [|b' r']] eqn:EB.
    + now rewrite app_nil_r.
    + inversion Hbt as [|? ? [Hb1 Hb2] _]; subst. exact (NoDup_snoc_lt _ _ b Hnd Hlt Hb1).
    + destruct c; cbn [child_bt] in EB; discriminate.
  - change (Forall (fun b => b < 2195 + lsize (rest ++ [it])) ((1624 :: loop_bts (stn_entries s) cs) ++ child_bt oa c)).
    apply Forall_app. split; [exact Hlt1|]. eapply Forall_impl; [|exact Hbt]. intros b [_ Hb]. exact Hb.
Qed.

Theorem flat_group_step st nodes p : FlatInv st nodes ->
  NS.is_root_parent (fst (NS.parse_path (NS.trim_suffix_slash p))) = true -> blen (t_file st) + 3000 < LIM ->
  FlatInv (fst (t_create_group st p))
    (if snd (t_create_group st p)
     then nodes ++ [Grp (snd (NS.parse_path (NS.trim_suffix_slash p))) (blen (t_file st) + 2120) []] else nodes).
Proof.
  intros HI Hroot Hb. pose proof HI as (seg & s & rest & cs & ns & Hf & Hs & Hok & Hm & Hr & Hg & Hns & HF & Hnd & Hlt & Hn).
  destruct (flat_lay_ok seg s rest Hs Hok Hm Hr) as [Hokl Hlen]. rewrite <- Hf in Hlen. rewrite Hlen in *.
  rewrite (create_group_linked st p _ Hf Hokl) by (rewrite lsize_flat; blia).
  destruct (negb (NS.validate_group_path p)); [exact HI|]. cbv zeta.
  destruct (negb (parent_registered st _)); [exact HI|].
  rewrite lsize_flat. set (ha := 2195 + lsize rest) in *.
  apply (flat_create st nodes seg s rest cs ns (new_group_item ha) (ha + 2120) (CGroup (zeros 256) (new_snode 32)));
    auto using new_group_item_ok.
  - constructor.
  - unfold LIM in Hb. blia.
  - cbn [child_bt]. constructor; [|constructor]. rewrite lsize_app. cbn [lsize]. rewrite new_group_item_size. blia.
Qed.

Theorem flat_dataset_step st nodes p code dims data : FlatInv st nodes ->
  NS.is_root_parent (fst (NS.parse_path p)) = true -> op_args_ok (TDataset p code dims data) = true ->
  blen (t_file st) + blen data + 3000 < LIM ->
  FlatInv (fst (t_create_dataset st p code dims data))
    (if snd (t_create_dataset st p code dims data)
     then nodes ++ [Dset (snd (NS.parse_path p)) (blen (t_file st) + blen data)] else nodes).
Proof.
  intros HI Hroot Hargs Hb. pose proof HI as (seg & s & rest & cs & ns & Hf & Hs & Hok & Hm & Hr & Hg & Hns & HF & Hnd & Hlt & Hn).
  destruct (flat_lay_ok seg s rest Hs Hok Hm Hr) as [Hokl Hlen]. rewrite <- Hf in Hlen. rewrite Hlen in *.
  rewrite (create_dataset_linked st p code dims data _ Hf Hokl).
  destruct (negb (NS.validate_dataset_name p)); [exact HI|]. cbv zeta.
  rewrite lsize_flat. set (da := 2195 + lsize rest) in *.
  cbn [op_args_ok] in Hargs. apply andb_true_iff in Hargs as [Hcode Hargs]. apply N.ltb_lt in Hcode.
  pose proof (dtype_code_basic code Hcode) as Hbasic.
  unfold new_dset_item, ds_args_ok in *. destruct (dtype_of_code code) as [[class size] cbf].
  apply andb_true_iff in Hargs as [Hargs _]. apply andb_true_iff in Hargs as [Hargs _]. apply andb_true_iff in Hargs as [Hdims _].
  pose proof (dset_hdr_at_ok class size cbf dims da Hbasic Hdims) as Hx.
  apply (flat_create st nodes seg s rest cs ns _ (da + blen data) (CDset (dset_ohdr_at class size cbf dims da))); auto.
  - exact I.
  - constructor. exact Hx.
  - unfold LIM in Hb. blia.
  - cbn [child_bt]. constructor.
Qed.
