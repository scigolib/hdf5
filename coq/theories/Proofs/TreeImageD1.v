(* C03 end to end, depth 1: the byte-level model against the SPECIFICATION on histories of root-level creations (d1_op).
   group_answer / dataset_answer: under FlatInv a call answers by d1_accept on the names of the children so far, as the
   specification does (Proofs/TreeImageSpecSide.v spec_create).  d1_step / d1_run: FlatInv and SpecInv advance together.
   tree_depth1: the per-call answers are the specification's, and its tree, rendered by node_of_tree at the allocator's
   addresses, is what hdf5.Open returns on tree_image. *)
From HV Require Import Base.Prelude Base.Outcome Base.Bytes Model.RobustAlloc Model.RobustGroup Model.GroupWire.
From HV Require Import Model.CodecOhdr Model.IOProg Model.IOProgReader Model.IOProgOpen.
From HV Require Import Proofs.GroupWireHeap Proofs.GroupWireSnod.
From HV Require Import Model.FileImage Model.TreeImage Model.TreeFlat Proofs.FileImage.
From HV Require Import Proofs.TreeImageOpen Proofs.TreeImagePlaced Proofs.TreeImageFlat Proofs.TreeImageFlatStep Proofs.TreeImageFlatRead
  Proofs.TreeImageFlatMain Proofs.TreeImageDecide Proofs.TreeImageSpecSide.
From HV Require Model.GroupNS Proofs.GroupNSBase Proofs.GroupNSHeap Proofs.GroupNSPath.

Local Open Scope N_scope.

Definition node_name (x : node) : bytes := match x with Grp n _ _ => n | Dset n _ => n | Dtyp n _ => n end.

Lemma loop_nodes_names es : forall cs, length es = length cs -> map node_name (loop_nodes es cs) = map fst cs.
Proof.
  induction es as [|e r IH]; intros [|[nm c] cs'] H; try discriminate; [reflexivity|].
  cbn [loop_nodes map fst snd]. rewrite IH by (cbn in H; lia). destruct c; reflexivity.
Qed.

Lemma FlatInv_root st nodes : FlatInv st nodes ->
  exists seg s rest, t_file st = image (flat_lay seg s rest) /\ blen seg = 256 /\ snode_ok s = true /\
    (length (stn_entries s) <= 32)%nat /\ Forall item_ok rest /\ GH.gwf seg (map abs_sym (stn_entries s)) (map node_name nodes).
Proof.
  intros (seg & s & rest & cs & ns & Hf & Hs & Hok & Hm & Hr & Hg & Hns & HF & _ & _ & Hn).
  exists seg, s, rest. repeat (split; [assumption|]). subst nodes.
  rewrite loop_nodes_names by (eapply Forall2_length; exact HF). subst ns. exact Hg.
Qed.

Lemma one_comp_facts p n : NS.split_path p = Some [n] ->
  NS.validate_group_path p = true /\ NS.validate_dataset_name p = true /\ NS.trim_suffix_slash p = p /\
  NS.parse_path p = ([], n) /\ NS.heap_name_ok n = true.
Proof.
  intros H. destruct (GP.split_path_inv p n [] H) as [-> Hok]. pose proof Hok as Hok'. apply Forall_cons_iff in Hok' as [Hn _].
  destruct (proj1 (GP.name_ok_iff n) Hn) as (Hne & Hnz & Hsf).
  split; [now apply GP.validate_group_render|]. split; [apply GP.render_starts|]. split.
  - cbn [NS.render]. rewrite app_nil_r. apply (GP.trim_suffix_nonslash [NS.SL] n Hne Hsf).
  - split; [exact (GP.parse_path_render [] n Hok)|]. apply GH.heap_name_ok_iff. now apply GP.name_ok_hname.
Qed.

Lemma create_linked_answer st seg s rest ns it n oa groups' :
  t_file st = image (flat_lay seg s rest) -> blen seg = 256 -> snode_ok s = true -> (length (stn_entries s) <= 32)%nat ->
  GH.gwf seg (map abs_sym (stn_entries s)) ns -> NS.heap_name_ok n = true -> oa < 18446744073709551616 ->
  snd (create_linked st [] n (image (flat_lay seg s (rest ++ [it]))) oa groups') = d1_accept ns n.
Proof.
  intros Hf Hs Hok Hm Hg Hhn Hoa. unfold create_linked.
  rewrite (prepare_root_eq st seg s rest ns Hf Hs Hok Hm Hg [] eq_refl n 0), Hhn. cbn [andb].
  destruct (d1_accept ns n) eqn:EA; [|reflexivity].
  destruct (link_root_ok (with_file st (image (flat_lay seg s (rest ++ [it])))) seg s (rest ++ [it]) ns eq_refl Hs Hok Hm Hg
              [] eq_refl n oa Hhn EA Hoa) as (f2 & ->).
  reflexivity.
Qed.

Lemma group_answer st nodes p n : FlatInv st nodes -> NS.split_path p = Some [n] -> blen (t_file st) + 3000 < LIM ->
  snd (t_create_group st p) = d1_accept (map node_name nodes) n.
Proof.
  intros HI Hp Hb. destruct (FlatInv_root st nodes HI) as (seg & s & rest & Hf & Hs & Hok & Hm & Hr & Hg).
  destruct (one_comp_facts p n Hp) as (V1 & _ & T & P & Hhn).
  destruct (flat_lay_ok seg s rest Hs Hok Hm Hr) as [Hokl Hlen]. rewrite <- Hf in Hlen. rewrite Hlen in Hb. unfold LIM in Hb.
  rewrite (create_group_linked st p _ Hf Hokl) by (rewrite lsize_flat; unfold LIM; blia).
  rewrite V1, T, P. unfold parent_registered. change (NS.is_root_parent []) with true. cbn [orb negb fst snd]. cbv zeta.
  rewrite lsize_flat. apply (create_linked_answer st seg s rest _ (new_group_item _)); auto. blia.
Qed.

Lemma dataset_answer st nodes p n code dims data : FlatInv st nodes -> NS.split_path p = Some [n] ->
  blen (t_file st) + blen data + 3000 < LIM ->
  snd (t_create_dataset st p code dims data) = d1_accept (map node_name nodes) n.
Proof.
  intros HI Hp Hb. destruct (FlatInv_root st nodes HI) as (seg & s & rest & Hf & Hs & Hok & Hm & Hr & Hg).
  destruct (one_comp_facts p n Hp) as (_ & V2 & _ & P & Hhn).
  destruct (flat_lay_ok seg s rest Hs Hok Hm Hr) as [Hokl Hlen]. rewrite <- Hf in Hlen. rewrite Hlen in Hb. unfold LIM in Hb.
  rewrite (create_dataset_linked st p code dims data _ Hf Hokl), V2, P. cbn [negb fst snd]. cbv zeta.
  rewrite lsize_flat. apply (create_linked_answer st seg s rest _ (new_dset_item code dims data _)); auto. blia.
Qed.

Lemma map_name_ent L : map node_name (map ent_node L) = map en_name L.
Proof. rewrite map_map. apply map_ext. intros e. unfold ent_node. destruct (en_grp e); reflexivity. Qed.

Lemma one_component_inv p : one_component p = true -> exists n, NS.split_path p = Some [n].
Proof. unfold one_component. destruct (NS.split_path p) as [[|n [|m r]]|]; try discriminate. intros _. now exists n. Qed.

Lemma d1_step st t L o : FlatInv st (map ent_node L) -> SpecInv t L -> d1_op o = true ->
  blen (t_file st) + op_extent o < FLAT_LIM ->
  exists L1, FlatInv (fst (t_step st o)) (map ent_node L1) /\
    SpecInv (fst (NS.spec_step NS.go_cfg t (ns_op o))) L1 /\
    snd (t_step st o) = NS.is_ok (snd (NS.spec_step NS.go_cfg t (ns_op o))) /\
    map ent_node L1 = map ent_node L ++ (if snd (t_step st o) then [flat_child st o] else []) /\
    flat_step st o.
Proof.
  intros HI HS Hd Hb. unfold FLAT_LIM in Hb.
  destruct o as [p | p code dims data | p q]; [| |discriminate]; cbn [d1_op op_extent] in *.
  - destruct (one_component_inv p Hd) as (n & Hp).
    destruct (one_comp_facts p n Hp) as (_ & _ & T & P & _).
    assert (Hroot : NS.is_root_parent (fst (NS.parse_path (NS.trim_suffix_slash p))) = true) by (rewrite T, P; reflexivity).
    pose proof (group_answer st _ p n HI Hp Hb) as HA. rewrite map_name_ent in HA.
    pose proof (flat_group_step st _ p HI Hroot Hb) as HF. rewrite T, P in HF. cbn [snd] in HF.
    destruct (spec_create t L p n true (blen (t_file st) + 2120) HS Hp) as [S1 S2]. cbv zeta in S1, S2.
    cbn [t_step ns_op NS.spec_step flat_child op_parent_name]. rewrite T, P. cbn [snd].
    exists (if d1_accept (map en_name L) n then L ++ [{| en_name := n; en_id := NS.s_clock t; en_grp := true; en_addr := blen (t_file st) + 2120 |}] else L).
    rewrite HA in *. rewrite S1. split; [|split; [exact S2|split; [reflexivity|split]]].
    + destruct (d1_accept (map en_name L) n); [|exact HF]. rewrite map_app. exact HF.
    + destruct (d1_accept (map en_name L) n); [|now rewrite app_nil_r]. rewrite map_app. reflexivity.
    + right. cbn [is_creation op_parent_name op_args_ok op_extent]. rewrite T, P. repeat split; try reflexivity. unfold FLAT_LIM. exact Hb.
  - apply andb_true_iff in Hd as [Hd Hargs]. destruct (one_component_inv p Hd) as (n & Hp).
    destruct (one_comp_facts p n Hp) as (_ & _ & _ & P & _).
    assert (Hroot : NS.is_root_parent (fst (NS.parse_path p)) = true) by (rewrite P; reflexivity).
    assert (Hb' : blen (t_file st) + blen data + 3000 < LIM) by (unfold LIM; blia).
    pose proof (dataset_answer st _ p n code dims data HI Hp Hb') as HA. rewrite map_name_ent in HA.
    pose proof (flat_dataset_step st _ p code dims data HI Hroot Hargs Hb') as HF. rewrite P in HF. cbn [snd] in HF.
    destruct (spec_create t L p n false (blen (t_file st) + blen data) HS Hp) as [S1 S2]. cbv zeta in S1, S2.
    cbn [t_step ns_op NS.spec_step flat_child op_parent_name]. rewrite P. cbn [snd].
    exists (if d1_accept (map en_name L) n then L ++ [{| en_name := n; en_id := NS.s_clock t; en_grp := false; en_addr := blen (t_file st) + blen data |}] else L).
    rewrite HA in *. rewrite S1. split; [|split; [exact S2|split; [reflexivity|split]]].
    + destruct (d1_accept (map en_name L) n); [|exact HF]. rewrite map_app. exact HF.
    + destruct (d1_accept (map en_name L) n); [|now rewrite app_nil_r]. rewrite map_app. reflexivity.
    + right. cbn [is_creation op_parent_name op_extent]. rewrite P. repeat split; try reflexivity; try exact Hargs. unfold FLAT_LIM. exact Hb.
Qed.

Lemma d1_run h : forall st t L, FlatInv st (map ent_node L) -> SpecInv t L -> forallb d1_op h = true -> bounded st h ->
  exists L', FlatInv (fst (t_run st h)) (map ent_node L') /\
    SpecInv (fst (NS.run (NS.spec_step NS.go_cfg) t (map ns_op h))) L' /\
    snd (t_run st h) = map NS.is_ok (snd (NS.run (NS.spec_step NS.go_cfg) t (map ns_op h))) /\
    map ent_node L' = map ent_node L ++ flat_nodes st h /\ flat_hist st h.
Proof.
  induction h as [|o r IH]; intros st t L HI HS Hd Hb.
  - exists L. cbn [t_run NS.run map fst snd flat_nodes flat_hist]. rewrite app_nil_r. auto.
  - cbn [forallb] in Hd. apply andb_true_iff in Hd as [Hd1 Hd2]. destruct Hb as [Hb1 Hb2].
    destruct (d1_step st t L o HI HS Hd1 Hb1) as (L1 & I1 & S1 & A1 & N1 & F1).
    destruct (IH _ _ L1 I1 S1 Hd2 Hb2) as (L' & I2 & S2 & A2 & N2 & F2).
    exists L'. cbn [map]. rewrite t_run_fst, t_run_snd, ns_run_fst, ns_run_snd. cbn [map flat_nodes flat_hist].
    split; [exact I2|]. split; [exact S2|]. split; [now rewrite A1, A2|]. split; [|split; assumption].
    rewrite N2, N1, <- app_assoc. reflexivity.
Qed.

Theorem tree_depth1 h n hfuel : (4 < hfuel)%nat -> forallb d1_op h = true -> bounded t_init h ->
  2197 <= blen (t_file (fst (tree_run h))) -> blen (t_file (fst (tree_run h))) + 4000 < FLAT_LIM ->
  let sp := NS.run (NS.spec_step NS.go_cfg) NS.s_empty (map ns_op h) in
  tree_oks h = map NS.is_ok (snd sp) /\
  exists tr addr, NS.spec_tree (fst sp) = Some tr /\
    node_of_tree addr [47] tr = Grp [47] 2168 (flat_nodes t_init h) /\
    run0 (tree_image h) (p_open true (blen (tree_image h)) (S (S (S (S (S n))))) hfuel) = Ok (node_of_tree addr [47] tr).
Proof.
  intros Hh Hd Hb H1 H2 sp.
  destruct (d1_run h t_init NS.s_empty [] flat_init spec_init Hd Hb) as (L' & I & S & A & N & F). cbn [map app] in N.
  split; [exact A|].
  pose proof S as (_ & Hid & Hnd & _).
  assert (Hid1 : Forall (fun e => 1 <= en_id e) L') by (eapply Forall_impl; [|exact Hid]; cbn; intros e [X _]; exact X).
  exists (NS.TNode 0 NS.KGroup (map (fun e => (en_name e, ent_tree e)) L')), (ent_addr L').
  split; [exact (spec_tree_of _ _ S)|].
  rewrite (node_of_spec_tree L' Hnd Hid1), N. split; [reflexivity|].
  exact (tree_depth1_partial h n hfuel Hh F H1 H2).
Qed.

(* the hypotheses of tree_depth1 are satisfiable: /g, /d (uint8 [3]), /d again (refused by library and specification:
   duplicate), /g again (refused) *)
Definition d1_ex : list top :=
  [TGroup [47; 103]; TDataset [47; 100] 4 [3] [1; 2; 3]; TDataset [47; 100] 4 [3] [1; 2; 3]; TGroup [47; 103]].
Lemma d1_ex_ok :
  forallb d1_op d1_ex = true /\ bounded t_init d1_ex /\ 2197 <= blen (t_file (fst (tree_run d1_ex))) /\
  blen (t_file (fst (tree_run d1_ex))) + 4000 < FLAT_LIM /\
  tree_oks d1_ex = [true; true; false; false] /\
  map NS.is_ok (snd (NS.run (NS.spec_step NS.go_cfg) NS.s_empty (map ns_op d1_ex))) = [true; true; false; false] /\
  NS.spec_tree (fst (NS.run (NS.spec_step NS.go_cfg) NS.s_empty (map ns_op d1_ex)))
    = Some (NS.TNode 0 NS.KGroup [([103], NS.TNode 1 NS.KGroup []); ([100], NS.TNode 2 NS.KData [])]).
Proof.
  split; [vm_compute; reflexivity|]. split; [vm_compute; repeat split; reflexivity|].
  unfold tree_oks. set (r := tree_run d1_ex). vm_compute. repeat split; try reflexivity; discriminate.
Qed.
