(* C20, bfloat16 half: the bit trick of Float32ToBFloat16 is round-to-nearest-even on the bit
   pattern (rne16), and rounding the pattern is rounding the value because X32 is piecewise linear. *)
From HV Require Import Base.Prelude Model.LowFloat Model.LowFloatTie Proofs.LowFloatBase.

Definition rne16 (x : N) : N :=
  let q := x / 65536 in let r := x mod 65536 in
  if r <? 32768 then q else if 32768 <? r then q + 1 else if N.even q then q else q + 1.

Lemma rne16_eq x : rne16 x = rne_shift x 16.
Proof. reflexivity. Qed.

Lemma rne16_cases x :
  exists q r, x = 65536 * q + r /\ r < 65536 /\
    ((rne16 x = q /\ (r < 32768 \/ (r = 32768 /\ N.even q = true))) \/
     (rne16 x = q + 1 /\ (32768 < r \/ (r = 32768 /\ N.even q = false)))).
Proof.
  destruct (rne_shift_spec x 16) as (q & r & h & Hx & Hr & Hp & _ & C); [lia|].
  change (2 ^ 16) with 65536 in Hp. assert (h = 32768) by lia. subst h.
  exists q, r. rewrite rne16_eq. repeat split; [lia|lia|exact C].
Qed.

Lemma rne16_mono a b : a <= b -> rne16 a <= rne16 b.
Proof. rewrite !rne16_eq. apply rne_shift_mono. Qed.

Lemma nan_test x : N.land x 2147483647 = f32_mag x.
Proof. change 2147483647 with (2 ^ 31 - 1). rewrite land_ones'. reflexivity. Qed.

(* the non-NaN branch: the bit trick is rne16 *)
Lemma bf16_enc_num x : x < 4294967296 -> f32_mag x <= 2139095040 -> bf16_enc x = rne16 x.
Proof.
  intros Hx Hm. unfold bf16_enc. rewrite nan_test.
  replace (2139095040 <? f32_mag x) with false by (symmetry; apply N.ltb_ge; exact Hm).
  unfold f32_mag in Hm. unfold rne16, wrap16, wrap32.
  change 32768 with (2 ^ 15). change 65536 with (2 ^ 16). change 32767 with (2 ^ 15 - 1).
  rewrite land_ones', !bit_test, !N.shiftr_div_pow2.
  change (2 ^ 16) with 65536 in *. change (2 ^ 15) with 32768 in *.
  destruct (even_cases (x / 32768)) as [[E1 [k Hk]]|[E1 [k Hk]]]; rewrite E1; cbn [negb].
  - replace (x mod 65536 <? 32768) with true by (symmetry; apply N.ltb_lt; lia). lia.
  - destruct (N.eqb_spec (x mod 32768) 0) as [E2|E2]; cbn [negb].
    + assert (x mod 65536 = 32768) by lia.
      replace (x mod 65536 <? 32768) with false by (symmetry; apply N.ltb_ge; lia).
      replace (32768 <? x mod 65536) with false by (symmetry; apply N.ltb_ge; lia).
      destruct (N.even (x / 65536)); cbn [negb]; lia.
    + replace (x mod 65536 <? 32768) with false by (symmetry; apply N.ltb_ge; lia).
      replace (32768 <? x mod 65536) with true by (symmetry; apply N.ltb_lt; lia). lia.
Qed.

(* the NaN branch: upper half with the quiet bit forced *)
Lemma bf16_enc_nan x : x < 4294967296 -> 2139095040 < f32_mag x ->
  bf16_enc x = if N.even (x / 65536 / 64) then x / 65536 + 64 else x / 65536.
Proof.
  intros Hx Hm. unfold bf16_enc. rewrite nan_test.
  replace (2139095040 <? f32_mag x) with true by (symmetry; apply N.ltb_lt; exact Hm).
  unfold wrap16. rewrite N.shiftr_div_pow2. change (2 ^ 16) with 65536.
  change 64 with (2 ^ 6) at 1. rewrite lor_pow2. change (2 ^ 6) with 64.
  unfold f32_mag in Hm.
  destruct (even_cases (x / 65536 / 64)) as [[E [k Hk]]|[E [k Hk]]]; rewrite E; lia.
Qed.

Lemma bf16_mono a b : a <= b -> b <= 2139095040 -> bf16_enc a <= bf16_enc b.
Proof.
  intros Hab Hb. rewrite !bf16_enc_num by (try rewrite mag_small; lia). apply rne16_mono, Hab.
Qed.

Lemma bf16_run_lifting s e c x :
  run_ok_bf16 (s, e, c) = true -> s <= x -> x <= e -> x < 4294967296 -> bf16_enc x = c.
Proof.
  unfold run_ok_bf16. intros H Hsx Hxe Hx. apply andb_prop in H. destruct H as [H Hblk].
  apply run_ok_inv in H. destruct H as (Hse & Hseg & Hs & He).
  destruct (seg_run s e Hse Hseg) as [[S Re]|[(S & Rs & Re)|[(S & Rs & Re)|[S Rs]]]];
    rewrite S in Hblk; cbn [N.even orb] in Hblk.
  - (* +numbers *)
    assert (bf16_enc s <= bf16_enc x) by (apply bf16_mono; lia).
    assert (bf16_enc x <= bf16_enc e) by (apply bf16_mono; lia). lia.
  - (* +NaN, one block *)
    apply N.eqb_eq in Hblk. rewrite <- Hs.
    rewrite !bf16_enc_nan by (try rewrite mag_small; lia).
    replace (x / 65536) with (s / 65536) by lia. reflexivity.
  - (* -numbers *)
    assert (Hmx : f32_mag x <= 2139095040) by (unfold f32_mag; lia).
    assert (Hms : f32_mag s <= 2139095040) by (unfold f32_mag; lia).
    assert (Hme : f32_mag e <= 2139095040) by (unfold f32_mag; lia).
    rewrite bf16_enc_num in * by lia.
    assert (rne16 s <= rne16 x) by (apply rne16_mono; lia).
    assert (rne16 x <= rne16 e) by (apply rne16_mono; lia). lia.
  - (* -NaN, one block *)
    apply N.eqb_eq in Hblk. rewrite <- Hs.
    rewrite !bf16_enc_nan by (unfold f32_mag; lia).
    replace (x / 65536) with (s / 65536) by lia. reflexivity.
Qed.

(* plain end-point agreement is enough on the number segments ... *)
Lemma bf16_run_lifting_num s e c x :
  run_ok bf16_enc (s, e, c) = true -> N.even (seg s) = true ->
  s <= x -> x <= e -> x < 4294967296 -> bf16_enc x = c.
Proof.
  intros H Ev. apply bf16_run_lifting. unfold run_ok_bf16. rewrite H, Ev. reflexivity.
Qed.

(* ... but not on the NaN segments: 0x7F800001 and 0x7FC0FFFF both give 0x7FC0, 0x7F810000 gives 0x7FC1 *)
Lemma bf16_run_lifting_plain_refuted :
  exists s e c x, run_ok bf16_enc (s, e, c) = true /\ s <= x /\ x <= e /\ x < 4294967296 /\ bf16_enc x <> c.
Proof.
  exists 2139095041, 2143354879, 32704, 2139160576.
  split; [vm_compute; reflexivity|]. repeat split; try lia. vm_compute. discriminate.
Qed.

Lemma bf16_sign x : x < 2147483648 -> f32_is_nan x = false ->
  bf16_enc (x + 2147483648) = bf16_enc x + 32768.
Proof.
  unfold f32_is_nan. intros Hx Hn. apply N.ltb_ge in Hn. rewrite mag_small in Hn by exact Hx.
  rewrite (bf16_enc_num x) by (try rewrite mag_small; lia).
  rewrite (bf16_enc_num (x + 2147483648)) by (try rewrite mag_neg; lia).
  destruct (rne16_cases x) as (q & r & Hq & Hr & C).
  destruct (rne16_cases (x + 2147483648)) as (q' & r' & Hq' & Hr' & C').
  assert (q' = q + 32768) by lia. subst q'. assert (r' = r) by lia. subst r'.
  assert (Hev : N.even (q + 32768) = N.even q).
  { replace (q + 32768) with (q + 2 * 16384) by lia. apply N.even_add_mul_2. }
  rewrite Hev in C'.
  destruct C as [[-> C]|[-> C]], C' as [[-> C']|[-> C']]; try lia;
    destruct C as [C|[C E]], C' as [C'|[C' E']]; try lia; congruence.
Qed.

Lemma bf16_code_roundtrip c : c < 65536 -> c mod 32768 <= 32640 -> bf16_enc (bf16_dec c) = c.
Proof.
  intros Hc Hn. unfold bf16_dec. rewrite N.mod_small by lia.
  rewrite bf16_enc_num by (unfold f32_mag; lia).
  destruct (rne16_cases (c * 65536)) as (q & r & Hq & Hr & C).
  assert (q = c) by lia. subst q. assert (r = 0) by lia. subst r.
  destruct C as [[-> _]|[_ C]]; lia.
Qed.

Lemma bf16_nan_stays_nan x : x < 4294967296 -> f32_is_nan x = true -> 32640 < (bf16_enc x) mod 32768.
Proof.
  unfold f32_is_nan. intros Hx Hn. apply N.ltb_lt in Hn.
  rewrite bf16_enc_nan by assumption. unfold f32_mag in Hn.
  destruct (even_cases (x / 65536 / 64)) as [[E [k Hk]]|[E [k Hk]]]; rewrite E; lia.
Qed.

Lemma bf16_no_nan_confusion x : x < 4294967296 -> f32_is_nan x = false -> (bf16_enc x) mod 32768 <= 32640.
Proof.
  unfold f32_is_nan. intros Hx Hn. apply N.ltb_ge in Hn.
  rewrite bf16_enc_num by assumption. unfold f32_mag in Hn.
  destruct (rne16_cases x) as (q & r & Hq & Hr & C).
  assert (Hm : x mod 2147483648 = 65536 * (q mod 32768) + r).
  { symmetry. apply (N.mod_unique _ _ (q / 32768)); lia. }
  rewrite Hm in Hn. clear Hm.
  destruct C as [[-> _]|[-> C]]; [lia|].
  assert (q mod 32768 < 32640) by lia. lia.
Qed.

Lemma bf16_bytes_roundtrip c : c < 65536 -> bf16_unbytes (bf16_bytes c) = c.
Proof.
  intro Hc. unfold bf16_unbytes, bf16_bytes. cbn [le unle]. lia.
Qed.

Definition Vbf (d : N) : N := X32 (d * 65536).

Lemma Vbf_mono : grid_mono Vbf.
Proof. intros i j Hij. unfold Vbf. apply X32_mono_strict. lia. Qed.

Lemma bf16_rne mag : mag <= 2139095040 -> bf16_rne_ok mag (bf16_enc mag) = true.
Proof.
  intro Hm. unfold bf16_rne_ok. fold Vbf.
  rewrite bf16_enc_num by (try rewrite mag_small; lia).
  destruct (N.eq_dec mag 2139095040) as [->|Hne].
  { (* the infinity pattern itself *)
    replace (rne16 2139095040) with 32640 by (vm_compute; reflexivity).
    apply rne_spec_overflow; [apply Vbf_mono|lia|]. unfold Vbf. apply X32_mono. lia. }
  destruct (rne16_cases mag) as (q & r & Hq & Hr & C).
  assert (Hq0 : q < 32640) by lia.
  replace (rne16 mag) with (if 32640 <=? rne16 mag then 32640 else rne16 mag)
    by (destruct (N.leb_spec 32640 (rne16 mag)); lia).
  apply (rne_spec_bracket Vbf 32640 32640 (X32 mag) q (rne16 mag) (Vbf q) (ulp32 (q * 65536)) r 32768).
  - apply Vbf_mono.
  - reflexivity.
  - exact Hq0.
  - apply pow2_pos.
  - lia.
  - reflexivity.
  - unfold Vbf. replace ((q + 1) * 65536) with (q * 65536 + 65536) by lia. apply X32_lin. lia.
  - unfold Vbf. replace mag with (q * 65536 + r) by lia. apply X32_lin. lia.
  - exact C.
Qed.

(* worked values: ties, a carry into the exponent, overflow; the last two meet the hypotheses of run lifting and of the
   NaN lemmas *)
(* 1.00390625 = 0x3F808000 is a tie between 0x3F80 (even) and 0x3F81: goes down; 0x3F818000 goes up *)
Example bf16_tie_down : bf16_enc 1065385984 = 16256. Proof. vm_compute. reflexivity. Qed.
Example bf16_tie_up : bf16_enc 1065451520 = 16258. Proof. vm_compute. reflexivity. Qed.
(* carry through the whole mantissa into the exponent: 0x3FFFFFFF -> 0x4000 (2.0) *)
Example bf16_carry : bf16_enc 1073741823 = 16384. Proof. vm_compute. reflexivity. Qed.
(* largest finite float32 rounds to infinity 0x7F80, as IEEE demands *)
Example bf16_overflow : bf16_enc 2139095039 = 32640. Proof. vm_compute. reflexivity. Qed.
Example bf16_run_example : run_ok_bf16 (1065320449, 1065385984, 16256) = true. Proof. vm_compute. reflexivity. Qed.
Example bf16_nan_example : f32_is_nan 2139095041 = true /\ bf16_enc 2139095041 = 32704. Proof. vm_compute. auto. Qed.
