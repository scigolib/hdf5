(* C06, reader against specification: the superblock, versions 0, 2 and 3.  For every file image the strict specification
   decoder accepts, ReadSuperblock (Model/CodecSuper.v dec_superblock_gen) returns an error or the same version, sizes,
   little-endian byte order, root group address, and - versions 2/3 - base address and superblock extension address,
   - version 0 - the cached B-tree / local heap addresses when the root entry's cache type is 1:
   the repaired reader (dec_superblock_gen true = dec_superblock = internal/core/superblock.go with
   notes/fixes/c06-superblock-sizes.patch applied) for EVERY size of offsets and size of lengths the format allows (2, 4, 8);
   the reader before the repair (dec_superblock_gen false) when both sizes are 8, the class the refutations of
   ReaderSpecSuper.v leave.
   Version 1 is an error for the reader.  Version 0: the reader reports base address 0 whatever the file says
   (superblock_v0_base_refuted). *)
From HV Require Import Base.Prelude Base.Outcome Base.Bytes Spec.Parse Spec.Format Model.CodecSuper
  Proofs.RobustNoPanicBase Proofs.ReaderSpecBase Proofs.ReaderSpecSuper.

Definition sb_agree (s : superblock_spec) (v : superblock') : Prop :=
  spp_version v = sbs_version s /\ spp_offsize v = sbs_O s /\ spp_lensize v = sbs_L s /\ spp_bigendian v = false /\
  spp_root v = sbs_root s /\
  match sbs_root_entry s with
  | Some e => se_cache e = 1 -> spp_rootbtree v = se_btree e /\ spp_rootheap v = se_heap e
  | None => spp_base v = sbs_base s /\ spp_superext v = sbs_ext s
  end.

(* the 128-byte read buffer *)
Definition sbuf (file : bytes) : bytes := firstn 128 file ++ zeros (N.to_nat (128 - N.min (blen file) 128)).

Lemma blen_sbuf file : blen (sbuf file) = 128.
Proof. unfold sbuf, blen. rewrite app_length, firstn_length, length_zeros. blia. Qed.

Lemma index_sbuf file p : p < N.min (blen file) 128 -> index (sbuf file) p = index file p.
Proof.
  intros H. unfold index, sbuf. unfold blen in H. rewrite nth_error_app1.
  - rewrite nth_error_firstn_lt by blia. reflexivity.
  - rewrite firstn_length. blia.
Qed.

Lemma slice_sbuf file a b : b <= N.min (blen file) 128 -> slice (sbuf file) a b = slice file a b.
Proof.
  intros H. unfold slice. rewrite blen_sbuf.
  destruct (a <=? b) eqn:E; cbn [andb]; [|reflexivity]. apply N.leb_le in E.
  rewrite (proj2 (N.leb_le b 128)) by blia. rewrite (proj2 (N.leb_le b (blen file))) by blia.
  f_equal. unfold sbuf. unfold blen in H.
  rewrite skipn_app, firstn_app.
  rewrite skipn_length, firstn_length. bnorm.
  replace (N.to_nat (b - a) - (Nat.min 128 (length file) - N.to_nat a))%nat with 0%nat by blia.
  rewrite firstn_O, app_nil_r.
  rewrite skipn_firstn_comm, firstn_firstn. f_equal. blia.
Qed.

Lemma rd_le_sbuf file p k : p + k <= N.min (blen file) 128 -> rd_le (sbuf file) p k = rd_le file p k.
Proof. intros H. unfold rd_le. now rewrite slice_sbuf. Qed.

Lemma rd_le_in_slice (bs : list N) a b s i k v :
  slice bs a b = Ok s -> rd_le s i k = Ok v -> rd_le bs (a + i) k = Ok v.
Proof.
  intros S R. apply slice_inv in S as (E1 & E2 & ->). apply rd_le_inv in R as (B & ->).
  unfold blen in B, E2. rewrite firstn_length, length_at_pos in B.
  rewrite rd_le_eq by (unfold blen; blia). do 2 f_equal.
  unfold at_pos at 2. rewrite skipn_firstn_comm, firstn_firstn, Nat.min_l by blia.
  change (skipn (N.to_nat i) (at_pos bs a)) with (at_pos (at_pos bs a) i). now rewrite at_pos_at_pos.
Qed.

Lemma read_value_sbuf file p k v :
  size_ok k = true -> rd_le file p k = Ok v -> p + k <= N.min (blen file) 128 ->
  read_value (sbuf file) p k false = Ok v.
Proof.
  intros Hk R Hp. unfold read_value. rewrite blen_sbuf, ltb_false by blia.
  replace (valid_size k) with true by (destruct (size_ok_cases k Hk) as [-> | [-> | ->]]; reflexivity).
  now rewrite rd_le_sbuf.
Qed.

Lemma p_expect_sig_at (bs : list N) r0 :
  p_expect hdf5_sig (at_pos bs 0) = Ok (tt, r0) -> 8 <= blen bs /\ r0 = at_pos bs 8 /\ slice bs 0 8 = Ok hdf5_sig.
Proof.
  unfold p_expect. intros EX.
  destruct (p_take (length hdf5_sig) (at_pos bs 0)) as [[sg r1]| |] eqn:ET; cbn [obind] in EX; try discriminate EX.
  apply p_take_at in ET as (B0 & -> & SG & LSG); [|blia].
  destruct (bytes_eqb sg hdf5_sig) eqn:EQ; [|discriminate EX]. injection EX as <-.
  apply bytes_eqb_eq in EQ. subst sg.
  change (N.of_nat (length hdf5_sig)) with 8 in *. change (0 + 8) with 8 in *. auto.
Qed.

Lemma spec_sb_version (bs : bytes) s tg r :
  spec_dec_superblock strict bs = Ok (s, tg, r) -> index bs 8 = Ok (sbs_version s).
Proof.
  intros H. unfold spec_dec_superblock in H. rewrite (at_pos_0 bs) in H.
  destruct (p_expect hdf5_sig (at_pos bs 0)) as [[[] r0]| |] eqn:EX; cbn [obind] in H; try discriminate H.
  apply p_expect_sig_at in EX as (B0 & -> & SG).
  s_byte H v B1 I8.
  destruct ((v =? 0) || (v =? 1)); [|destruct ((v =? 2) || (v =? 3)); [|discriminate H]];
    repeat sstep H; injection H as <- _ _; exact I8.
Qed.

Lemma sym_entry_at (bs : list N) p (o : nat) k e r :
  k = N.of_nat o -> p <= blen bs -> spec_dec_sym_entry o (at_pos bs p) = Ok (e, r) ->
  p + 2 * k + 24 <= blen bs /\
  rd_le bs (p + k) k = Ok (se_obj e) /\
  (se_cache e = 1 -> rd_le bs (p + 2 * k + 8) k = Ok (se_btree e) /\ rd_le bs (p + 2 * k + 8 + k) k = Ok (se_heap e)).
Proof.
  intros Hk Hp EE. unfold spec_dec_sym_entry in EE.
  s_u EE noff B1 RNO. s_u EE obj B2 RO. s_u EE cache B3 RCA. s_zeros EE B4 ZR. s_take EE scratch B5 SS LSC.
  rewrite <- Hk in *. change (N.of_nat 4) with 4 in *. change (N.of_nat 16) with 16 in *.
  split; [blia|].
  rewrite (at_pos_0 scratch) in EE. assert (PSC : 0 <= blen scratch) by blia.
  destruct (cache =? 0); [|destruct (cache =? 1); [|destruct (cache =? 2); [|discriminate EE]]].
  - injection EE as <- _. split; [exact RO|discriminate].
  - s_u EE bt BB1 RB1. s_u EE hp BB2 RB2. injection EE as <- _. split; [exact RO|]. intros _. rewrite <- Hk in *. split.
    + replace (p + 2 * k + 8) with (p + k + k + 4 + 4 + 0) by blia. exact (rd_le_in_slice _ _ _ _ _ _ _ SS RB1).
    + replace (p + 2 * k + 8 + k) with (p + k + k + 4 + 4 + (0 + k)) by blia. exact (rd_le_in_slice _ _ _ _ _ _ _ SS RB2).
  - s_u EE lo BB1 RB1. injection EE as <- _. split; [exact RO|discriminate].
Qed.

Lemma superblock_v23_reader_spec (rep : bool) (bs : bytes) (s : superblock_spec) (tg : list tag) (r : bytes) :
  spec_dec_superblock strict bs = Ok (s, tg, r) ->
  sbs_version s = 2 \/ sbs_version s = 3 -> rep = true \/ sbs_O s = 8 /\ sbs_L s = 8 ->
  err_or (sb_agree s) (dec_superblock_gen rep bs).
Proof.
  intros H HV HR. pose proof (spec_sb_version _ _ _ _ H) as IV.
  unfold spec_dec_superblock in H. rewrite (at_pos_0 bs) in H.
  assert (P0 : 0 <= blen bs) by blia.
  destruct (p_expect hdf5_sig (at_pos bs 0)) as [[[] r0]| |] eqn:EX; cbn [obind] in H; try discriminate H.
  apply p_expect_sig_at in EX as (B0 & -> & SG).
  s_byte H v B1 I8.
  assert (VV : v = 2 \/ v = 3) by (rewrite I8 in IV; injection IV as ->; exact HV).
  clear IV.
  replace ((v =? 0) || (v =? 1)) with false in H by (destruct VV as [-> | ->]; reflexivity).
  replace ((v =? 2) || (v =? 3)) with true in H by (destruct VV as [-> | ->]; reflexivity).
  cbv beta iota in H.
  change (8 + 1) with 9 in *.
  s_byte H osz B2 I9. change (9 + 1) with 10 in *.
  s_byte H lsz B3 I10. change (10 + 1) with 11 in *.
  s_byte H flags B4 I11. change (11 + 1) with 12 in *.
  s_guard H GS. s_guard H GF.
  apply andb_true_iff in GS as [GO GL].
  s_u H base B5 RB. s_u H ext B6 RE. s_u H eof B7 RF. s_u H root B8 RR.
  s_u H stored B9 RC.
  match type of H with obind ?o _ = _ => destruct o as [tg0| |]; cbn [obind] in H; try discriminate H end.
  injection H as <- <- <-. cbn [sbs_version sbs_O sbs_L sbs_root_entry sbs_base sbs_ext sbs_root] in *.
  rewrite N2Nat.id in *. change (N.of_nat 4) with 4 in *.
  (* the reader; without the repair it is given sizes 8 / 8, for which its reading of bytes 9 and 10 comes to the same *)
  unfold dec_superblock_gen. fold (sbuf bs).
  destruct (N.min (blen bs) 128 <? 48) eqn:MN; [exact I|]. apply N.ltb_ge in MN.
  rewrite slice_sbuf by blia. rewrite SG. cbn [obind].
  change (bytes_eqb hdf5_sig signature) with true. cbv beta iota.
  rewrite index_sbuf by blia. rewrite I8. cbn [obind].
  replace (negb ((v =? 0) || (v =? 2) || (v =? 3))) with false by (destruct VV as [-> | ->]; reflexivity).
  replace (v =? 0) with false by (destruct VV as [-> | ->]; reflexivity).
  cbn [andb]. cbv beta iota.
  rewrite !index_sbuf by blia. rewrite I9. cbn [obind]. rewrite I10. cbn [obind].
  rewrite (if_else_eq_then (rep && spec_size osz && spec_size lsz)).
  2:{ intros C. destruct HR as [-> | [-> ->]]; [|reflexivity].
      change (size_ok osz && size_ok lsz = false) in C. rewrite GO, GL in C. discriminate C. }
  cbn [obind]. cbv beta iota.
  pose proof (size_ok_cases _ GO) as CO. pose proof (size_ok_cases _ GL) as CL.
  replace (osz =? 0) with false by (destruct CO as [-> | [-> | ->]]; reflexivity).
  replace (lsz =? 0) with false by (destruct CL as [-> | [-> | ->]]; reflexivity).
  cbv beta iota.
  replace (valid_size osz) with true by (destruct CO as [-> | [-> | ->]]; reflexivity).
  replace (valid_size lsz) with true by (destruct CL as [-> | [-> | ->]]; reflexivity).
  cbn [andb negb]. cbv beta iota.
  replace (12 + 3 * osz) with (12 + osz + osz + osz) by blia.
  rewrite (read_value_sbuf _ _ _ _ GO RB), (read_value_sbuf _ _ _ _ GO RE), (read_value_sbuf _ _ _ _ GO RR) by blia.
  repeat split.
Qed.

Lemma superblock_v0_reader_spec (rep : bool) (bs : bytes) (s : superblock_spec) (tg : list tag) (r : bytes) :
  spec_dec_superblock strict bs = Ok (s, tg, r) ->
  sbs_version s = 0 -> rep = true \/ sbs_O s = 8 /\ sbs_L s = 8 ->
  err_or (sb_agree s) (dec_superblock_gen rep bs).
Proof.
  intros H HV HR. pose proof (spec_sb_version _ _ _ _ H) as IV.
  unfold spec_dec_superblock in H. rewrite (at_pos_0 bs) in H.
  assert (P0 : 0 <= blen bs) by blia.
  destruct (p_expect hdf5_sig (at_pos bs 0)) as [[[] r0]| |] eqn:EX; cbn [obind] in H; try discriminate H.
  apply p_expect_sig_at in EX as (B0 & -> & SG).
  s_byte H v B1 I8.
  assert (VV : v = 0) by (rewrite I8 in IV; injection IV as ->; exact HV).
  clear IV. subst v.
  change ((0 =? 0) || (0 =? 1)) with true in H. cbv beta iota in H.
  change (8 + 1) with 9 in *.
  s_byte H fsv B2 I9. change (9 + 1) with 10 in *.
  s_byte H rgv B3 I10. change (10 + 1) with 11 in *.
  s_byte H rs1 B4 I11. change (11 + 1) with 12 in *.
  s_byte H shv B5 I12. change (12 + 1) with 13 in *.
  s_byte H osz B6 I13. change (13 + 1) with 14 in *.
  s_byte H lsz B7 I14. change (14 + 1) with 15 in *.
  s_byte H rs2 B8 I15. change (15 + 1) with 16 in *.
  s_guard H G1. s_guard H G2.
  apply andb_true_iff in G2 as [GO GL].
  s_u H leafK B9 R16. s_u H intK B10 R18. s_guard H G3.
  s_u H flags B11 R20. s_guard H G4.
  change (0 =? 1) with false in H. cbv beta iota in H. cbn [obind] in H. cbv beta iota in H.
  change (N.of_nat 2) with 2 in *. change (N.of_nat 4) with 4 in *.
  change (16 + 2) with 18 in *. change (18 + 2) with 20 in *. change (20 + 4) with 24 in *.
  s_u H base B12 RB. s_u H fsinfo B13 RFS. s_u H eof B14 RE. s_u H driver B15 RD.
  s_guard H G5.
  match type of H with
  | obind (spec_dec_sym_entry ?o ?rr) _ = _ =>
      destruct (spec_dec_sym_entry o rr) as [[e r1]| |] eqn:EE; cbn [obind] in H; try discriminate H
  end.
  injection H as <- <- <-. cbn [sbs_version sbs_O sbs_L sbs_root sbs_root_entry] in *.
  rewrite N2Nat.id in *.
  apply (sym_entry_at _ _ _ osz) in EE as (BE & RO & EC); [|symmetry; apply N2Nat.id|blia].
  (* the reader; without the repair it is given size 8, for which 64, 80, 88 are the positions the format prescribes *)
  unfold dec_superblock_gen. fold (sbuf bs).
  destruct (N.min (blen bs) 128 <? 48) eqn:MN; [exact I|]. apply N.ltb_ge in MN.
  rewrite slice_sbuf by blia. rewrite SG. cbn [obind].
  change (bytes_eqb hdf5_sig signature) with true. cbv beta iota.
  rewrite index_sbuf by blia. rewrite I8. cbn [obind].
  cbn [N.eqb Pos.eqb orb negb andb]. cbv beta iota.
  destruct (N.min (blen bs) 128 <? 96) eqn:MN2; [exact I|]. apply N.ltb_ge in MN2.
  rewrite !index_sbuf by blia. rewrite I13. cbn [obind]. rewrite I14. cbn [obind]. cbv beta iota.
  pose proof (size_ok_cases _ GO) as CO. pose proof (size_ok_cases _ GL) as CL.
  replace (osz =? 0) with false by (destruct CO as [-> | [-> | ->]]; reflexivity).
  replace (lsz =? 0) with false by (destruct CL as [-> | [-> | ->]]; reflexivity).
  cbv beta iota.
  replace (valid_size osz) with true by (destruct CO as [-> | [-> | ->]]; reflexivity).
  replace (valid_size lsz) with true by (destruct CL as [-> | [-> | ->]]; reflexivity).
  cbn [andb negb]. cbv beta iota.
  rewrite !(if_else_eq_then rep) by (intros ->; destruct HR as [HR | [-> _]]; [discriminate HR | reflexivity]).
  assert (O8 : osz <= 8) by (destruct CO as [-> | [-> | ->]]; blia).
  set (PS := 24 + 4 * osz + 2 * osz + 8).
  replace (24 + 4 * osz + osz) with (24 + osz + osz + osz + osz + osz) by blia.
  destruct (rd_le_ok bs PS osz) as (bt & RBT); [unfold PS; blia|].
  destruct (rd_le_ok bs (PS + osz) osz) as (hp & RHP); [unfold PS; blia|].
  rewrite (read_value_sbuf _ _ _ _ GO RO), (read_value_sbuf _ _ _ _ GO RBT), (read_value_sbuf _ _ _ _ GO RHP)
    by (unfold PS; blia).
  repeat (split; [reflexivity|]).
  intros C. destruct (EC C) as (Q1 & Q2).
  replace (24 + osz + osz + osz + osz + 2 * osz + 8) with PS in Q1, Q2 by (unfold PS; blia).
  cbn [spp_rootbtree spp_rootheap]. split; congruence.
Qed.

Lemma superblock_v23_sizes8_reader_spec (bs : bytes) (s : superblock_spec) (tg : list tag) (r : bytes) :
  spec_dec_superblock strict bs = Ok (s, tg, r) ->
  sbs_version s = 2 \/ sbs_version s = 3 -> sbs_O s = 8 -> sbs_L s = 8 ->
  err_or (sb_agree s) (dec_superblock_gen false bs).
Proof. intros; eapply superblock_v23_reader_spec; eauto. Qed.

Lemma superblock_v0_sizes8_reader_spec (bs : bytes) (s : superblock_spec) (tg : list tag) (r : bytes) :
  spec_dec_superblock strict bs = Ok (s, tg, r) ->
  sbs_version s = 0 -> sbs_O s = 8 -> sbs_L s = 8 ->
  err_or (sb_agree s) (dec_superblock_gen false bs).
Proof. intros; eapply superblock_v0_reader_spec; eauto. Qed.

(* version 0, base address: the reader reports 0 whatever the superblock says (the reference library writes a non-zero
   base address only together with a user block, which moves the superblock away from file position 0, where this reader
   looks for it) *)
Definition sb0_base (base : N) : bytes :=
  hdf5_sig ++ [0; 0; 0; 0; 0; 8; 8; 0] ++ le 2 4 ++ le 2 16 ++ le 4 0
    ++ le 8 base ++ le 8 (undef 8) ++ le 8 2048 ++ le 8 (undef 8)
    ++ le 8 0 ++ le 8 96 ++ le 4 1 ++ le 4 0 ++ le 8 136 ++ le 8 680 ++ zeros 32.
Lemma superblock_v0_base_refuted :
  spec_view (sb0_base 512) = Ok (0, 8, 8, 512, 96) /\ reader_view (sb0_base 512) = Ok (0, 8, 8, 0, 96).
Proof. split; vm_compute; reflexivity. Qed.

(* the hypotheses of the two theorems are satisfiable (views: version, size of offsets, size of lengths, base, root) *)
Example superblock_v0_example : spec_view (sb0_base 0) = Ok (0, 8, 8, 0, 96).
Proof. vm_compute. reflexivity. Qed.
Example superblock_v2_example : spec_view (sb2 2 8 8 2048 48) = Ok (2, 8, 8, 0, 48).
Proof. vm_compute. reflexivity. Qed.
