(* C03 end to end, depth 1: the CONTENT invariant for histories whose creations are all linked into the root group.
   FlatInv st nodes: the file is the superblock, the root group item (segment + node agreeing with a name list by gwf of
   Proofs/GroupNSHeap.v), and the items created so far, each an EMPTY group as alloc_group wrote it or a dataset whose header
   the reader accepts; entry i of the root node = (offset of name i, header address of an item); [nodes] = the children
   hdf5.Open must list.  flat_init: CreateForWrite establishes it; preservation is Proofs/TreeImageFlatStep.v. *)
From HV Require Import Base.Prelude Base.Outcome Base.Bytes Model.RobustAlloc Model.RobustGroup Model.GroupWire.
From HV Require Import Model.CodecSuper Model.CodecOhdr Model.CodecMsg Model.CodecType Model.CodecLink Model.IOProgOpen.
From HV Require Import Proofs.CodecOhdr Proofs.CodecLink Proofs.GroupWireHeap Proofs.GroupWireSnod.
From HV Require Import Model.FileImage Model.TreeImage Proofs.FileImage Proofs.FileImageOhdr Proofs.FileImageData.
From HV Require Import Proofs.TreeImageLink Proofs.TreeImageHdr Proofs.TreeImageOpen Proofs.TreeImagePlaced.
From HV Require Model.GroupNS Proofs.GroupNSBase Proofs.GroupNSHeap.
Module GH := HV.Proofs.GroupNSHeap.

Local Open Scope N_scope.

Definition hb0 : list N := enc_ohdr_v2 root_ohdr.
Lemma blen_hb0 : blen hb0 = 27. Proof. reflexivity. Qed.

(* a dataset header the depth-1 reader theorem accepts, with room for the two bytes its header lemma wants behind it *)
Definition dset_hdr_ok (x : ohdr) : Prop :=
  ohdr_ok x /\ chunk_size_v2 (oh_msgs x) <= 253 /\ no_attr (oh_msgs x) = true /\ kind_of (oh_msgs x) = 1 /\
  (length (oh_msgs x) <= 4)%nat.

Inductive ItemChild (a : N) : item -> N -> child -> Prop :=
| IC_group : ItemChild a (new_group_item a) (a + 2120) (CGroup (zeros 256) (new_snode 32))
| IC_dset d x : dset_hdr_ok x -> ItemChild a (IDset d (ohdr_block x)) (a + blen d) (CDset x).
Definition EntryItem (rest : list item) (oa : N) (c : child) : Prop :=
  exists l1 it l2, rest = l1 ++ it :: l2 /\ ItemChild (2195 + lsize l1) it oa c.

Lemma EntryItem_app rest it oa c : EntryItem rest oa c -> EntryItem (rest ++ [it]) oa c.
Proof. intros (l1 & x & l2 & -> & H). exists l1, x, (l2 ++ [it]). split; [now rewrite <- app_assoc | exact H]. Qed.

Lemma blen_ohdr_block x : chunk_size_v2 (oh_msgs x) <= 255 -> blen (ohdr_block x) = 262.
Proof. intros H. unfold ohdr_block. rewrite blen_app, blen_zeros, ohdr_v2_blen. unfold size_ohdr_v2, OHDR_RESERVE. blia. Qed.

Definition root_item (seg : list N) (s : snode) : item := IGroup seg s hb0.
Definition flat_lay (seg : list N) (s : snode) (rest : list item) : list item := root_item seg s :: rest.
Lemma lsize_flat seg s rest : 48 + lsize (flat_lay seg s rest) = 2195 + lsize rest.
Proof. cbn [flat_lay lsize root_item item_size]. rewrite blen_hb0. blia. Qed.

Lemma flat_lay_ok seg s rest :
  blen seg = 256 -> snode_ok s = true -> (length (stn_entries s) <= 32)%nat -> Forall item_ok rest ->
  Forall item_ok (flat_lay seg s rest) /\ blen (image (flat_lay seg s rest)) = 2195 + lsize rest.
Proof.
  intros Hs Hok Hm Hr. assert (H : Forall item_ok (flat_lay seg s rest)) by (constructor; [cbn [root_item item_ok]; auto | exact Hr]).
  split; [exact H|]. rewrite blen_image by exact H. apply lsize_flat.
Qed.

Definition FlatInv (st : tstate) (nodes : list node) : Prop :=
  exists seg s rest cs ns,
    t_file st = image (flat_lay seg s rest) /\
    blen seg = 256 /\ snode_ok s = true /\ (length (stn_entries s) <= 32)%nat /\ Forall item_ok rest /\
    GH.gwf seg (map abs_sym (stn_entries s)) ns /\ map fst cs = ns /\
    Forall2 (fun e nc => sy_cache e = 0 /\ EntryItem rest (sy_obj e) (snd nc)) (stn_entries s) cs /\
    NoDup (1624 :: loop_bts (stn_entries s) cs) /\
    Forall (fun b => b < 2195 + lsize rest) (1624 :: loop_bts (stn_entries s) cs) /\
    nodes = loop_nodes (stn_entries s) cs.

Lemma flat_init : FlatInv t_init [].
Proof.
  exists (zeros 256), (new_snode 32), [], [], []. split; [vm_compute; reflexivity|].
  split; [reflexivity|]. split; [reflexivity|]. split; [cbn; lia|]. split; [constructor|].
  split; [exact (GH.gwf_empty 256)|]. split; [reflexivity|]. split; [constructor|].
  split; [cbn [loop_bts stn_entries new_snode]; constructor; [intros []|constructor]|].
  split; [cbn [loop_bts stn_entries new_snode lsize]; constructor; [reflexivity|constructor]|]. reflexivity.
Qed.

Lemma sym_has_name_abs (seg : list N) nm e : sym_has_name seg nm e = NS.entry_has_name seg nm (abs_sym e).
Proof.
  unfold sym_has_name, NS.entry_has_name, NS.name_of. cbn [abs_sym NS.e_off]. rewrite get_string_agrees.
  destruct (NS.get_string seg (sy_name e)); reflexivity.
Qed.
Lemma existsb_map {A B} (g : A -> B) (p : B -> bool) l : existsb p (map g l) = existsb (fun x => p (g x)) l.
Proof. induction l as [|x r IH]; [reflexivity|]. cbn [map existsb]. now rewrite IH. Qed.

Lemma existsb_abs (seg : list N) nm es :
  existsb (sym_has_name seg nm) es = existsb (NS.entry_has_name seg nm) (map abs_sym es).
Proof. induction es as [|e r IH]; [reflexivity|]. cbn [map existsb]. now rewrite IH, sym_has_name_abs. Qed.

Lemma flat_image_group_file seg s rest : blen seg = 256 ->
  image (flat_lay seg s rest) = group_file sb0 [] (bt_block 336 ++ hb0 ++ layout 2195 rest) seg s.
Proof.
  intros Hs. unfold image, flat_lay, root_item, group_file, heap_file. cbn [layout item_bytes item_size app].
  rewrite Hs, blen_hb0. change (blen sb0) with 48. change (48 + 32) with 80. change (48 + 288) with 336.
  change (48 + (2120 + 27)) with 2195. rewrite <- !app_assoc. reflexivity.
Qed.
