(* C03: the writer state represents the specification tree (Rep), and every admissible API call
   preserves that (step_sim). *)
From HV Require Import Base.Prelude Model.GroupNS Proofs.GroupNSBase Proofs.GroupNSHeap Proofs.GroupNSPath
  Proofs.GroupNSInv Proofs.GroupNSSpec.

(* what fw.groups must contain: exactly the rendered paths that resolve to a group *)
Definition Reg (t : nodes) (p : path) (g : N) : Prop :=
  exists cs, cs <> [] /\ names_ok_l cs /\ p = render cs /\ sresolve t 0 cs = Some g /\ is_group t g.

Record Rep (c : cfg) (w : wstate) (t : stree) : Prop := {
  r_clock : clock w = s_clock t;
  r_inv : Inv1 c w;
  r_group : forall g ch, alookup g (s_nodes t) = Some (SG ch) ->
      exists seg ents, alookup g (heaps w) = Some seg /\ alookup g (snods w) = Some ents /\
        gwf seg ents (map fst ch) /\ map e_obj ents = map snd ch;
  r_kind : forall id nd, alookup id (s_nodes t) = Some nd ->
      exists o, alookup id (objects w) = Some o /\ o_kind o = skind nd;
  r_reg : forall p g, plookup p (groups w) = Some g <-> Reg (s_nodes t) p g;
  r_inj : forall p p' g, plookup p (groups w) = Some g -> plookup p' (groups w) = Some g -> p = p';
  r_pos : forall p g, plookup p (groups w) = Some g -> 0 < g
}.

Lemma rep_init : forall c, Rep c (init c) s_empty.
Proof.
  intro c. constructor.
  - reflexivity.
  - apply invb_init.
  - intros g ch H. cbn [s_empty s_nodes alookup] in H. destruct (0 =? g) eqn:E; [|discriminate].
    apply N.eqb_eq in E. subst g. injection H as <-. rewrite init_heaps, init_snods. cbn [alookup]. rewrite N.eqb_refl.
    do 2 eexists. repeat split. cbn [map]. apply gwf_empty.
  - intros id nd H. cbn [s_empty s_nodes alookup] in H. destruct (0 =? id) eqn:E; [|discriminate].
    apply N.eqb_eq in E. subst id. injection H as <-. unfold init. cbn [objects alookup]. rewrite N.eqb_refl. eexists. split; reflexivity.
  - intros p g. unfold init. cbn [groups plookup]. split; [discriminate|].
    intros (cs & Hne & _ & _ & Hr & _). destruct cs as [|m cs]; [contradiction|]. cbn in Hr. discriminate.
  - intros p p' g H. discriminate.
  - intros p g H. discriminate.
Qed.

Lemma parent_registered_eq : forall w p, parent_registered w p = match parent_group w p with Some _ => true | None => false end.
Proof. intros w p. unfold parent_registered, parent_group. destruct (is_root_parent p); [reflexivity|]. destruct (plookup p (groups w)); reflexivity. Qed.

Lemma resolve_unique : forall c w t a b g, Rep c w t -> SInv t -> names_ok_l a -> names_ok_l b ->
  sresolve (s_nodes t) 0 a = Some g -> sresolve (s_nodes t) 0 b = Some g -> is_group (s_nodes t) g -> a = b.
Proof.
  intros c w t a b g R I Ha Hb Ra Rb G.
  assert (K : forall x, names_ok_l x -> x <> [] -> sresolve (s_nodes t) 0 x = Some g -> plookup (render x) (groups w) = Some g).
  { intros x Hx Hne Rx. apply (r_reg _ _ _ R). exists x. repeat split; assumption. }
  destruct a as [|ma a], b as [|mb b]; [reflexivity | | |].
  - exfalso. cbn in Ra. inversion Ra; subst. pose proof (K _ Hb ltac:(discriminate) Rb) as P. apply (r_pos _ _ _ R) in P. lia.
  - exfalso. cbn in Rb. inversion Rb; subst. pose proof (K _ Ha ltac:(discriminate) Ra) as P. apply (r_pos _ _ _ R) in P. lia.
  - apply render_inj; try assumption. eapply (r_inj _ _ _ R); apply K; (assumption || discriminate).
Qed.

Lemma parent_agree : forall c w t pcs, Rep c w t -> SInv t -> names_ok_l pcs ->
  match sresolve (s_nodes t) 0 pcs with
  | Some g0 => match alookup g0 (s_nodes t) with
               | Some (SG _) => parent_group w (render pcs) = Some g0
               | _ => parent_group w (render pcs) = None
               end
  | None => parent_group w (render pcs) = None
  end.
Proof.
  intros c w t pcs R I Hp. unfold parent_group. rewrite is_root_parent_render by assumption.
  destruct pcs as [|m pcs].
  - cbn [sresolve]. destruct (s_root _ I) as [ch0 L]. rewrite L. reflexivity.
  - assert (X : forall g, plookup (render (m :: pcs)) (groups w) = Some g ->
                 sresolve (s_nodes t) 0 (m :: pcs) = Some g /\ is_group (s_nodes t) g).
    { intros g P. apply (r_reg _ _ _ R) in P. destruct P as (cs & Hne & Hcs & E & Hr & G).
      apply render_inj in E; try assumption. subst cs. split; assumption. }
    destruct (sresolve (s_nodes t) 0 (m :: pcs)) as [g0|] eqn:S.
    + destruct (plookup _ _) as [g|] eqn:P.
      * destruct (X g eq_refl) as [[= ->] [ch1 ->]]. reflexivity.
      * destruct (alookup g0 (s_nodes t)) as [[ch0| |]|] eqn:L; try reflexivity. rewrite <- P.
        apply (r_reg _ _ _ R). exists (m :: pcs). repeat split; try assumption; [discriminate | exists ch0; assumption].
    + destruct (plookup _ _) as [g|] eqn:P; [|reflexivity]. destruct (X g eq_refl) as [A _]. discriminate.
Qed.

Lemma find_clookup : forall seg ch ents nm, map (name_of seg) ents = map Some (map fst ch) -> map e_obj ents = map snd ch ->
  option_map e_obj (find (entry_has_name seg nm) ents) = clookup nm ch.
Proof.
  induction ch as [|[n0 c0] ch IH]; intros ents nm H1 H2; destruct ents as [|e ents]; try discriminate; [reflexivity|].
  cbn [map fst snd] in H1, H2. injection H1 as H1a H1b. injection H2 as H2a H2b.
  cbn [find clookup]. unfold entry_has_name at 1. rewrite H1a. destruct (bytes_eqb n0 nm); [cbn; congruence|]. apply IH; assumption.
Qed.

Lemma resolve_agree : forall c w t qp qn, Rep c w t -> SInv t -> names_ok_l (qp ++ [qn]) ->
  resolve_object_address w (render (qp ++ [qn])) = sresolve (s_nodes t) 0 (qp ++ [qn]).
Proof.
  intros c w t qp qn R I Hq. unfold resolve_object_address.
  assert (Hqp : names_ok_l qp) by (apply Forall_app in Hq; tauto).
  assert (S0 : is_slash_only (render (qp ++ [qn])) = false /\ starts_with_slash (render (qp ++ [qn])) = true).
  { destruct (qp ++ [qn]) as [|m r] eqn:E; [destruct qp; discriminate|]. inversion Hq as [|? ? Hm _]; subst.
    apply name_ok_iff in Hm. split; [apply render_not_slash_only; tauto | apply render_starts]. }
  destruct S0 as [S1 S2]. rewrite S1, S2. cbn [negb]. rewrite parse_path_render by assumption.
  rewrite sresolve_app. pose proof (parent_agree c w t qp R I Hqp) as PA.
  destruct (sresolve (s_nodes t) 0 qp) as [g1|]; [|rewrite PA; reflexivity].
  destruct (alookup g1 (s_nodes t)) as [[ch1| |]|] eqn:L; try (rewrite PA; reflexivity).
  rewrite PA. destruct (r_group _ _ _ R g1 ch1 L) as (seg & ents & Hh & Hs & Hwf & Ho). rewrite Hh, Hs.
  rewrite <- (find_clookup seg ch1 ents qn (names_decode _ _ _ Hwf) Ho).
  destruct (find (entry_has_name seg qn) ents); reflexivity.
Qed.

Lemma link_agree : forall c w t wpre pcs n child g0 ch, Rep c w t -> SInv t ->
  groups wpre = groups w ->
  (forall k, k <> clock w -> alookup k (heaps wpre) = alookup k (heaps w) /\ alookup k (snods wpre) = alookup k (snods w)) ->
  names_ok_l pcs -> name_ok n = true ->
  sresolve (s_nodes t) 0 pcs = Some g0 -> alookup g0 (s_nodes t) = Some (SG ch) ->
  (exists e e', s_link c (s_nodes t) (pcs ++ [n]) child = (None, Err e) /\
                link_to_parent c wpre (render pcs) n child = (wpre, Err e')) \/
  (exists seg' ents',
      s_link c (s_nodes t) (pcs ++ [n]) child = (Some (aset g0 (SG (ch ++ [(n, child)])) (s_nodes t)), Ok) /\
      link_to_parent c wpre (render pcs) n child = (linked wpre g0 seg' ents', Ok) /\
      gwf seg' ents' (map fst (ch ++ [(n, child)])) /\ map e_obj ents' = map snd (ch ++ [(n, child)]) /\
      clookup n ch = None).
Proof.
  intros c w t wpre pcs n child g0 ch R I Hg Hk Hp Hn Sr L.
  pose proof (parent_agree c w t pcs R I Hp) as PA. rewrite Sr, L in PA.
  assert (PG : parent_group wpre (render pcs) = Some g0) by (rewrite (parent_group_groups _ _ _ Hg); assumption).
  destruct (r_group _ _ _ R g0 ch L) as (seg & ents & Hh & Hs & Hwf & Ho).
  assert (Hg0 : g0 <> clock w).
  { assert (g0 < s_clock t) by (apply (s_bound _ I); rewrite L; discriminate). rewrite (r_clock _ _ _ R). lia. }
  destruct (Hk g0 Hg0) as [K1 K2]. rewrite <- K1 in Hh. rewrite <- K2 in Hs.
  destruct (i_wf _ _ _ (r_inv _ _ _ R) g0 seg ents) as (ns0 & _ & Hcap); [congruence | congruence |].
  pose proof (gwf_length _ _ _ Hwf) as HL. rewrite map_length in HL.
  unfold s_link. rewrite unsnoc_snoc, Sr, L. rewrite names_size_enc.
  destruct (ltp_spec c wpre (render pcs) n child g0 seg ents (map fst ch) PG Hh Hs Hwf (name_ok_hname _ Hn))
    as [(A & E)|[(A & B & E)|[(A & B & C & E)|(A & B & C & seg' & E & Hwf' & Hl)]]].
  - left. destruct (clookup n ch) eqn:X; [eauto|]. apply clookup_None in X. contradiction.
  - left. assert (X : clookup n ch = None) by (apply clookup_None; assumption). rewrite X.
    assert (Y : new_heap_size (heap_cap c) <? blen (enc (map fst ch)) + blen n + 1 = true) by (apply N.ltb_lt; nlia).
    rewrite Y. eauto.
  - left. assert (X : clookup n ch = None) by (apply clookup_None; assumption). rewrite X.
    destruct (new_heap_size (heap_cap c) <? blen (enc (map fst ch)) + blen n + 1); [eauto|].
    assert (Y : snod_cap c <=? blen ch = true) by (apply N.leb_le; unfold blen in *; nlia). rewrite Y. eauto.
  - right. assert (X : clookup n ch = None) by (apply clookup_None; assumption). rewrite X.
    assert (Y : new_heap_size (heap_cap c) <? blen (enc (map fst ch)) + blen n + 1 = false) by (apply N.ltb_ge; nlia).
    assert (Z : snod_cap c <=? blen ch = false) by (apply N.leb_gt; unfold blen in *; nlia). rewrite Y, Z.
    cbv zeta in E. do 2 eexists. split; [reflexivity|]. split; [exact E|]. rewrite !map_app. cbn [map fst snd].
    split; [assumption|]. split; [|reflexivity]. rewrite Ho. reflexivity.
Qed.

Lemma rep_frame : forall c w t w', Rep c w t -> SInv t -> Inv1 c w' -> clock w' = clock w + 1 ->
  same_ns (clock w) w w' -> Rep c w' (s_tick t (s_nodes t)).
Proof.
  intros c w t w' R I I' Hc [Hg Hk]. constructor; cbn [s_tick s_nodes s_clock].
  - rewrite Hc, (r_clock _ _ _ R). reflexivity.
  - assumption.
  - intros g ch L. destruct (r_group _ _ _ R g ch L) as (seg & ents & Hh & Hs & X).
    assert (g < clock w) by (rewrite (r_clock _ _ _ R); apply (s_bound _ I); rewrite L; discriminate).
    destruct (Hk g H) as (K1 & K2 & _). exists seg, ents. rewrite K1, K2. tauto.
  - intros id nd L. destruct (r_kind _ _ _ R id nd L) as (o & Ho & Hkd).
    assert (id < clock w) by (rewrite (r_clock _ _ _ R); apply (s_bound _ I); rewrite L; discriminate).
    destruct (Hk id H) as (_ & _ & K3). rewrite Ho in K3. cbn [option_map] in K3.
    destruct (alookup id (objects w')) as [o'|]; [|discriminate]. exists o'. cbn in K3. split; congruence.
  - intros p g. rewrite Hg. apply (r_reg _ _ _ R).
  - intros p p' g. rewrite Hg. apply (r_inj _ _ _ R).
  - intros p g. rewrite Hg. apply (r_pos _ _ _ R).
Qed.

Lemma step_err_rep : forall c w t o w' e, Rep c w t -> SInv t -> name_cond c (op_link_name c o) ->
  step c w o = (w', Err e) -> Rep c w' (s_tick t (s_nodes t)).
Proof.
  intros c w t o w' e R I Hn H. pose proof (step_inv c w o (r_inv _ _ _ R) Hn) as I'. rewrite H in I'. cbn [fst] in I'.
  unfold step in H. destruct (step_body c w o) as [wb r] eqn:B. inversion H; subst.
  pose proof (step_body_clock c w o) as C. rewrite B in C. cbn [fst] in C.
  apply step_err_same_ns in B. eapply rep_frame; try eassumption.
  cbn [clock tick]. lia.
Qed.

Lemma reg_mono : forall t t' g ch n child fresh p x, UpdOk t t' g ch n child fresh -> alookup 0 t <> None ->
  Reg t p x -> Reg t' p x.
Proof.
  intros t t' g ch n child fresh p x HU H0 (cs & Hne & Hcs & E & Hr & G).
  exists cs. repeat split; try assumption.
  - eapply sresolve_mono; eassumption.
  - eapply upd_group_old; eassumption.
Qed.

Lemma reg_new : forall t t' g ch n child fresh p x, UpdOk t t' g ch n child fresh -> alookup 0 t <> None ->
  (forall chc, alookup child t' = Some (SG chc) -> chc = []) ->
  Reg t' p x ->
  Reg t p x \/ (x = child /\ is_group t' child /\ exists pre, names_ok_l (pre ++ [n]) /\ p = render (pre ++ [n]) /\ sresolve t 0 pre = Some g).
Proof.
  intros t t' g ch n child fresh p x HU H0 Hleaf (cs & Hne & Hcs & E & Hr & G).
  pose proof HU as [U Hg Hn Hfresh Hclosed].
  destruct (sresolve_new _ _ _ _ _ _ _ HU cs 0 x H0 Hr) as [Old|(pre & post & E1 & E2 & E3)].
  - left. exists cs. repeat split; try assumption.
    assert (Hx : alookup x t <> None) by (eapply sresolve_in; eassumption).
    destruct G as [chx Lx]. destruct (N.eq_dec x g) as [->|Hne2]; [eexists; eassumption|].
    rewrite (upd_old _ _ _ _ _ _ _ HU x Hx Hne2) in Lx. eexists; eassumption.
  - right. destruct (sresolve_leaf _ _ post x Hleaf E3) as [-> ->].
    split; [reflexivity|]. split; [assumption|]. exists pre. subst cs. repeat split; assumption.
Qed.

Lemma rep_link_ok : forall c w t w' nodes' pcs n g0 ch child fresh seg' ents',
  Rep c w t -> SInv t ->
  names_ok_l (pcs ++ [n]) ->
  sresolve (s_nodes t) 0 pcs = Some g0 -> alookup g0 (s_nodes t) = Some (SG ch) -> clookup n ch = None ->
  upd (s_nodes t) nodes' g0 ch n child fresh ->
  spec_insert t child fresh ->
  clock w' = clock w + 1 -> Inv1 c w' ->
  alookup g0 (heaps w') = Some seg' -> alookup g0 (snods w') = Some ents' ->
  gwf seg' ents' (map fst (ch ++ [(n, child)])) -> map e_obj ents' = map snd (ch ++ [(n, child)]) ->
  (forall k, k <> g0 -> k < clock w -> alookup k (heaps w') = alookup k (heaps w) /\ alookup k (snods w') = alookup k (snods w)) ->
  (forall k o, alookup k (objects w) = Some o -> exists o', alookup k (objects w') = Some o' /\ o_kind o' = o_kind o) ->
  match fresh with
  | Some (id, nd) =>
      (exists o, alookup id (objects w') = Some o /\ o_kind o = skind nd) /\
      match nd with
      | SG _ => groups w' = pset (render (pcs ++ [n])) id (groups w) /\
                alookup id (heaps w') = Some (zeros (new_heap_size (heap_cap c))) /\ alookup id (snods w') = Some []
      | _ => groups w' = groups w
      end
  | None => groups w' = groups w
  end ->
  Rep c w' (s_tick t nodes').
Proof.
  intros c w t w' nodes' pcs n g0 ch child fresh seg' ents' R I Hcs Sr L Hn U Hf Hc I' Hh' Hs' Hwf' Ho' Hk Hobj Hgr.
  pose proof (sinv_updok _ _ _ _ _ _ _ I U L Hn Hf) as HU.
  assert (H0 : alookup 0 (s_nodes t) <> None) by (destruct (s_root _ I) as [c0 X]; rewrite X; discriminate).
  assert (Hg0 : g0 < clock w) by (rewrite (r_clock _ _ _ R); apply (s_bound _ I); rewrite L; discriminate).
  assert (Hpcs : names_ok_l pcs) by (apply Forall_app in Hcs; tauto).
  pose proof (fun chc => sinv_new_child _ _ _ _ _ _ _ chc I U L Hf) as Hchild.
  assert (Hleaf : forall chc, alookup child nodes' = Some (SG chc) -> chc = []) by (intros chc X; apply (Hchild chc X)).
  assert (Hval : forall p g, plookup p (groups w) = Some g -> g < clock w).
  { intros p g P. destruct (i_reg _ _ _ (r_inv _ _ _ R) p g P) as [[s Hs0] _].
    destruct (N.lt_ge_cases g (clock w)) as [X|X]; [assumption|]. rewrite (i_fresh_h _ _ _ (r_inv _ _ _ R) g X) in Hs0. discriminate. }
  constructor; cbn [s_tick s_nodes s_clock].
  - rewrite Hc, (r_clock _ _ _ R). reflexivity.
  - assumption.
  - intros k chk X. destruct (upd_inv _ _ _ _ _ _ _ _ _ U X) as [[-> [= ->]]|[[_ ->]|[Hne X']]].
    + exists seg', ents'. tauto.
    + destruct Hf as (_ & _ & C). cbn in C. subst chk. destruct Hgr as (_ & _ & A & B).
      exists (zeros (new_heap_size (heap_cap c))), []. repeat split; try assumption. apply gwf_empty.
    + destruct (r_group _ _ _ R k chk X') as (seg & ents & A & B & C).
      assert (k < clock w) by (rewrite (r_clock _ _ _ R); apply (s_bound _ I); rewrite X'; discriminate).
      destruct (Hk k Hne H) as [K1 K2]. exists seg, ents. rewrite K1, K2. tauto.
  - intros k nd X. destruct (upd_inv _ _ _ _ _ _ _ _ _ U X) as [[-> ->]|[[_ ->]|[_ X']]]; [| apply Hgr |].
    + destruct (r_kind _ _ _ R g0 _ L) as (o & A & B). destruct (Hobj g0 o A) as (o' & A' & B').
      exists o'. split; [assumption | cbn [skind] in *; congruence].
    + destruct (r_kind _ _ _ R k nd X') as (o & A & B). destruct (Hobj k o A) as (o' & A' & B').
      exists o'. split; [assumption | congruence].
  - (* fw.groups against the new tree *)
    intros p x.
    assert (NewEdge : Reg nodes' (render (pcs ++ [n])) child \/ ~ is_group nodes' child).
    { destruct (alookup child nodes') as [[chc| |]|] eqn:X; try (right; intros [c0 Y]; congruence).
      left. exists (pcs ++ [n]). repeat split; try assumption.
      - destruct pcs; discriminate.
      - eapply sresolve_edge; eassumption.
      - eexists; eassumption. }
    assert (Uniq : forall pre, names_ok_l (pre ++ [n]) -> sresolve (s_nodes t) 0 pre = Some g0 -> pre = pcs).
    { intros pre Hpre Spre. apply Forall_app in Hpre. eapply resolve_unique; try eassumption; try tauto. eexists; eassumption. }
    assert (NoOld : ~ Reg (s_nodes t) (render (pcs ++ [n])) x).
    { intros (cs & Hne & Hok & E & Hr & G). apply render_inj in E; try assumption. subst cs.
      rewrite sresolve_app, Sr, L, Hn in Hr. discriminate. }
    assert (Generic : groups w' = groups w -> ~ is_group nodes' child ->
                      (plookup p (groups w') = Some x <-> Reg nodes' p x)).
    { intros Hg Hng. rewrite Hg. split.
      - intro P. apply (r_reg _ _ _ R) in P. eapply reg_mono; eassumption.
      - intro P. destruct (reg_new _ _ _ _ _ _ _ _ _ HU H0 Hleaf P) as [Old|(_ & G & _)]; [apply (r_reg _ _ _ R); assumption | contradiction]. }
    destruct fresh as [[id nd]|].
    + destruct Hf as (A & B & C). subst id. destruct Hgr as (_ & Hgr).
      destruct nd as [chn| |]; try (apply Generic; [assumption | intros [c0 Y]; destruct (Hchild c0 Y) as (_ & [=])]).
      destruct Hgr as (Hg & _ & _). rewrite Hg.
      destruct (list_eq_dec N.eq_dec (render (pcs ++ [n])) p) as [<-|Hp].
      * rewrite plookup_pset_eq. split.
        -- intro X. inversion X; subst. destruct NewEdge as [Y|Y]; [assumption|]. exfalso. apply Y.
           match goal with |- is_group _ ?z =>
             destruct (g0 =? z) eqn:E; [exists (ch ++ [(n, z)]) | exists chn]; rewrite U, E, ?N.eqb_refl; reflexivity end.
        -- intro P. destruct (reg_new _ _ _ _ _ _ _ _ _ HU H0 Hleaf P) as [Old|(-> & _)]; [contradiction | reflexivity].
      * rewrite plookup_pset_neq by assumption. split.
        -- intro P. apply (r_reg _ _ _ R) in P. eapply reg_mono; eassumption.
        -- intro P. destruct (reg_new _ _ _ _ _ _ _ _ _ HU H0 Hleaf P) as [Old|(_ & _ & pre & Hpre & E & Spre)];
             [apply (r_reg _ _ _ R); assumption|]. exfalso. apply Hp. rewrite E. f_equal. f_equal. symmetry. apply Uniq; assumption.
    + apply Generic; [assumption|]. intros [c0 Y]. destruct (Hchild c0 Y) as (_ & [=]).
  - intros p p' x. destruct fresh as [[id [chn| |]]|]; try (destruct Hgr as (_ & Hg) || rename Hgr into Hg; rewrite Hg; apply (r_inj _ _ _ R)).
    destruct Hgr as (_ & Hg & _ & _). rewrite Hg. destruct Hf as (A & B & _).
    destruct (list_eq_dec N.eq_dec (render (pcs ++ [n])) p) as [<-|Hp], (list_eq_dec N.eq_dec (render (pcs ++ [n])) p') as [<-|Hp'];
      rewrite ?plookup_pset_eq, ?plookup_pset_neq by assumption; try reflexivity.
    + intros X Y. inversion X; subst. apply Hval in Y. rewrite (r_clock _ _ _ R) in Y. lia.
    + intros X Y. inversion Y; subst. apply Hval in X. rewrite (r_clock _ _ _ R) in X. lia.
    + apply (r_inj _ _ _ R).
  - intros p x. destruct fresh as [[id [chn| |]]|]; try (destruct Hgr as (_ & Hg) || rename Hgr into Hg; rewrite Hg; apply (r_pos _ _ _ R)).
    destruct Hgr as (_ & Hg & _ & _). rewrite Hg. destruct Hf as (A & B & _).
    destruct (list_eq_dec N.eq_dec (render (pcs ++ [n])) p) as [<-|Hp]; rewrite ?plookup_pset_eq, ?plookup_pset_neq by assumption.
    + intro X. inversion X; subst. pose proof (s_pos _ I). lia.
    + apply (r_pos _ _ _ R).
Qed.
