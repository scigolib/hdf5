(* C03 end to end, the writer's side over whole steps: the layout invariant [Placed].
   The file of Model/TreeImage.v is, at every moment, the superblock followed by the ITEMS created so far, each at the address
   the bump allocator gave it: a group = local heap (header + 256-byte segment) | symbol table node | B-tree node | header block;
   a dataset = data | header block.  [Placed st] says so (with the heap segment and node of every group well-formed) and that
   fw.groups (and the root) name heap/node addresses of group items.  alloc_group / alloc_dataset append an item and leave every
   earlier item where it was; linkToParent rewrites the segment and node of ONE group item in place (Proofs/TreeImageLink.v). *)
From HV Require Import Base.Prelude Base.Outcome Base.Bytes Model.RobustAlloc Model.RobustGroup Model.GroupWire.
From HV Require Import Model.CodecSuper Model.CodecOhdr Model.CodecLink Proofs.CodecOhdr Proofs.CodecLink.
From HV Require Import Proofs.GroupWireHeap Proofs.GroupWireSnod Proofs.GroupWireBTree.
From HV Require Import Model.FileImage Model.TreeImage Proofs.FileImage Proofs.TreeImageLink Proofs.TreeImageHdr.
From HV Require Model.GroupNS.

Local Open Scope N_scope.

Inductive item :=
| IGroup (seg : list N) (s : snode) (hb : list N)     (* hb: the block that holds the object header *)
| IDset (data : list N) (hb : list N).

Definition item_size (it : item) : N :=
  match it with IGroup _ _ hb => 2120 + blen hb | IDset d hb => blen d + blen hb end.
Definition item_bytes (a : N) (it : item) : list N :=
  match it with
  | IGroup seg s hb => heap_header 256 1 (a + 32) ++ seg ++ snod_bytes s 32 ++ bt_block (a + 288) ++ hb
  | IDset d hb => d ++ hb
  end.
Definition item_ok (it : item) : Prop :=
  match it with
  | IGroup seg s hb => blen seg = 256 /\ snode_ok s = true /\ (length (stn_entries s) <= 32)%nat
  | IDset d hb => True
  end.
Definition is_group (it : item) : bool := match it with IGroup _ _ _ => true | _ => false end.

Fixpoint lsize (l : list item) : N := match l with [] => 0 | it :: r => item_size it + lsize r end.
Fixpoint layout (a : N) (l : list item) : list N :=
  match l with [] => [] | it :: r => item_bytes a it ++ layout (a + item_size it) r end.
Definition sb0 : list N := enc_superblock (sb_eof 0).
Definition image (l : list item) : list N := sb0 ++ layout 48 l.

Definition LIM : N := 4611686018427387904.

Lemma blen_bt_block sa : blen (bt_block sa) = 544.
Proof.
  rewrite bt_block_node, (bt_write_at_size _ [(0, sa)] 16); [reflexivity | split; reflexivity | cbn [length]; lia].
Qed.

Lemma blen_item_bytes a it : item_ok it -> blen (item_bytes a it) = item_size it.
Proof.
  intros H. destruct it as [seg s hb | d hb]; cbn [item_bytes item_size].
  - destruct H as (Hs & _). rewrite !blen_app, blen_heap_header, Hs, snod_bytes_size, blen_bt_block. blia.
  - now rewrite blen_app.
Qed.
Lemma lsize_app l1 l2 : lsize (l1 ++ l2) = lsize l1 + lsize l2.
Proof. induction l1 as [|x r IH]; cbn [app lsize]; [reflexivity | rewrite IH; blia]. Qed.
Lemma layout_app l1 : forall a l2, layout a (l1 ++ l2) = layout a l1 ++ layout (a + lsize l1) l2.
Proof.
  induction l1 as [|x r IH]; intros a l2; cbn [app layout lsize]; [now rewrite N.add_0_r|].
  rewrite IH, <- app_assoc. do 3 f_equal. blia.
Qed.
Lemma blen_layout l : forall a, Forall item_ok l -> blen (layout a l) = lsize l.
Proof.
  induction l as [|x r IH]; intros a H; [reflexivity|]. apply Forall_cons_iff in H as [Hx Hr]. cbn [layout lsize] in *.
  rewrite blen_app, blen_item_bytes, IH; auto.
Qed.
Lemma blen_sb0 : blen sb0 = 48. Proof. reflexivity. Qed.
Lemma blen_image l : Forall item_ok l -> blen (image l) = 48 + lsize l.
Proof. intros H. unfold image. rewrite blen_app, blen_sb0, blen_layout; auto. Qed.

Definition GroupIn (lay : list item) (ha : N) : Prop :=
  exists l1 seg s hb l2, lay = l1 ++ IGroup seg s hb :: l2 /\ ha = 48 + lsize l1.

(* same sizes, groups stay groups: addresses are the same *)
Definition same_shape (l l' : list item) : Prop :=
  Forall2 (fun x y => item_size x = item_size y /\ (is_group x = true -> is_group y = true)) l l'.
Lemma same_shape_refl l : same_shape l l.
Proof. induction l; constructor; auto. Qed.
Lemma same_shape_lsize l l' : same_shape l l' -> lsize l = lsize l'.
Proof. induction 1 as [|x y r r' [H _] _ IH]; [reflexivity|]. cbn [lsize]. now rewrite H, IH. Qed.
Lemma same_shape_group l l' ha : same_shape l l' -> GroupIn l ha -> GroupIn l' ha.
Proof.
  intros HS (l1 & seg & s & hb & l2 & -> & ->).
  apply Forall2_app_inv_l in HS as (m1 & m2 & H1 & H2 & ->).
  inversion H2 as [|x y r r' [Hsz Hg] H3]; subst.
  destruct y as [seg' s' hb' | d' hb']; [|specialize (Hg eq_refl); discriminate].
  exists m1, seg', s', hb', r'. split; [reflexivity|]. now rewrite (same_shape_lsize _ _ H1).
Qed.
Lemma same_shape_upd l1 l2 x y : item_size x = item_size y -> (is_group x = true -> is_group y = true) ->
  same_shape (l1 ++ x :: l2) (l1 ++ y :: l2).
Proof. intros H1 H2. apply Forall2_app; [apply same_shape_refl|]. constructor; [split; assumption | apply same_shape_refl]. Qed.

Lemma GroupIn_app lay it ha : GroupIn lay ha -> GroupIn (lay ++ [it]) ha.
Proof. intros (l1 & seg & s & hb & l2 & -> & ->). exists l1, seg, s, hb, (l2 ++ [it]). split; [now rewrite <- app_assoc | reflexivity]. Qed.

Definition Placed (st : tstate) : Prop :=
  exists lay, t_file st = image lay /\ Forall item_ok lay /\ GroupIn lay 48 /\
    (forall p ha sa, NS.plookup p (t_groups st) = Some (ha, sa) -> sa = ha + 288 /\ GroupIn lay ha).

Lemma placed_init : Placed t_init.
Proof.
  exists [IGroup (zeros 256) (new_snode 32) (enc_ohdr_v2 root_ohdr)]. split; [vm_compute; reflexivity|]. split.
  - constructor; [|constructor]. cbn [item_ok]. repeat split; try reflexivity; cbn; lia.
  - split; [exists [], (zeros 256), (new_snode 32), (enc_ohdr_v2 root_ohdr), []; split; reflexivity|].
    intros p ha sa H. discriminate.
Qed.

Lemma item_placed l1 it l2 : Forall item_ok l1 ->
  placed (image (l1 ++ it :: l2)) (48 + lsize l1) (item_bytes (48 + lsize l1) it).
Proof.
  intros H. unfold image. rewrite layout_app. cbn [layout].
  exists (sb0 ++ layout 48 l1), (layout (48 + lsize l1 + item_size it) l2). split; [now rewrite <- !app_assoc|].
  rewrite blen_app, blen_sb0, blen_layout; auto.
Qed.

Lemma new_snod_block_eq : new_snod_block = snod_bytes (new_snode 32) 32.
Proof. vm_compute. reflexivity. Qed.
Lemma size_group_ohdr bt hp : size_ohdr_v2 (group_ohdr bt hp) = 27.
Proof. unfold size_ohdr_v2, group_ohdr. cbn [oh_msgs chunk_size_v2 fold_right hm_data]. rewrite symtab_blen. reflexivity. Qed.

Definition new_group_item (ha : N) : item :=
  IGroup (zeros 256) (new_snode 32) (ohdr_block (group_ohdr (ha + 1576) ha)).

Lemma alloc_group_image lay : Forall item_ok lay -> 48 + lsize lay + 3000 < LIM ->
  let ha := 48 + lsize lay in
  alloc_group (image lay) = (image (lay ++ [new_group_item ha]), ha, ha + 288, ha + 1576, ha + 2120).
Proof.
  intros H Hb ha. unfold alloc_group. rewrite blen_image by auto. fold ha.
  change HEAP_SIZE with 288. change SNOD_SIZE with 1288. change BT_SIZE with 544.
  replace (ha + 288 + 1288) with (ha + 1576) by blia. replace (ha + 1576 + 544) with (ha + 2120) by blia.
  f_equal. f_equal. f_equal. f_equal.
  unfold image. rewrite layout_app. cbn [layout new_group_item item_bytes]. rewrite app_nil_r, <- !app_assoc. fold ha.
  do 2 f_equal. rewrite heap_image_eq. cbn [new_local_heap hw_dss hw_free hw_strings].
  unfold LIM in Hb. rewrite (wrap64_small (ha + 32)) by blia.
  rewrite new_snod_block_eq, <- !app_assoc. reflexivity.
Qed.

Lemma new_group_item_ok ha : item_ok (new_group_item ha).
Proof. cbn [new_group_item item_ok]. repeat split; try reflexivity; cbn; lia. Qed.
Lemma new_group_item_size ha : item_size (new_group_item ha) = 2382.
Proof.
  cbn [new_group_item item_size]. unfold ohdr_block. rewrite blen_app, blen_zeros, ohdr_v2_blen, size_group_ohdr. reflexivity.
Qed.

Definition new_dset_item (code : N) (dims : list N) (data : list N) (da : N) : item :=
  let '(class, size, cbf) := dtype_of_code code in IDset data (ohdr_block (dset_ohdr_at class size cbf dims da)).

Lemma alloc_dataset_image lay code dims data : Forall item_ok lay ->
  let da := 48 + lsize lay in
  alloc_dataset (image lay) code dims data = (image (lay ++ [new_dset_item code dims data da]), da + blen data).
Proof.
  intros H da. unfold alloc_dataset, new_dset_item. destruct (dtype_of_code code) as [[class size] cbf].
  rewrite blen_image by auto. fold da. f_equal.
  unfold image. rewrite layout_app. cbn [layout item_bytes]. rewrite app_nil_r, <- !app_assoc. reflexivity.
Qed.

Theorem append_keeps_placed lay it a b : placed (image lay) a b -> placed (image (lay ++ [it])) a b.
Proof.
  intros H. unfold image. rewrite layout_app. cbn [layout]. rewrite app_nil_r, app_assoc. now apply placed_app_l.
Qed.

Lemma add_entry_room es e n1 : NS.add_entry (NS.parse_snod 32 (map abs_sym es)) e = Some n1 -> (length es < 32)%nat.
Proof.
  unfold NS.add_entry, NS.parse_snod. cbn [NS.sn_cap NS.sn_entries]. unfold NS.blen. rewrite map_length.
  destruct (N.max 32 (N.of_nat (length es)) <=? N.of_nat (length es)) eqn:E; [discriminate|]. intros _.
  apply N.leb_gt in E. lia.
Qed.

Lemma image_group_file l1 seg s hb l2 : Forall item_ok l1 -> blen seg = 256 ->
  image (l1 ++ IGroup seg s hb :: l2) =
  group_file (sb0 ++ layout 48 l1) [] (bt_block (48 + lsize l1 + 288) ++ hb ++ layout (48 + lsize l1 + (2120 + blen hb)) l2) seg s.
Proof.
  intros H1 Hs. unfold image, group_file, heap_file. rewrite layout_app. cbn [layout item_bytes item_size app].
  rewrite Hs, blen_app, blen_sb0, blen_layout, <- !app_assoc by exact H1. reflexivity.
Qed.

(* link_both_commutes on the image: the rewrites fail as the abstract add_string / add_entry do, and otherwise replace the
   segment and the node of that one item *)
Lemma link_both_image l1 seg s hb l2 nm child :
  Forall item_ok l1 -> item_ok (IGroup seg s hb) -> child < 18446744073709551616 -> 48 + lsize l1 + 2120 < LIM ->
  let f := image (l1 ++ IGroup seg s hb :: l2) in
  let ha := 48 + lsize l1 in
  match NS.add_string (NS.prepare_for_modification seg) nm with
  | None => link_both f ha (ha + 288) nm child = Err
  | Some (off, h1) =>
      match NS.add_entry (NS.parse_snod 32 (map abs_sym (stn_entries s))) {| NS.e_off := off; NS.e_obj := child |} with
      | None => link_both f ha (ha + 288) nm child = Err
      | Some _ =>
          exists s1, item_ok (IGroup (snd (NS.write_to h1)) s1 hb) /\ stn_entries s1 = stn_entries s ++ [new_sym off child] /\
            link_both f ha (ha + 288) nm child = Ok (image (l1 ++ IGroup (snd (NS.write_to h1)) s1 hb :: l2))
      end
  end.
Proof.
  intros H1 (Hs & Hok & Hm) Hc Hb f ha. unfold LIM in Hb. subst f. rewrite (image_group_file l1 seg s hb l2 H1 Hs).
  set (pre := sb0 ++ layout 48 l1). set (suf := bt_block _ ++ _).
  assert (Lpre : blen pre = ha) by (subst pre ha; rewrite blen_app, blen_sb0, blen_layout; auto).
  pose proof (link_both_commutes pre [] suf seg s nm child Hok Hm Hc) as C.
  rewrite Lpre, Hs in C. change (blen []) with 0 in C. replace (ha + 32 + 256 + 0) with (ha + 288) in C by blia.
  specialize (C ltac:(rewrite MaxInt64_val; blia)). cbv zeta in C.
  destruct (NS.add_string (NS.prepare_for_modification seg) nm) as [[off h1]|]; [|exact C].
  destruct C as [Hlen C].
  destruct (NS.add_entry (NS.parse_snod 32 (map abs_sym (stn_entries s))) {| NS.e_off := off; NS.e_obj := child |}) as [n1|] eqn:EA;
    [|exact (proj1 C)].
  destruct C as (s1 & Hok1 & He & _ & C). exists s1. split; [|split; [exact He|]].
  - split; [exact Hlen|]. split; [exact Hok1|]. rewrite He, app_length. cbn [length]. pose proof (add_entry_room _ _ _ EA). lia.
  - rewrite C. f_equal. symmetry. now apply image_group_file.
Qed.

Lemma link_image l1 seg s hb l2 nm child f2 :
  Forall item_ok (l1 ++ IGroup seg s hb :: l2) -> 48 + lsize (l1 ++ IGroup seg s hb :: l2) < LIM -> child < 18446744073709551616 ->
  link_both (image (l1 ++ IGroup seg s hb :: l2)) (48 + lsize l1) (48 + lsize l1 + 288) nm child = Ok f2 ->
  exists seg' s1, item_ok (IGroup seg' s1 hb) /\ f2 = image (l1 ++ IGroup seg' s1 hb :: l2).
Proof.
  intros HF Hb Hc HL. apply Forall_app in HF as [HF1 HF2]. apply Forall_cons_iff in HF2 as [Hit _].
  rewrite lsize_app in Hb. cbn [lsize item_size] in Hb.
  pose proof (link_both_image l1 seg s hb l2 nm child HF1 Hit Hc ltac:(blia)) as C. cbv zeta in C. rewrite HL in C.
  destruct (NS.add_string _ nm) as [[off h1]|]; [|discriminate].
  destruct (NS.add_entry _ _); [|discriminate].
  destruct C as (s1 & Hit1 & _ & E). exists (snd (NS.write_to h1)), s1. split; [exact Hit1 | now inversion E].
Qed.

Lemma prepare_link_inv st parent nm child ha sa : prepare_link st parent nm child = Ok (ha, sa) ->
  NS.heap_name_ok nm = true /\ parent_addrs st parent = Some (ha, sa) /\
  exists data s0, load_local_heap (t_file st) ha 8 8 = Ok data /\ parse_snod (t_file st) sa 8 = Ok s0 /\
                  existsb (sym_has_name data nm) (stn_entries s0) = false.
Proof.
  unfold prepare_link. destruct (NS.heap_name_ok nm); [|discriminate]. cbn [negb].
  destruct (parent_addrs st parent) as [[a b]|]; [|discriminate].
  destruct (load_local_heap (t_file st) a 8 8) as [data| |] eqn:E1; cbn [obind]; try discriminate.
  destruct (parse_snod (t_file st) b 8) as [s| |] eqn:E2; cbn [obind]; try discriminate.
  destruct (existsb (sym_has_name data nm) (stn_entries s)) eqn:E; [discriminate|].
  destruct (add_string (prepare_for_modification data) nm) as [[off h]| |]; cbn [obind]; try discriminate.
  destruct (add_entry s (new_sym off child)) as [s'| |]; cbn [obind]; try discriminate.
  intros H. inversion H; subst. split; [reflexivity|]. split; [reflexivity|]. exists data, s. auto.
Qed.

(* CreateGroup and CreateDataset end alike: checkLinkable, then the item [f1] is appended, then linkToParent at its header [oa] *)
Definition create_linked (st : tstate) (parent nm f1 : bytes) (oa : N) (groups' : list (bytes * (N * N))) : tstate * bool :=
  match prepare_link st parent nm 0 with
  | Ok _ => match link_to_parent (with_file st f1) parent nm oa with
            | Ok f2 => ({| t_file := f2; t_groups := groups' |}, true)
            | _ => (with_file st f1, false)
            end
  | _ => (st, false)
  end.

Lemma create_group_linked st p lay : t_file st = image lay -> Forall item_ok lay -> 48 + lsize lay + 3000 < LIM ->
  t_create_group st p =
  if negb (NS.validate_group_path p) then (st, false) else
  let pn := NS.parse_path (NS.trim_suffix_slash p) in
  if negb (parent_registered st (fst pn)) then (st, false) else
  let ha := 48 + lsize lay in
  create_linked st (fst pn) (snd pn) (image (lay ++ [new_group_item ha])) (ha + 2120)
    (NS.pset (NS.trim_suffix_slash p) (ha, ha + 288) (t_groups st)).
Proof.
  intros Hf Hok Hb. unfold t_create_group, create_linked. rewrite Hf, (alloc_group_image lay Hok Hb).
  destruct (NS.parse_path (NS.trim_suffix_slash p)). reflexivity.
Qed.

Lemma create_dataset_linked st p code dims data lay : t_file st = image lay -> Forall item_ok lay ->
  t_create_dataset st p code dims data =
  if negb (NS.validate_dataset_name p) then (st, false) else
  let pn := NS.parse_path p in
  let da := 48 + lsize lay in
  create_linked st (fst pn) (snd pn) (image (lay ++ [new_dset_item code dims data da])) (da + blen data) (t_groups st).
Proof.
  intros Hf Hok. unfold t_create_dataset, create_linked. rewrite Hf, (alloc_dataset_image lay code dims data Hok).
  destruct (NS.parse_path p). reflexivity.
Qed.

Lemma plookup_pset {A} p q (v : A) l : NS.plookup q (NS.pset p v l) = if bytes_eqb p q then Some v else NS.plookup q l.
Proof.
  induction l as [|[p' v'] r IH]; cbn [NS.pset NS.plookup]; [reflexivity|].
  destruct (bytes_eqb p' p) eqn:E; cbn [NS.plookup].
  - apply bytes_eqb_eq in E. subst p'. destruct (bytes_eqb p q); reflexivity.
  - rewrite IH. destruct (bytes_eqb p' q) eqn:E2; [|reflexivity].
    apply bytes_eqb_eq in E2. subst p'. destruct (bytes_eqb p q) eqn:E3; [|reflexivity].
    apply bytes_eqb_eq in E3. subst q. now rewrite bytes_eqb_refl in E.
Qed.
