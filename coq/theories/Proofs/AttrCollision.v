(* Refutation of the full statement of C02 for names whose hashes collide: in dense storage every
   look-up is by hash alone (SearchRecord / UpdateRecord / DeleteRecord), so a write to one name replaces
   the attribute stored under the other, and a delete of an absent name removes the other one. *)
From HV Require Import Base.Prelude Model.Attr Model.AttrTie Spec.Lookup3 Proofs.AttrBase.

(* a string value of 230 characters: too big for the 255-byte header next to the 58 bytes of the dataset's own
   messages, so the first write already goes to dense storage *)
Definition big_value : value := mkValue 3 231 0 [1] (repeat 66 230 ++ [0]).
Definition small_value : value := mkValue 0 1 8 [1] [1].

(* the hash is lookup3 (what the Go code uses); the colliding pair was found by the C14 search *)
Definition coll_a : bytes := ascii_bytes "ayou".
Definition coll_b : bytes := ascii_bytes "cpxv".

Lemma lookup3_collision : coll_a <> coll_b /\ lk3 coll_a = lk3 coll_b.
Proof. split; [discriminate | vm_compute; reflexivity]. Qed.

Definition hist_overwrite (a b : bytes) : list op := [OWrite a (Some big_value); OWrite b (Some small_value)].
Definition hist_delete (a b : bytes) : list op := [OWrite a (Some big_value); ODelete b].

(* write to [b] destroys [a]: both calls succeed, the map has two bindings, the file lists one attribute *)
Lemma lookup3_overwrite_wrong :
  let h := hist_overwrite coll_a coll_b in
  let '(st, rs) := run lk3 (go_params 58) init h in
  rs = [ROk; ROk] /\
  sp_get (run_spec [] h rs) coll_a = Some big_value /\
  exists l, read_attrs st = Some l /\ attr_get l coll_a = None /\ List.length l = 1%nat.
Proof. vm_compute. split; [reflexivity|]. split; [reflexivity|]. eexists. split; [reflexivity|]. split; reflexivity. Qed.

(* deleting the absent name [b] succeeds and removes [a] *)
Lemma lookup3_delete_wrong :
  let h := hist_delete coll_a coll_b in
  let '(st, rs) := run lk3 (go_params 58) init h in
  rs = [ROk; ROk] /\
  snd (spec_delete (run_spec [] [OWrite coll_a (Some big_value)] [ROk]) coll_b) = RErr /\
  read_attrs st = Some [].
Proof. vm_compute. split; [reflexivity|]. split; reflexivity. Qed.

(* the same for ANY hash function under which the two names "a" and "b" collide *)

Lemma run_two : forall f P st o1 o2 st1 x1 st2 x2,
  step f P st o1 = (st1, x1) -> step f P st1 o2 = (st2, x2) -> run f P st [o1; o2] = (st2, [x1; x2]).
Proof. intros f P st o1 o2 st1 x1 st2 x2 E1 E2. cbn [run]. rewrite E1, E2. reflexivity. Qed.

(* dense storage holding "a" = big_value alone, indexed under hash [k] *)
Definition after_first (k : N) : state := Dense [(k, (0, 267))] (mkHeap [(0, mkAttr [97] big_value)] 267).

Section AbstractHash.
Variable name_hash : bytes -> N.
Hypothesis collide : name_hash [97] = name_hash [98].

(* the first write goes to dense storage without comparing any hash; the second call then finds the
   record of "a" under the hash of "b" *)
Lemma abstract_first :
  step name_hash (go_params 58) init (OWrite [97] (Some big_value)) = (after_first (name_hash [98]), ROk).
Proof. rewrite <- collide. vm_compute. reflexivity. Qed.

Lemma abstract_second_write :
  step name_hash (go_params 58) (after_first (name_hash [98])) (OWrite [98] (Some small_value)) =
  (Dense [(name_hash [98], (267, 40))] (mkHeap [(267, mkAttr [98] small_value)] 307), ROk).
Proof.
  unfold step, write_attr, after_first, write_dense.
  change (encode_attr (mkAttr [98] small_value)) with (EncOk 40).
  cbn [aname idx_search]. rewrite N.eqb_refl.
  cbv -[idx_update]. cbn [idx_update]. rewrite N.eqb_refl. reflexivity.
Qed.

Lemma abstract_second_delete :
  step name_hash (go_params 58) (after_first (name_hash [98])) (ODelete [98]) = (Dense [] (mkHeap [] 267), ROk).
Proof.
  unfold step, delete_attr, after_first. cbn [idx_search idx_delete]. rewrite N.eqb_refl. reflexivity.
Qed.

Lemma abstract_overwrite_wrong :
  let h := hist_overwrite [97] [98] in
  let '(st, rs) := run name_hash (go_params 58) init h in
  rs = [ROk; ROk] /\
  sp_get (run_spec [] h rs) [97] = Some big_value /\
  exists l, read_attrs st = Some l /\ attr_get l [97] = None /\ List.length l = 1%nat.
Proof.
  cbv zeta. unfold hist_overwrite. rewrite (run_two _ _ _ _ _ _ _ _ _ abstract_first abstract_second_write).
  split; [reflexivity|]. split; [reflexivity|]. eexists. split; [reflexivity|]. split; reflexivity.
Qed.

Lemma abstract_delete_wrong :
  let h := hist_delete [97] [98] in
  let '(st, rs) := run name_hash (go_params 58) init h in
  rs = [ROk; ROk] /\
  snd (spec_delete (run_spec [] [OWrite [97] (Some big_value)] [ROk]) [98]) = RErr /\
  read_attrs st = Some [].
Proof.
  cbv zeta. unfold hist_delete. rewrite (run_two _ _ _ _ _ _ _ _ _ abstract_first abstract_second_delete).
  split; [reflexivity|]. split; reflexivity.
Qed.

End AbstractHash.

(* the statement of C02 without the no-collision hypothesis is false for the real hash *)
Definition full_statement (name_hash : bytes -> N) (P : params) : Prop :=
  forall h st rs, run name_hash P init h = (st, rs) -> st <> Broken ->
  exists l, read_attrs st = Some l /\ forall n, attr_get l n = sp_get (run_spec [] h rs) n.

Lemma full_refuted_lookup3 : ~ full_statement lk3 (go_params 58).
Proof.
  intro F. pose proof lookup3_overwrite_wrong as W. cbv zeta in W.
  destruct (run lk3 (go_params 58) init (hist_overwrite coll_a coll_b)) as [st rs] eqn:R.
  destruct W as [ERS [SP [l [RD [AG _]]]]].
  assert (NB : st <> Broken) by (intro E; subst st; discriminate).
  destruct (F _ _ _ R NB) as [l' [RD' T]]. assert (l' = l) by congruence. subst l'.
  specialize (T coll_a). rewrite AG, SP in T. discriminate.
Qed.

Lemma collision_refuted_lookup3 :
  exists a b : bytes, a <> b /\ lk3 a = lk3 b /\
    (* WriteAttribute(b) replaces the attribute a: both calls succeed, a is gone *)
    (let h := hist_overwrite a b in
     let '(st, rs) := run lk3 (go_params 58) init h in
     rs = [ROk; ROk] /\ sp_get (run_spec [] h rs) a = Some big_value /\
     exists l, read_attrs st = Some l /\ attr_get l a = None /\ List.length l = 1%nat) /\
    (* DeleteAttribute(b), b never written, succeeds and deletes a *)
    (let h := hist_delete a b in
     let '(st, rs) := run lk3 (go_params 58) init h in
     rs = [ROk; ROk] /\
     snd (spec_delete (run_spec [] [OWrite a (Some big_value)] [ROk]) b) = RErr /\
     read_attrs st = Some []).
Proof.
  exists coll_a, coll_b. destruct lookup3_collision as [NE EQ].
  split; [exact NE|]. split; [exact EQ|]. split; [exact lookup3_overwrite_wrong | exact lookup3_delete_wrong].
Qed.

Lemma collision_refuted_abstract : forall name_hash : bytes -> N,
  name_hash [97] = name_hash [98] ->
  (let h := hist_overwrite [97] [98] in
   let '(st, rs) := run name_hash (go_params 58) init h in
   rs = [ROk; ROk] /\ sp_get (run_spec [] h rs) [97] = Some big_value /\
   exists l, read_attrs st = Some l /\ attr_get l [97] = None /\ List.length l = 1%nat) /\
  (let h := hist_delete [97] [98] in
   let '(st, rs) := run name_hash (go_params 58) init h in
   rs = [ROk; ROk] /\
   snd (spec_delete (run_spec [] [OWrite [97] (Some big_value)] [ROk]) [98]) = RErr /\
   read_attrs st = Some []).
Proof.
  intros f C. split; [exact (abstract_overwrite_wrong f C) | exact (abstract_delete_wrong f C)].
Qed.
