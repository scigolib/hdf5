(* C06, reader against specification: the dataspace message (0x0001), versions 1 and 2.
   For every byte string the strict specification decoder accepts, ParseDataspaceMessage (Model/CodecMsg.v
   dec_dataspace, tied to the Go code by C11/C07) returns an error or the same version, kind, extents and maximum
   extents, and never panics.  The reader does not know the superblock's "size of lengths": it guesses 8-byte or
   4-byte extents from the message length.  The guess is proved right for size of lengths 8 and 4 (the one case where
   the reader takes 8 bytes for a 4-byte extent is a rank-1 message followed by at least 4 bytes of zero padding: the
   same number); it is wrong for size of lengths 2 (dataspace_lsz2_refuted). *)
From HV Require Import Base.Prelude Base.Outcome Base.Bytes Spec.Parse Spec.FormatMsg Model.CodecMsg
  Proofs.ReaderSpecBase.

(* what the reader returns against the specification's logical value.  A scalar dataspace is represented by the
   reader as kind 0 with the single extent 1, a null dataspace as kind 2 without extents. *)
Definition ds_agree (s : dataspace_spec) (v : dataspace') : Prop :=
  dsp_version v = dss_version s /\ dsp_type v = dss_type s /\
  (dss_type s = 1 -> dsp_dims v = dss_dims s /\ dsp_maxdims v = dss_maxdims s) /\
  (dss_type s = 0 -> dsp_dims v = [1] /\ dsp_maxdims v = None) /\
  (dss_type s = 2 -> dsp_dims v = [] /\ dsp_maxdims v = None).

(* version 2, kind "simple" with rank 0: accepted by the specification text (the reference library never writes it:
   H5S_set_extent_simple turns rank 0 into a scalar dataspace); the reader reports it as scalar *)
Definition simple_rank0 (s : dataspace_spec) : bool := (dss_type s =? 1) && (length (dss_dims s) =? 0)%nat.

Lemma read_dims1_wider (bs : list N) p k k' l q :
  read_dims bs k 1 p = Ok (l, q) ->
  at_pos bs (p + k) = zeros (N.to_nat (blen bs - (p + k))) ->
  k <= k' -> p + k' <= blen bs ->
  read_dims bs k' 1 p = Ok (l, p + k').
Proof.
  cbn [read_dims]. intros H Z Hk Hb.
  destruct (blen bs <? p + k); [discriminate|].
  destruct (rd_le bs p k) as [d| |] eqn:E; cbn [obind] in H; try discriminate.
  injection H as <- <-.
  rewrite ltb_false by assumption.
  rewrite (rd_le_wider bs p k k' d E Z Hk Hb). reflexivity.
Qed.

Lemma dataspace_reader_spec (lsz : nat) (pad_ok : bool) (bs : bytes) (s : dataspace_spec) :
  lsz = 4%nat \/ lsz = 8%nat ->
  spec_dec_dataspace lsz pad_ok bs = Ok s ->
  simple_rank0 s = false ->
  err_or (ds_agree s) (dec_dataspace bs).
Proof.
  intros Hl H NS. unfold spec_dec_dataspace in H.
  rewrite (at_pos_0 bs) in H.
  assert (P0 : 0 <= blen bs) by blia.
  s_byte H ver B1 I0. s_byte H rank B2 I1. s_byte H fl B3 I2. s_guard H G. apply N.ltb_lt in G.
  cbn [N.add] in *. change (0 + 1) with 1 in *. change (1 + 1) with 2 in *. change (2 + 1) with 3 in *.
  unfold dec_dataspace.
  destruct (blen bs <? 3) eqn:L3; [apply N.ltb_lt in L3; blia|].
  rewrite I0. cbn [obind].
  (* the kind and the position after the fixed part *)
  assert (K : exists kind off,
     ((ver = 1 /\ off = 8 /\ kind = (if rank =? 0 then 0 else 1)) \/
      (ver = 2 /\ off = 4 /\ kind < 3 /\ index bs 3 = Ok kind)) /\ off <= blen bs /\
     (obind (guard (if kind =? 1 then true else rank =? 0)) (fun _ =>
        '(dims, r) <- p_us lsz (N.to_nat rank) (at_pos bs off);;
        '(maxd, r) <- (if fl =? 1 then '(m, r) <- p_us lsz (N.to_nat rank) r;; Ok (Some m, r) else Ok (None, r));;
        _ <- guard (match maxd with Some m => forall2b (fun d x => d <=? x) dims m | None => true end);;
        _ <- p_end pad_ok r;;
        Ok {| dss_version := ver; dss_type := kind; dss_dims := dims; dss_maxdims := maxd |}) = Ok s)).
  { destruct (ver =? 1) eqn:V1.
    - apply N.eqb_eq in V1. subst ver.
      destruct (p_zeros 5 (at_pos bs 3)) as [[[] r]| |] eqn:E; cbn [obind] in H; try discriminate H.
      apply p_zeros_at in E as (B4 & -> & _); [|blia].
      exists (if rank =? 0 then 0 else 1), 8. split; [left; auto|]. split; [blia|]. exact H.
    - destruct (ver =? 2) eqn:V2; [|discriminate H].
      apply N.eqb_eq in V2. subst ver.
      s_bind H kind r E. s_byte E k B4 I3. s_guard E GK. apply N.ltb_lt in GK. injection E as <- <-.
      exists k, 4. split; [right; auto|]. split; [blia|]. exact H. }
  clear H. destruct K as (kind & off & KV & Boff & H).
  s_guard H G0. s_us H dims B5 RD Ld.
  rewrite N2Nat.id in *.
  assert (FL : fl = 0 \/ fl = 1) by blia.
  assert (LS : N.of_nat lsz = 4 \/ N.of_nat lsz = 8) by (destruct Hl as [-> | ->]; auto).
  rewrite I1. cbn [obind]. rewrite I2. cbn [obind].
  assert (VK : negb (ver =? 1) && negb (ver =? 2) = false) by (destruct KV as [(-> & _) | (-> & _)]; reflexivity).
  rewrite VK.
  (* the reader's version-2 kind byte *)
  assert (T3 : exists t3, (if (ver =? 2) && (4 <=? blen bs) then index bs 3 else Ok 0) = Ok t3 /\
                          ((ver =? 2) && (4 <=? blen bs) && (t3 =? 2) = true <-> (ver = 2 /\ kind = 2))).
  { destruct KV as [(-> & -> & ->) | (-> & -> & K3 & I3)].
    - exists 0. split; [reflexivity|]. cbn [N.eqb andb]. split; [discriminate|]. intros [? _]. discriminate.
    - exists kind. replace (4 <=? blen bs) with true by (symmetry; apply N.leb_le; blia).
      cbn [N.eqb andb Pos.eqb]. split; [exact I3|]. rewrite N.eqb_eq. split; auto. intros [_ ?]; auto. }
  destruct T3 as (t3 & -> & T3). cbn [obind].
  destruct ((ver =? 2) && (4 <=? blen bs) && (t3 =? 2)) eqn:NULL.
  { (* null dataspace *)
    destruct T3 as [T3 _]. destruct (T3 eq_refl) as [-> ->].
    destruct (fl =? 1); repeat sstep H; injection H as <-;
      (split; [reflexivity|split; [reflexivity|]]); cbn [dss_type];
      (split; [discriminate|split; [discriminate|]]); auto. }
  assert (K2 : kind <> 2 \/ ver = 1).
  { destruct KV as [(-> & _) | (-> & -> & K3 & I3)]; auto. left. intros ->.
    destruct T3 as [_ T3]. specialize (T3 (conj eq_refl eq_refl)). discriminate T3. }
  destruct (rank =? 0) eqn:R0.
  { (* rank 0: scalar for the reader *)
    apply N.eqb_eq in R0. subst rank.
    cbn [N.to_nat p_us] in *. destruct dims; [|discriminate Ld].
    assert (KS : kind = 0 \/ kind = 1).
    { destruct KV as [(-> & -> & ->) | (-> & -> & K3 & I3)]; auto. destruct K2 as [K2|K2]; [blia|discriminate]. }
    destruct (fl =? 1); repeat sstep H; injection H as <-; unfold simple_rank0 in NS; cbn [dss_type dss_dims length] in NS;
      (destruct KS as [-> | ->]; [|discriminate NS]);
      (split; [reflexivity|split; [reflexivity|]]); cbn [dss_type];
      (split; [discriminate|split; [|discriminate]]); auto. }
  apply N.eqb_neq in R0.
  assert (K1 : kind = 1).
  { destruct (kind =? 1) eqn:K1; [now apply N.eqb_eq in K1|discriminate G0]. }
  subst kind.
  assert (OFF : (if ver =? 1 then 8 else 4) = off) by (destruct KV as [(-> & -> & _) | (-> & -> & _)]; reflexivity).
  rewrite OFF.
  destruct FL as [-> | ->]; cbn [N.testbit Pos.testbit N.eqb Pos.eqb] in *.
  - (* no maximum extents *)
    change (N.testbit 0 0) with false. cbn iota.
    cbn [obind] in H. s_guard H G1. s_end H PE PF ZZ. injection H as <-.
    destruct LS as [LS | LS]; rewrite LS in *.
    + destruct (off + rank * 8 <=? blen bs) eqn:E8; cbn [obind].
      * apply N.leb_le in E8. assert (rank = 1) by blia. subst rank. change (N.to_nat 1) with 1%nat in *.
        rewrite (read_dims1_wider bs off 4 8 dims _ RD) by (auto; blia). cbn [obind].
        repeat split; auto; cbn [dss_type]; discriminate.
      * replace (off + rank * 4 <=? blen bs) with true by (symmetry; apply N.leb_le; blia). cbn [obind].
        rewrite RD. cbn [obind]. repeat split; auto; cbn [dss_type]; discriminate.
    + replace (off + rank * 8 <=? blen bs) with true by (symmetry; apply N.leb_le; blia). cbn [obind].
      rewrite RD. cbn [obind]. repeat split; auto; cbn [dss_type]; discriminate.
  - (* maximum extents present *)
    change (N.testbit 1 0) with true. cbn iota.
    cbn [obind] in H. s_bind H maxd r E. s_us E mx B6 RD2 Lm. rewrite N2Nat.id in *. injection E as <- <-.
    s_guard H G1. s_end H PE PF ZZ. injection H as <-.
    destruct LS as [LS | LS]; rewrite LS in *.
    + destruct (off + rank * 2 * 8 <=? blen bs) eqn:E8; cbn [obind].
      * apply N.leb_le in E8. exfalso. blia.
      * replace (off + rank * 2 * 4 <=? blen bs) with true by (symmetry; apply N.leb_le; blia). cbn [obind].
        rewrite RD. cbn [obind]. rewrite RD2. cbn [obind]. repeat split; auto; cbn [dss_type]; discriminate.
    + replace (off + rank * 2 * 8 <=? blen bs) with true by (symmetry; apply N.leb_le; blia). cbn [obind].
      rewrite RD. cbn [obind]. rewrite RD2. cbn [obind]. repeat split; auto; cbn [dss_type]; discriminate.
Qed.

(* size of lengths 2 (H5Pset_sizes(fcpl, _, 2)): two 2-byte extents 3 and 5, padded to a multiple of 8 in a version 1
   object header; the reader takes one 4-byte extent 3 + 5 * 65536 and a second extent 0 *)
Definition dataspace_lsz2_witness : bytes := [1; 2; 0; 0; 0; 0; 0; 0; 3; 0; 5; 0; 0; 0; 0; 0].
Lemma dataspace_lsz2_refuted :
  spec_dec_dataspace 2 true dataspace_lsz2_witness =
    Ok {| dss_version := 1; dss_type := 1; dss_dims := [3; 5]; dss_maxdims := None |} /\
  dec_dataspace dataspace_lsz2_witness =
    Ok {| dsp_version := 1; dsp_type := 1; dsp_dims := [327683; 0]; dsp_maxdims := None |}.
Proof. split; vm_compute; reflexivity. Qed.

(* version 2, kind "simple", rank 0 (see simple_rank0): the reader says scalar *)
Lemma dataspace_simple_rank0_refuted :
  spec_dec_dataspace 8 false [2; 0; 0; 1] =
    Ok {| dss_version := 2; dss_type := 1; dss_dims := []; dss_maxdims := None |} /\
  dec_dataspace [2; 0; 0; 1] =
    Ok {| dsp_version := 2; dsp_type := 0; dsp_dims := [1]; dsp_maxdims := None |}.
Proof. split; vm_compute; reflexivity. Qed.

(* the hypotheses of dataspace_reader_spec are satisfiable: a rank-2 dataspace with maximum extents, 8-byte lengths *)
Example dataspace_reader_spec_example :
  exists s, spec_dec_dataspace 8 false ([1; 2; 1; 0; 0; 0; 0; 0] ++ le 8 3 ++ le 8 5 ++ le 8 3 ++ le 8 18446744073709551615) = Ok s /\
            simple_rank0 s = false.
Proof. eexists. split; vm_compute; reflexivity. Qed.
