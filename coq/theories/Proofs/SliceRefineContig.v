(* C09 at file level, contiguous layout: the three read paths of readHyperslabContiguous as I/O programs
   (Model/IOProgSlice.v p_slice_contig) on a file in which the dataset's data block is placed, against the element-level
   paths of Model/Hyperslab.v.  Part 1: the I/O of each path, generic in the numbers. *)
From HV Require Import Base.Prelude Base.Outcome Base.Bytes Model.IOProg Proofs.IOProg Model.IOProgReader Model.IOProgSlice.
From HV Require Import Model.SliceRefine Proofs.FileImage Proofs.FileImageOhdr Proofs.SliceRefineBytes.
From HV Require Proofs.HyperslabBase Proofs.HyperslabRaw Proofs.HyperslabContig.
Module HR := HV.Proofs.HyperslabRaw.
Module HC := HV.Proofs.HyperslabContig.

Section Placed.
Variable f : bytes.
Variables addr es : N.
Variable data : bytes.
Hypothesis Hpl : placed f addr data.
Hypothesis Hes : 0 < es.
Hypothesis Hmax : addr + blen data <= MAXI64.

Lemma w64 x : x <= addr + blen data -> wrap64 x = x.
Proof. intros H. apply wrap64_small. unfold MAXI64 in Hmax. blia. Qed.

Lemma run_read_elems off n : 0 < n -> (off + n) * es <= blen data ->
  run0 f (p_read_bytes_at (wrap64 (addr + wrap64 (off * es))) (wrap64 (n * es))) = Ok (rd data (off * es) (n * es)).
Proof.
  intros Hn Hb. rewrite (w64 (off * es)) by nia. rewrite (w64 (addr + off * es)) by nia. rewrite (w64 (n * es)) by nia.
  apply run0_read_bytes_at.
  - apply placed_slice; [exact Hpl|nia].
  - symmetry. apply blen_rd. nia.
  - nia.
  - nia.
Qed.

(* the single-run path: readContiguousOptimized *)
Lemma path_run off n : 0 < n -> (off + n) * es <= blen data ->
  run0 f (bind (p_read_bytes_at (wrap64 (addr + wrap64 (off * es))) (wrap64 (n * es)))
               (fun b => if blen b <? n * es then Fail else Ret (SlRun b)))
  = Ok (SlRun (rd data (off * es) (n * es))).
Proof.
  intros Hn Hb. rewrite run0_bind, run_read_elems by assumption. rewrite blen_rd by nia.
  now rewrite N.ltb_irrefl.
Qed.
Lemma value_run dims ax off n : Hs.out_elems ax = n -> (off + n) * es <= blen data ->
  slice_value es dims [] ax (SlRun (rd data (off * es) (n * es))) = Hs.read_at (evals es data) off n.
Proof.
  intros Hn Hb. cbn [slice_value]. rewrite Hn. rewrite <- evals_rd_read_at by assumption.
  apply firstn_all2. rewrite evals_length_rd by assumption. blia.
Qed.

(* the selection-run path: the read of readContiguousRowByRow for rank <> 2 *)
Lemma path_span off n : 0 < n -> (off + n) * es <= blen data ->
  run0 f (bind (p_read_bytes_at (wrap64 (addr + wrap64 (off * es))) (wrap64 (n * es))) (fun b => Ret (SlSpan b)))
  = Ok (SlSpan (rd data (off * es) (n * es))).
Proof. intros Hn Hb. now rewrite run0_bind, run_read_elems by assumption. Qed.
Lemma value_span dims ax off n : (off + n) * es <= blen data ->
  slice_value es dims [] ax (SlSpan (rd data (off * es) (n * es)))
  = fst (Hs.ext_rec (Hs.read_at (evals es data) off n) dims (Hs.zero_start ax) dims [] (Hs.zeros (Hs.out_elems ax), 0)).
Proof. intros Hb. cbn [slice_value]. now rewrite evals_rd_read_at by assumption. Qed.

(* the element-wise path: readContiguous2DOptimized, one strict ReadAt per element *)
Lemma run_p_elems (idx : list N) : (forall i, In i idx -> (i + 1) * es <= blen data) ->
  run0 f (p_elems (map (fun i => wrap64 (addr + wrap64 (i * es))) idx) es) = Ok (map (elem es data) idx).
Proof.
  induction idx as [|i r IH]; intros Hb; [reflexivity|].
  cbn [map p_elems].
  assert (Hi : (i + 1) * es <= blen data) by (apply Hb; now left).
  rewrite (w64 (i * es)) by nia. rewrite (w64 (addr + i * es)) by nia.
  rewrite (run0_read_placed _ f addr data (i * es) es) by (auto; nia).
  rewrite run0_bind, IH by (intros j Hj; apply Hb; now right). reflexivity.
Qed.
End Placed.
