(* C11 / C03: the local heap at byte level (Model/GroupWire.v).  WriteTo emits 32 + DataSegmentSize bytes; LoadLocalHeap on ANY
   file that holds the image returns the padded data segment and GetString every stored name; the byte-level GetString agrees
   with get_string of Model/GroupNS.v on all inputs; add_string / write_to / prepare_for_modification commute with the projection
   to Model/GroupNS.v, and the FILE-level heap step of linkToParent rewrites exactly the heap image. *)
From HV Require Import Base.Prelude Base.Outcome Base.Bytes Model.RobustAlloc Model.RobustGroup Model.GroupWire.
From HV Require Model.GroupNS Model.ChunkIndex.
Module NS := HV.Model.GroupNS.

Local Open Scope N_scope.

Lemma MaxInt64_val : MaxInt64 = 9223372036854775807. Proof. reflexivity. Qed.
Lemma wrap64_le_max a : a <= MaxInt64 -> wrap64 a = a.
Proof. rewrite MaxInt64_val. intros H. apply wrap64_small. lia. Qed.

Lemma read_at_app (pre mid suf : list N) a n :
  a = blen pre -> n = blen mid -> a + n <= MaxInt64 -> read_at (pre ++ mid ++ suf) a n = Ok mid.
Proof.
  intros -> -> H. unfold read_at. rewrite !blen_app.
  replace (MaxInt64 <? blen pre) with false by (symmetry; apply N.ltb_ge; blia).
  replace (blen pre + (blen mid + blen suf) <? blen pre + blen mid) with false by (symmetry; apply N.ltb_ge; blia).
  cbn [orb]. apply slice_app.
Qed.

Lemma read_bytes_at_app (pre mid suf : list N) a n :
  a = blen pre -> n = blen mid -> a + n <= MaxInt64 -> fst (read_bytes_at (pre ++ mid ++ suf) a n) = Ok mid.
Proof.
  intros -> -> H. unfold read_bytes_at. destruct (blen mid =? 0) eqn:E.
  - apply N.eqb_eq in E. destruct mid; [reflexivity|]. rewrite blen_cons in E. blia.
  - apply N.eqb_neq in E. rewrite MaxInt64_val in H.
    rewrite wrap64_small by blia.
    replace (blen pre + blen mid <? blen pre) with false by (symmetry; apply N.ltb_ge; blia).
    replace (MaxInt64 <? blen pre + blen mid) with false by (symmetry; apply N.ltb_ge; rewrite MaxInt64_val; blia).
    cbn [orb]. rewrite !blen_app.
    replace (blen pre + (blen mid + blen suf) <=? blen pre + blen mid - 1) with false by (symmetry; apply N.leb_gt; blia).
    cbn [fst]. rewrite slice_app. reflexivity.
Qed.

(* [(k, v)] is a field of k bytes holding v; reading field i needs no arithmetic beyond the widths before it *)
Definition enc_fields (fs : list (nat * N)) : bytes := flat_map (fun f => le (fst f) (snd f)) fs.
Fixpoint fields_width (fs : list (nat * N)) : N :=
  match fs with [] => 0 | f :: r => N.of_nat (fst f) + fields_width r end.

Lemma blen_enc_fields fs : blen (enc_fields fs) = fields_width fs.
Proof. induction fs as [|f r IH]; [reflexivity|]. cbn [enc_fields flat_map fields_width]. now rewrite blen_app, blen_le, <- IH. Qed.

Lemma slice_from_field (pre : list N) fs (suf : list N) i off :
  off = blen pre + fields_width (firstn i fs) ->
  slice_from (pre ++ enc_fields fs ++ suf) off = Ok (enc_fields (skipn i fs) ++ suf).
Proof.
  intros ->. rewrite <- (firstn_skipn i fs) at 1. unfold enc_fields. rewrite flat_map_app, <- app_assoc, app_assoc.
  apply slice_from_app. now rewrite blen_app, <- blen_enc_fields.
Qed.

Lemma rd_le_field (pre : list N) fs (suf : list N) i k v off kN :
  nth_error fs i = Some (k, v) -> off = blen pre + fields_width (firstn i fs) -> kN = N.of_nat k -> v < 256 ^ kN ->
  rd_le (pre ++ enc_fields fs ++ suf) off kN = Ok v.
Proof.
  intros Hn -> -> Hv. apply nth_error_split in Hn as (l1 & l2 & -> & <-).
  rewrite firstn_app, Nat.sub_diag, firstn_all, app_nil_r. unfold enc_fields. rewrite flat_map_app. cbn [flat_map fst snd].
  rewrite <- !app_assoc, (app_assoc pre). apply rd_le_at; [now rewrite blen_app, <- blen_enc_fields | reflexivity | exact Hv].
Qed.

Definition padded (h : wheap) : bytes :=
  if blen (hw_strings h) <? hw_dss h then hw_strings h ++ zeros (N.to_nat (hw_dss h - blen (hw_strings h))) else hw_strings h.

Lemma heap_write_to_seg h a : snd (heap_write_to h a) = padded h.
Proof. reflexivity. Qed.

Lemma blen_padded h : blen (hw_strings h) <= hw_dss h -> blen (padded h) = hw_dss h.
Proof.
  intros H. unfold padded. destruct (blen (hw_strings h) <? hw_dss h) eqn:E.
  - rewrite blen_app, blen_zeros. blia.
  - apply N.ltb_ge in E. blia.
Qed.

Lemma blen_heap_header d f a : blen (heap_header d f a) = 32.
Proof. reflexivity. Qed.

Lemma heap_image_eq h a : heap_image h a = heap_header (hw_dss h) (hw_free h) (wrap64 (a + 32)) ++ padded h.
Proof. reflexivity. Qed.

(* length (enc x) = size formula: LocalHeap.Size, the 32 + segment of Model/Store.v *)
Lemma heap_image_size h a : blen (hw_strings h) <= hw_dss h -> blen (heap_image h a) = heap_size h.
Proof. intros H. rewrite heap_image_eq, blen_app, blen_heap_header, blen_padded by exact H. reflexivity. Qed.

Lemma P8 : 256 ^ N.of_nat 8 = 18446744073709551616. Proof. reflexivity. Qed.

Lemma load_header_fields dss fr da (rest : list N) :
  dss < 18446744073709551616 -> da < 18446744073709551616 ->
  let hb := heap_header dss fr da in
  bytes_eqb (firstn 4 hb) sigHEAP = true /\ rd_field hb 8 8 = Ok dss /\ rd_field hb (8 + 2 * 8) 8 = Ok da.
Proof.
  intros Hd Ha hb. split; [reflexivity|]. unfold rd_field. change ((8 =? 2) || (8 =? 4) || (8 =? 8)) with true. cbv iota.
  change hb with ([72; 69; 65; 80; 0; 0; 0; 0] ++ enc_fields [(8%nat, dss); (8%nat, fr); (8%nat, da)] ++ []).
  split; [apply (rd_le_field _ _ _ 0 8 dss) | apply (rd_le_field _ _ _ 2 8 da)]; auto.
Qed.

(* a file that holds a heap: header (free-list field [fr]) at [blen pre], the segment [seg] right behind it *)
Definition heap_file (pre suf : bytes) (fr : N) (seg : bytes) : bytes :=
  pre ++ heap_header (blen seg) fr (blen pre + 32) ++ seg ++ suf.

Lemma load_heap_file pre suf fr seg :
  blen pre + 32 + blen seg <= MaxInt64 -> load_local_heap (heap_file pre suf fr seg) (blen pre) 8 8 = Ok seg.
Proof.
  intros H. rewrite MaxInt64_val in H. unfold load_local_heap, heap_file.
  change (8 + 2 * 8 + 8) with 32.
  rewrite read_at_app with (mid := heap_header (blen seg) fr (blen pre + 32)); try reflexivity; [|rewrite MaxInt64_val; blia].
  cbn [obind].
  destruct (load_header_fields (blen seg) fr (blen pre + 32) []) as (E1 & E2 & E3); [blia | blia |].
  rewrite E1. cbn [negb]. rewrite E2. cbn [obind]. rewrite E3. cbn [obind].
  rewrite app_assoc.
  apply read_bytes_at_app; [rewrite blen_app, blen_heap_header; reflexivity | reflexivity | rewrite MaxInt64_val; blia].
Qed.

Lemma load_heap_image h pre suf :
  blen (hw_strings h) <= hw_dss h -> blen pre + 32 + hw_dss h <= MaxInt64 ->
  load_local_heap (pre ++ heap_image h (blen pre) ++ suf) (blen pre) 8 8 = Ok (padded h).
Proof.
  intros Hs H. rewrite heap_image_eq, <- app_assoc.
  rewrite wrap64_le_max by blia. rewrite <- (blen_padded h Hs) at 1.
  apply (load_heap_file pre suf (hw_free h) (padded h)). rewrite blen_padded by exact Hs. exact H.
Qed.

Definition nonul (s : bytes) : bool := forallb (fun b => negb (b =? 0)) s.


Lemma get_string_at (pre nm suf : list N) :
  nonul nm = true -> get_string (pre ++ nm ++ 0 :: suf) (blen pre) = Ok nm.
Proof.
  intros H. unfold get_string, heap_get_string. rewrite find0_app by (auto; reflexivity).
  rewrite !blen_app, blen_cons.
  replace (blen pre + (blen nm + (1 + blen suf)) <=? blen pre) with false by (symmetry; apply N.leb_gt; blia).
  replace (blen pre + (blen nm + (1 + blen suf)) <=? blen pre + blen nm) with false by (symmetry; apply N.leb_gt; blia).
  apply slice_app.
Qed.

(* the strings buffer after adding the names [ns] in order, and the offsets AddString returned *)
Definition enc_names (ns : list bytes) : bytes := flat_map (fun n => n ++ [0]) ns.
Fixpoint name_offs (base : N) (ns : list bytes) : list N :=
  match ns with [] => [] | n :: r => base :: name_offs (base + blen n + 1) r end.

Lemma get_strings_gen (ns : list bytes) : forall (pre rest : list N),
  Forall (fun n => nonul n = true) ns ->
  map (get_string (pre ++ enc_names ns ++ rest)) (name_offs (blen pre) ns) = map Ok ns.
Proof.
  induction ns as [|n ns IH]; intros pre rest H; [reflexivity|].
  apply Forall_cons_iff in H as [Hn Hr]. cbn [enc_names flat_map name_offs map]. fold (enc_names ns). f_equal.
  - rewrite <- !app_assoc. cbn [app]. apply get_string_at. exact Hn.
  - specialize (IH (pre ++ n ++ [0]) rest Hr).
    rewrite !blen_app, blen_cons, blen_nil in IH.
    replace (blen pre + (blen n + (1 + 0))) with (blen pre + blen n + 1) in IH by blia.
    rewrite <- IH. rewrite <- !app_assoc. reflexivity.
Qed.

Lemma get_strings_enc ns (rest : list N) :
  Forall (fun n => nonul n = true) ns -> map (get_string (enc_names ns ++ rest)) (name_offs 0 ns) = map Ok ns.
Proof. intros H. exact (get_strings_gen ns [] rest H). Qed.

Definition of_option {A} (o : option A) : outcome A := match o with Some a => Ok a | None => Err end.

Lemma get_string_from_spec (d : list N) :
  match NS.get_string_from d with
  | Some s => exists r, d = s ++ 0 :: r /\ nonul s = true
  | None => nonul d = true
  end.
Proof.
  induction d as [|b r IH]; cbn [NS.get_string_from]; [reflexivity|].
  destruct (b =? 0) eqn:E.
  - apply N.eqb_eq in E. subst b. exists r. split; reflexivity.
  - destruct (NS.get_string_from r) as [s|]; cbn [option_map].
    + destruct IH as (r' & -> & Hs). exists r'. split; [reflexivity|]. cbn [nonul forallb]. rewrite E. exact Hs.
    + cbn [nonul forallb]. rewrite E. exact IH.
Qed.

Lemma get_string_split (p q : list N) : get_string (p ++ q) (blen p) = of_option (NS.get_string_from q).
Proof.
  pose proof (get_string_from_spec q) as S.
  destruct (NS.get_string_from q) as [s|]; cbn [of_option].
  - destruct S as (r & -> & Hs). apply get_string_at. exact Hs.
  - unfold get_string, heap_get_string. rewrite blen_app.
    destruct (blen p + blen q <=? blen p) eqn:E; [reflexivity|].
    unfold find0. unfold blen at 3. rewrite Nat2N.id.
    replace (length p) with (length p + 0)%nat at 1 by blia.
    rewrite skipn_app, skipn_all2 by blia.
    replace (length p + 0 - length p)%nat with 0%nat by blia. cbn [skipn app].
    rewrite find0_aux_nonul by exact S.
    replace (blen p + blen q <=? blen p + blen q) with true by (symmetry; apply N.leb_le; blia).
    reflexivity.
Qed.

Lemma get_string_agrees (data : list N) off : get_string data off = of_option (NS.get_string data off).
Proof.
  unfold NS.get_string. change (NS.blen data) with (blen data).
  destruct (blen data <=? off) eqn:E.
  - unfold get_string, heap_get_string. rewrite E. reflexivity.
  - apply N.leb_gt in E.
    assert (Hp : blen (firstn (N.to_nat off) data) = off).
    { unfold blen in *. rewrite firstn_length. blia. }
    set (p := firstn (N.to_nat off) data) in *. set (q := skipn (N.to_nat off) data).
    assert (Hd : data = p ++ q) by (symmetry; apply firstn_skipn).
    clearbody p q. subst data off.
    bnorm.
    replace (skipn (N.to_nat (blen p)) (p ++ q)) with q; [apply get_string_split|].
    unfold blen. rewrite Nat2N.id, skipn_app, skipn_all, Nat.sub_diag. reflexivity.
Qed.

Definition abs_heap (h : wheap) : NS.wheap := {| NS.wh_strings := hw_strings h; NS.wh_dss := hw_dss h |}.

Lemma abs_new n : abs_heap (new_local_heap n) = NS.new_local_heap n.
Proof. reflexivity. Qed.

Lemma abs_prepare data : abs_heap (prepare_for_modification data) = NS.prepare_for_modification data.
Proof. reflexivity. Qed.

Lemma abs_add_string h s :
  omap (fun p : N * wheap => (fst p, abs_heap (snd p))) (add_string h s) = of_option (NS.add_string (abs_heap h) s).
Proof.
  unfold add_string, NS.add_string. cbn [abs_heap NS.wh_strings NS.wh_dss].
  change (NS.blen s) with (blen s). change (NS.blen (hw_strings h)) with (blen (hw_strings h)).
  destruct (hw_dss h <? blen (hw_strings h) + (blen s + 1)); reflexivity.
Qed.

Lemma abs_write_to h a :
  abs_heap (fst (fst (heap_write_to h a))) = fst (NS.write_to (abs_heap h)) /\
  snd (heap_write_to h a) = snd (NS.write_to (abs_heap h)).
Proof.
  unfold heap_write_to, NS.write_to. cbn [abs_heap NS.wh_strings NS.wh_dss fst snd hw_strings hw_dss].
  change (NS.blen (hw_strings h)) with (blen (hw_strings h)).
  destruct (blen (hw_strings h) <? hw_dss h); split; reflexivity.
Qed.

Lemma add_string_fits h s off h1 : add_string h s = Ok (off, h1) ->
  off = blen (hw_strings h) /\ hw_strings h1 = hw_strings h ++ s ++ [0] /\ hw_dss h1 = hw_dss h /\ hw_free h1 = hw_free h /\
  blen (hw_strings h1) <= hw_dss h1.
Proof.
  unfold add_string. destruct (hw_dss h <? blen (hw_strings h) + (blen s + 1)) eqn:E; [discriminate|].
  intros X. inversion X; subst; clear X. cbn [hw_strings hw_dss hw_free]. apply N.ltb_ge in E.
  repeat split; auto. rewrite !blen_app, blen_cons, blen_nil. blia.
Qed.

(* os.File.WriteAt over a region of the same length replaces exactly that region *)
Lemma write_at_replace (pre old new suf : list N) :
  new <> [] -> blen new = blen old -> write_at (pre ++ old ++ suf) (blen pre) new = pre ++ new ++ suf.
Proof.
  intros Hn Hl. unfold write_at, HV.Model.ChunkIndex.write_at. destruct new as [|b0 br]; [congruence|].
  set (new := b0 :: br) in *.
  replace (N.to_nat (blen pre + blen new - blen (pre ++ old ++ suf))) with 0%nat
    by (rewrite !blen_app; unfold blen in *; blia).
  cbn [zeros repeat]. rewrite app_nil_r.
  replace (N.to_nat (blen pre)) with (length pre + 0)%nat by (unfold blen; blia).
  rewrite firstn_app_2. cbn [firstn]. rewrite app_nil_r. f_equal. f_equal.
  replace (N.to_nat (blen pre + blen new)) with (length pre + length old)%nat by (unfold blen in *; blia).
  rewrite app_assoc, <- app_length.
  replace (length (pre ++ old)) with (length (pre ++ old) + 0)%nat by blia.
  rewrite skipn_app, skipn_all2 by blia.
  replace (length (pre ++ old) + 0 - length (pre ++ old))%nat with 0%nat by blia. reflexivity.
Qed.

Lemma heap_write_file_eq f h a :
  snd (heap_write_file f h a) =
  write_at (write_at f a (heap_header (hw_dss h) (hw_free h) (wrap64 (a + 32)))) (wrap64 (a + 32)) (padded h).
Proof. reflexivity. Qed.

Lemma used_le_len (d : list N) : NS.used_size d <= blen d -> blen (firstn (N.to_nat (NS.used_size d)) d) = NS.used_size d.
Proof. intros H. unfold blen in *. rewrite firstn_length. blia. Qed.

(* the heap half of linkToParent on the FILE.  For every file that holds a heap (free-list field 1, as every heap this writer
   writes) at [blen pre] with data segment [seg]:
     - loading gives [seg] (= what Model/GroupNS.v keeps for the group);
     - the step fails exactly when GroupNS's add_string on its prepared heap fails, and then nothing is written;
     - otherwise it returns GroupNS's offset and the file holds the image of GroupNS's NEW segment at the same place, with
       everything before and after the heap untouched. *)
Theorem link_heap_commutes pre suf seg nm :
  blen pre + 32 + blen seg <= MaxInt64 ->
  load_local_heap (heap_file pre suf 1 seg) (blen pre) 8 8 = Ok seg /\
  match NS.add_string (NS.prepare_for_modification seg) nm with
  | None => link_heap (heap_file pre suf 1 seg) (blen pre) nm = Err
  | Some (off, h1) =>
      blen (snd (NS.write_to h1)) = blen seg /\
      link_heap (heap_file pre suf 1 seg) (blen pre) nm = Ok (off, heap_file pre suf 1 (snd (NS.write_to h1)))
  end.
Proof.
  intros H. pose proof (load_heap_file pre suf 1 seg H) as L. split; [exact L|].
  unfold link_heap. rewrite L. cbn [obind].
  pose proof (abs_add_string (prepare_for_modification seg) nm) as A. rewrite abs_prepare in A.
  destruct (NS.add_string (NS.prepare_for_modification seg) nm) as [[off h1']|] eqn:E; cbn [of_option] in A.
  - destruct (add_string (prepare_for_modification seg) nm) as [[off1 h1]| |] eqn:E1; cbn [omap] in A; try discriminate.
    inversion A; subst off1 h1'; clear A. cbn [obind fst snd].
    destruct (add_string_fits _ _ _ _ E1) as (_ & _ & Hd & Hf & Hfit).
    cbn [prepare_for_modification hw_dss hw_free] in Hd, Hf.
    destruct (abs_write_to h1 (blen pre)) as [_ W2]. rewrite <- W2, heap_write_to_seg.
    assert (Hlen : blen (padded h1) = blen seg) by (rewrite blen_padded by exact Hfit; exact Hd).
    split; [exact Hlen|]. f_equal. f_equal.
    rewrite heap_write_file_eq.
    rewrite wrap64_le_max by blia. rewrite Hd, Hf. unfold heap_file at 1.
    rewrite write_at_replace; [|discriminate | reflexivity].
    assert (Hne : padded h1 <> []).
    { intros X. assert (Hz : blen seg = 0) by (rewrite <- Hlen, X; reflexivity).
      unfold add_string in E1. cbn [prepare_for_modification hw_strings hw_dss] in E1.
      destruct (blen seg <? _) eqn:E2 in E1; [discriminate|]. apply N.ltb_ge in E2. blia. }
    rewrite app_assoc.
    replace (blen pre + 32) with (blen (pre ++ heap_header (blen seg) 1 (blen pre + 32)))
      at 2 by (rewrite blen_app, blen_heap_header; reflexivity).
    rewrite write_at_replace; [|exact Hne|exact Hlen].
    unfold heap_file. rewrite Hlen, <- app_assoc. reflexivity.
  - destruct (add_string (prepare_for_modification seg) nm) as [[off1 h1]| |] eqn:E1; cbn [omap] in A; try discriminate.
    reflexivity.
Qed.

(* a fresh heap of createGroupStructures is such a file: image of NewLocalHeap(n) = header with free-list 1 + n' zero bytes *)
Lemma new_heap_image n pre suf :
  blen pre + 32 + NS.new_heap_size n <= MaxInt64 ->
  pre ++ heap_image (new_local_heap n) (blen pre) ++ suf = heap_file pre suf 1 (zeros (N.to_nat (NS.new_heap_size n))).
Proof.
  intros H. rewrite heap_image_eq. unfold heap_file. rewrite <- app_assoc.
  rewrite wrap64_le_max by blia. unfold padded. cbn [new_local_heap hw_strings hw_dss hw_free]. bnorm. change (blen (@nil N)) with 0. rewrite blen_zeros, N2Nat.id.
  destruct (0 <? NS.new_heap_size n) eqn:E.
  - rewrite N.sub_0_r. reflexivity.
  - apply N.ltb_ge in E. replace (NS.new_heap_size n) with 0 by blia. reflexivity.
Qed.

(* the hypotheses are satisfiable *)
Example ex_heap : wheap := {| hw_strings := [100; 115; 0; 103; 0]; hw_dss := 16; hw_free := 1; hw_daddr := 0 |}.
Example ex_heap_roundtrip :
  load_local_heap (zeros 96 ++ heap_image ex_heap 96 ++ [7; 7]) 96 8 8 = Ok ([100; 115; 0; 103; 0] ++ zeros 11) /\
  get_string ([100; 115; 0; 103; 0] ++ zeros 11) 3 = Ok [103] /\
  link_heap (zeros 96 ++ heap_image ex_heap 96 ++ [7; 7]) 96 [120] =
    Ok (5, zeros 96 ++ heap_image {| hw_strings := [100; 115; 0; 103; 0; 120; 0]; hw_dss := 16; hw_free := 1; hw_daddr := 0 |} 96 ++ [7; 7]).
Proof. vm_compute. repeat split. Qed.

(* the allocation-aware model of C07 (Model/RobustAlloc.v local_heap_load, tied by C07) is this reader followed by len():
   one transcription of LoadLocalHeap serves C07 (allocation log), C11 (round trip) and C03 (abstraction) *)
Lemma local_heap_load_agrees file addr O L : addr <= MaxInt64 ->
  fst (local_heap_load file addr O L) = omap blen (load_local_heap file addr O L).
Proof.
  intros Ha. unfold local_heap_load, load_local_heap, read_at.
  replace (MaxInt64 <? addr) with false by (symmetry; apply N.ltb_ge; exact Ha). cbn [orb].
  destruct (blen file <? addr + (8 + 2 * L + O)); [reflexivity|].
  destruct (slice file addr (addr + (8 + 2 * L + O))) as [hb| |]; cbn [obind omap fst]; try reflexivity.
  change [72; 69; 65; 80] with sigHEAP.
  destruct (negb (bytes_eqb (firstn 4 hb) sigHEAP)); [reflexivity|].
  assert (NE : forall b p w, rd_field b p w <> Err).
  { intros b p w. unfold rd_field, rd_le. destruct ((w =? 2) || (w =? 4) || (w =? 8)); cbv iota.
    - unfold slice. destruct ((p <=? p + w) && (p + w <=? blen b)); cbn [obind]; intros X; discriminate X.
    - intros X. discriminate X. }
  destruct (rd_field hb 8 L) as [dsize| |] eqn:E1; [| exfalso; exact (NE _ _ _ E1) |]; cbn [obind omap fst].
  - destruct (rd_field hb (8 + 2 * L) O) as [daddr| |] eqn:E2; [| exfalso; exact (NE _ _ _ E2) |]; cbn [obind omap fst].
    + destruct (read_bytes_at file daddr dsize) as [[d| |] l]; reflexivity.
    + reflexivity.
  - destruct (rd_field hb (8 + 2 * L) O); reflexivity.
Qed.
