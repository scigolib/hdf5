(* C09: chunk iterator.  The chunk grid is enumerated without repetition, every element of the
   dataset lies in the box of exactly one chunk, and the piece returned for a chunk is the
   selection of that box from the full read. *)
From HV Require Import Base.Prelude Base.Bytes Model.Hyperslab Proofs.HyperslabBase Proofs.HyperslabValidate
  Proofs.HyperslabChunk Proofs.HyperslabDispatch.

Lemma NoDup_all_coords ext : NoDup (all_coords ext).
Proof. apply (NoDup_map_inv (lin ext)). rewrite all_coords_lin. apply NoDup_nseq. Qed.

Lemma in_slice_coords : forall start count x, length start = length x -> length count = length x ->
  (In x (sel_coords (slice_axes start count))
   <-> Forall2 (fun xi sc => fst sc <= xi < fst sc + snd sc) x (combine start count)).
Proof.
  unfold slice_axes, ones.
  induction start as [|s0 s IH]; intros [|c0 c] [|x0 x] L1 L2; cbn [length] in *; try discriminate;
    cbn [repeat zip4 combine].
  - split; [intros _; constructor|intros _; left; reflexivity].
  - rewrite in_sel_coords_cons. split.
    + intros (i & y & [= -> ->] & Hi & Hy). constructor; [|apply IH; auto; lia].
      apply in_axis_idx in Hi. cbn [a_start a_count a_stride a_block fst snd] in *.
      destruct Hi as (cc & bb & Hc & Hb & ->). lia.
    + intros H. inversion H as [|? ? ? ? Hx Hr]; subst. cbn [fst snd] in Hx.
      exists x0, x. split; [reflexivity|]. split; [|apply IH; auto; lia].
      apply in_axis_idx. cbn [a_start a_count a_stride a_block]. exists (x0 - s0), 0. lia.
Qed.

Definition box_axes (dims cdims cc : list N) : list axis :=
  slice_axes (fst (iter_box dims cdims cc)) (snd (iter_box dims cdims cc)).

Lemma nchunks_spec x d cd : 0 < cd -> x < d -> x / cd < nchunks d cd.
Proof.
  intros Hc Hx. unfold nchunks.
  replace (d + cd - 1) with ((d - 1) + 1 * cd) by lia. rewrite N.div_add by lia.
  assert (x / cd <= (d - 1) / cd) by (apply N.div_le_mono; lia). lia.
Qed.

Lemma nchunks_start cc d cd : 0 < cd -> cc < nchunks d cd -> cc * cd < d.
Proof.
  intros Hc H. unfold nchunks in H.
  destruct (N.ltb_spec (cc * cd) d) as [|Hge]; [assumption|exfalso].
  assert (d + cd - 1 < (cc + 1) * cd) by lia.
  assert ((d + cd - 1) / cd < cc + 1) by (apply N.div_lt_upper_bound; lia). lia.
Qed.

Lemma in_box_iff : forall x dims cdims cc,
  length dims = length x -> length cdims = length x -> length cc = length x ->
  Forall (fun c => 0 < c) cdims -> Forall2 N.lt x dims ->
  (Forall2 (fun xi sc => fst sc <= xi < fst sc + snd sc) x
           (combine (fst (iter_box dims cdims cc)) (snd (iter_box dims cdims cc)))
   <-> cc = map2 N.div x cdims).
Proof.
  unfold iter_box. cbn [fst snd].
  induction x as [|x0 x IH]; intros [|d0 d] [|c0 c] [|k0 k] L1 L2 L3 Hc Hx;
    cbn [length] in *; try discriminate; cbn [vmul combine map2].
  - split; [reflexivity|constructor].
  - inversion Hc; inversion Hx; subst. cbn [fst snd].
    specialize (IH d c k ltac:(lia) ltac:(lia) ltac:(lia) ltac:(assumption) ltac:(assumption)).
    split.
    + intros H. inversion H as [|? ? ? ? H0 Hr]; subst. cbn [fst snd] in H0.
      f_equal; [|apply IH; assumption].
      apply (in_chunk_div x0 c0 d0 k0); try assumption. destruct (N.ltb_spec d0 (k0 * c0 + c0)); lia.
    + intros [= -> ->]. constructor; [|apply IH; reflexivity]. cbn [fst snd].
      destruct (proj2 (in_chunk_div x0 c0 d0 _ ltac:(assumption) ltac:(assumption)) eq_refl).
      destruct (N.ltb_spec d0 (x0 / c0 * c0 + c0)); lia.
Qed.

Lemma own_chunk_in_grid : forall x dims cdims, length cdims = length x ->
  Forall (fun c => 0 < c) cdims -> Forall2 N.lt x dims ->
  In (map2 N.div x cdims) (iter_coords dims cdims).
Proof.
  intros x dims cdims L Hc Hx. unfold iter_coords. apply in_all_coords.
  revert cdims L Hc. induction Hx as [|x0 d0 x d H0 _ IH]; intros [|c0 c] L Hc; cbn [length] in *; try discriminate;
    cbn [map2]; [constructor|].
  inversion Hc; subst. constructor; [apply nchunks_spec; assumption|apply IH; [lia|assumption]].
Qed.

Lemma grid_chunk_box_valid : forall cc dims cdims, length cdims = length dims ->
  Forall (fun c => 0 < c) cdims -> In cc (iter_coords dims cdims) ->
  slice_valid (fst (iter_box dims cdims cc)) (snd (iter_box dims cdims cc)) dims.
Proof.
  intros cc dims cdims L Hc Hin. unfold iter_coords in Hin. apply in_all_coords in Hin.
  unfold iter_box, slice_valid. cbn [fst snd].
  revert cc cdims L Hc Hin. induction dims as [|d0 d IH]; intros cc [|c0 c] L Hc Hin; cbn [length] in *; try discriminate;
    cbn [map2] in Hin; inversion Hin as [|k0 ? k ? Hk0 Hk]; subst; cbn [vmul combine map2 length].
  - repeat split; constructor.
  - inversion Hc; subst.
    destruct (IH k c ltac:(lia) ltac:(assumption) Hk) as (I1 & I2 & I3).
    split; [rewrite I1; reflexivity|]. split; [rewrite I2; reflexivity|].
    constructor; [|assumption]. cbn [fst snd].
    pose proof (nchunks_start k0 d0 c0 ltac:(assumption) Hk0).
    destruct (N.ltb_spec d0 (k0 * c0 + c0)); lia.
Qed.

Lemma map2_length {A B C} (f : A -> B -> C) : forall l m, length l = length m -> length (map2 f l m) = length l.
Proof. induction l; intros [|y m] H; try discriminate H; cbn [map2 length]; auto. Qed.

Lemma prodN_le : forall a b, Forall2 N.le a b -> prodN a <= prodN b.
Proof. induction 1; cbn [prodN]; [lia|nia]. Qed.
Lemma iter_count_le : forall start cdims dims, length start = length cdims -> length dims = length cdims ->
  Forall2 N.le (map2 (fun sc d => if d <? fst sc + snd sc then d - fst sc else snd sc) (combine start cdims) dims) cdims.
Proof.
  induction start as [|s st IH]; intros [|c cd] [|d ds] L1 L2; cbn [length combine map2] in *; try discriminate; [constructor|].
  constructor; [cbn [fst snd]; destruct (N.ltb_spec d (s + c)); lia|apply IH; lia].
Qed.

(* a chunk has at most MaxHyperslabElements elements: Chunk() goes through ReadSlice, which refuses larger requests *)
Theorem chunk_iter_tiles full dims cdims :
  Forall u64 dims -> dims <> [] -> lenN full = prodN dims ->
  length cdims = length dims -> Forall (fun c => 0 < c) cdims -> prodN cdims <= max_hyperslab_elements ->
  (* every chunk of the grid is visited exactly once *)
  NoDup (iter_coords dims cdims) /\
  (* every element of the dataset lies in the box of exactly one visited chunk *)
  (forall x, Forall2 N.lt x dims ->
     exists cc, In cc (iter_coords dims cdims) /\ In x (sel_coords (box_axes dims cdims cc)) /\
                forall cc', In cc' (iter_coords dims cdims) ->
                            In x (sel_coords (box_axes dims cdims cc')) -> cc' = cc) /\
  (* the piece of a visited chunk is the selection of its box from the full read *)
  (forall cc, In cc (iter_coords dims cdims) ->
     iter_piece full dims cdims cc = Some (select full dims (box_axes dims cdims cc))).
Proof.
  intros Ud Hne Hlen L Hc Hmaxc. split; [apply NoDup_all_coords|]. split.
  - intros x Hx. pose proof (Forall2_length _ _ _ Hx) as Lx.
    assert (BX : forall cc, In cc (iter_coords dims cdims) ->
              (In x (sel_coords (box_axes dims cdims cc)) <-> cc = map2 N.div x cdims)).
    { intros cc Hcc.
      assert (Lcc : length cc = length x).
      { unfold iter_coords in Hcc. apply in_all_coords, Forall2_length in Hcc. rewrite Hcc, map2_length; lia. }
      pose proof (grid_chunk_box_valid cc dims cdims L Hc Hcc) as (B1 & B2 & _).
      unfold box_axes. rewrite in_slice_coords by lia.
      apply in_box_iff; try lia; assumption. }
    exists (map2 N.div x cdims).
    pose proof (own_chunk_in_grid x dims cdims ltac:(lia) Hc Hx) as Hin.
    split; [assumption|]. split; [apply BX; [assumption|reflexivity]|].
    intros cc' Hcc' Hx'. apply BX; assumption.
  - intros cc Hcc. unfold iter_piece.
    pose proof (grid_chunk_box_valid cc dims cdims L Hc Hcc) as SV.
    destruct (iter_box dims cdims cc) as [start count] eqn:EB. cbn [fst snd] in SV.
    rewrite read_slice_ok; try assumption.
    + unfold box_axes. rewrite EB. reflexivity.
    + split; [assumption|]. split; assumption.
    + destruct SV as (SL1 & _). unfold iter_box in EB. injection EB as Es Ec. rewrite <- Ec.
      eapply N.le_trans; [apply prodN_le, iter_count_le|exact Hmaxc]; [rewrite Es|]; lia.
Qed.
