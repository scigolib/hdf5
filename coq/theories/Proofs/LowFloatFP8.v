(* C20, FP8 half: for every format with 1..5 mantissa bits whose subnormals float32 can represent, the
   magnitude encoder is monotone and rounds to nearest-even in value; then run lifting, sign symmetry,
   code round trips and NaN handling for E4M3 and E5M2. *)
From HV Require Import Base.Prelude Model.LowFloat Model.LowFloatTie Proofs.LowFloatBase.

(* the formats the proofs cover.  M <= 5: the exponent field has at least two bits, so the subnormal codes 0..2^M stay
   below the exponent-all-ones block; B + M <= 126: half the smallest subnormal, 2^(-B-M), is a normal float32 *)
Definition fmt_ok (F : fp8fmt) : Prop := 1 <= fM F <= 5 /\ fbias F + fM F <= 126.

Lemma fmt_ok_std F : F = E4M3 \/ F = E5M2 -> fmt_ok F.
Proof. intros [->| ->]; cbv; intuition discriminate. Qed.

Lemma even_shift k q : N.even (k * 2 + q) = N.even q.
Proof. replace (k * 2 + q) with (q + 2 * k) by lia. apply N.even_add_mul_2. Qed.

Section Format.
  Variable F : fp8fmt.
  Hypothesis HF : fmt_ok F.
  Let M := fM F.
  Let B := fbias F.
  Let P := 2 ^ M.
  Let emax := f_emax F.
  Let HM : 1 <= M <= 5 := proj1 HF.
  Let HB : B + M <= 126 := proj2 HF.

  Lemma fmt_pows : 2 <= P <= 32 /\ (emax + 1) * P = 128 /\ P * 2 ^ (23 - M) = 8388608 /\ f_expmask F = emax * P.
  Proof.
    assert (2 ^ 1 <= P) by (apply N.pow_le_mono_r; lia).
    assert (P <= 2 ^ 5) by (apply N.pow_le_mono_r; lia).
    assert (E : emax + 1 = 2 ^ (7 - M)).
    { unfold emax, f_emax. fold M. assert (Hp := pow2_pos (7 - M)). lia. }
    rewrite E. unfold P. rewrite <- !N.pow_add_r.
    replace (7 - M + M) with 7 by lia. replace (M + (23 - M)) with 23 by lia.
    repeat split; auto.
  Qed.


  (* below the normal range the code is the exact value in units of the subnormal spacing 2^(150-B-M), rounded;
     this covers the underflow to zero as well *)
  Lemma enc_mag_sub mag : mag / 8388608 < 128 - B -> fp8_enc_mag F mag = rne_shift (X32 mag) (150 - B - M).
  Proof.
    intro He. unfold fp8_enc_mag. fold M B emax.
    replace (127 + emax - B <? mag / 8388608) with false by (symmetry; apply N.ltb_ge; lia).
    replace (mag / 8388608 <? 128 - B) with true by (symmetry; apply N.ltb_lt; lia).
    destruct (N.ltb_spec (mag / 8388608) (127 - B - M)) as [Hz|Hs]; symmetry.
    - (* less than half the spacing: below the binade whose start is 2^(149-B-M) *)
      apply rne_shift_below.
      replace (150 - B - M) with (N.succ (23 + (127 - B - M - 1))) by lia.
      rewrite N.pow_succ_r', N.pow_add_r, <- X32_binade by lia.
      apply N.mul_lt_mono_pos_l; [lia|]. apply X32_mono_strict. lia.
    - rewrite (X32_eq mag _ _ (N.div_mod mag 8388608 ltac:(lia))) by (apply N.mod_lt; lia).
      replace (mag / 8388608 =? 0) with false by (symmetry; apply N.eqb_neq; lia).
      replace (150 - B - M) with (151 - M - B - mag / 8388608 + (mag / 8388608 - 1)) by lia.
      apply rne_shift_scale. lia.
  Qed.

  Definition clamp (c : N) : N := if f_expmask F <=? c then 127 else c.

  Lemma enc_mag_norm mag : 128 - B <= mag / 8388608 <= 127 + emax - B ->
    fp8_enc_mag F mag = clamp ((mag / 8388608 + B - 127) * P + rne_shift (mag mod 8388608) (23 - M)).
  Proof.
    intro He. unfold fp8_enc_mag. fold M B emax.
    replace (127 + emax - B <? mag / 8388608) with false by (symmetry; apply N.ltb_ge; lia).
    replace (mag / 8388608 <? 128 - B) with false by (symmetry; apply N.ltb_ge; lia).
    reflexivity.
  Qed.

  (* the exponent field would be all ones, or more *)
  Lemma enc_mag_over mag : 127 + emax - B <= mag / 8388608 -> fp8_enc_mag F mag = 127.
  Proof.
    destruct fmt_pows as (HP & HE & _ & HX).
    intro He. destruct (N.eq_dec (mag / 8388608) (127 + emax - B)) as [E|Hne].
    - rewrite enc_mag_norm by nia. unfold clamp. rewrite HX, E.
      replace (emax * P <=? _) with true; [reflexivity|]. symmetry. apply N.leb_le.
      replace (127 + emax - B + B - 127) with emax by lia. lia.
    - unfold fp8_enc_mag. fold B emax.
      now replace (127 + emax - B <? mag / 8388608) with true by (symmetry; apply N.ltb_lt; lia).
  Qed.

  Lemma clamp_mono a b : a <= b -> clamp a <= clamp b.
  Proof.
    destruct fmt_pows as (HP & HE & _ & HX). intro H. unfold clamp. rewrite HX.
    destruct (N.leb_spec (emax * P) a), (N.leb_spec (emax * P) b); lia.
  Qed.

  Lemma enc_mag_sub_le mag : mag / 8388608 < 128 - B -> fp8_enc_mag F mag <= P.
  Proof.
    destruct fmt_pows as (_ & _ & HH & _).
    intro He. rewrite enc_mag_sub by exact He. apply rne_shift_hi.
    replace (150 - B - M) with (23 - M + (128 - B - 1)) by lia.
    rewrite N.pow_add_r, N.mul_assoc, HH, <- X32_binade by lia. apply X32_mono. lia.
  Qed.

  Theorem enc_mag_range mag : fp8_enc_mag F mag < f_expmask F \/ fp8_enc_mag F mag = 127.
  Proof.
    destruct fmt_pows as (HP & HE & _ & HX).
    destruct (N.lt_ge_cases (mag / 8388608) (128 - B)) as [Hs|Hn].
    - left. assert (Hle := enc_mag_sub_le mag Hs). lia.
    - destruct (N.le_gt_cases (127 + emax - B) (mag / 8388608)) as [Ho|Hm].
      + right. apply enc_mag_over, Ho.
      + rewrite enc_mag_norm by lia. generalize ((mag / 8388608 + B - 127) * P + rne_shift (mag mod 8388608) (23 - M)).
        intro c. unfold clamp. destruct (N.leb_spec (f_expmask F) c); auto.
  Qed.

  Theorem enc_mag_mono a b : a <= b -> fp8_enc_mag F a <= fp8_enc_mag F b.
  Proof.
    destruct fmt_pows as (HP & HE & HH & HX).
    intro Hab. assert (He : a / 8388608 <= b / 8388608) by (apply N.div_le_mono; lia).
    destruct (N.lt_ge_cases (b / 8388608) (128 - B)) as [Hs|Hn].
    { rewrite !enc_mag_sub by lia. now apply rne_shift_mono, X32_mono. }
    destruct (N.le_gt_cases (127 + emax - B) (b / 8388608)) as [Ho|Hm].
    { rewrite (enc_mag_over b Ho). destruct (enc_mag_range a); lia. }
    rewrite (enc_mag_norm b) by lia.
    destruct (N.lt_ge_cases (a / 8388608) (128 - B)) as [Hs|Hna].
    { assert (Hle := enc_mag_sub_le a Hs). unfold clamp. destruct (_ <=? _); [lia|].
      assert (1 * P <= (b / 8388608 + B - 127) * P) by (apply N.mul_le_mono_r; lia). lia. }
    rewrite (enc_mag_norm a) by lia. apply clamp_mono.
    destruct (N.eq_dec (a / 8388608) (b / 8388608)) as [E|Hne].
    - rewrite E. apply N.add_le_mono_l, rne_shift_mono. lia.
    - (* a lower binade: even a carry out of the mantissa stays below the start of the binade of b *)
      assert (R : rne_shift (a mod 8388608) (23 - M) <= P) by (apply rne_shift_hi; lia).
      apply N.le_trans with ((a / 8388608 + B - 127 + 1) * P); [lia|].
      apply N.le_trans with ((b / 8388608 + B - 127) * P); [apply N.mul_le_mono_r; lia|lia].
  Qed.

  (* the grid: subnormal codes and the first normal code lie on one line; above, P codes per binade *)
  Lemma V8_low c : c <= P -> V8 F c = c * 2 ^ (150 - B - M).
  Proof.
    destruct fmt_pows as (HP & _). intro Hc. unfold V8, SC. fold M B P.
    destruct (N.eq_dec c P) as [->|Hne].
    - rewrite N.div_same, N.mod_same by lia. now rewrite N.add_0_r.
    - now rewrite N.div_small, N.mod_small by lia.
  Qed.

  Lemma V8_norm be q : 1 <= be -> q < P -> V8 F (be * P + q) = (P + q) * 2 ^ (149 + be - B - M).
  Proof.
    intros Hb Hq. unfold V8, SC. fold M B P.
    rewrite N.div_add_l, N.div_small, N.add_0_r by lia.
    rewrite N.add_comm, N.mod_add, N.mod_small by lia.
    now replace (be =? 0) with false by (symmetry; apply N.eqb_neq; lia).
  Qed.

  (* the next code is one ulp further, also across the binade boundary *)
  Lemma V8_succ be q : 1 <= be -> q < P ->
    V8 F (be * P + q + 1) = V8 F (be * P + q) + 2 ^ (149 + be - B - M).
  Proof.
    intros Hb Hq. rewrite (V8_norm be q) by assumption.
    destruct (N.eq_dec (q + 1) P) as [E|Hne].
    - replace (be * P + q + 1) with ((be + 1) * P + 0) by lia. rewrite V8_norm by lia.
      replace (149 + (be + 1) - B - M) with (N.succ (149 + be - B - M)) by lia. rewrite N.pow_succ_r'. lia.
    - replace (be * P + q + 1) with (be * P + (q + 1)) by lia. rewrite V8_norm by lia. lia.
  Qed.

  Lemma V8_grid : grid_mono (V8 F).
  Proof.
    destruct fmt_pows as (HP & _).
    assert (Hstep : forall k, V8 F k < V8 F (k + 1)).
    { intro k. destruct (N.lt_ge_cases k P) as [Hk|Hk].
      - rewrite !V8_low by lia. assert (Hp := pow2_pos (150 - B - M)). lia.
      - assert (Hd := N.div_mod k P ltac:(lia)). assert (Hm := N.mod_lt k P ltac:(lia)).
        assert (1 <= k / P) by (apply N.div_le_lower_bound; lia).
        rewrite Hd at 2. rewrite (N.mul_comm P), V8_succ, <- (N.mul_comm P), <- Hd by assumption.
        assert (Hp := pow2_pos (149 + k / P - B - M)). lia. }
    intros i j Hij. induction j using N.peano_ind; [lia|].
    rewrite <- N.add_1_r in *. specialize (Hstep j).
    destruct (N.eq_dec i j) as [->|Hne]; [exact Hstep|].
    apply N.lt_trans with (V8 F j); [apply IHj; lia|exact Hstep].
  Qed.

  Lemma P_double : P = 2 ^ (M - 1) * 2.
  Proof.
    unfold P. replace M with (N.succ (M - 1)) at 1 by lia. rewrite N.pow_succ_r'. lia.
  Qed.

  Lemma expmask_even : N.even (f_expmask F) = true.
  Proof.
    destruct fmt_pows as (_ & _ & _ & ->). rewrite P_double.
    apply N.even_spec. exists (emax * 2 ^ (M - 1)). lia.
  Qed.

  Theorem enc_mag_rne mag : fp8_rne_ok F mag (fp8_enc_mag F mag) = true.
  Proof.
    destruct fmt_pows as (HP & HE & HH & HX).
    unfold fp8_rne_ok.
    destruct (N.le_gt_cases (127 + emax - B) (mag / 8388608)) as [Ho|Hfin].
    { (* at or beyond the first non-finite grid point *)
      rewrite enc_mag_over by exact Ho. apply rne_spec_overflow; [apply V8_grid|lia|].
      rewrite HX. replace (emax * P) with (emax * P + 0) by lia. rewrite V8_norm by lia.
      replace (149 + emax - B - M) with (23 - M + (127 + emax - B - 1)) by lia.
      rewrite N.pow_add_r, N.add_0_r, N.mul_assoc, HH, <- X32_binade by lia. apply X32_mono.
      clear - Ho. lia. }
    destruct (N.lt_ge_cases (mag / 8388608) (128 - B)) as [Hs|Hn].
    - (* subnormal results: the value is rounded on the grid c * 2^(150-B-M), c <= P *)
      rewrite enc_mag_sub by exact Hs.
      assert (Hlt : X32 mag < P * 2 ^ (150 - B - M)).
      { replace (150 - B - M) with (23 - M + (128 - B - 1)) by lia.
        rewrite N.pow_add_r, N.mul_assoc, HH, <- X32_binade by lia. apply X32_mono_strict. clear - Hs. lia. }
      clear Hs Hfin.
      destruct (rne_shift_spec (X32 mag) (150 - B - M)) as (q & r & h & Hx & Hr & Hp & Hh & C); [lia|].
      rewrite Hp in *.
      assert (Hq : q < P) by (clear - Hx Hlt Hh; nia).
      set (c := rne_shift (X32 mag) (150 - B - M)) in *.
      assert (Hc : (f_expmask F <=? c) = false) by (apply N.leb_gt; destruct C as [[-> _]|[-> _]]; lia).
      pose proof (rne_spec_bracket (V8 F) (f_expmask F) 127 (X32 mag) q c (q * (2 * h)) 1 r h) as R.
      rewrite Hc in R. apply R.
      + apply V8_grid.
      + apply expmask_even.
      + lia.
      + lia.
      + lia.
      + rewrite V8_low, Hp by lia. reflexivity.
      + rewrite V8_low, Hp by lia. lia.
      + lia.
      + exact C.
    - 
      rewrite enc_mag_norm by lia. unfold clamp.
      assert (Hm := N.div_mod mag 8388608 ltac:(lia)). assert (Hf := N.mod_lt mag 8388608 ltac:(lia)).
      set (e := mag / 8388608) in *. set (f := mag mod 8388608) in *. clearbody e f.
      rewrite (X32_eq mag e f Hm Hf). replace (e =? 0) with false by (symmetry; apply N.eqb_neq; lia).
      set (be := e + B - 127). assert (Hbe : 1 <= be /\ be + 1 <= emax) by lia.
      assert (Hpow : 2 ^ (149 + be - B - M) = 2 ^ (23 - M) * 2 ^ (e - 1)).
      { rewrite <- N.pow_add_r. f_equal. lia. }
      clearbody be. clear Hm Hn Hfin.
      destruct (rne_shift_spec f (23 - M)) as (q & r & h & Hx & Hr & Hp & Hh & C); [lia|].
      rewrite Hp in *.
      assert (Hq : q < P) by (clear - Hx Hf HH Hh; nia).
      apply (rne_spec_bracket _ _ _ _ (be * P + q) _ ((P + q) * (2 * h * 2 ^ (e - 1))) (2 ^ (e - 1)) r h).
      + apply V8_grid.
      + apply expmask_even.
      + rewrite HX. apply N.lt_le_trans with ((be + 1) * P); [lia|apply N.mul_le_mono_r; lia].
      + apply pow2_pos.
      + lia.
      + rewrite V8_norm, Hpow by lia. reflexivity.
      + rewrite V8_succ, V8_norm, Hpow by lia. lia.
      + rewrite Hx, <- HH. lia.
      + rewrite P_double, N.mul_assoc, even_shift.
        destruct C as [[-> C]|[-> C]]; [left|right]; (split; [lia|exact C]).
  Qed.

  Lemma fp8_enc_pos x : x <= 2139095040 -> fp8_enc F x = fp8_enc_mag F x.
  Proof.
    destruct fmt_pows as (HP & HE & _).
    intro Hx. unfold fp8_enc, f32_is_nan, f32_is_inf.
    rewrite mag_small, sign_small by lia.
    replace (2139095040 <? x) with false by (symmetry; apply N.ltb_ge; lia).
    destruct (N.eqb_spec x 2139095040) as [->|Hi]. { rewrite enc_mag_over; [reflexivity|]. change (2139095040 / 8388608) with 255. nia. }
    destruct (N.eqb_spec x 0) as [->|Hz]; [|lia].
    rewrite enc_mag_sub, rne_shift_below; [reflexivity|apply pow2_pos|change (0 / 8388608) with 0; lia].
  Qed.

  Lemma fp8_enc_neg x : x <= 2139095040 -> fp8_enc F (x + 2147483648) = fp8_enc_mag F x + 128.
  Proof.
    intro Hx. rewrite <- fp8_enc_pos by exact Hx. unfold fp8_enc, f32_is_nan, f32_is_inf.
    rewrite mag_neg, sign_neg, mag_small, sign_small by lia.
    replace (2139095040 <? x) with false by (symmetry; apply N.ltb_ge; lia).
    destruct (x =? 2139095040); [|destruct (x =? 0)]; lia.
  Qed.
End Format.

Lemma fp8_mono F : F = E4M3 \/ F = E5M2 ->
  forall a b, a <= b -> b <= 2139095040 -> fp8_enc_mag F a <= fp8_enc_mag F b.
Proof. intros HF a b Hab _. apply enc_mag_mono; [apply fmt_ok_std, HF|exact Hab]. Qed.

Lemma fp8_enc_nan F x : f32_is_nan x = true -> fp8_enc F x = 127.
Proof. intro H. unfold fp8_enc. rewrite H. reflexivity. Qed.

Lemma fp8_run_lifting F : fmt_ok F -> forall s e c x,
  run_ok (fp8_enc F) (s, e, c) = true -> s <= x -> x <= e -> x < 4294967296 -> fp8_enc F x = c.
Proof.
  intros HF s e c x H Hsx Hxe Hx.
  apply run_ok_inv in H. destruct H as (Hse & Hseg & Hs & He).
  destruct (seg_run s e Hse Hseg) as [[S Re]|[(S & Rs & Re)|[(S & Rs & Re)|[S Rs]]]].
  - rewrite fp8_enc_pos in * by (auto; lia).
    assert (fp8_enc_mag F s <= fp8_enc_mag F x) by (apply enc_mag_mono; auto; lia).
    assert (fp8_enc_mag F x <= fp8_enc_mag F e) by (apply enc_mag_mono; auto; lia). lia.
  - rewrite <- Hs. rewrite !fp8_enc_nan; [reflexivity| |]; unfold f32_is_nan; rewrite mag_small by lia; apply N.ltb_lt; lia.
  - replace x with (x - 2147483648 + 2147483648) by lia.
    replace s with (s - 2147483648 + 2147483648) in Hs by lia.
    replace e with (e - 2147483648 + 2147483648) in He by lia.
    rewrite fp8_enc_neg in * by (auto; lia).
    assert (fp8_enc_mag F (s - 2147483648) <= fp8_enc_mag F (x - 2147483648)) by (apply enc_mag_mono; auto; lia).
    assert (fp8_enc_mag F (x - 2147483648) <= fp8_enc_mag F (e - 2147483648)) by (apply enc_mag_mono; auto; lia). lia.
  - rewrite <- Hs. rewrite !fp8_enc_nan; [reflexivity| |]; unfold f32_is_nan, f32_mag; apply N.ltb_lt; lia.
Qed.

Lemma fp8_sign F x : x < 2147483648 -> f32_is_nan x = false ->
  fp8_enc F (x + 2147483648) = fp8_enc F x + 128.
Proof.
  intros Hx Hn. unfold fp8_enc, f32_is_nan, f32_is_inf in *.
  rewrite mag_neg, sign_neg by lia. rewrite mag_small, sign_small in * by lia. rewrite Hn.
  destruct (x =? 2139095040); [lia|]. destruct (x =? 0); lia.
Qed.

Lemma codes_below_In d n : d < n -> In d (codes_below n).
Proof.
  intro H. unfold codes_below. apply in_map_iff. exists (N.to_nat d). split; [apply N2Nat.id|].
  apply in_seq. lia.
Qed.

Lemma forall_codes (P : N -> bool) n : forallb P (codes_below n) = true -> forall c, c < n -> P c = true.
Proof. intros H c Hc. rewrite forallb_forall in H. apply H, codes_below_In, Hc. Qed.

Lemma fp8_code_roundtrip F : F = E4M3 \/ F = E5M2 ->
  forall c, c < 256 -> fp8_nan_code F c = false -> fp8_enc F (fp8_dec F c) = c.
Proof.
  intros HF c Hc Hn.
  assert (H : forallb (fun c => fp8_nan_code F c || (fp8_enc F (fp8_dec F c) =? c)) (codes_below 256) = true)
    by (destruct HF as [->| ->]; vm_compute; reflexivity).
  apply forall_codes with (c := c) in H; [|exact Hc]. rewrite Hn in H. apply N.eqb_eq, H.
Qed.

Lemma not_nan_code F : F = E4M3 \/ F = E5M2 ->
  forall c, c < 256 -> c mod 128 < f_expmask F \/ c mod 128 = 127 -> fp8_nan_code F c = false.
Proof.
  intros HF c Hc Hr.
  assert (H : forallb (fun c => negb ((c mod 128 <? f_expmask F) || (c mod 128 =? 127)) || negb (fp8_nan_code F c))
                (codes_below 256) = true) by (destruct HF as [->| ->]; vm_compute; reflexivity).
  apply forall_codes with (c := c) in H; [|exact Hc].
  replace ((c mod 128 <? f_expmask F) || (c mod 128 =? 127)) with true in H.
  - cbn [negb orb] in H. destruct (fp8_nan_code F c); [discriminate|reflexivity].
  - symmetry. apply orb_true_iff. destruct Hr; [left; apply N.ltb_lt|right; apply N.eqb_eq]; assumption.
Qed.

Lemma fp8_no_nan_from_number F : F = E4M3 \/ F = E5M2 ->
  forall x, x < 4294967296 -> f32_is_nan x = false -> fp8_nan_code F (fp8_enc F x) = false.
Proof.
  intros HF x Hx Hn.
  assert (Hs : f32_sign x < 2) by (unfold f32_sign; lia).
  assert (Hm := enc_mag_range F (fmt_ok_std F HF) (f32_mag x)).
  assert (Hk : 0 < f_expmask F < 128) by (destruct (fmt_pows F (fmt_ok_std F HF)) as (? & ? & _ & ->); lia).
  unfold fp8_enc. rewrite Hn.
  set (sg := f32_sign x) in *. set (y := fp8_enc_mag F (f32_mag x)) in *. clearbody sg y.
  destruct (f32_is_inf x); [|destruct (f32_mag x =? 0)]; apply not_nan_code; auto; lia.
Qed.

(* refuted: "a NaN is encoded as a NaN code".  Float32ToFP8* return 0x7F for NaN, which both formats decode as +Inf
   (known finding C20-fp8-nan-is-inf-code) *)
Lemma fp8_nan_refuted :
  exists x, f32_is_nan x = true /\ f32_is_inf (fp8_dec E4M3 (fp8_enc E4M3 x)) = true.
Proof. exists f32_canon_nan. vm_compute. auto. Qed.

Lemma fp8_nan_refuted_e5m2 :
  exists x, f32_is_nan x = true /\ f32_is_inf (fp8_dec E5M2 (fp8_enc E5M2 x)) = true.
Proof. exists f32_canon_nan. vm_compute. auto. Qed.

(* worked values; the last two meet the hypotheses of run lifting and of the code round trip *)
(* 1.96875 = 0x3FFC0000: mantissa rounds up to 8 and carries into the exponent: 2.0 = 0x40 *)
Example e4m3_carry : fp8_enc E4M3 1073479680 = 64. Proof. vm_compute. reflexivity. Qed.
(* 1.0625 = 0x3F880000 is a tie between 0x38 (1.0, even) and 0x39 (1.125): down; 1.1875 ties up to 0x3A *)
Example e4m3_tie_down : fp8_enc E4M3 1065877504 = 56. Proof. vm_compute. reflexivity. Qed.
Example e4m3_tie_up : fp8_enc E4M3 1066926080 = 58. Proof. vm_compute. reflexivity. Qed.
(* exponent field 15 is reserved, so the largest finite E4M3 value is 240 = 0x77 (odd code) and the next grid
   point is 256; 248 = 0x43780000 is the midpoint: overflow to 0x7F; the float just below stays finite *)
Example e4m3_overflow_tie : fp8_enc E4M3 1131937792 = 127. Proof. vm_compute. reflexivity. Qed.
Example e4m3_below_overflow : fp8_enc E4M3 1131937791 = 119. Proof. vm_compute. reflexivity. Qed.
(* 2^-10 = 0x3A800000 is half the smallest subnormal: tie to even -> 0; the next float gives code 1 *)
Example e4m3_underflow_tie : fp8_enc E4M3 981467136 = 0. Proof. vm_compute. reflexivity. Qed.
Example e4m3_underflow_up : fp8_enc E4M3 981467137 = 1. Proof. vm_compute. reflexivity. Qed.
(* largest subnormal 7*2^-9 rounds up into the smallest normal 0x08 when above the midpoint *)
Example e4m3_sub_carry : fp8_enc E4M3 (1006632960 + 7340033) = 8. Proof. vm_compute. reflexivity. Qed.
Example e5m2_overflow : fp8_enc E5M2 1198522368 = 127 /\ fp8_enc E5M2 1198522367 = 123. Proof. vm_compute. auto. Qed.
Example e5m2_negative : fp8_enc E5M2 (1065353216 + 2147483648) = 188. Proof. vm_compute. reflexivity. Qed.
Example e4m3_run_example : run_ok (fp8_enc E4M3) (1065091073, 1065877504, 56) = true. Proof. vm_compute. reflexivity. Qed.
Example e4m3_roundtrip_hyp : fp8_nan_code E4M3 119 = false /\ fp8_nan_code E4M3 126 = true /\ fp8_nan_code E4M3 127 = false.
Proof. vm_compute. auto. Qed.
