(* C18 - the start/stop protocols of Model/Lifecycle.v under all interleavings of any number of callers.
   (a), (b) patched: the reachable states are listed (i_phase, m_phase) and the theorems read off the list;
   (a) as found: closes are counted against calls (i_counted); refutations are traces.
   (c) tree level: every installed object is a reachable state of (a) (ginv, t_ginv, both variants);
   for `current` only the newest object, the one the field points to, can be running (tinv). *)
From Coq Require Import Arith Bool List Lia.
Import ListNotations.
From HV Require Import Model.Lifecycle.

(* hypotheses Some _ = Some _ are injected and substituted, None = Some _ closes the goal *)
Ltac inv_some :=
  repeat match goal with
  | H : Some _ = Some _ |- _ => inversion H; subst; clear H
  | H : None = Some _ |- _ => discriminate H
  end.

(* case analysis on every `if` condition and every matched nat that occurs in a hypothesis
   (the step functions branch on flags and on counters being zero) *)
Ltac split_ifs :=
  repeat match goal with
  | H : context [if ?b then _ else _] |- _ => destruct b eqn:?
  | H : context [match ?n with O => _ | S _ => _ end] |- _ => destruct n eqn:?
  end.

Lemma nth_error_snoc {A} (l : list A) a k x : nth_error (l ++ [a]) k = Some x ->
  (k < length l /\ nth_error l k = Some x) \/ (k = length l /\ x = a).
Proof.
  intros H. destruct (Nat.lt_ge_cases k (length l)) as [Hl|Hl].
  - left. rewrite nth_error_app1 in H by exact Hl. auto.
  - right. rewrite nth_error_app2 in H by exact Hl.
    destruct (k - length l) as [|d] eqn:E; cbn in H; [inv_some; split; [lia|reflexivity]|].
    destruct d; discriminate.
Qed.

(* There is never more than one worker, so apart from the number of blocked Stop callers and the call
   counters the patched protocol is a finite automaton.  These are its states, in the order a run
   visits them (n = Stop callers blocked in <-stoppedChan; somebody waits from close(stopChan) on). *)
Inductive i_phase : ist -> Prop :=
| Ph_idle a b c :               i_phase (mkI false false false false false 0 0 0 0 0 0 a b c)
| Ph_spawning a b c :           i_phase (mkI true false false false false 1 0 0 0 0 0 a b c)
| Ph_loop a b c :               i_phase (mkI true false false false false 0 0 0 1 0 0 a b c)
| Ph_stop_spawning n a b c :    i_phase (mkI true true false false false 1 1 n 0 0 0 a b c)
| Ph_stop_loop n a b c :        i_phase (mkI true true false false false 0 1 n 1 0 0 a b c)
| Ph_closed_spawning n a b c :  i_phase (mkI true true true false false 1 0 (S n) 0 0 0 a b c)
| Ph_closed_loop n a b c :      i_phase (mkI true true true false false 0 0 (S n) 1 0 0 a b c)
| Ph_got n a b c :              i_phase (mkI true true true false false 0 0 (S n) 0 1 0 a b c)
| Ph_exit n a b c :             i_phase (mkI false true true false false 0 0 (S n) 0 0 1 a b c)
| Ph_done n a b c :             i_phase (mkI false true true true false 0 0 n 0 0 0 a b c).

Lemma i_phase_step s l s' : i_phase s -> istep true s l = Some s' -> i_phase s'.
Proof. intros H Hst. destruct H; destruct l; cbn in Hst; split_ifs; inv_some; constructor. Qed.

Lemma i_phase_reach s : ireach true s -> i_phase s.
Proof. induction 1; [constructor | eapply i_phase_step; eauto]. Qed.

(* no channel is closed twice, whatever the callers do *)
Theorem inc_fixed_no_double_close s : ireach true s -> i_panic s = false.
Proof. intros H. destruct (i_phase_reach _ H); reflexivity. Qed.

(* Start spawns at most one worker per rebalancer, ever *)
Theorem inc_fixed_one_worker s : ireach true s -> i_spawn s + i_workers s <= 1.
Proof. intros H. destruct (i_phase_reach _ H); cbn; lia. Qed.

(* when a Stop returns, no worker is alive and none is about to be spawned
   (and none ever will be: inc_fixed_stopped_is_final) *)
Theorem inc_fixed_stop_leaves_no_worker s s' :
  ireach true s -> istep true s IReturn = Some s' -> i_workers s' = 0 /\ i_spawn s' = 0.
Proof.
  intros Hr Hst. destruct (i_phase_reach _ Hr); cbn in Hst; split_ifs; inv_some. split; reflexivity.
Qed.

Theorem inc_fixed_stopped_is_final s :
  ireach true s -> i_stopped_closed s = true -> i_workers s = 0 /\ i_spawn s = 0 /\ i_running s = false.
Proof. intros Hr. destruct (i_phase_reach _ Hr); try discriminate. repeat split. Qed.

(* no deadlock: while a Stop is blocked, some step of the system itself is enabled, and every such
   step brings the release strictly closer (measure decreases); so under weak fairness of the
   goroutines (the select loop eventually takes a ready stop branch) every Stop returns *)
Theorem inc_fixed_progress s :
  ireach true s -> i_wait s > 0 -> i_stopped_closed s = false ->
  exists l s', i_internal l = true /\ istep true s l = Some s' /\ i_measure s' < i_measure s.
Proof.
  intros Hr Hw Hd. destruct (i_phase_reach _ Hr); cbn in Hw, Hd; try lia; try discriminate;
    (* the step each of the six phases with a blocked Stop offers *)
    [exists IClose | exists IClose | exists ISpawn | exists ITakeStop | exists IClearRunning | exists ICloseStopped];
    eexists; (split; [reflexivity|]); (split; [reflexivity|]); cbn; lia.
Qed.

Theorem inc_internal_decreases fixed s l s' :
  i_internal l = true -> istep fixed s l = Some s' -> i_panic s' = false -> i_measure s' + 1 = i_measure s.
Proof.
  destruct s as [running stopping sc sdc pn nsp ncl nw wl wg we nst nsto nret].
  unfold istep, i_measure. cbn [i_panic]. intros Hl Hst Hp. destruct pn; [discriminate|].
  (* a worker passes spawn -> loop -> got -> exit -> gone with weights 4, 3, 2, 1, 0; a pending close weighs 1;
     the closes that would not change the measure are the ones that panic *)
  destruct l; try discriminate Hl; cbn in Hst.
  - destruct nsp; inv_some. cbn. lia.
  - destruct ncl; [discriminate|]. destruct sc; inv_some; [discriminate|]. cbn. lia.
  - destruct wl; [discriminate|]. destruct sc; inv_some. cbn. lia.
  - destruct wg; inv_some. cbn. lia.
  - destruct we; [discriminate|]. destruct sdc; inv_some; [discriminate|]. cbn. lia.
Qed.

(* two Stop calls that both pass the `running` check close stopChan twice *)
Definition trace_double_stop : list ilabel := [IStartCall; ISpawn; IStopCall; IStopCall; IClose; IClose].

Theorem inc_double_stop_refuted :
  exists s, irun false i_init trace_double_stop = Some s /\ i_panic s = true /\ i_starts s = 1 /\ i_stops s = 2.
Proof. eexists. split; [vm_compute; reflexivity|]. cbn. auto. Qed.

(* strictly sequential use: Start, Stop (returns), Start again on the same object: the new worker
   closes stoppedChan a second time *)
Definition trace_restart : list ilabel :=
  [IStartCall; ISpawn; IStopCall; IClose; ITakeStop; IClearRunning; ICloseStopped; IReturn;
   IStartCall; ISpawn; ITakeStop; IClearRunning; ICloseStopped].

Theorem inc_restart_refuted :
  exists s, irun false i_init trace_restart = Some s /\ i_panic s = true /\ i_returned s = 1.
Proof. eexists. split; [vm_compute; reflexivity|]. cbn. auto. Qed.

Lemma irun_reach fixed ls : forall s s', ireach fixed s -> irun fixed s ls = Some s' -> ireach fixed s'.
Proof.
  induction ls as [|l ls IH]; intros s s' Hr H; cbn in H.
  - inversion H; subst; exact Hr.
  - destruct (istep fixed s l) eqn:E; [|discriminate]. eapply IH; [|exact H]. econstructor; eauto.
Qed.

Theorem inc_old_panic_reachable : exists s, ireach false s /\ i_panic s = true.
Proof.
  destruct inc_double_stop_refuted as [s [H [P _]]]. exists s. split; [|exact P].
  eapply irun_reach; [constructor | exact H].
Qed.

(* the same schedule in the patched protocol: the second Stop waits, there is no second close *)
Theorem inc_fixed_double_stop_ok :
  exists s, irun true i_init [IStartCall; ISpawn; IStopCall; IStopCall; IClose] = Some s /\
    i_panic s = false /\ i_wait s = 2 /\ istep true s IClose = None.
Proof. eexists. split; [vm_compute; reflexivity|]. cbn. auto. Qed.

(* the code as found is correct for the only use the library makes of it when calls do not overlap:
   one Start and one Stop per rebalancer object.  In either version every caller about to close
   stopChan, and the close itself, is paid for by a Stop call, every worker and the close of stoppedChan
   by a Start call; a second close therefore needs a second call. *)
Definition i_counted (s : ist) : Prop :=
  i_close s + (if i_stop_closed s then 1 else 0) <= i_stops s /\
  i_spawn s + i_loop s + i_got s + i_exit s + (if i_stopped_closed s then 1 else 0) <= i_starts s /\
  (i_panic s = true -> 2 <= i_starts s \/ 2 <= i_stops s).

Lemma i_counted_step fixed s l s' : i_counted s -> istep fixed s l = Some s' -> i_counted s'.
Proof.
  destruct s as [running stopping sc sdc pn nsp ncl nw wl wg we nst nsto nret].
  unfold i_counted, istep; cbn. intros Hc Hst. destruct pn; [discriminate|]. revert Hc.
  destruct l; split_ifs; inv_some; cbn; intros (H1 & H2 & _); repeat split; intros; try discriminate; lia.
Qed.

Lemma i_counted_reach fixed s : ireach fixed s -> i_counted s.
Proof.
  induction 1; [|eapply i_counted_step; eauto]. unfold i_counted; cbn. repeat split; intros; try discriminate; lia.
Qed.

Theorem inc_old_single_use_partial s :
  ireach false s -> i_starts s <= 1 -> i_stops s <= 1 -> i_panic s = false.
Proof.
  intros Hr A B. destruct (i_counted_reach _ _ Hr) as (_ & _ & H).
  destruct (i_panic s); [destruct (H eq_refl); lia | reflexivity].
Qed.

(* lifecycleMu serialises Start and Stop, so the patched protocol cycles through four states *)
Inductive m_phase : sst -> Prop :=
| Mp_idle cc a b c :   m_phase (mkM false cc false false 0 0 0 0 a b c)
| Mp_started a b c :   m_phase (mkM true false false false 1 0 1 0 a b c)
| Mp_cancelled a b c : m_phase (mkM false true true false 1 1 0 1 a b c)   (* Stop waits, the worker has yet to exit *)
| Mp_drained a b c :   m_phase (mkM false true true false 0 1 0 0 a b c).  (* Stop waits, wg.Wait() can return *)

Lemma m_phase_step s l s' : m_phase s -> mstep true s l = Some s' -> m_phase s'.
Proof. intros H Hst. destruct H; destruct l; cbn in Hst; inv_some; constructor. Qed.

Lemma m_phase_reach s : mreach true s -> m_phase s.
Proof. induction 1; [constructor | eapply m_phase_step; eauto]. Qed.

Theorem smart_fixed_one_worker s : mreach true s -> m_workers s <= 1 /\ m_misuse s = false.
Proof. intros H. destruct (m_phase_reach _ H); cbn; split; auto. Qed.

Theorem smart_fixed_stop_leaves_no_worker s s' :
  mreach true s -> mstep true s MReturn = Some s' -> m_workers s' = 0 /\ m_started s' = false.
Proof. intros Hr Hst. destruct (m_phase_reach _ Hr); cbn in Hst; inv_some. split; reflexivity. Qed.

(* a blocked Stop is always released by the worker it cancelled *)
Theorem smart_fixed_progress s :
  mreach true s -> m_wait s > 0 ->
  (exists s', mstep true s MReturn = Some s') \/
  (exists s', mstep true s MExit = Some s' /\ m_wg s' < m_wg s).
Proof.
  intros Hr Hw. destruct (m_phase_reach _ Hr); cbn in Hw; try lia.
  - right. eexists. split; [reflexivity|]. cbn. lia.
  - left. eexists. reflexivity.
Qed.

(* a Start that overlaps a waiting Stop creates a second monitoring goroutine ... *)
Theorem smart_old_two_workers_refuted :
  exists s, mrun false m_init [MStartCall; MStopCall; MStartCall] = Some s /\ m_workers s = 2 /\ m_wait s = 1.
Proof. eexists. split; [vm_compute; reflexivity|]. cbn. auto. Qed.

(* ... and once the old goroutine has re-read sr.ctx, the first Stop is blocked and no step of the
   system itself is enabled: it returns only if somebody calls Stop again *)
Theorem smart_old_stop_blocked_refuted :
  exists s, mrun false m_init [MStartCall; MStopCall; MStartCall; MReselect] = Some s /\
    m_wait s = 1 /\ m_workers s = 2 /\ mstep false s MReturn = None /\ mstep false s MExit = None /\
    mstep false s MReselect = None.
Proof. eexists. split; [vm_compute; reflexivity|]. cbn. auto. Qed.

(* wg.Add(1) with a zero counter while the previous Wait has not returned *)
Theorem smart_old_waitgroup_misuse_refuted :
  exists s, mrun false m_init [MStartCall; MStopCall; MExit; MStartCall] = Some s /\ m_misuse s = true.
Proof. eexists. split; [vm_compute; reflexivity|]. cbn. auto. Qed.

(* a second Stop returns at once although the worker is still alive *)
Theorem smart_old_stop_returns_early_refuted :
  exists s, mrun false m_init [MStartCall; MStopCall; MStopCall] = Some s /\ m_stops s = 2 /\
    m_wait s = 1 /\ m_workers s = 1.
Proof. eexists. split; [vm_compute; reflexivity|]. cbn. auto. Qed.

Lemma upd_some k f : forall l l', upd k f l = Some l' ->
  exists x y, nth_error l k = Some x /\ f x = Some y /\ length l' = length l /\
    forall j, nth_error l' j = if Nat.eqb j k then Some y else nth_error l j.
Proof.
  induction k as [|k IH]; intros l l' H; destruct l as [|a r]; cbn in H; try discriminate.
  - destruct (f a) as [y|] eqn:E; [|discriminate]. inv_some.
    exists a, y. repeat split; auto. intros [|j]; reflexivity.
  - destruct (upd k f r) as [r'|] eqn:E; [|discriminate]. inv_some.
    destruct (IH _ _ E) as [x [y [H1 [H2 [H3 H4]]]]].
    exists x, y. repeat split; auto; [cbn; congruence|]. intros [|j]; [reflexivity|]. cbn. apply H4.
Qed.

Lemma upd_ok k f : forall l x y, nth_error l k = Some x -> f x = Some y ->
  exists l', upd k f l = Some l' /\ nth_error l' k = Some y.
Proof.
  induction k as [|k IH]; intros l x y H1 H2; destruct l as [|a r]; cbn in H1; try discriminate.
  - inv_some. cbn. rewrite H2. eauto.
  - destruct (IH _ _ _ H1 H2) as [r' [E Hy]]. cbn. rewrite E. eauto.
Qed.

Definition g_started (i : ist) : bool := i_running i || i_stopping i.

Lemma istep_facts s l s' : i_phase s -> g_started s = true -> istep true s l = Some s' ->
  g_started s' = true /\
  (i_stopped_closed s = true -> i_stopped_closed s' = true) /\
  (l <> IStartCall -> i_running s' = true -> i_running s = true) /\
  (l = IReturn -> i_stopped_closed s' = true).
Proof.
  intros H Hg Hst. destruct H; try discriminate Hg;
    destruct l; cbn in Hst; split_ifs; inv_some; cbn; repeat split; intros; congruence.
Qed.

Lemma i_started_reach : ireach true i_started.
Proof. eapply (irun_reach true [IStartCall; ISpawn] i_init); [constructor | reflexivity]. Qed.

(* what the tree level knows about every object it has installed *)
Definition ginv (g : gen) : Prop :=
  ireach true (g_in g) /\ g_started (g_in g) = true /\ (g_post g > 0 -> i_stopped_closed (g_in g) = true).

Lemma ginv_new : ginv g_new.
Proof. split; [exact i_started_reach|]. split; [reflexivity|]. cbn. lia. Qed.

(* one object moves: its system-(a) state stays, or takes a step other than a Start call; callers past
   rebalancer.Stop() appear only with IReturn (or a Stop call on an object never started) *)
Lemma gstep_inner x l y : gstep x l = Some y ->
  g_in y = g_in x /\ g_post y <= g_post x \/
  exists il, il <> IStartCall /\ istep true (g_in x) il = Some (g_in y) /\
    (g_post y = g_post x \/ il = IReturn \/ g_started (g_in x) = false).
Proof.
  destruct x as [i pre post prog]. destruct l as [| |il| | |]; cbn; intros H.
  - inv_some. auto.
  - destruct pre; [discriminate|]. destruct (istep true i IStopCall) as [i'|] eqn:E; [|discriminate]. inv_some.
    right. exists IStopCall. split; [discriminate|]. split; [exact E|]. unfold g_started. cbn.
    destruct (i_running i), (i_stopping i); auto.
  - right. exists il. destruct il; try discriminate; destruct (istep true i _) as [i'|]; try discriminate; inv_some;
      (split; [discriminate|]); (split; [reflexivity|]); cbn; auto.
  - destruct post; [discriminate|]. inv_some. cbn. auto.
  - inv_some. auto.
  - destruct prog; [discriminate|]. inv_some. auto.
Qed.

Lemma gstep_ginv x l y : ginv x -> gstep x l = Some y ->
  ginv y /\ (i_running (g_in y) = true -> i_running (g_in x) = true).
Proof.
  intros [Hr [Hs Hp]] H. unfold ginv.
  destruct (gstep_inner _ _ _ H) as [[-> Hle] | [il [Hne [E Hpost]]]].
  - repeat split; auto. intros Hy. apply Hp. lia.
  - destruct (istep_facts _ _ _ (i_phase_reach _ Hr) Hs E) as [F1 [F2 [F3 F4]]].
    repeat split; [econstructor; eauto | exact F1 | | exact (F3 Hne)].
    intros Hy. destruct Hpost as [Ep | [-> | Hns]]; [apply F2, Hp; lia | exact (F4 eq_refl) | congruence].
Qed.

Lemma gstep_finish x y : gstep x GFinish = Some y -> g_post x > 0 /\ g_in y = g_in x.
Proof. destruct x as [i pre [|p] prog]; cbn; intros H; inv_some. cbn. split; [lia | reflexivity]. Qed.

(* the effect of one tree-level step on the list of objects and on the field: nothing, a new object the
   field now points to, or one object moves by gstep; then the field stays, or is cleared (`current`: only
   by a Stop caller finishing on the object the field points to) *)
Lemma tstep_shape v s l s' : tstep v s l = Some s' ->
  (t_gens s' = t_gens s /\ t_field s' = t_field s) \/
  (t_gens s' = t_gens s ++ [g_new] /\ field_running (t_field s) (t_gens s) = false /\
   t_field s' = Some (length (t_gens s))) \/
  (exists k gl, at_gen k gl (t_gens s) = Some (t_gens s') /\
     (t_field s' = t_field s \/
      t_field s' = None /\ (v = early_detach \/ gl = GFinish /\ t_field s = Some k))).
Proof.
  destruct s as [fld gens nen nref nst nnil nret]. unfold tstep. cbn [t_gens t_field].
  destruct l; intros H.
  - destruct (negb lazy || field_running fld gens) eqn:E; inv_some; cbn; [auto|].
    right; left. apply orb_false_iff in E. tauto.
  - destruct fld; [|inv_some; cbn; auto]. destruct (at_gen _ _ _) eqn:E; [|discriminate]. inv_some. cbn.
    right; right. exists n, GHoldStop. split; [exact E|]. destruct v; auto.
  - destruct (at_gen _ _ _) eqn:E; [|discriminate]. inv_some. cbn. eauto 7.
  - destruct (at_gen _ _ _) eqn:E; [|discriminate]. inv_some. cbn. eauto 7.
  - destruct (at_gen _ _ _) eqn:E; [|discriminate]. inv_some. cbn.
    right; right. exists g, GFinish. split; [exact E|].
    destruct v; [|auto]. destruct ok; [|auto]. destruct fld as [k|]; [|auto].
    destruct (Nat.eqb k g) eqn:Ek; [|auto]. apply Nat.eqb_eq in Ek. subst k. auto 6.
  - inv_some. auto.
  - destruct fld; [|inv_some; cbn; auto]. destruct (at_gen _ _ _) eqn:E; [|discriminate]. inv_some. cbn. eauto 7.
  - destruct (at_gen _ _ _) eqn:E; [|discriminate]. inv_some. cbn. eauto 7.
Qed.

(* the product property (both variants): every object installed in the tree is a reachable state of system (a),
   has been started, and callers past rebalancer.Stop() exist only when its stoppedChan is closed *)
Lemma t_ginv v s : treach v s -> forall k g, nth_error (t_gens s) k = Some g -> ginv g.
Proof.
  induction 1 as [|s l s' Hr IH Hst]; intros k g Hn.
  - destruct k; discriminate.
  - destruct (tstep_shape _ _ _ _ Hst) as [[E _] | [[E _] | [k0 [gl [E _]]]]].
    + rewrite E in Hn. eauto.
    + rewrite E in Hn. apply nth_error_snoc in Hn. destruct Hn as [[_ Hn] | [_ ->]]; [eauto | exact ginv_new].
    + apply upd_some in E. destruct E as [x [y [H1 [H2 [_ H4]]]]]. rewrite H4 in Hn.
      destruct (Nat.eqb k k0); [inv_some; eapply gstep_ginv; eauto | eauto].
Qed.

Theorem tree_projects_to_inc v s k g : treach v s -> nth_error (t_gens s) k = Some g -> ireach true (g_in g).
Proof. intros Hr Hn. exact (proj1 (t_ginv _ _ Hr _ _ Hn)). Qed.

(* `current`: only the object the field points to can have `running` set, and it is the newest one *)
Definition tinv (s : tst) : Prop :=
  (forall k g, nth_error (t_gens s) k = Some g -> i_running (g_in g) = true -> t_field s = Some k) /\
  (forall k, t_field s = Some k -> S k = length (t_gens s)).

Lemma tinv_reach s : treach current s -> tinv s.
Proof.
  induction 1 as [|s l s' Hr [I1 I2] Hst].
  - split; [intros [|k] g H; discriminate | discriminate].
  - pose proof (t_ginv _ _ Hr) as HG. unfold tinv.
    destruct (tstep_shape _ _ _ _ Hst) as [[Eg Ef] | [(Eg & Erun & Ef) | (k0 & gl & E & Ef)]].
    + rewrite Eg, Ef. auto.
    + rewrite Eg, Ef. split.
      * intros k g Hn Hk. apply nth_error_snoc in Hn. destruct Hn as [[_ Hn] | [-> _]]; [|reflexivity].
        exfalso. rewrite (I1 _ _ Hn Hk) in Erun. unfold field_running in Erun. rewrite Hn in Erun. congruence.
      * intros k Hk. inv_some. rewrite app_length. cbn. lia.
    + apply upd_some in E. destruct E as (x & y & H1 & H2 & H3 & H4).
      destruct (gstep_ginv _ _ _ (HG _ _ H1) H2) as [_ Hrun]. split.
      * intros k g Hn Hk. rewrite H4 in Hn.
        assert (Hold : t_field s = Some k).
        { destruct (Nat.eqb k k0) eqn:Ek; [apply Nat.eqb_eq in Ek; subst k0; inv_some; eauto | eauto]. }
        destruct Ef as [-> | [_ [Hv | [-> Hfk]]]]; [exact Hold | discriminate Hv |].
        (* the field has been cleared: object k0 = k has a closed stoppedChan, so `running` is false *)
        exfalso. rewrite Hfk in Hold. inv_some. rewrite Nat.eqb_refl in Hn. inv_some.
        destruct (HG _ _ H1) as [Hr' [_ Hp]]. destruct (gstep_finish _ _ H2) as [Hpost _].
        destruct (inc_fixed_stopped_is_final _ Hr' (Hp Hpost)) as [_ [_ Hrf]].
        rewrite (Hrun Hk) in Hrf. discriminate.
      * intros k Hk. rewrite H3. destruct Ef as [Ef | [Ef _]]; rewrite Ef in Hk; [auto | discriminate].
Qed.

Lemma i_active_running s : ireach true s -> i_active s > 0 -> i_running s = true.
Proof. intros Hr. destruct (i_phase_reach _ Hr); cbn; auto; lia. Qed.

(* no double close of any channel of any object, whatever the callers of the four wrappers do (either variant) *)
Theorem tree_no_panic v s k g : treach v s -> nth_error (t_gens s) k = Some g -> i_panic (g_in g) = false.
Proof. intros Hr Hn. apply inc_fixed_no_double_close. eapply tree_projects_to_inc; eauto. Qed.

(* at most one goroutine per tree that may still run a rebalancing session: it belongs to the object
   the field points to.  (Goroutines past `ir.running = false` that have only their deferred
   ticker.Stop() / close(stoppedChan) left are not counted: see tree_exiting_overlap_example.) *)
Theorem tree_at_most_one_active_worker s : treach current s ->
  (forall k g, nth_error (t_gens s) k = Some g -> i_active (g_in g) <= 1) /\
  (forall k g, nth_error (t_gens s) k = Some g -> i_active (g_in g) > 0 -> t_field s = Some k) /\
  (forall k1 g1 k2 g2, nth_error (t_gens s) k1 = Some g1 -> nth_error (t_gens s) k2 = Some g2 ->
     i_active (g_in g1) > 0 -> i_active (g_in g2) > 0 -> k1 = k2).
Proof.
  intros Hr. pose proof (tinv_reach _ Hr) as [I1 _].
  assert (A : forall k g, nth_error (t_gens s) k = Some g -> i_active (g_in g) > 0 -> t_field s = Some k).
  { intros k g Hn Ha. apply (I1 _ _ Hn). apply i_active_running; [|exact Ha].
    eapply tree_projects_to_inc; eauto. }
  split; [|split; [exact A|]].
  - intros k g Hn. pose proof (inc_fixed_one_worker _ (tree_projects_to_inc _ _ _ _ Hr Hn)).
    unfold i_workers, i_active in *. lia.
  - intros k1 g1 k2 g2 H1 H2 A1 A2. pose proof (A _ _ H1 A1). pose proof (A _ _ H2 A2). congruence.
Qed.

(* every goroutine that is still on its way out is awaited by a Stop call on its own object:
   while stopChan is closed and stoppedChan is not, the caller that closed it is blocked in <-stoppedChan *)
Theorem tree_exiting_worker_is_awaited v s k g : treach v s -> nth_error (t_gens s) k = Some g ->
  i_exit (g_in g) > 0 -> i_wait (g_in g) > 0 /\ i_stopped_closed (g_in g) = false.
Proof.
  intros Hr Hn. destruct (i_phase_reach _ (tree_projects_to_inc _ _ _ _ Hr Hn)); cbn; lia.
Qed.

(* "a stop that returns leaves no worker" (line numbers: internal/structures/btreev2_incremental.go).  A
   StopIncrementalRebalancing call that read object g from the field (line 191) and returns (208 / 217): at that moment object g has no goroutine at all (stoppedChan is
   closed), no object installed at or before g has a goroutine that may still run a session, and the only
   object that can have one was installed by an EnableIncrementalRebalancing AFTER this call read the field
   (index > g) and is the one the field points to now. *)
Theorem tree_stop_return_means_stopped s g ok s' :
  treach current s -> tstep current s (TStopFinish g ok) = Some s' ->
  (exists gs, nth_error (t_gens s') g = Some gs /\ i_stopped_closed (g_in gs) = true /\
              i_workers (g_in gs) = 0 /\ i_spawn (g_in gs) = 0) /\
  (forall k gs, nth_error (t_gens s') k = Some gs -> k <= g -> i_active (g_in gs) = 0) /\
  (forall k gs, nth_error (t_gens s') k = Some gs -> i_active (g_in gs) > 0 -> g < k /\ t_field s' = Some k).
Proof.
  intros Hr Hst. assert (Hr' : treach current s') by (econstructor; eauto).
  assert (G : exists gs, nth_error (t_gens s') g = Some gs /\ i_stopped_closed (g_in gs) = true /\
              i_workers (g_in gs) = 0 /\ i_spawn (g_in gs) = 0).
  { destruct s as [fld gens nen nref nst nnil nret]. unfold tstep in Hst.
    destruct (at_gen g GFinish gens) as [gens'|] eqn:E; [|discriminate]. inv_some. cbn [t_gens].
    apply upd_some in E. destruct E as [x [y [H1 [H2 [_ H4]]]]].
    exists y. split; [rewrite H4, Nat.eqb_refl; reflexivity|].
    destruct (t_ginv _ _ Hr _ _ H1) as [Hi [_ Hp]]. destruct (gstep_finish _ _ H2) as [Hpost ->].
    destruct (inc_fixed_stopped_is_final _ Hi (Hp Hpost)) as [A [B _]]. auto. }
  assert (T : forall k gs, nth_error (t_gens s') k = Some gs -> i_active (g_in gs) > 0 -> g < k /\ t_field s' = Some k).
  { intros k gs Hn Ha. destruct (tree_at_most_one_active_worker _ Hr') as [_ [A _]].
    pose proof (A _ _ Hn Ha) as Hf. split; [|exact Hf].
    destruct (tinv_reach _ Hr') as [_ I2]. specialize (I2 _ Hf).
    destruct G as [gs0 [Hg [_ [Hw Hs]]]].
    assert (g < length (t_gens s')) by (apply nth_error_Some; congruence).
    assert (k <> g). { intros ->. rewrite Hg in Hn. inv_some. unfold i_active, i_workers in *. lia. }
    lia. }
  split; [exact G|]. split; [|exact T].
  intros k gs Hn Hk. destruct (i_active (g_in gs)) eqn:Ea; [reflexivity|].
  destruct (T _ _ Hn); lia.
Qed.

(* ... and a call that returns at line 195 because it found the field nil: at that moment no object ever
   installed in this tree has a goroutine that may still run a session *)
Theorem tree_stop_nil_return_no_active_worker s s' :
  treach current s -> tstep current s TStopRead = Some s' -> t_ret_nil s' = S (t_ret_nil s) ->
  forall k gs, nth_error (t_gens s') k = Some gs -> i_active (g_in gs) = 0.
Proof.
  intros Hr Hst Hn k gs Hk. assert (Hr' : treach current s') by (econstructor; eauto).
  assert (F : t_field s' = None).
  { destruct s as [fld gens nen nref nst nnil nret]. unfold tstep in Hst. destruct fld.
    - destruct (at_gen _ _ _); [|discriminate]. inv_some. cbn in Hn. lia.
    - inv_some. reflexivity. }
  destruct (i_active (g_in gs)) eqn:Ea; [reflexivity|].
  destruct (tree_at_most_one_active_worker _ Hr') as [_ [A _]].
  assert (Hf : t_field s' = Some k) by (apply (A _ _ Hk); lia). congruence.
Qed.

(* progress: a StopIncrementalRebalancing call is never stuck.  Before rebalancer.Stop() and after it the
   call itself can move; while it is blocked in <-stoppedChan some step of the system itself (not a new API
   call) is enabled on that object and brings the release closer (system (a)'s measure).  That the enabled
   steps are taken is scheduler fairness, not modelled. *)
Theorem tree_stop_progress s g gs : treach current s -> nth_error (t_gens s) g = Some gs ->
  (g_pre gs > 0 -> exists s', tstep current s (TStopInner g) = Some s') /\
  (g_post gs > 0 -> exists s', tstep current s (TStopFinish g true) = Some s') /\
  (i_wait (g_in gs) > 0 -> i_stopped_closed (g_in gs) = false ->
   exists l s' gs', i_internal l = true /\ tstep current s (TInner g l) = Some s' /\
     nth_error (t_gens s') g = Some gs' /\ i_measure (g_in gs') < i_measure (g_in gs)).
Proof.
  intros Hr Hn. pose proof (tree_projects_to_inc _ _ _ _ Hr Hn) as Hi.
  destruct s as [fld gens nen nref nst nnil nret]. cbn [t_gens] in Hn. unfold tstep, at_gen.
  split; [|split].
  - intros Hp. assert (E : exists y, gstep gs GStopInner = Some y).
    { destruct gs as [i [|pre] post prog]; cbn in *; [lia|]. destruct (i_phase_reach _ Hi); cbn; eauto. }
    destruct E as [y E]. destruct (upd_ok g (fun x => gstep x GStopInner) _ _ _ Hn E) as [l' [E' _]]. rewrite E'. eauto.
  - intros Hp. assert (E : exists y, gstep gs GFinish = Some y).
    { destruct gs as [i pre [|post] prog]; cbn in *; [lia | eauto]. }
    destruct E as [y E]. destruct (upd_ok g (fun x => gstep x GFinish) _ _ _ Hn E) as [l' [E' _]]. rewrite E'. eauto.
  - intros Hw Hd. destruct (inc_fixed_progress _ Hi Hw Hd) as [l [i' [Hl [Hs Hm]]]].
    assert (E : gstep gs (GInner l) = Some (mkG i' (g_pre gs) (g_post gs) (g_prog gs))).
    { destruct gs as [i pre post prog]. cbn [g_in g_pre g_post g_prog] in *.
      destruct l; try discriminate; cbn; rewrite Hs; reflexivity. }
    destruct (upd_ok g (fun x => gstep x (GInner l)) _ _ _ Hn E) as [l' [E' Hy]].
    exists l. eexists. eexists. rewrite E'. repeat split; [exact Hl | exact Hy | exact Hm].
Qed.

Lemma trun_reach v ls : forall s s', treach v s -> trun v s ls = Some s' -> treach v s'.
Proof.
  induction ls as [|l ls IH]; intros s s' Hr H; cbn in H.
  - inversion H; subst; exact Hr.
  - destruct (tstep v s l) eqn:E; [|discriminate]. eapply IH; [|exact H]. econstructor; eauto.
Qed.

(* Enable; a first Stop reads the object and sets the field to nil; a second Stop finds nil and returns
   (t_ret_nil = 1) while the goroutine of object 0 is in its select loop and nobody has even asked it to stop *)
Definition trace_early_detach : list tlabel := [TEnable true; TStopRead; TStopRead].

Theorem tree_early_detach_refuted :
  exists s gs, trun early_detach t_init trace_early_detach = Some s /\
    t_stops s = 2 /\ t_ret_nil s = 1 /\ nth_error (t_gens s) 0 = Some gs /\
    i_loop (g_in gs) = 1 /\ i_stop_closed (g_in gs) = false /\ i_stopped_closed (g_in gs) = false /\ g_pre gs = 1.
Proof. eexists. eexists. split; [vm_compute; reflexivity|]. cbn. repeat split; reflexivity. Qed.

(* the same three calls in the code as it is: the second Stop holds the object too, nobody has returned *)
Theorem tree_current_same_schedule_ok :
  exists s gs, trun current t_init trace_early_detach = Some s /\
    t_ret_nil s = 0 /\ t_ret s = 0 /\ nth_error (t_gens s) 0 = Some gs /\ g_pre gs = 2 /\ t_field s = Some 0.
Proof. eexists. eexists. split; [vm_compute; reflexivity|]. cbn. repeat split; reflexivity. Qed.

(* `early_detach` also lets Enable start a second session-running goroutine on the same tree *)
Theorem tree_early_detach_two_workers_refuted :
  exists s g0 g1, trun early_detach t_init [TEnable true; TStopRead; TEnable true] = Some s /\
    nth_error (t_gens s) 0 = Some g0 /\ nth_error (t_gens s) 1 = Some g1 /\
    i_active (g_in g0) = 1 /\ i_active (g_in g1) = 1.
Proof. eexists. eexists. eexists. split; [vm_compute; reflexivity|]. cbn. repeat split; reflexivity. Qed.

Theorem tree_early_detach_reachable_violation :
  exists s gs, treach early_detach s /\ t_ret_nil s > 0 /\ nth_error (t_gens s) 0 = Some gs /\ i_active (g_in gs) > 0.
Proof.
  destruct tree_early_detach_refuted as [s [gs [H [_ [Hn [Hg [Hl _]]]]]]]. exists s, gs.
  split; [eapply trun_reach; [constructor | exact H]|]. unfold i_active. repeat split; try lia. exact Hg.
Qed.

(* two overlapping stop requests: both hold object 0, both wait in <-stoppedChan (i_wait = 2 after the
   close), both return after the goroutine has ended; the first clears the field *)
Definition trace_two_stops_wait : list tlabel :=
  [TEnable true; TStopRead; TStopRead; TStopInner 0; TStopInner 0; TInner 0 IClose].
Definition trace_two_stops_finish : list tlabel :=
  [TInner 0 ITakeStop; TInner 0 IClearRunning; TInner 0 ICloseStopped; TInner 0 IReturn; TInner 0 IReturn;
   TStopFinish 0 true; TStopFinish 0 true].

Example tree_two_overlapping_stops :
  exists s1 g1 s2 g2,
    trun current t_init trace_two_stops_wait = Some s1 /\ nth_error (t_gens s1) 0 = Some g1 /\
    i_wait (g_in g1) = 2 /\ i_loop (g_in g1) = 1 /\ t_ret s1 = 0 /\ tstep current s1 (TInner 0 IReturn) = None /\
    trun current s1 trace_two_stops_finish = Some s2 /\ nth_error (t_gens s2) 0 = Some g2 /\
    t_ret s2 = 2 /\ t_ret_nil s2 = 0 /\ t_field s2 = None /\ i_workers (g_in g2) = 0 /\ i_stopped_closed (g_in g2) = true.
Proof.
  eexists. eexists. eexists. eexists. split; [vm_compute; reflexivity|]. cbn.
  repeat split; try reflexivity.
Qed.

(* the strict reading of "one goroutine per tree" does not hold: Enable tests isRunning(), which
   is false as soon as the goroutine has executed `ir.running = false` (btreev2_incremental.go line 312), before its deferred
   ticker.Stop() and close(stoppedChan) have run.  So while a first Stop is still blocked on object 0, Enable
   can install object 1 and start its goroutine, and a Stop on object 1 can return, all before the goroutine of
   object 0 has finished returning.  That goroutine touches nothing of the tree any more and is awaited by its
   own Stop (tree_exiting_worker_is_awaited). *)
Definition trace_exiting_overlap : list tlabel :=
  [TEnable true; TStopRead; TStopInner 0; TInner 0 IClose; TInner 0 ITakeStop; TInner 0 IClearRunning;
   TEnable true].
Definition trace_exiting_overlap_stop : list tlabel :=
  [TStopRead; TStopInner 1; TInner 1 IClose; TInner 1 ITakeStop; TInner 1 IClearRunning; TInner 1 ICloseStopped;
   TInner 1 IReturn; TStopFinish 1 true].

Example tree_exiting_overlap_example :
  exists s1 a0 a1 s2 b0,
    trun current t_init trace_exiting_overlap = Some s1 /\
    nth_error (t_gens s1) 0 = Some a0 /\ nth_error (t_gens s1) 1 = Some a1 /\
    i_exit (g_in a0) = 1 /\ i_wait (g_in a0) = 1 /\ i_active (g_in a0) = 0 /\ i_active (g_in a1) = 1 /\
    trun current s1 trace_exiting_overlap_stop = Some s2 /\ t_ret s2 = 1 /\ t_field s2 = None /\
    nth_error (t_gens s2) 0 = Some b0 /\ i_exit (g_in b0) = 1 /\ i_wait (g_in b0) = 1.
Proof.
  eexists. eexists. eexists. eexists. eexists.
  repeat (split; [vm_compute; reflexivity|]). reflexivity.
Qed.
