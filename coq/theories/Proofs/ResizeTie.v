(* C13 unit tie: the executable check of the hypotheses (Model/ResizeTie.v stored_ok) is sound for the invariant
   [stored] of Proofs/Resize.v. *)
From HV Require Import Base.Prelude Base.Outcome Base.Bytes Model.CodecMsg Model.CodecOhdr Model.Resize Model.ResizeTie.
From HV Require Import Proofs.ResizeBase Proofs.Resize.

Lemma split_ds_spec ms : forall b d a, split_ds ms = Some (b, d, a) ->
  ms = b ++ d :: a /\ no_ds b = true /\ hm_type d = MSG_DATASPACE.
Proof.
  induction ms as [|m r IH]; intros b d a H; cbn [split_ds] in H; [discriminate|].
  destruct (hm_type m =? MSG_DATASPACE) eqn:E.
  - inversion H; subst. apply N.eqb_eq in E. auto.
  - destruct (split_ds r) as [[[b' d'] a']|]; [|discriminate]. inversion H; subst.
    destruct (IH b' d a eq_refl) as (E1 & E2 & E3). subst r.
    repeat split; auto. cbn [no_ds forallb]. rewrite E. cbn [negb andb]. exact E2.
Qed.

Lemma stored_ok_sound img dims maxd : stored_ok img dims maxd = true ->
  exists flags before after suf, stored img 0 flags before after dims maxd [] suf.
Proof.
  unfold stored_ok. destruct (dec_ohdr false img 0) as [oh| |]; try discriminate.
  destruct (split_ds (map to_hmsg (ohp_msgs oh))) as [[[b d] a]|] eqn:ES; [|discriminate].
  intros H.
  apply andb_true_iff in H as [H H6]. apply andb_true_iff in H as [H H5]. apply andb_true_iff in H as [H H4].
  apply andb_true_iff in H as [H H3]. apply andb_true_iff in H as [H1 H2].
  apply split_ds_spec in ES as (EM & Hno & Hty).
  apply bytes_eqb_eq in H2, H3. apply N.ltb_lt in H6.
  assert (Ed : d = ds_msg dims maxd).
  { destruct d as [ty data]. cbn [hm_type hm_data] in *. subst ty data. reflexivity. }
  subst d. rewrite EM in *.
  exists (ohp_flags oh), b, a.
  match type of H2 with firstn ?n img = ?e => exists (skipn n img) end.
  constructor; auto.
  cbn [app]. unfold hdr_of. rewrite <- H2 at 1. symmetry. apply firstn_skipn.
Qed.
