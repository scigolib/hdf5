(* C01 end to end: the composition, stated with the mathematical product of the extents, and a witness that the hypotheses
   are satisfiable (the file of Proofs/IOProgExamples.v ex2, written by the library). *)
From HV Require Import Base.Prelude Base.Outcome Base.Bytes Model.IOProg Proofs.IOProg Model.IOProgReader Model.IOProgOpen.
From HV Require Import Model.CodecSuper Model.CodecOhdr Model.CodecMsg Model.CodecType Proofs.CodecMsg.
From HV Require Import Model.FileImage Proofs.FileImage Proofs.FileImageOhdr Proofs.FileImageData Proofs.FileImageGroup
  Proofs.FileImageOpen Proofs.FileImageAttrOhdr Proofs.FileImageGenOpen Proofs.FileImageProd.

Definition decoded_type_shape (h : ohdr') : outcome (N * N * N * list N) :=
  d <- match find_msg 3 (ohp_msgs h) with Some b => dec_datatype b | None => Err end;;
  s <- match find_msg 1 (ohp_msgs h) with Some b => dec_dataspace b | None => Err end;;
  Ok (dt_class d, dt_size d, dt_cbf d, dsp_dims s).

Lemma type_shape_decoded h c s b dims : basic_dtype c s b = true -> dims_ok dims = true ->
  find_msg 3 (ohp_msgs h) = Some (enc_datatype (dtype_msg c s b)) ->
  find_msg 1 (ohp_msgs h) = Some (enc_dataspace {| ds_dims := dims; ds_maxdims := [] |}) ->
  decoded_type_shape h = Ok (c, s, b, dims).
Proof.
  intros Hb Hd E3 E1. unfold decoded_type_shape. rewrite E3, E1, (dataspace_roundtrip _ (wf_ds dims Hd)).
  destruct (basic_dt_decoded c s b Hb) as (dt & -> & E). cbn [obind proj_dataspace dsp_dims ds_dims]. now rewrite E.
Qed.

Section Main.
Variable name : bytes.
Variables class size cbf : N.
Variable dims : list N.
Variable data : bytes.
Hypothesis Hname : link_name_ok name = true.
Hypothesis Hdt : basic_dtype class size cbf = true.
Hypothesis Hdims : dims_ok dims = true.
Hypothesis Hlen : blen data = product dims * size.
Hypothesis Hbound : blen data < 4294967296.
Local Notation f := (image_v2 name class size cbf dims data).

Lemma size_ge1 : 1 <= size.
Proof using Hdt. clear - Hdt. exact (proj1 (size_pos class size cbf Hdt)). Qed.
Lemma prod_small : product dims < 18446744073709551616.
Proof using Hdt Hlen Hbound. clear - Hdt Hlen Hbound. pose proof size_ge1. nia. Qed.
Lemma Hlen' : blen data = total_elems dims * size.
Proof using Hdt Hdims Hlen Hbound. clear - Hdt Hdims Hlen Hbound. rewrite (total_elems_product dims Hdims prod_small). exact Hlen. Qed.
Lemma Hpos' : 0 < blen data.
Proof using Hdt Hdims Hlen. clear - Hdt Hdims Hlen. pose proof (product_pos dims Hdims). pose proof size_ge1. nia. Qed.

Theorem file_roundtrip fuel hfuel : (3 <= fuel)%nat -> (3 < hfuel)%nat ->
  run0 f (p_open true (blen f) fuel hfuel) = Ok (Grp [47] ROOT_ADDR [Dset name (dset_addr data)]) /\
  run0 f p_superblock = Ok SB' /\
  run0 f (api_read_raw SB' hfuel (dset_addr data)) = Ok (RawBytes data) /\
  exists h, run0 f (p_ohdr SB' hfuel (dset_addr data)) = Ok h /\ decoded_type_shape h = Ok (class, size, cbf, dims).
Proof.
  intros Hf Hh. pose proof Hlen' as HL. pose proof Hpos' as HP.
  pose proof (eof_u64 data Hbound) as Heof.
  assert (Hok : ohdr_ok2 (dset_ohdr class size cbf dims)).
  { apply (dset_ohdr_ok2 _ dims _ []); [exact (dt_msg_ge2 class size cbf Hdt) | constructor |].
    apply (N.le_trans _ 250); [exact (dso_chunk_bound class size cbf dims data Hdt Hdims HL Hbound) | discriminate]. }
  split; [|split; [|split]].
  - destruct fuel as [|[|[|n]]]; try blia.
    exact (v2_open (eof_addr data) name data _ _ [] Hname Heof Hok (da_bound data Hbound) [] eq_refl eq_refl hfuel Hh n).
  - exact (v2_superblock (eof_addr data) name data _ _ [] Hname Heof).
  - exact (contig_read SB' class size cbf dims data DATA_ADDR Hdt Hdims HL HP Hbound eq_refl eq_refl eq_refl eq_refl eq_refl f _ hfuel
             (P_dset name class size cbf dims data Hname) (da_bound data Hbound) Hh (P_data name class size cbf dims data Hname)).
  - eexists. split; [exact (dset_header name class size cbf dims data Hname Hdt Hdims HL Hbound hfuel Hh) | now apply type_shape_decoded].
Qed.
End Main.

Lemma file_roundtrip_stmt : forall name class size cbf dims data fuel hfuel,
  link_name_ok name = true -> basic_dtype class size cbf = true -> dims_ok dims = true ->
  blen data = product dims * size -> blen data < 4294967296 -> (3 <= fuel)%nat -> (3 < hfuel)%nat ->
  let f := image_v2 name class size cbf dims data in
  run0 f (p_open true (blen f) fuel hfuel) = Ok (Grp [47] ROOT_ADDR [Dset name (dset_addr data)]) /\
  run0 f p_superblock = Ok SB' /\
  run0 f (api_read_raw SB' hfuel (dset_addr data)) = Ok (RawBytes data) /\
  exists h, run0 f (p_ohdr SB' hfuel (dset_addr data)) = Ok h /\ decoded_type_shape h = Ok (class, size, cbf, dims).
Proof. intros. now apply file_roundtrip. Qed.

(* the hypotheses are satisfiable: "/d" = uint8 [1,2,3]; the image is the file the library wrote (Proofs/IOProgExamples.v ex2) *)
Example file_roundtrip_witness :
  link_name_ok [100] = true /\ basic_dtype DT_FIXED 1 0 = true /\ dims_ok [3] = true /\
  blen [1; 2; 3] = product [3] * 1 /\ blen [1; 2; 3] < 4294967296.
Proof. repeat split. Qed.
