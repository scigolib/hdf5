(* C07: one statement per conversion loop (restated in Props/C07.v).  No panic and no fuel exhaustion are read off the closed
   forms of Proofs/RobustConv.v: neither Some Panic nor None occurs in them. *)
From HV Require Import Base.Prelude Base.Outcome Base.Bytes Model.RobustAlloc Model.RobustConv.
From HV Require Import Proofs.RobustNoPanicBase Proofs.RobustAlloc Proofs.RobustConv.

Lemma conv_float64_robust raw es n :
  blen raw < 9223372036854775808 -> n < 18446744073709551616 ->
  fst (conv_float64 raw es n) <> Some Panic /\ fst (conv_float64 raw es n) <> None /\
  alloc_bounded 8 0 raw (snd (conv_float64 raw es n)) /\
  forall k, fst (conv_float64 raw es n) = Some (Ok k) -> k = n /\ n * es <= blen raw.
Proof.
  intros H1 H2. split; [|split; [|split; [apply conv_float64_alloc|]]].
  1, 2: rewrite conv_float64_closed by assumption; cbn [fst]; repeat dif; discriminate.
  intros k Hk. destruct (conv_float64_ok raw es n k H1 H2 Hk) as (A & B & _). split; assumption.
Qed.

Lemma conv_strings_robust raw ss n :
  blen raw < 9223372036854775808 -> n < 18446744073709551616 ->
  fst (conv_strings raw ss n) <> Some Panic /\ fst (conv_strings raw ss n) <> None /\
  alloc_bounded 16 0 raw (snd (conv_strings raw ss n)).
Proof.
  intros H1 H2. split; [|split; [|apply conv_strings_alloc]].
  all: rewrite conv_strings_closed by assumption; cbn [fst]; repeat dif; discriminate.
Qed.

Lemma conv_compound_robust raw ss members n :
  blen raw < 9223372036854775808 -> ss < 4294967296 -> n < 18446744073709551616 ->
  fst (conv_compound raw ss members n) <> Some Panic /\ fst (conv_compound raw ss members n) <> None /\
  alloc_bounded 8 0 raw (snd (conv_compound raw ss members n)).
Proof.
  intros H1 H2 H3. split; [|split; [|apply conv_compound_alloc]].
  all: rewrite conv_compound_closed by assumption; cbn [fst]; repeat dif; discriminate.
Qed.
