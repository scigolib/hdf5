(* C03 end to end, reader stages for groups placed ANYWHERE in a file (Model/TreeImage.v appends a group's blocks at the end of
   the file, so their addresses are symbolic).  local_heap_placed: LoadLocalHeap's program on a placed heap returns the segment
   (Proofs/FileImageGroup.v heap_stage_at, header and segment placed separately).  snod_placed: ParseSymbolTableNode's program
   on a placed well-formed node of n <= 32 entries (the bytes SymbolTableNode.WriteAt(.., 32) produces, snod_bytes) returns its
   n entries (link name offset, object address) in order: the n-entry version of snod_stage_at. *)
From HV Require Import Base.Prelude Base.Outcome Base.Bytes Model.IOProg Proofs.IOProg Model.IOProgReader.
From HV Require Import Model.CodecSuper Model.CodecOhdr Model.GroupWire Model.RobustGroup.
From HV Require Import Proofs.GroupWireHeap Proofs.GroupWireSnod.
From HV Require Import Model.FileImage Proofs.FileImage Proofs.FileImageOhdr Proofs.FileImageData Proofs.FileImageGroup.

Local Open Scope N_scope.

Lemma placed_join f a (x y : list N) : placed f a x -> placed f (a + blen x) y -> placed f a (x ++ y).
Proof.
  intros (p & q & E & L) (p' & q' & E' & L'). exists p, q'. split; [|exact L].
  assert (Hl : length p' = length (p ++ x)) by (unfold blen in *; rewrite app_length; blia).
  assert (Hq : skipn (length (p ++ x)) f = y ++ q') by (rewrite <- Hl, E', skipn_app, skipn_all, Nat.sub_diag; reflexivity).
  rewrite E, app_assoc, skipn_app, skipn_all, Nat.sub_diag in Hq. cbn [app skipn] in Hq. now rewrite E, Hq, <- app_assoc.
Qed.

Theorem local_heap_placed f a (seg : list N) :
  placed f a (heap_header (blen seg) 1 (a + 32)) -> placed f (a + 32) seg ->
  0 < blen seg -> a + 32 + blen seg <= MAXI64 ->
  run0 f (p_local_heap SB' a) = Ok seg.
Proof.
  intros Hh Hs Hpos Hb. apply (heap_stage_at SB' eq_refl eq_refl eq_refl f a (blen seg) 1 seg); [|reflexivity | exact Hpos | exact Hb].
  apply placed_join; [exact Hh | now rewrite blen_heap_header].
Qed.

Lemma read_addr_end_le8 v (r : list N) : v < 18446744073709551616 -> read_addr_end SB' (le 8 v ++ r) 8 = Ok v.
Proof.
  intros H. unfold read_addr_end. cbn [SB' spp_bigendian]. rewrite blen_app, blen_le.
  replace (N.min 8 (N.of_nat 8 + blen r)) with 8 by blia.
  change (valid_size 8) with true. cbv iota. unfold rd_end.
  apply rd_le_head; [reflexivity | exact H].
Qed.

(* what the reader makes of an entry the writer produced *)
Definition stentry_of (e : sym) : stentry := (sy_name e, sy_obj e, 0, 0, 0).

Lemma snod_entry_step (p r : list N) e k :
  sym_ok e = true -> sy_cache e = 0 ->
  IOProgReader.snod_entries SB' (S k) (p ++ enc_sym 8 e ++ r) (blen p) =
    (rest <- IOProgReader.snod_entries SB' k (p ++ enc_sym 8 e ++ r) (blen p + 40);; Ok (stentry_of e :: rest)).
Proof.
  intros He Hc0. destruct (sym_ok_spec e He) as (H1 & H2 & H3 & H4 & H5 & H6).
  cbn [IOProgReader.snod_entries]. cbn [SB' spp_offsize spp_bigendian]. change (2 * 8 + 24) with 40.
  rewrite !blen_app, blen_enc_sym.
  replace (blen p + (40 + blen r) <? blen p + 40) with false by (symmetry; apply N.ltb_ge; blia).
  unfold enc_sym, write_address. change (N.to_nat 8) with 8%nat. rewrite Hc0.
  set (A := le 8 (sy_name e)). set (B := le 8 (sy_obj e)). set (D := le 4 (sy_res e)).
  assert (LA : blen A = 8) by apply blen_le. assert (LB : blen B = 8) by apply blen_le.
  rewrite slice_from_app by reflexivity. cbn [obind].
  rewrite <- !app_assoc. unfold A at 1. rewrite read_addr_end_le8 by exact H1. cbn [obind].
  replace (p ++ A ++ B ++ le 4 0 ++ D ++ zeros 16 ++ r) with ((p ++ A) ++ B ++ le 4 0 ++ D ++ zeros 16 ++ r) by (now rewrite <- !app_assoc).
  rewrite slice_from_app by (rewrite blen_app; blia). cbn [obind].
  unfold B at 1. rewrite read_addr_end_le8 by exact H2. cbn [obind].
  replace ((p ++ A) ++ B ++ le 4 0 ++ D ++ zeros 16 ++ r) with ((p ++ A ++ B) ++ le 4 0 ++ (D ++ zeros 16 ++ r))
    by (now rewrite <- !app_assoc).
  unfold rd_end.
  rewrite (rd_le_at (p ++ A ++ B) 4 4 0); [|rewrite !blen_app; blia | reflexivity | reflexivity]. cbn [obind].
  change (0 =? 1) with false. cbv iota. cbn [obind].
  destruct (IOProgReader.snod_entries SB' k ((p ++ A ++ B) ++ le 4 0 ++ D ++ zeros 16 ++ r) (blen p + 40)) as [rest| |]; reflexivity.
Qed.

Lemma snod_entries_enc es : forall (p r : list N),
  Forall (fun e => sym_ok e = true /\ sy_cache e = 0) es ->
  IOProgReader.snod_entries SB' (length es) (p ++ flat_map (enc_sym 8) es ++ r) (blen p) = Ok (map stentry_of es).
Proof.
  induction es as [|e es IH]; intros p r H; [reflexivity|].
  apply Forall_cons_iff in H as [[He Hc] Hr]. cbn [length flat_map map]. rewrite <- app_assoc.
  rewrite snod_entry_step by assumption.
  replace (p ++ enc_sym 8 e ++ flat_map (enc_sym 8) es ++ r) with ((p ++ enc_sym 8 e) ++ flat_map (enc_sym 8) es ++ r)
    by (now rewrite <- app_assoc).
  replace (blen p + 40) with (blen (p ++ enc_sym 8 e)) by (rewrite blen_app, blen_enc_sym; reflexivity).
  rewrite IH by exact Hr. reflexivity.
Qed.

Theorem snod_placed f a s :
  placed f a (snod_bytes s 32) -> snode_ok s = true -> (length (stn_entries s) <= 32)%nat ->
  Forall (fun e => sy_cache e = 0) (stn_entries s) ->
  run0 f (p_snod SB' a) = Ok (map stentry_of (stn_entries s)).
Proof.
  intros HP Hok Hm Hc. destruct (snode_ok_spec s Hok) as (Hv & Hn & Hlt & Hes & Hcap).
  unfold snod_bytes in HP. rewrite firstn_all2 in HP by exact Hm.
  set (es := stn_entries s) in *.
  assert (E : sigSNOD ++ [stn_version s; 0] ++ le 2 (stn_num s) ++ flat_map (enc_sym 8) es ++ zeros (40 * (32 - length es))
            = (sigSNOD ++ [stn_version s; 0] ++ le 2 (stn_num s)) ++ flat_map (enc_sym 8) es ++ zeros (40 * (32 - length es)))
    by (now rewrite <- !app_assoc).
  rewrite E in HP.
  assert (HP1 : placed f a (sigSNOD ++ [stn_version s; 0] ++ le 2 (stn_num s))) by (apply (placed_head _ _ _ _ HP)).
  assert (L8 : blen (sigSNOD ++ [stn_version s; 0] ++ le 2 (stn_num s)) = 8) by (rewrite !blen_app, blen_le; reflexivity).
  unfold p_snod. cbn [SB' spp_offsize spp_bigendian].
  rewrite (run0_read_exact _ f a _ 8 _ HP1 (eq_sym L8)).
  cbn [sigSNOD app firstn]. change (bytes_eqb [83; 78; 79; 68] [83; 78; 79; 68]) with true. cbn [negb].
  cbn [index nth_error N.to_nat Pos.to_nat Pos.iter_op Nat.add]. cbn [obind].
  unfold rd_end.
  rewrite (rd_le_at [83; 78; 79; 68; stn_version s; 0] 2 2 (stn_num s) []);
    [| reflexivity | reflexivity | change (256 ^ 2) with 65536; exact Hlt].
  rewrite Hv. change (index (83 :: 78 :: 79 :: 68 :: 1 :: 0 :: le 2 (stn_num s)) 4) with (@Ok N 1).
  cbn [obind bind lift fst snd]. change (1 =? 1) with true. cbn [negb].
  destruct (stn_num s =? 0) eqn:E0.
  - apply N.eqb_eq in E0. rewrite E0 in Hn. unfold llen in Hn. destruct es; [reflexivity | cbn in Hn; blia].
  - change (2 * 8 + 24) with 40.
    assert (HP2 : placed f (a + 8) (flat_map (enc_sym 8) es)).
    { replace (a + 8) with (a + blen (sigSNOD ++ [stn_version s; 0] ++ le 2 (stn_num s))) by (rewrite L8; reflexivity).
      apply (placed_sub f a _ _ _ HP). }
    assert (LF : blen (flat_map (enc_sym 8) es) = stn_num s * 40).
    { unfold blen. rewrite length_flat_enc. rewrite Hn. unfold llen. blia. }
    rewrite (run0_read_exact _ f (a + 8) _ (stn_num s * 40) _ HP2 (eq_sym LF)).
    cbn [lift]. rewrite Hn. unfold llen. rewrite Nat2N.id.
    pose proof (snod_entries_enc es [] []) as Q. cbn [app blen length N.of_nat] in Q. rewrite app_nil_r in Q.
    change (blen []) with 0 in Q.
    rewrite Q; [reflexivity|].
    apply Forall_forall. intros e He. split; [exact (proj1 (Forall_forall _ _) Hes e He) | exact (proj1 (Forall_forall _ _) Hc e He)].
Qed.
