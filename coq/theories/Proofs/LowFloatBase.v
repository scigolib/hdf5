(* Lemmas shared by the bfloat16 and FP8 proofs of C20: bit tests as arithmetic, rne_shift (rne_shift_spec,
   rne_shift_mono, rne_shift_scale), the float32 value function X32 (linear inside a binade, strictly monotone),
   rne_spec for a value between two neighbouring grid points (rne_spec_between), segments and runs (seg_run). *)
From HV Require Import Base.Prelude Model.LowFloat Model.LowFloatTie.

Lemma land_ones' x k : N.land x (2 ^ k - 1) = x mod 2 ^ k.
Proof. replace (2 ^ k - 1) with (N.ones k). apply N.land_ones. rewrite N.ones_equiv. lia. Qed.

Lemma tb x k : N.testbit x k = N.odd (x / 2 ^ k).
Proof. rewrite <- N.shiftr_div_pow2, <- N.bit0_odd, N.shiftr_spec by lia. reflexivity. Qed.

Lemma land_pow2_cases x k :
  (N.even (x / 2 ^ k) = true /\ N.land x (2 ^ k) = 0) \/
  (N.even (x / 2 ^ k) = false /\ N.land x (2 ^ k) = 2 ^ k).
Proof.
  rewrite <- N.negb_odd, <- tb.
  destruct (N.testbit x k) eqn:T; cbn [negb]; [right|left]; split; auto.
  - apply N.bits_inj; intro n. rewrite N.land_spec.
    destruct (N.eq_dec n k) as [->|Hn].
    + rewrite T, N.pow2_bits_true. reflexivity.
    + rewrite N.pow2_bits_false by auto. apply andb_false_r.
  - apply N.bits_inj; intro n. rewrite N.land_spec, N.bits_0.
    destruct (N.eq_dec n k) as [->|Hn].
    + rewrite T. reflexivity.
    + rewrite N.pow2_bits_false by auto. apply andb_false_r.
Qed.

Lemma bit_test x k : (N.land x (2 ^ k) =? 0) = N.even (x / 2 ^ k).
Proof.
  destruct (land_pow2_cases x k) as [[E H]|[E H]]; rewrite E, H; [reflexivity|].
  apply N.eqb_neq, N.pow_nonzero. lia.
Qed.

Lemma lor_pow2 x k : N.lor x (2 ^ k) = if N.even (x / 2 ^ k) then x + 2 ^ k else x.
Proof.
  destruct (land_pow2_cases x k) as [[E H]|[E H]]; rewrite E.
  - rewrite <- N.lxor_lor by exact H. symmetry. apply N.add_nocarry_lxor. exact H.
  - apply N.bits_inj; intro n. rewrite N.lor_spec.
    destruct (N.eq_dec n k) as [->|Hn].
    + rewrite N.pow2_bits_true, orb_true_r.
      assert (T : N.testbit (N.land x (2 ^ k)) k = true) by (rewrite H; apply N.pow2_bits_true).
      rewrite N.land_spec in T. apply andb_prop in T. symmetry. apply T.
    + rewrite N.pow2_bits_false by auto. apply orb_false_r.
Qed.

Lemma even_cases q : (N.even q = true /\ exists k, q = 2 * k) \/ (N.even q = false /\ exists k, q = 2 * k + 1).
Proof.
  destruct (N.even q) eqn:E.
  - left. split; auto. apply N.even_spec. exact E.
  - right. split; auto. apply N.odd_spec. rewrite <- N.negb_even, E. reflexivity.
Qed.

Lemma pow2_pos n : 0 < 2 ^ n.
Proof. apply N.neq_0_lt_0, N.pow_nonzero. lia. Qed.

Lemma rne_shift_spec x k : 0 < k ->
  exists q r h, x = q * (2 * h) + r /\ r < 2 * h /\ 2 ^ k = 2 * h /\ 0 < h /\
    ((rne_shift x k = q /\ (r < h \/ (r = h /\ N.even q = true))) \/
     (rne_shift x k = q + 1 /\ (h < r \/ (r = h /\ N.even q = false)))).
Proof.
  intro Hk. unfold rne_shift.
  assert (Hp : 2 ^ k = 2 * 2 ^ (k - 1)).
  { rewrite <- N.pow_succ_r by lia. f_equal. lia. }
  assert (Hh : 0 < 2 ^ (k - 1)) by (apply N.neq_0_lt_0, N.pow_nonzero; lia).
  exists (x / 2 ^ k), (x mod 2 ^ k), (2 ^ (k - 1)).
  replace (k =? 0) with false by (symmetry; apply N.eqb_neq; lia).
  assert (Hdm := N.div_mod x (2 ^ k)). assert (Hlt := N.mod_lt x (2 ^ k)).
  rewrite Hp in *. set (h := 2 ^ (k - 1)) in *. clearbody h.
  set (q := x / (2 * h)) in *. set (r := x mod (2 * h)) in *. clearbody q r.
  replace (2 * h / 2) with h by (symmetry; rewrite N.mul_comm; apply N.div_mul; lia).
  repeat split; try lia.
  destruct (r <? h) eqn:E1; [left; split; [reflexivity|lia]|].
  destruct (h <? r) eqn:E2; [right; split; [reflexivity|lia]|].
  destruct (N.even q) eqn:E3; [left|right]; (split; [reflexivity|lia]).
Qed.

Lemma rne_shift_0 x : rne_shift x 0 = x.
Proof. reflexivity. Qed.

Lemma rne_shift_mono k a b : a <= b -> rne_shift a k <= rne_shift b k.
Proof.
  intro Hab. destruct (N.eq_dec k 0) as [->|Hk]; [rewrite !rne_shift_0; exact Hab|].
  destruct (rne_shift_spec a k) as (qa & ra & h & Ha & Hra & Hp & Hh & Ca); [lia|].
  destruct (rne_shift_spec b k) as (qb & rb & h' & Hb & Hrb & Hp' & _ & Cb); [lia|].
  assert (h' = h) by lia. subst h'.
  assert (Hq : qa <= qb) by nia.
  destruct (N.eq_dec qa qb) as [->|Hne].
  - assert (ra <= rb) by lia.
    destruct Ca as [[-> Ca]|[-> Ca]], Cb as [[-> Cb]|[-> Cb]]; try lia.
    destruct Ca as [Ca|[Ca Ea]], Cb as [Cb|[Cb Eb]]; try lia. congruence.
  - destruct Ca as [[-> _]|[-> _]], Cb as [[-> _]|[-> _]]; lia.
Qed.

Lemma rne_shift_mul k c : rne_shift (c * 2 ^ k) k = c.
Proof.
  destruct (N.eq_dec k 0) as [->|Hk]; [rewrite rne_shift_0; change (2 ^ 0) with 1; lia|].
  destruct (rne_shift_spec (c * 2 ^ k) k) as (q & r & h & Hx & Hr & Hp & Hh & C); [lia|].
  rewrite Hp in Hx.
  assert (Hq : q = c).
  { rewrite <- (N.div_mul c (2 * h)) by lia. apply (N.div_unique _ _ q r); lia. }
  subst q. assert (r = 0) by lia. subst r.
  destruct C as [[-> _]|[_ C]]; lia.
Qed.

Lemma rne_shift_hi k x c : x <= c * 2 ^ k -> rne_shift x k <= c.
Proof. intro H. apply (rne_shift_mono k) in H. rewrite rne_shift_mul in H. exact H. Qed.

Lemma rne_shift_below x k : 2 * x < 2 ^ k -> rne_shift x k = 0.
Proof.
  intro H. destruct (N.eq_dec k 0) as [->|Hk]; [rewrite rne_shift_0; change (2 ^ 0) with 1 in H; lia|].
  destruct (rne_shift_spec x k) as (q & r & h & Hx & Hr & Hp & Hh & C); [lia|].
  assert (q = 0) by nia. subst q. destruct C as [[-> _]|[_ C]]; lia.
Qed.

Lemma rne_shift_scale x t k : 0 < k -> rne_shift (x * 2 ^ t) (k + t) = rne_shift x k.
Proof.
  intro Hk.
  destruct (rne_shift_spec x k Hk) as (q & r & h & Hx & Hr & Hp & Hh & C).
  destruct (rne_shift_spec (x * 2 ^ t) (k + t)) as (q' & r' & h' & Hx' & Hr' & Hp' & Hh' & C'); [lia|].
  rewrite N.pow_add_r, Hp in Hp'. assert (HT := pow2_pos t). set (T := 2 ^ t) in *. clearbody T.
  assert (h' = h * T) by nia. subst h'.
  assert (q' = q /\ r' = r * T) as [-> ->] by (apply (N.div_mod_unique (2 * (h * T))); nia).
  destruct C as [[-> C]|[-> C]], C' as [[-> C']|[-> C']]; try reflexivity;
    destruct C as [C|[C E]], C' as [C'|[C' E']]; try nia; congruence.
Qed.

Lemma mag_small x : x < 2147483648 -> f32_mag x = x.
Proof. intro H. unfold f32_mag. apply N.mod_small, H. Qed.
Lemma mag_neg x : x < 2147483648 -> f32_mag (x + 2147483648) = x.
Proof. intro H. unfold f32_mag. lia. Qed.
Lemma sign_small x : x < 2147483648 -> f32_sign x = 0.
Proof. intro H. unfold f32_sign. apply N.div_small, H. Qed.
Lemma sign_neg x : x < 2147483648 -> f32_sign (x + 2147483648) = 1.
Proof. intro H. unfold f32_sign. lia. Qed.

Lemma X32_eq mag e f : mag = 8388608 * e + f -> f < 8388608 ->
  X32 mag = if e =? 0 then f else (8388608 + f) * 2 ^ (e - 1).
Proof.
  intros -> Hf. unfold X32.
  replace ((8388608 * e + f) / 8388608) with e by lia.
  replace ((8388608 * e + f) mod 8388608) with f by lia. reflexivity.
Qed.

Lemma X32_binade e : e <> 0 -> X32 (e * 8388608) = 8388608 * 2 ^ (e - 1).
Proof.
  intro He. rewrite (X32_eq _ e 0) by lia.
  now replace (e =? 0) with false by (symmetry; apply N.eqb_neq; exact He).
Qed.

(* float32 ulp of the binade of mag, times 2^149 *)
Definition ulp32 (mag : N) : N := 2 ^ (mag / 8388608 - 1).

(* X32 is linear inside a binade and continuous into the start of the next one *)
Lemma X32_lin m j :
  m + j <= (m / 8388608 + 1) * 8388608 -> X32 (m + j) = X32 m + j * ulp32 m.
Proof.
  intro H. unfold X32, ulp32.
  set (e := m / 8388608) in *.
  assert (Hm : m = 8388608 * e + m mod 8388608) by (apply N.div_mod; lia).
  assert (Hf : m mod 8388608 < 8388608) by (apply N.mod_lt; lia).
  set (f := m mod 8388608) in *. clearbody e f. subst m.
  destruct (N.eq_dec (8388608 * e + f + j) ((e + 1) * 8388608)) as [Heq|Hne].
  - rewrite Heq. replace ((e + 1) * 8388608 / 8388608) with (e + 1) by (symmetry; apply N.div_mul; lia).
    replace ((e + 1) * 8388608 mod 8388608) with 0 by (symmetry; apply N.mod_mul; lia).
    replace (e + 1 =? 0) with false by (symmetry; apply N.eqb_neq; lia).
    replace (e + 1 - 1) with e by lia.
    destruct (N.eqb_spec e 0) as [->|He].
    + change (2 ^ (0 - 1)) with 1. change (2 ^ 0) with 1. lia.
    + replace (2 ^ e) with (2 * 2 ^ (e - 1)) by (rewrite <- N.pow_succ_r by lia; f_equal; lia).
      nia.
  - assert (Hd : (8388608 * e + f + j) / 8388608 = e) by lia.
    assert (Hr : (8388608 * e + f + j) mod 8388608 = f + j) by lia.
    rewrite Hd, Hr. destruct (e =? 0) eqn:He.
    + apply N.eqb_eq in He. subst e. change (2 ^ (0 - 1)) with 1. lia.
    + nia.
Qed.

Lemma X32_mono_strict a b : a < b -> X32 a < X32 b.
Proof.
  intro Hab.
  (* same binade: compare the fractions; otherwise a lies below the start of the binade of b *)
  unfold X32.
  assert (Ha := N.div_mod a 8388608). assert (Hb := N.div_mod b 8388608).
  assert (Hfa := N.mod_lt a 8388608). assert (Hfb := N.mod_lt b 8388608).
  set (ea := a / 8388608) in *. set (eb := b / 8388608) in *.
  set (fa := a mod 8388608) in *. set (fb := b mod 8388608) in *. clearbody ea eb fa fb.
  assert (ea <= eb) by nia.
  destruct (N.eq_dec ea eb) as [->|Hne].
  - assert (fa < fb) by lia. destruct (eb =? 0); [lia|].
    assert (0 < 2 ^ (eb - 1)) by apply pow2_pos. nia.
  - assert (Hlt : ea < eb) by lia.
    replace (eb =? 0) with false by (symmetry; apply N.eqb_neq; lia).
    assert (Hpb := pow2_pos (eb - 1)).
    destruct (N.eqb_spec ea 0) as [->|Hea].
    + nia.
    + assert (2 * 2 ^ (ea - 1) <= 2 ^ (eb - 1)).
      { rewrite <- N.pow_succ_r by lia. apply N.pow_le_mono_r; lia. }
      assert (Hpa := pow2_pos (ea - 1)). nia.
Qed.

Lemma X32_mono a b : a <= b -> X32 a <= X32 b.
Proof.
  intro H. destruct (N.eq_dec a b) as [->|]; [lia|].
  apply N.lt_le_incl, X32_mono_strict. lia.
Qed.

Lemma In_codes_below d n : In d (codes_below n) -> d < n.
Proof.
  unfold codes_below. intro H. apply in_map_iff in H. destruct H as (i & <- & Hi).
  apply in_seq in Hi. lia.
Qed.

Definition grid_mono (V : N -> N) : Prop := forall i j, i < j -> V i < V j.

Lemma grid_mono_le V i j : grid_mono V -> i <= j -> V i <= V j.
Proof.
  intros HV Hij. destruct (N.eq_dec i j) as [->|]; [lia|].
  apply N.lt_le_incl, HV; lia.
Qed.

(* X lies at or beyond the first non-finite grid point: IEEE overflow *)
Lemma rne_spec_overflow V infc infcode X :
  grid_mono V -> 0 < infc -> V infc <= X -> rne_spec V infc infcode X infcode = true.
Proof.
  intros HV Hi HX. unfold rne_spec.
  assert (V (infc - 1) < V infc) by (apply HV; lia).
  replace (V (infc - 1) + V infc <=? 2 * X) with true by (symmetry; apply N.leb_le; lia).
  apply N.eqb_refl.
Qed.

(* X lies between two neighbouring grid points; c is the nearer one, the even one on a tie; a result that
   reaches infc is reported as infcode *)
Lemma rne_spec_between V infc infcode X c0 c :
  grid_mono V -> N.even infc = true -> c0 < infc -> V c0 <= X <= V (c0 + 1) ->
  (c = c0 /\ (2 * X < V c0 + V (c0 + 1) \/ (2 * X = V c0 + V (c0 + 1) /\ N.even c0 = true))) \/
  (c = c0 + 1 /\ (V c0 + V (c0 + 1) < 2 * X \/ (2 * X = V c0 + V (c0 + 1) /\ N.even c0 = false))) ->
  rne_spec V infc infcode X (if infc <=? c then infcode else c) = true.
Proof.
  intros HV Hev Hc0 [Hlo Hhi] Hc. unfold rne_spec.
  assert (Hodd : N.even (c0 + 1) = negb (N.even c0)) by now rewrite N.add_1_r, N.even_succ, <- N.negb_even.
  (* every other code lies on the far side of c0 or of c0+1 *)
  assert (K : forall d, d < infc ->
    (d <= c0 /\ V d <= V c0 /\ (d <> c0 -> V d < V c0)) \/
    (c0 + 1 <= d /\ V (c0 + 1) <= V d /\ (d <> c0 + 1 -> V (c0 + 1) < V d))).
  { intros d Hd. destruct (N.le_gt_cases d c0); [left|right]; (split; [lia|split]).
    - apply grid_mono_le; auto; lia.
    - intro. apply HV; lia.
    - apply grid_mono_le; auto; lia.
    - intro. apply HV; lia. }
  set (a := V c0) in *. set (b := V (c0 + 1)) in *.
  destruct (N.leb_spec infc c) as [Hinf|Hfin].
  - (* reached infc: c = c0+1 = infc *)
    assert (c0 + 1 = infc) as Hcc by lia. replace (infc - 1) with c0 by lia. rewrite <- Hcc. fold a b.
    replace (a + b <=? 2 * X) with true by (symmetry; apply N.leb_le; lia). apply N.eqb_refl.
  - replace (V (infc - 1) + V infc <=? 2 * X) with false.
    2:{ symmetry. apply N.leb_gt. destruct (N.eq_dec (c0 + 1) infc) as [Hcc|Hcc].
        - (* c = c0 = infc - 1 is odd: no tie *)
          replace (infc - 1) with c0 by lia. rewrite <- Hcc in *. fold a b.
          rewrite Hodd in Hev. destruct (N.even c0); [discriminate|]. lia.
        - assert (V (infc - 1) < V infc) by (apply HV; lia).
          destruct (K (infc - 1)) as [?|(_ & ? & _)]; lia. }
    apply andb_true_intro; split; [apply andb_true_intro; split|]; [apply N.ltb_lt, Hfin| |];
      apply forallb_forall; intros d Hd; apply In_codes_below in Hd; specialize (K d Hd).
    (* K fixes on which side of X every V d lies, so each distance is a plain difference: linear arithmetic *)
    + apply N.leb_le. destruct Hc as [[-> Hc]|[-> Hc]]; fold a b; unfold dist;
        destruct (N.ltb_spec X a), (N.ltb_spec X b), (N.ltb_spec X (V d)); lia.
    + destruct (N.eqb_spec d c) as [|Hdc]; [reflexivity|].
      destruct (N.eqb_spec (dist X (V c)) (dist X (V d))) as [Heq|]; [|reflexivity]. cbn [negb orb].
      destruct Hc as [[-> Hc]|[-> Hc]]; rewrite ?Hodd; fold a b in Heq; unfold dist in Heq;
        destruct (N.ltb_spec X a), (N.ltb_spec X b), (N.ltb_spec X (V d)), Hc as [Hc|[Hc ->]]; try reflexivity; lia.
Qed.

(* the same with X = A + r*P between V c0 = A and V (c0+1) = A + 2h*P: the shape rne_shift_spec delivers *)
Lemma rne_spec_bracket V infc infcode X c0 c A P r h :
  grid_mono V -> N.even infc = true ->
  c0 < infc -> 0 < P -> r <= 2 * h ->
  V c0 = A -> V (c0 + 1) = A + 2 * h * P -> X = A + r * P ->
  (c = c0 /\ (r < h \/ (r = h /\ N.even c0 = true))) \/
  (c = c0 + 1 /\ (h < r \/ (r = h /\ N.even c0 = false))) ->
  rne_spec V infc infcode X (if infc <=? c then infcode else c) = true.
Proof.
  intros HV Hev Hc0 HP Hr H0 H1 HX Hc. apply (rne_spec_between V infc infcode X c0); auto; rewrite H0, H1, HX.
  - nia.
  - destruct Hc as [[-> Hc]|[-> Hc]]; [left|right]; (split; [reflexivity|]);
      (destruct Hc as [Hc|[-> E]]; [left; nia|right; split; [lia|exact E]]).
Qed.

Lemma seg_cases x :
  (seg x = 0 /\ x <= 2139095040) \/ (seg x = 1 /\ 2139095040 < x < 2147483648) \/
  (seg x = 2 /\ 2147483648 <= x <= 4286578688) \/ (seg x = 3 /\ 4286578688 < x).
Proof.
  unfold seg.
  destruct (N.leb_spec x 2139095040); [lia|].
  destruct (N.ltb_spec x 2147483648); [lia|].
  destruct (N.leb_spec x 4286578688); lia.
Qed.

Lemma seg_run s e : s <= e -> seg s = seg e ->
  (seg s = 0 /\ e <= 2139095040) \/ (seg s = 1 /\ 2139095040 < s /\ e < 2147483648) \/
  (seg s = 2 /\ 2147483648 <= s /\ e <= 4286578688) \/ (seg s = 3 /\ 4286578688 < s).
Proof. intros Hse H. destruct (seg_cases s) as [?|[?|[?|?]]], (seg_cases e) as [?|[?|[?|?]]]; lia. Qed.

Lemma run_ok_inv enc s e c : run_ok enc (s, e, c) = true -> s <= e /\ seg s = seg e /\ enc s = c /\ enc e = c.
Proof.
  unfold run_ok. intro H. repeat (apply andb_prop in H; destruct H as [H ?]).
  repeat split; try apply N.eqb_eq; try apply N.leb_le; assumption.
Qed.
