(* C17: generic theorems about the programs of Model/IOProg.v.  Readers: rd_firstn (reading from a prefix of the file), the
   equations run0_* of the intact run, one lemma per constructor for the damaged run (run_read_prefix, run_short_prefix,
   refines3_swallow), then strict_refines with its corollaries; closure of the fragment (strict_bind, short_safe_need),
   run_bind, and run_len, the form of run in which the example files evaluate.  Counter-examples show that the side
   conditions of strict are necessary.  Writers: w_fault_err, w_nofault_same, w_fault_file, and the counter-example. *)
From HV Require Import Base.Prelude Base.Outcome Base.Bytes Model.IOProg.

Lemma forallb_ext {A} (f g : A -> bool) l : (forall x, f x = g x) -> forallb f l = forallb g l.
Proof. intros H. induction l as [|x l IH]; cbn [forallb]; [reflexivity | now rewrite H, IH]. Qed.

Lemma blen_firstn_le n (f : bytes) : blen (firstn n f) <= blen f.
Proof. unfold blen. rewrite firstn_length. blia. Qed.

Lemma firstn_app_l {A} n (x z : list A) : (n <= length x)%nat -> firstn n (x ++ z) = firstn n x.
Proof. intros H. rewrite firstn_app. replace (n - length x)%nat with 0%nat by blia. apply app_nil_r. Qed.

Lemma rd_firstn n (f : bytes) off len : rd (firstn n f) off len = firstn (n - N.to_nat off) (rd f off len).
Proof. unfold rd. rewrite skipn_firstn_comm, !firstn_firstn. f_equal. apply Nat.min_comm. Qed.

Lemma avail_prefix_le n (f : bytes) off len : avail (firstn n f) off len <= avail f off len.
Proof. unfold avail. rewrite rd_firstn. apply blen_firstn_le. Qed.

Lemma avail_le_len (f : bytes) off len : avail f off len <= len.
Proof. unfold avail, rd, blen. rewrite firstn_length. blia. Qed.

Lemma rd_prefix_firstn n (f : bytes) off len g :
  g <= avail (firstn n f) off len ->
  firstn (N.to_nat g) (rd (firstn n f) off len) = firstn (N.to_nat g) (rd f off len).
Proof. unfold avail, blen. rewrite rd_firstn, firstn_length, firstn_firstn. intros H. f_equal. blia. Qed.

Lemma in_range_prefix n (f : bytes) off len :
  in_range (firstn n f) off len = true -> in_range f off len = true /\ rd (firstn n f) off len = rd f off len.
Proof.
  unfold in_range. intros H. apply N.leb_le in H. pose proof (blen_firstn_le n f) as Hn. split.
  - apply N.leb_le. blia.
  - rewrite rd_firstn. apply firstn_all2. unfold rd, blen in *. rewrite firstn_length in *. blia.
Qed.

Lemma rd_length_in_range (f : bytes) off len :
  in_range f off len = true -> length (rd f off len) = N.to_nat len.
Proof.
  unfold in_range, rd, blen. intros H. apply N.leb_le in H.
  rewrite firstn_length, skipn_length. blia.
Qed.

Lemma rd_rd_prefix (f : bytes) off len len' :
  len <= len' -> firstn (N.to_nat len) (rd f off len') = rd f off len.
Proof. intros H. unfold rd. rewrite firstn_firstn. f_equal. blia. Qed.

Lemma short_buf_len (x : bytes) len g :
  g <= blen x -> g <= len -> blen (firstn (N.to_nat g) x ++ zeros (N.to_nat (len - g))) = len.
Proof. intros H1 H2. rewrite blen_app, blen_zeros. unfold blen in *. rewrite firstn_length. blia. Qed.

Lemma short_buf_firstn (x z : bytes) g :
  g <= blen x -> firstn (N.to_nat g) (firstn (N.to_nat g) x ++ z) = firstn (N.to_nat g) x.
Proof.
  unfold blen. intros H. rewrite firstn_app_l, firstn_firstn; [f_equal; blia|].
  rewrite firstn_length. blia.
Qed.

Lemma blen_padded (f : bytes) off len : blen (padded f off len) = len.
Proof.
  pose proof (avail_le_len f off len) as H. unfold padded, avail in *. rewrite blen_app, blen_zeros. blia.
Qed.

Lemma run_nofault_counter : forall A (p : prog A) f c c',
  fst (run f nofault c p) = fst (run f nofault c' p).
Proof.
  intros A p. induction p as [A a|A|A|A off len k IH|A off len k IH|A B p IHp d k IHk] using prog_ind;
    intros f c c'; cbn [run nofault limit]; try reflexivity.
  - destruct (in_range f off len); [apply IH | reflexivity].
  - apply IH.
  - specialize (IHp f c c').
    destruct (run f nofault c p) as [o1 c1], (run f nofault c' p) as [o2 c2].
    cbn [fst] in IHp. subst o2.
    destruct o1; [apply IHk | apply IHk | reflexivity].
Qed.

Lemma run0_counter A (p : prog A) f c : fst (run f nofault c p) = run0 f p.
Proof. apply run_nofault_counter. Qed.

Lemma run0_read_in A off len (k : bytes -> prog A) f :
  in_range f off len = true -> run0 f (ReadAt off len k) = run0 f (k (rd f off len)).
Proof. intros H. unfold run0 at 1. cbn [run nofault]. rewrite H. apply run0_counter. Qed.
Lemma run0_read_out A off len (k : bytes -> prog A) f :
  in_range f off len = false -> run0 f (ReadAt off len k) = Err.
Proof. intros H. unfold run0. cbn [run nofault]. now rewrite H. Qed.

Lemma firstn_all_rd (f : bytes) off len :
  firstn (N.to_nat (avail f off len)) (rd f off len) = rd f off len.
Proof. unfold avail, blen. rewrite Nat2N.id. apply firstn_all. Qed.

Lemma run0_short A off len (k : bytes -> N -> prog A) f :
  run0 f (ReadAtShort off len k) = run0 f (k (padded f off len) (avail f off len)).
Proof.
  unfold run0 at 1. cbn [run nofault limit]. rewrite firstn_all_rd. apply run0_counter.
Qed.

Lemma run0_swallow A B (p : prog B) d (k : B -> prog A) f :
  run0 f (Swallow p d k) =
  match run0 f p with Ok b => run0 f (k b) | Err => run0 f (k d) | Panic => Panic end.
Proof.
  unfold run0 at 1 2. cbn [run]. destruct (run f nofault 0 p) as [o c]. cbn [fst].
  destruct o; [apply run0_counter | apply run0_counter | reflexivity].
Qed.

Lemma run_read_prefix A n (f : bytes) fl c off len (k : bytes -> prog A) :
  run (firstn n f) fl c (ReadAt off len k) = (Err, S c) \/
  in_range f off len = true /\
  run (firstn n f) fl c (ReadAt off len k) = run (firstn n f) fl (S c) (k (rd f off len)).
Proof.
  cbn [run]. destruct (in_range (firstn n f) off len) eqn:Hr.
  - destruct (in_range_prefix n f off len Hr) as [Hr' ->].
    destruct (fl c) as [| |m]; [right; now split | left; reflexivity |].
    destruct (len <=? m); [right; now split | left; reflexivity].
  - left. destruct (fl c) as [| |m]; [| |rewrite andb_false_r]; reflexivity.
Qed.

Lemma run_short_prefix A n (f : bytes) fl c off len (k : bytes -> N -> prog A) : short_safe len k ->
  fst (run (firstn n f) fl c (ReadAtShort off len k)) = Err \/
  run (firstn n f) fl c (ReadAtShort off len k) = run (firstn n f) fl (S c) (k (padded f off len) (avail f off len)).
Proof.
  intros Hs. cbn [run].
  (* the prefix delivers g' <= g bytes, the first g' of the g bytes the whole file delivers: short_safe applies *)
  assert (Hgen : forall g', g' <= avail (firstn n f) off len ->
            let b' := firstn (N.to_nat g') (rd (firstn n f) off len) ++ zeros (N.to_nat (len - g')) in
            fst (run (firstn n f) fl (S c) (k b' g')) = Err \/
            run (firstn n f) fl (S c) (k b' g') = run (firstn n f) fl (S c) (k (padded f off len) (avail f off len))).
  { intros g' Hg' b'.
    pose proof (avail_prefix_le n f off len) as Hav. pose proof (avail_le_len f off len) as Hal.
    destruct (Hs (padded f off len) b' (avail f off len) g') as [E|E];
      [blia | exact Hal | apply blen_padded | apply short_buf_len; [exact Hg' | blia] |
       | right; now rewrite E | left; now rewrite E].
    unfold b', padded. rewrite short_buf_firstn, firstn_app_l; [now apply rd_prefix_firstn | | exact Hg'].
    unfold avail, blen in Hg', Hav. blia. }
  destruct (fl c) as [| |m]; cbn [limit]; [apply Hgen | left; reflexivity | apply Hgen]; blia.
Qed.

(* the damaged result is the intact result, or an error; nothing is claimed when the intact run itself panics *)
Definition refines3 {A} (o' o : outcome A) : Prop := o = Panic \/ o' = o \/ o' = Err.

Lemma refines3_err A (o : outcome A) : refines3 Err o.
Proof. right; right; reflexivity. Qed.

Lemma refines3_swallow A B (p : prog B) d (k : B -> prog A) f' f fl c :
  refines3 (fst (run f' fl c p)) (run0 f p) ->
  (forall b c', refines3 (fst (run f' fl c' (k b))) (run0 f (k b))) ->
  (forall b c', refines3 (fst (run f' fl c' (k d))) (run0 f (k b))) ->
  refines3 (fst (run f' fl c (Swallow p d k))) (run0 f (Swallow p d k)).
Proof.
  intros Hp Hk Hd. cbn [run]. rewrite run0_swallow.
  destruct (run f' fl c p) as [o' c']. cbn [fst] in Hp. destruct Hp as [E|[E|E]].
  - rewrite E. left; reflexivity.
  - rewrite <- E. destruct o'; [apply Hk | apply Hk | left; reflexivity].
  - subst o'. destruct (run0 f p); [apply Hd | apply Hk | left; reflexivity].
Qed.

Theorem strict_refines : forall A (p : prog A), strict p ->
  forall (f : bytes) (n : nat) (fl : oracle) (c : nat),
    refines3 (fst (run (firstn n f) fl c p)) (run0 f p).
Proof.
  intros A p H.
  induction H as [A a|A|A|A off len k Hk IH|A off len k Hk IH Hs
                 |A B p d k Hp IHp Hk IHk Hd|A B p d k Hp IHp Hig Hkd IHkd
                 |A off len len' d k k' Hle Hkd Hk IHk Hsig]; intros f n fl c.
  - right; left; reflexivity.
  - right; left; reflexivity.
  - left; reflexivity.
  - destruct (run_read_prefix A n f fl c off len k) as [E|[Hr E]]; rewrite E; [apply refines3_err|].
    rewrite (run0_read_in _ _ _ _ _ Hr). apply IH.
  - destruct (run_short_prefix A n f fl c off len k Hs) as [E|E]; rewrite E; [apply refines3_err|].
    rewrite run0_short. apply IH.
  - apply refines3_swallow; [apply IHp | intros; apply IHk |]. intros. rewrite Hd. apply refines3_err.
  - apply refines3_swallow; [apply IHp | |]; intros; rewrite (Hig b); apply IHkd.
  - (* the signature read fails on the damaged file only: either the signature does not matter, or the strict
       re-read fails too or sees a buffer that starts with the signature and is rejected *)
    remember (ReadAt off len (fun b => Ret b)) as q. cbn [run]. rewrite run0_swallow. subst q.
    destruct (run_read_prefix _ n f fl c off len (fun b => Ret b)) as [E|[Hr E]]; rewrite E; cbn [run].
    + destruct (in_range f off len) eqn:Hr; [|rewrite (run0_read_out _ _ _ _ _ Hr); apply IHk].
      rewrite (run0_read_in _ _ _ _ _ Hr). change (run0 f (Ret (rd f off len))) with (Ok (rd f off len)).
      destruct (Hsig (rd f off len)) as [Hs|Hs]; [rewrite Hs; apply IHk|].
      rewrite Hkd.
      destruct (run_read_prefix _ n f fl (S c) off len' k') as [E'|[_ E']]; rewrite E'; [apply refines3_err|].
      rewrite (Hs _ (rd_rd_prefix f off len len' Hle)). apply refines3_err.
    + rewrite (run0_read_in _ _ _ _ _ Hr). apply IHk.
Qed.

(* truncation and any combination of failing / short calls together *)
Corollary damage_monotone A (p : prog A) : strict p -> forall f n fl c,
  run0 f p <> Panic ->
  fst (run (firstn n f) fl c p) = run0 f p \/ fst (run (firstn n f) fl c p) = Err.
Proof.
  intros H f n fl c Hnp. destruct (strict_refines A p H f n fl c) as [E|E]; [contradiction | exact E].
Qed.

Corollary trunc_monotone A (p : prog A) : strict p -> forall f n, (n <= length f)%nat ->
  run0 f p <> Panic ->
  run0 (firstn n f) p = run0 f p \/ run0 (firstn n f) p = Err.
Proof. intros H f n _. exact (damage_monotone A p H f n nofault 0%nat). Qed.

Corollary fault_monotone A (p : prog A) : strict p -> forall f k ft,
  run0 f p <> Panic ->
  fst (run f (fault_at k ft) 0 p) = run0 f p \/ fst (run f (fault_at k ft) 0 p) = Err.
Proof.
  intros H f k ft Hnp. pose proof (damage_monotone A p H f (length f) (fault_at k ft) 0%nat Hnp) as R.
  now rewrite firstn_all in R.
Qed.

Corollary no_panic A (p : prog A) : strict p -> forall f n fl c,
  run0 f p <> Panic -> fst (run (firstn n f) fl c p) <> Panic.
Proof.
  intros H f n fl c Hnp. destruct (damage_monotone A p H f n fl c Hnp) as [E|E]; rewrite E; [exact Hnp | discriminate].
Qed.

Lemma bind_fail {A B} (g : A -> prog B) : bind Fail g = Fail.
Proof. reflexivity. Qed.

Lemma short_safe_map A B len (k : bytes -> N -> prog A) (F : prog A -> prog B) :
  short_safe len k -> F Fail = Fail -> short_safe len (fun b g => F (k b g)).
Proof.
  intros Hs HF b b' g g' H1 H2 L1 L2 H3.
  destruct (Hs b b' g g' H1 H2 L1 L2 H3) as [E|E]; rewrite E; [left; reflexivity | right; exact HF].
Qed.

Lemma strict_bind : forall A (p : prog A), strict p -> forall B (g : A -> prog B),
  (forall a, strict (g a)) -> strict (bind p g).
Proof.
  intros A p H.
  induction H as [A a|A|A|A off len k Hk IH|A off len k Hk IH Hs
                 |A B0 p d k Hp IHp Hk IHk Hd|A B0 p d k Hp IHp Hig Hkd IHkd
                 |A off len len' d k k' Hle Hkd Hk IHk Hsig]; intros B g Hg; cbn [bind].
  - apply Hg.
  - constructor.
  - constructor.
  - constructor. intros b. now apply IH.
  - constructor; [intros b n; now apply IH|].
    exact (short_safe_map _ _ _ k (fun p => bind p g) Hs eq_refl).
  - apply st_swallow_fail; [exact Hp | intros b; now apply IHk | now rewrite Hd].
  - apply st_swallow_ignore; [exact Hp | intros b; now rewrite Hig | now apply IHkd].
  - apply (st_swallow_reread B off len len' d (fun x => bind (k x) g) (fun x => bind (k' x) g));
      [exact Hle | now rewrite Hkd | intros b; now apply IHk | ].
    intros sg. destruct (Hsig sg) as [E|E]; [left; now rewrite E | right; intros b Hb; now rewrite (E b Hb)].
Qed.

Lemma strict_lift A (o : outcome A) : strict (lift o).
Proof. destruct o; constructor. Qed.

(* the simplest form of short_safe: the count is compared with need, and only the first need bytes are decoded *)
Lemma short_safe_need A len need (dec : bytes -> prog A) :
  need <= len ->
  (forall b b', firstn (N.to_nat need) b' = firstn (N.to_nat need) b -> dec b' = dec b) ->
  short_safe len (fun b g => if g <? need then Fail else dec b).
Proof.
  intros Hn Hdec b b' g g' H1 H2 _ _ H3.
  destruct (g' <? need) eqn:E'; [right; reflexivity|].
  apply N.ltb_ge in E'. replace (g <? need) with false by (symmetry; apply N.ltb_ge; blia).
  left. apply Hdec.
  replace (N.to_nat need) with (Nat.min (N.to_nat need) (N.to_nat g')) by blia.
  rewrite <- !firstn_firstn. f_equal. exact H3.
Qed.

Lemma run_bind : forall A (p : prog A) B (g : A -> prog B) f fl c,
  run f fl c (bind p g) =
  match run f fl c p with
  | (Ok a, c') => run f fl c' (g a)
  | (Err, c') => (Err, c')
  | (Panic, c') => (Panic, c')
  end.
Proof.
  intros A p. induction p as [A a|A|A|A off len k IH|A off len k IH|A B0 p IHp d k IHk] using prog_ind;
    intros B g f fl c; cbn [bind run]; try reflexivity.
  - destruct (fl c) as [| |m]; [| reflexivity |].
    + destruct (in_range f off len); [apply IH | reflexivity].
    + destruct ((len <=? m) && in_range f off len); [apply IH | reflexivity].
  - destruct (fl c) as [| |m]; [apply IH | reflexivity | apply IH].
  - destruct (run f fl c p) as [o c']. destruct o; [apply IHk | apply IHk | reflexivity].
Qed.

(* Evaluation on a concrete file.  in_range computes the length of the file again at every read; run_len is run
   with that length passed along as an argument. *)
Fixpoint run_len {A} (n : N) (f : bytes) (fl : oracle) (c : nat) (p : prog A) {struct p} : outcome A * nat :=
  match p with
  | Ret a => (Ok a, c)
  | Fail => (Err, c)
  | Crash => (Panic, c)
  | ReadAt off len k =>
      match fl c with
      | FailIO => (Err, S c)
      | ShortRead m => if (len <=? m) && (off + len <=? n) then run_len n f fl (S c) (k (rd f off len)) else (Err, S c)
      | NoFault => if off + len <=? n then run_len n f fl (S c) (k (rd f off len)) else (Err, S c)
      end
  | ReadAtShort off len k =>
      match fl c with
      | FailIO => (Err, S c)
      | ft => let g := limit ft f off len in
              run_len n f fl (S c) (k (firstn (N.to_nat g) (rd f off len) ++ zeros (N.to_nat (len - g))) g)
      end
  | Swallow p d k =>
      match run_len n f fl c p with
      | (Ok b, c') => run_len n f fl c' (k b)
      | (Err, c') => run_len n f fl c' (k d)
      | (Panic, c') => (Panic, c')
      end
  end.

Lemma run_len_eq : forall A (p : prog A) f fl c, run f fl c p = run_len (blen f) f fl c p.
Proof.
  intros A p. induction p as [A a|A|A|A off len k IH|A off len k IH|A B0 p IHp d k IHk] using prog_ind;
    intros f fl c; cbn [run run_len]; try reflexivity.
  - fold (in_range f off len). destruct (fl c) as [| |m]; [| reflexivity |].
    + destruct (in_range f off len); [apply IH | reflexivity].
    + destruct ((len <=? m) && in_range f off len); [apply IH | reflexivity].
  - destruct (fl c) as [| |m]; [apply IH | reflexivity | apply IH].
  - rewrite <- IHp. destruct (run f fl c p) as [[b| |] c']; [apply IHk | apply IHk | reflexivity].
Qed.

(* result and number of calls from one evaluation of the run *)
Lemma run_len_both {A X} (F : outcome A -> X) f (p : prog A) x n :
  (let r := run_len (blen f) f nofault 0 p in (F (fst r), snd r)) = (x, n) -> F (run0 f p) = x /\ calls0 f p = n.
Proof. unfold run0, calls0. rewrite run_len_eq. cbv zeta. intros E. now injection E. Qed.

(* Pre-fix shape of ReadSuperblock (before /repo 07228cc) and of the dense attribute readers (before d9e66d7):
   the count is checked against 8 although 16 bytes are decoded. *)
Definition short_unchecked : prog N :=
  ReadAtShort 0 16 (fun b g => if g <? 8 then Fail else Ret (unle (firstn 8 (skipn 8 b)))).

Definition file16 : bytes := [1;2;3;4;5;6;7;8;9;10;11;12;13;14;15;16].

Lemma trunc_short_refuted :
  exists f n, (n <= length f)%nat /\ run0 f short_unchecked <> Panic /\
              run0 (firstn n f) short_unchecked <> run0 f short_unchecked /\
              run0 (firstn n f) short_unchecked <> Err.
Proof.
  exists file16, 12%nat. split; [cbn; blia|]. split; [|split]; vm_compute; discriminate.
Qed.

Lemma short_unchecked_not_safe :
  ~ short_safe 16 (fun b g => if g <? 8 then Fail else Ret (unle (firstn 8 (skipn 8 b)))).
Proof.
  intros H.
  destruct (H file16 (firstn 12 file16 ++ zeros 4) 16 12) as [E|E];
    [blia | blia | reflexivity | reflexivity | reflexivity | |]; vm_compute in E; discriminate.
Qed.

(* the repaired shape satisfies the side condition (short_safe_need) *)
Definition short_checked : prog N :=
  ReadAtShort 0 16 (fun b g => if g <? 16 then Fail else Ret (unle (firstn 8 (skipn 8 b)))).
Lemma short_checked_strict : strict short_checked.
Proof.
  apply st_short.
  - intros b g. destruct (g <? 16); constructor.
  - apply (short_safe_need N 16 16 (fun b => Ret (unle (firstn 8 (skipn 8 b))))); [blia|].
    intros b b' E. f_equal. f_equal.
    rewrite (firstn_skipn_comm 8 8 b'), (firstn_skipn_comm 8 8 b).
    change (8 + 8)%nat with (N.to_nat 16). now rewrite E.
Qed.

(* Pre-fix shape of loadModernGroup (before /repo a539b60): `child, err := loadObject(...); if err != nil { continue }`.
   Two members, each needs its 4 bytes; a member that cannot be read is left out of the listing. *)
Definition member (off : N) : prog (list N) := ReadAt off 4 (fun b => Ret [unle b]).
Definition listing_skipping : prog (list N) :=
  Swallow (member 0) [] (fun a => Swallow (member 4) [] (fun b => Ret (a ++ b))).
Definition file8 : bytes := [1;0;0;0;2;0;0;0].

Lemma trunc_swallow_refuted :
  exists f n, (n <= length f)%nat /\
              run0 f listing_skipping = Ok [1; 2] /\
              run0 (firstn n f) listing_skipping = Ok [1].      (* a member is silently omitted *)
Proof. exists file8, 6%nat. split; [cbn; blia | split; vm_compute; reflexivity]. Qed.

Lemma fault_swallow_refuted :
  exists f k, run0 f listing_skipping = Ok [1; 2] /\
              fst (run f (fault_at k FailIO) 0 listing_skipping) = Ok [2].
Proof. exists file8, 0%nat. split; vm_compute; reflexivity. Qed.

(* the repaired shape: the error is returned *)
Definition listing_failing : prog (list N) :=
  bind (member 0) (fun a => bind (member 4) (fun b => Ret (a ++ b))).
Lemma listing_failing_strict : strict listing_failing.
Proof.
  unfold listing_failing, member. cbn [bind]. constructor. intros b. constructor. intros b'. constructor.
Qed.

Definition noflt : nat -> bool := fun _ => false.

(* a program without dropped errors returns an error as soon as one of its I/O calls fails *)
Theorem w_fault_err : forall A (p : wprog A), wstrict p ->
  forall f fl torn c,
    (exists i, (c <= i)%nat /\ (i < snd (wrun f noflt torn c p))%nat /\ fl i = true) ->
    fst (fst (wrun f fl torn c p)) = Err.
Proof.
  intros A p. induction p as [A a|A|A off data k IH|A k IH|A size k IH|A k IH|A q IHq k IHk] using wprog_ind;
    intros Hs f fl torn c [i [H1 [H2 H3]]]; cbn [wrun wstrict noflt snd] in *;
    [blia | reflexivity | | | | | contradiction].
  (* the four kinds of call alike: this call fails, or the failing one comes later *)
  all: destruct (fl c) eqn:E; [reflexivity|].
  all: apply IH; [exact Hs|]; exists i; repeat split; [|exact H2|exact H3].
  all: destruct (Nat.eq_dec i c) as [->|]; [congruence | blia].
Qed.

Lemma wrun_counter_mono : forall A (p : wprog A), wstrict p ->
  forall f torn c, (c <= snd (wrun f noflt torn c p))%nat.
Proof.
  intros A p. induction p as [A a|A|A off data k IH|A k IH|A size k IH|A k IH|A q IHq k IHk] using wprog_ind;
    intros Hs f torn c; cbn [wrun wstrict noflt snd] in *; [blia | blia | | | | | contradiction].
  all: eapply Nat.le_trans; [|apply IH, Hs]; blia.
Qed.

Theorem w_nofault_same : forall A (p : wprog A), wstrict p ->
  forall f fl torn c,
    (forall i, (c <= i)%nat -> (i < snd (wrun f noflt torn c p))%nat -> fl i = false) ->
    wrun f fl torn c p = wrun f noflt torn c p.
Proof.
  intros A p. induction p as [A a|A|A off data k IH|A k IH|A size k IH|A k IH|A q IHq k IHk] using wprog_ind;
    intros Hs f fl torn c Hn; cbn [wrun wstrict noflt] in *; [reflexivity | reflexivity | | | | | contradiction].
  all: rewrite (Hn c); [|blia|eapply Nat.lt_le_trans; [|apply wrun_counter_mono, Hs]; blia].
  all: apply IH; [exact Hs|]; intros i Hi1 Hi2; apply Hn; [blia | exact Hi2].
Qed.

(* what the file holds when the first failing call is the j-th call of the program (0-based, counted from c):
   the calls before it were applied completely, the failing one (if a write) up to torn bytes, nothing after it *)
Fixpoint wfile_upto {A} (f : bytes) (p : wprog A) (j : nat) (t : nat) : bytes :=
  match p with
  | WRet _ | WFail => f
  | WriteAt off data k => match j with O => write_at f off (firstn t data) | S j' => wfile_upto (write_at f off data) k j' t end
  | WSync k | WClose k => match j with O => f | S j' => wfile_upto f k j' t end
  | WTruncate size k => match j with O => f | S j' => wfile_upto (truncate_to f size) k j' t end
  | WSwallow _ _ => f
  end.

Theorem w_fault_file : forall A (p : wprog A), wstrict p ->
  forall f fl torn c j,
    (forall i, (c <= i)%nat -> (i < c + j)%nat -> fl i = false) -> fl (c + j)%nat = true ->
    (c + j < snd (wrun f noflt torn c p))%nat ->
    snd (fst (wrun f fl torn c p)) = wfile_upto f p j (torn (c + j)%nat).
Proof.
  intros A p. induction p as [A a|A|A off data k IH|A k IH|A size k IH|A k IH|A q IHq k IHk] using wprog_ind;
    intros Hs f fl torn c j Hn Hf Hlt; cbn [wrun wstrict noflt wfile_upto snd] in *;
    [blia | reflexivity | | | | | contradiction].
  all: destruct j as [|j']; [rewrite Nat.add_0_r in *; rewrite Hf; reflexivity|].
  all: rewrite (Hn c) by blia; replace (c + S j')%nat with (S c + j')%nat in * by blia.
  all: apply IH; [exact Hs | intros i Hi1 Hi2; apply Hn; blia | exact Hf | exact Hlt].
Qed.

(* a dropped write error: the call reports success although a write failed *)
Definition w_dropping : wprog unit := WSwallow (WriteAt 0 [1;2;3;4] (WRet tt)) (WRet tt).
Lemma w_swallow_refuted :
  exists fl, fl 0%nat = true /\ fst (fst (wrun [] fl (fun _ => 0%nat) 0 w_dropping)) = Ok tt.
Proof. exists (fun _ => true). split; reflexivity. Qed.
