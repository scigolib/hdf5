(* C03 end to end, depth 1, the SPECIFICATION's side: the abstract tree of Model/GroupNS.v (spec_step, spec_tree) on histories of
   root-level creations.  SpecInv t L: the specification's state is the root with the children L (name, identity, kind) in
   insertion order and one leaf node per child.  A root-level CreateGroup / CreateDataset is accepted exactly by d1_accept on the
   names of L (Proofs/TreeImageDecide.v: the rule linkToParent applies to the bytes) and then appends the child. *)
From HV Require Import Base.Prelude Base.Outcome Base.Bytes Model.IOProgOpen Model.TreeImage Model.TreeFlat.
From HV Require Import Proofs.TreeImageFlat Proofs.TreeImageDecide.
From HV Require Model.GroupNS Proofs.GroupNSBase Proofs.GroupNSHeap Proofs.GroupNSPath.
Module GP := HV.Proofs.GroupNSPath.

Local Open Scope N_scope.

Record ent := { en_name : bytes; en_id : N; en_grp : bool; en_addr : N }.
Definition ent_snode (e : ent) : NS.snode := if en_grp e then NS.SG [] else NS.SD.
Definition ent_node (e : ent) : node := if en_grp e then Grp (en_name e) (en_addr e) [] else Dset (en_name e) (en_addr e).
Definition ent_tree (e : ent) : NS.tree := NS.TNode (en_id e) (if en_grp e then NS.KGroup else NS.KData) [].
Definition ent_key (e : ent) : bytes * N := (en_name e, en_id e).

Definition SpecInv (t : NS.stree) (L : list ent) : Prop :=
  NS.s_nodes t = (0, NS.SG (map ent_key L)) :: map (fun e => (en_id e, ent_snode e)) L /\
  Forall (fun e => 1 <= en_id e /\ en_id e < NS.s_clock t) L /\ NoDup (map en_id L) /\ 1 <= NS.s_clock t.

Lemma spec_init : SpecInv NS.s_empty [].
Proof. repeat split; try constructor. cbn. blia. Qed.

Lemma clookup_names n L : match NS.clookup n (map ent_key L) with Some _ => true | None => false end
                          = existsb (bytes_eqb n) (map en_name L).
Proof.
  induction L as [|e r IH]; [reflexivity|]. cbn [map NS.clookup ent_key existsb].
  rewrite (bytes_eqb_sym n (en_name e)). destruct (bytes_eqb (en_name e) n); [reflexivity | exact IH].
Qed.

Lemma aset_fresh {A} k (v : A) l : Forall (fun kv => fst kv <> k) l -> NS.aset k v l = l ++ [(k, v)].
Proof.
  induction l as [|[k' v'] r IH]; intros H; [reflexivity|]. apply Forall_cons_iff in H as [H1 H2]. cbn [fst] in H1.
  cbn [NS.aset app]. replace (k' =? k) with false by (symmetry; now apply N.eqb_neq). now rewrite IH.
Qed.

Lemma alookup_in {A} k (v : A) l : NoDup (map fst l) -> In (k, v) l -> NS.alookup k l = Some v.
Proof.
  induction l as [|[k' v'] r IH]; intros Hn Hi; [contradiction|]. cbn [map fst] in Hn. inversion Hn as [|? ? Hni Hnd]; subst.
  cbn [NS.alookup]. destruct Hi as [E|Hi].
  - inversion E; subst. now rewrite N.eqb_refl.
  - destruct (k' =? k) eqn:E; [|now apply IH]. apply N.eqb_eq in E. subst k'. exfalso. apply Hni.
    change k with (fst (k, v)). now apply in_map.
Qed.

Lemma spec_create t L p n (g : bool) a : SpecInv t L -> NS.split_path p = Some [n] ->
  let acc := d1_accept (map en_name L) n in
  let r := NS.s_create NS.go_cfg t p (if g then NS.SG [] else NS.SD) in
  NS.is_ok (snd r) = acc /\
  SpecInv (fst r) (if acc then L ++ [{| en_name := n; en_id := NS.s_clock t; en_grp := g; en_addr := a |}] else L).
Proof.
  intros (Hn & Hid & Hnd & Hc) Hp acc r. subst r. unfold NS.s_create. rewrite Hp.
  unfold NS.s_link. cbn [NS.unsnoc NS.sresolve]. rewrite Hn. cbn [NS.alookup]. change (0 =? 0) with true. cbv iota.
  pose proof (clookup_names n L) as CL.
  assert (Hkeep : forall k, k = NS.s_clock t + 1 -> SpecInv {| NS.s_clock := k; NS.s_nodes := NS.s_nodes t |} L).
  { intros k ->. split; [exact Hn|]. split; [|split; [exact Hnd | cbn; blia]].
    eapply Forall_impl; [|exact Hid]. cbn. intros e [H1 H2]. split; blia. }
  subst acc. unfold d1_accept.
  destruct (NS.clookup n (map ent_key L)) as [c|].
  { rewrite <- CL. cbn [negb andb fst snd NS.is_ok]. split; [reflexivity|]. rewrite <- Hn. exact (Hkeep _ eq_refl). }
  rewrite <- CL. cbn [negb andb].
  rewrite GH.names_size_enc, map_map.
  change (NS.new_heap_size (NS.heap_cap NS.go_cfg)) with 256. change (NS.snod_cap NS.go_cfg) with 32.
  set (A := (blen (GH.enc (map en_name L)) + blen n + 1 <=? 256) && (N.of_nat (length (map en_name L)) <? 32)).
  (* the specification's two capacity tests are the negations of the two of d1_accept *)
  match goal with |- context [if ?c1 then (None, NS.Err NS.EHeapFull) else if ?c2 then _ else _] =>
    assert (EA : A = negb c1 && negb c2)
      by (subst A; rewrite (N.leb_antisym 256), (N.ltb_antisym 32); unfold NS.blen; rewrite !map_length; reflexivity);
    rewrite EA; destruct c1; [|destruct c2]
  end; cbn [negb andb fst snd NS.is_ok]; (split; [reflexivity|]).
  1, 2: rewrite <- Hn; exact (Hkeep _ eq_refl).
  unfold NS.s_tick. cbn [NS.aset]. change (0 =? 0) with true. cbv iota.
  set (k := NS.s_clock t) in *.
  assert (Hk0 : (0 =? k) = false) by (apply N.eqb_neq; blia).
  cbn [NS.aset]. rewrite Hk0.
  rewrite aset_fresh.
  2:{ apply Forall_forall. intros [k' v'] Hin. cbn [fst]. apply in_map_iff in Hin as (e & E & He). inversion E; subst.
      pose proof (proj1 (Forall_forall _ _) Hid e He) as [_ H2]. blia. }
  split; [|split; [|split]].
  - cbn [NS.s_nodes]. rewrite !map_app. cbn [map ent_key en_name en_id ent_snode en_grp]. reflexivity.
  - cbn [NS.s_clock]. apply Forall_app. split.
    + eapply Forall_impl; [|exact Hid]. cbn. intros e [H1 H2]. split; blia.
    + constructor; [|constructor]. cbn [en_id]. blia.
  - rewrite map_app. cbn [map en_id]. apply GH.NoDup_snoc; [exact Hnd|].
    intros Hin. apply in_map_iff in Hin as (e & E & He). pose proof (proj1 (Forall_forall _ _) Hid e He) as [_ H2]. blia.
  - cbn [NS.s_clock]. blia.
Qed.

Lemma spec_tree_of t L : SpecInv t L ->
  NS.spec_tree t = Some (NS.TNode 0 NS.KGroup (map (fun e => (en_name e, ent_tree e)) L)).
Proof.
  intros (Hn & Hid & Hnd & Hc). unfold NS.spec_tree, NS.spec_tree_as. cbn [NS.unfold]. rewrite Hn. cbn [NS.alookup].
  change (0 =? 0) with true. cbv iota.
  destruct (N.to_nat (NS.s_clock t)) as [|k] eqn:Ek; [lia|].
  set (nodes := (0, NS.SG (map ent_key L)) :: map (fun e => (en_id e, ent_snode e)) L).
  set (F := NS.unfold NS.KSoft (S k) nodes).
  assert (U : forall L', (forall e, In e L' -> In e L) ->
              NS.umap F (map ent_key L') = Some (map (fun e => (en_name e, ent_tree e)) L')).
  { induction L' as [|e r IH]; intros Hsub; [reflexivity|]. cbn [map NS.umap ent_key].
    assert (He : In e L) by (apply Hsub; now left).
    pose proof (proj1 (Forall_forall _ _) Hid e He) as [H1 _].
    assert (Hl : NS.alookup (en_id e) nodes = Some (ent_snode e)).
    { subst nodes. cbn [NS.alookup]. replace (0 =? en_id e) with false by (symmetry; apply N.eqb_neq; blia).
      apply alookup_in; [now rewrite map_map|]. apply in_map_iff. exists e. split; [reflexivity | exact He]. }
    assert (HF : F (en_id e) = Some (ent_tree e)).
    { subst F. cbn [NS.unfold]. rewrite Hl. unfold ent_snode, ent_tree. destruct (en_grp e); reflexivity. }
    rewrite HF, IH by (intros x Hx; apply Hsub; now right). reflexivity. }
  rewrite (U L (fun e H => H)). reflexivity.
Qed.

Definition ent_addr (L : list ent) (id : N) : N :=
  if id =? 0 then 2168 else match find (fun e => en_id e =? id) L with Some e => en_addr e | None => 0 end.

Lemma node_of_spec_tree L : NoDup (map en_id L) -> Forall (fun e => 1 <= en_id e) L ->
  node_of_tree (ent_addr L) [47] (NS.TNode 0 NS.KGroup (map (fun e => (en_name e, ent_tree e)) L))
  = Grp [47] 2168 (map ent_node L).
Proof.
  intros Hnd Hid. cbn [node_of_tree]. f_equal. rewrite map_map. apply map_ext_in. intros e He. cbn [fst snd].
  assert (Ha : ent_addr L (en_id e) = en_addr e).
  { unfold ent_addr. pose proof (proj1 (Forall_forall _ _) Hid e He).
    replace (en_id e =? 0) with false by (symmetry; apply N.eqb_neq; blia).
    clear H Hid. induction L as [|x r IH]; [contradiction|]. cbn [map] in Hnd. inversion Hnd as [|? ? Hni Hnd']; subst.
    cbn [find]. destruct He as [->|He]; [now rewrite N.eqb_refl|].
    destruct (en_id x =? en_id e) eqn:E; [|now apply IH]. apply N.eqb_eq in E. exfalso. apply Hni. rewrite E. now apply in_map. }
  unfold ent_tree, ent_node. destruct (en_grp e); cbn [node_of_tree map]; now rewrite Ha.
Qed.
