(* C05 - lemmas about the whole-file walker Spec/Walk.v, in this order.
   [good]: every step of the walk keeps "all recorded extents are non-empty and end inside the file" (the only way an extent enters
   the state is [add_ext], which checks it) -> [walk_extents_in_file].  [walk_never_panics]: by construction of the walk monad.
   [walk_ok_sound]: the boolean of the tie composed with the proved [extents_ok_sound].
   [mle]: every step is monotone in the fuel -> [walk_fuel_mono]: more fuel never changes an accepted answer. *)
From HV Require Import Base.Prelude Base.Outcome Base.Bytes Spec.Parse Spec.Format Spec.FormatMsg Spec.FormatNode
  Spec.FormatRef Model.Wellformed Proofs.Wellformed Spec.Walk.

Section Good.
Variable flen : N.

Definition ext_good (x : xext) : Prop := fst (fst x) < snd (fst x) /\ snd (fst x) <= flen.
Definition inv (st : wstate) : Prop := Forall ext_good (ws_ext st).
Definition good {A} (m : W A) : Prop := forall st a st', m st = WOk (a, st') -> inv st -> inv st'.

Lemma good_ret {A} (a : A) : good (wret a).
Proof. intros st a' st' H I. inversion H; subst; auto. Qed.
Lemma good_err {A} c : good (@wfail A c).
Proof. intros st a st' H; discriminate. Qed.
Lemma good_bind {A B} (m : W A) (k : A -> W B) : good m -> (forall a, good (k a)) -> good (wbind m k).
Proof.
  intros Hm Hk st b st' H I. unfold wbind in H. destruct (m st) as [[a st1]|c] eqn:E; try discriminate.
  eapply Hk; eauto.
Qed.
Lemma good_wl {A} k (o : outcome A) : good (wlc k o).
Proof. intros st a st' H I. unfold wlc in H. destruct o; inversion H; subst; auto. Qed.
Lemma good_wguard k c : good (wguardc k c).
Proof. unfold wguardc. destruct c; [apply good_ret | apply good_err]. Qed.
Lemma good_wget {A} (g : wrest -> A) : good (wget g).
Proof. intros st a st' H I. inversion H; subst; auto. Qed.
Lemma good_wupd g : good (wupd g).
Proof. intros st a st' H I. inversion H; subst. exact I. Qed.
Lemma good_wexts : good wexts.
Proof. intros st a st' H I. inversion H; subst; auto. Qed.
Lemma good_add_ext s e k : good (add_ext flen s e k).
Proof.
  intros st a st' H I. unfold add_ext in H. destruct ((s <? e) && (e <=? flen)) eqn:E; inversion H; subst.
  unfold inv; cbn [ws_ext set_ext]. constructor; auto. split; cbn [fst snd]; lia.
Qed.
Lemma good_wmapM {A B} (g : A -> W B) l : (forall x, good (g x)) -> good (wmapM g l).
Proof.
  intros Hg. induction l as [|x l IH]; cbn [wmapM]. apply good_ret.
  apply good_bind; auto. intros y. apply good_bind; auto. intros ys. apply good_ret.
Qed.
Lemma good_wforM {A} (g : A -> W unit) l : (forall x, good (g x)) -> good (wforM g l).
Proof.
  intros Hg. induction l as [|x l IH]; cbn [wforM]. apply good_ret. apply good_bind; auto.
Qed.

Lemma good_add_soft s e k x : good (add_soft s e k x). Proof. apply good_wupd. Qed.
Lemma good_add_wtags l : good (add_wtags l). Proof. apply good_wupd. Qed.
Lemma good_add_stags l : good (add_stags l). Proof. apply good_wupd. Qed.
Lemma good_add_sum o : good (add_sum o). Proof. apply good_wupd. Qed.
Lemma good_mark_seen a : good (mark_seen a). Proof. apply good_wupd. Qed.
Lemma good_add_link a : good (add_link a). Proof. apply good_wupd. Qed.
Lemma good_add_ref a r : good (add_ref a r). Proof. apply good_wupd. Qed.
Lemma good_add_stab a b h : good (add_stab a b h). Proof. apply good_wupd. Qed.
Lemma good_add_dlink a : good (add_dlink a). Proof. apply good_wupd. Qed.
Lemma good_sdev tol t : good (sdev tol t).
Proof. unfold sdev. destruct (tol (WS t)); [apply good_wupd | apply good_err]. Qed.
Lemma good_xdev tol x : good (xdev tol x).
Proof. unfold xdev. destruct (tol (WX x)); [apply good_wupd | apply good_err]. Qed.
Lemma good_xdevif tol c x : good (xdevif tol c x).
Proof. unfold xdevif. destruct c; [apply good_xdev | apply good_ret]. Qed.

Hint Resolve good_add_soft good_add_wtags good_add_stags good_add_sum good_mark_seen good_add_link good_add_ref good_add_stab good_add_dlink
  good_sdev good_xdev good_xdevif good_add_ext good_ret good_err good_wl good_wguard good_wget good_wupd good_wexts : gooddb.

(* descent through a walker body for [good]: bind, loops and cases, leaves from gooddb *)
Ltac gd :=
  repeat (cbv beta zeta;
          match goal with
          | |- good (wbind _ _) => apply good_bind; [|intros ?]
          | |- good (wmapM _ _) => apply good_wmapM; intros ?
          | |- good (wforM _ _) => apply good_wforM; intros ?
          | |- good (wret _) => apply good_ret
          | |- good (wfail _) => apply good_err
          | |- good (wlc _ _) => apply good_wl
          | |- good (wguardc _ _) => apply good_wguard
          | |- good (match ?x with _ => _ end) => destruct x
          | |- good _ => solve [auto with gooddb]
          end).

Section G.
Variable f : bytes.
Variable tol : wtolerance.

Lemma good_walk_superblock : good (walk_superblock f flen tol).
Proof. unfold walk_superblock. gd. Qed.

Variable c : wctx.

Lemma good_cont1 fuel : forall ms, good (cont1 f flen c fuel ms).
Proof. induction fuel; cbn [cont1]; intros. apply good_err. unfold cont1_body. gd. Qed.
Lemma good_cont2 co fuel : forall ms, good (cont2 f flen tol c co fuel ms).
Proof. induction fuel; cbn [cont2]; intros. apply good_err. unfold cont2_body. gd. Qed.
Hint Resolve good_cont1 good_cont2 : gooddb.

Lemma good_ohdr_walk fuel addr : good (ohdr_walk f flen tol c fuel addr).
Proof. unfold ohdr_walk. gd. Qed.
Lemma good_local_heap addr : good (local_heap f flen c addr).
Proof. unfold local_heap. gd. Qed.
Lemma good_snod_walk seg addr : good (snod_walk f flen tol c seg addr).
Proof. unfold snod_walk. gd. Qed.
Lemma good_btree1_node nt nd K kind addr top level : good (btree1_node f flen tol c nt nd K kind addr top level).
Proof. unfold btree1_node. gd. Qed.
Hint Resolve good_ohdr_walk good_local_heap good_snod_walk good_btree1_node : gooddb.

Lemma good_gbtree seg fuel : forall a t l, good (gbtree f flen tol c seg fuel a t l).
Proof. induction fuel; cbn [gbtree]; intros. apply good_err. unfold gbtree_body. gd. Qed.
Lemma good_cbtree nd fuel : forall a t l, good (cbtree f flen tol c nd fuel a t l).
Proof. induction fuel; cbn [cbtree]; intros. apply good_err. unfold cbtree_body. gd. Qed.
Hint Resolve good_gbtree good_cbtree : gooddb.

Lemma good_dblock h ha os a ho sz : good (dblock f flen tol c h ha os a ho sz).
Proof. unfold dblock. gd. Qed.
Hint Resolve good_dblock : gooddb.
Lemma good_fheap_walk addr : good (fheap_walk f flen tol c addr).
Proof. unfold fheap_walk. gd. Qed.
Lemma good_btree2_walk addr : good (btree2_walk f flen tol c addr).
Proof. unfold btree2_walk. gd. Qed.
Hint Resolve good_fheap_walk good_btree2_walk : gooddb.
Lemma good_dense_attrs d : good (dense_attrs f flen tol c d).
Proof. unfold dense_attrs. gd. Qed.
Lemma good_dense_links pad d : good (dense_links f flen tol c pad d).
Proof. unfold dense_links. gd. Qed.
Hint Resolve good_dense_links : gooddb.
Lemma good_dataset_data cb lay esz dims total fl :
  (forall nd a t l, good (cb nd a t l)) -> good (dataset_data flen tol c cb lay esz dims total fl).
Proof. intros Hc. unfold dataset_data. gd. Qed.
Hint Resolve good_dense_attrs : gooddb.

Lemma good_walk_obj fuel : forall a p, good (walk_obj f flen tol c fuel a p).
Proof.
  induction fuel; cbn [walk_obj]; intros. apply good_err. unfold obj_body. gd.
  all: apply good_dataset_data; intros; apply good_cbtree.
Qed.
End G.

Lemma good_finish tol sb : good (finish flen tol sb).
Proof. unfold finish. gd. Qed.

Lemma good_walk_all f tol fuel : good (walk_all f flen tol fuel).
Proof.
  unfold walk_all. gd; auto using good_walk_superblock, good_ohdr_walk, good_walk_obj, good_finish.
Qed.
End Good.

Lemma walk_extents_in_file : forall tol fuel f r, walk tol fuel f = Ok r ->
  Forall (fun x : xext => fst (fst x) < snd (fst x) /\ snd (fst x) <= blen f) (wr_extents r).
Proof.
  intros tol fuel f r H. unfold walk, walk_run in H.
  destruct (walk_all f (blen f) tol fuel st0) as [[sb st]|c] eqn:E; try discriminate.
  inversion H; subst; cbn [wr_extents].
  apply (good_walk_all (blen f) f tol fuel st0 sb st E). constructor.
Qed.

Lemma walk_never_panics : forall tol fuel f, walk tol fuel f <> Panic.
Proof.
  intros tol fuel f. unfold walk, walk_run. destruct (walk_all f (blen f) tol fuel st0) as [[sb st]|c]; discriminate.
Qed.

Lemma plain_in : forall (l : list xext) (P : ext -> Prop), Forall (fun x => P (fst x)) l -> Forall P (plain l).
Proof. intros l P H. unfold plain. induction H; cbn [map]; constructor; auto. Qed.

Lemma walk_ok_sound : forall fuel f, walk_ok fuel f = true ->
  exists r, walk wtolerant fuel f = Ok r /\
    Forall (fun e => fst e < snd e /\ snd e <= blen f /\ snd e <= wr_eof r) (plain (wr_extents r)) /\
    ForallOrdPairs disjoint (plain (wr_extents r)).
Proof.
  intros fuel f H. unfold walk_ok in H. destruct (walk wtolerant fuel f) as [r| |]; try discriminate.
  exists r. split; [reflexivity|]. apply extents_ok_sound. exact H.
Qed.

(* the boolean, given the result of the tolerant walk (Model/WalkJudgeTie.v evaluates the right-hand side) *)
Lemma walk_ok_of_result : forall fuel f r, walk wtolerant fuel f = Ok r ->
  walk_ok fuel f = extents_ok (blen f) (wr_eof r) (plain (wr_extents r)).
Proof. intros fuel f r H. unfold walk_ok. rewrite H. reflexivity. Qed.

Definition mle {A} (m1 m2 : W A) : Prop := forall st r, m1 st = WOk r -> m2 st = WOk r.

Lemma mle_refl {A} (m : W A) : mle m m.
Proof. intros st r H; exact H. Qed.
Lemma mle_bind {A B} (m1 m2 : W A) (k1 k2 : A -> W B) :
  mle m1 m2 -> (forall a, mle (k1 a) (k2 a)) -> mle (wbind m1 k1) (wbind m2 k2).
Proof.
  intros Hm Hk st r H. unfold wbind in *. destruct (m1 st) as [[a st1]|c] eqn:E; try discriminate.
  rewrite (Hm _ _ E). apply Hk. exact H.
Qed.
Lemma mle_wmapM {A B} (g1 g2 : A -> W B) l : (forall x, mle (g1 x) (g2 x)) -> mle (wmapM g1 l) (wmapM g2 l).
Proof.
  intros Hg. induction l as [|x l IH]; cbn [wmapM]. apply mle_refl.
  apply mle_bind; auto. intros y. apply mle_bind; auto. intros ys. apply mle_refl.
Qed.
Lemma mle_wforM {A} (g1 g2 : A -> W unit) l : (forall x, mle (g1 x) (g2 x)) -> mle (wforM g1 l) (wforM g2 l).
Proof.
  intros Hg. induction l as [|x l IH]; cbn [wforM]. apply mle_refl. apply mle_bind; auto.
Qed.
Lemma mle_err {A} c (m : W A) : mle (wfail c) m.
Proof. intros st r H; discriminate. Qed.

Create HintDb mledb.
(* the same descent for [mle] between two fuels, leaves from mledb *)
Ltac mn :=
  repeat (cbv beta zeta;
          match goal with
          | |- mle ?x ?x => apply mle_refl
          | |- mle (wbind _ _) (wbind _ _) => apply mle_bind; [|intros ?]
          | |- mle (wmapM _ _) (wmapM _ _) => apply mle_wmapM; intros ?
          | |- mle (wforM _ _) (wforM _ _) => apply mle_wforM; intros ?
          | |- mle (match ?x with _ => _ end) (match ?x with _ => _ end) => destruct x
          | |- mle _ _ => solve [auto with mledb]
          end).

Section Mono.
Variable f : bytes.
Variable flen : N.
Variable tol : wtolerance.
Variable c : wctx.

Lemma mle_cont1_body r1 r2 : (forall ms, mle (r1 ms) (r2 ms)) -> forall ms, mle (cont1_body f flen c r1 ms) (cont1_body f flen c r2 ms).
Proof. intros Hr ms. unfold cont1_body. mn. Qed.
Lemma mle_cont1 n : forall ms, mle (cont1 f flen c n ms) (cont1 f flen c (S n) ms).
Proof. induction n; intros ms. apply mle_err. cbn [cont1] in *. apply mle_cont1_body; auto. Qed.
Lemma mle_cont2_body co r1 r2 : (forall ms, mle (r1 ms) (r2 ms)) ->
  forall ms, mle (cont2_body f flen tol c co r1 ms) (cont2_body f flen tol c co r2 ms).
Proof. intros Hr ms. unfold cont2_body. mn. Qed.
Lemma mle_cont2 co n : forall ms, mle (cont2 f flen tol c co n ms) (cont2 f flen tol c co (S n) ms).
Proof. induction n; intros ms. apply mle_err. cbn [cont2] in *. apply mle_cont2_body; auto. Qed.
Hint Resolve mle_cont1 mle_cont2 : mledb.

Lemma mle_ohdr_walk n addr : mle (ohdr_walk f flen tol c n addr) (ohdr_walk f flen tol c (S n) addr).
Proof. unfold ohdr_walk. mn. Qed.

Lemma mle_gbtree_body seg r1 r2 : (forall a t l, mle (r1 a t l) (r2 a t l)) ->
  forall a t l, mle (gbtree_body f flen tol c seg r1 a t l) (gbtree_body f flen tol c seg r2 a t l).
Proof. intros Hr a t l. unfold gbtree_body. mn. Qed.
Lemma mle_gbtree seg n : forall a t l, mle (gbtree f flen tol c seg n a t l) (gbtree f flen tol c seg (S n) a t l).
Proof. induction n; intros a t l. apply mle_err. cbn [gbtree] in *. apply mle_gbtree_body; auto. Qed.
Lemma mle_cbtree_body nd r1 r2 : (forall a t l, mle (r1 a t l) (r2 a t l)) ->
  forall a t l, mle (cbtree_body f flen tol c nd r1 a t l) (cbtree_body f flen tol c nd r2 a t l).
Proof. intros Hr a t l. unfold cbtree_body. mn. Qed.
Lemma mle_cbtree nd n : forall a t l, mle (cbtree f flen tol c nd n a t l) (cbtree f flen tol c nd (S n) a t l).
Proof. induction n; intros a t l. apply mle_err. cbn [cbtree] in *. apply mle_cbtree_body; auto. Qed.
Hint Resolve mle_ohdr_walk mle_gbtree mle_cbtree : mledb.

Lemma mle_dataset_data cb1 cb2 lay esz dims total fl : (forall nd a t l, mle (cb1 nd a t l) (cb2 nd a t l)) ->
  mle (dataset_data flen tol c cb1 lay esz dims total fl) (dataset_data flen tol c cb2 lay esz dims total fl).
Proof. intros Hc. unfold dataset_data. mn. Qed.

Lemma mle_obj_body n r1 r2 : (forall a p, mle (r1 a p) (r2 a p)) ->
  forall a p, mle (obj_body f flen tol c n r1 a p) (obj_body f flen tol c (S n) r2 a p).
Proof.
  intros Hr a p. unfold obj_body. mn.
  all: try (apply mle_dataset_data; intros; apply mle_cbtree).
Qed.
Lemma mle_walk_obj n : forall a p, mle (walk_obj f flen tol c n a p) (walk_obj f flen tol c (S n) a p).
Proof. induction n; intros a p. apply mle_err. cbn [walk_obj] in *. apply mle_obj_body; auto. Qed.
End Mono.

Lemma mle_walk_all f flen tol n : mle (walk_all f flen tol n) (walk_all f flen tol (S n)).
Proof.
  unfold walk_all. mn; auto using mle_ohdr_walk, mle_walk_obj.
Qed.

Lemma mle_walk t1 t2 n1 n2 f : mle (walk_all f (blen f) t1 n1) (walk_all f (blen f) t2 n2) ->
  forall r, walk t1 n1 f = Ok r -> walk t2 n2 f = Ok r.
Proof.
  intros M r H. unfold walk, walk_run in *.
  destruct (walk_all f (blen f) t1 n1 st0) as [[sb st]|c] eqn:E; try discriminate.
  rewrite (M _ _ E). exact H.
Qed.

Lemma walk_fuel_mono : forall tol fuel fuel' f r, (fuel <= fuel')%nat -> walk tol fuel f = Ok r -> walk tol fuel' f = Ok r.
Proof.
  intros tol fuel fuel' f r Hle H. induction Hle; auto. eapply mle_walk; [apply mle_walk_all | assumption].
Qed.

Lemma walk_ok_fuel_mono : forall fuel fuel' f, (fuel <= fuel')%nat -> walk_ok fuel f = true -> walk_ok fuel' f = true.
Proof.
  intros fuel fuel' f Hle H. unfold walk_ok in *. destruct (walk wtolerant fuel f) as [r| |] eqn:E; try discriminate.
  rewrite (walk_fuel_mono _ _ _ _ _ Hle E). exact H.
Qed.
