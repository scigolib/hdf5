(* C03 end to end: every step of Model/TreeImage.v preserves the layout invariant Placed (Proofs/TreeImagePlaced.v), refused
   calls included (they leave the state as it is, or - only in the branches that are unreachable after checkLinkable - an
   allocated, unlinked item). *)
From HV Require Import Base.Prelude Base.Outcome Base.Bytes Model.RobustAlloc Model.RobustGroup Model.GroupWire.
From HV Require Import Model.CodecSuper Model.CodecOhdr Model.CodecLink.
From HV Require Import Proofs.GroupWireHeap Proofs.GroupWireSnod.
From HV Require Import Model.FileImage Model.TreeImage Proofs.FileImage Proofs.TreeImageLink Proofs.TreeImagePlaced.
From HV Require Model.GroupNS.

Local Open Scope N_scope.

Lemma link_step st lay1 parent nm oa f2 :
  t_file st = image lay1 -> Forall item_ok lay1 -> 48 + lsize lay1 < LIM -> oa < 18446744073709551616 ->
  (forall ha sa, parent_addrs st parent = Some (ha, sa) -> sa = ha + 288 /\ GroupIn lay1 ha) ->
  link_to_parent st parent nm oa = Ok f2 ->
  exists lay2, f2 = image lay2 /\ Forall item_ok lay2 /\ same_shape lay1 lay2.
Proof.
  intros Hf Hok Hb Hoa Hreg H. unfold link_to_parent in H.
  destruct (prepare_link st parent nm oa) as [[ha sa]| |] eqn:EP; try discriminate. cbn [obind] in H.
  apply prepare_link_inv in EP as (_ & EP & _). destruct (Hreg _ _ EP) as [-> (l1 & seg & s & hb & l2 & -> & ->)].
  change (link_both (t_file st) (48 + lsize l1) (48 + lsize l1 + 288) nm oa = Ok f2) in H. rewrite Hf in H.
  destruct (link_image l1 seg s hb l2 nm oa f2 Hok Hb Hoa H) as (seg' & s1 & Hok' & ->).
  exists (l1 ++ IGroup seg' s1 hb :: l2). split; [reflexivity|]. split.
  - apply Forall_app in Hok as [H1 H2]. apply Forall_cons_iff in H2 as [_ H2]. apply Forall_app. split; [exact H1|]. now constructor.
  - apply same_shape_upd; [reflexivity | auto].
Qed.

Section Step.
Variable st : tstate.
Variable lay : list item.
Hypothesis Hf : t_file st = image lay.
Hypothesis Hok : Forall item_ok lay.
Hypothesis Hroot : GroupIn lay 48.
Hypothesis Hreg : forall p ha sa, NS.plookup p (t_groups st) = Some (ha, sa) -> sa = ha + 288 /\ GroupIn lay ha.

Lemma placed_here : Placed st.
Proof. exists lay. auto. Qed.

Lemma parent_reg lay1 f1 parent : (forall ha, GroupIn lay ha -> GroupIn lay1 ha) ->
  forall ha sa, parent_addrs (with_file st f1) parent = Some (ha, sa) -> sa = ha + 288 /\ GroupIn lay1 ha.
Proof.
  intros Hmono ha sa H. unfold parent_addrs in H. cbn [with_file t_groups] in H.
  destruct (NS.is_root_parent parent).
  - inversion H; subst. split; [reflexivity|]. apply Hmono. exact Hroot.
  - destruct (Hreg _ _ _ H) as [E G]. split; [exact E | now apply Hmono].
Qed.

Lemma append_fail it : item_ok it -> Placed (with_file st (image (lay ++ [it]))).
Proof.
  intros Hit. exists (lay ++ [it]). split; [reflexivity|].
  split; [apply Forall_app; split; [exact Hok | now constructor]|]. split; [now apply GroupIn_app|].
  cbn [with_file t_groups]. intros p ha sa H. destruct (Hreg _ _ _ H). split; auto. now apply GroupIn_app.
Qed.

Lemma create_linked_placed it parent nm oa (groups' : list (bytes * (N * N))) :
  item_ok it -> 48 + lsize (lay ++ [it]) < LIM -> oa < 18446744073709551616 ->
  (forall lay2, same_shape (lay ++ [it]) lay2 ->
     forall p ha sa, NS.plookup p groups' = Some (ha, sa) -> sa = ha + 288 /\ GroupIn lay2 ha) ->
  Placed (fst (create_linked st parent nm (image (lay ++ [it])) oa groups')).
Proof.
  intros Hit Hb Hoa Hg'. unfold create_linked. destruct (prepare_link st parent nm 0); [|exact placed_here..].
  destruct (link_to_parent _ parent nm oa) as [f2| |] eqn:EL; cbn [fst]; [|now apply append_fail..].
  assert (Hok1 : Forall item_ok (lay ++ [it])) by (apply Forall_app; split; [exact Hok | now constructor]).
  assert (Hmono : forall ha, GroupIn lay ha -> GroupIn (lay ++ [it]) ha) by (intros; now apply GroupIn_app).
  destruct (link_step (with_file st (image (lay ++ [it]))) (lay ++ [it]) parent nm oa f2 eq_refl Hok1 Hb Hoa
             (parent_reg _ _ parent Hmono) EL) as (lay2 & -> & Hok2 & HS).
  exists lay2. split; [reflexivity|]. split; [exact Hok2|]. split.
  - apply (same_shape_group _ _ 48 HS). now apply Hmono.
  - cbn [t_groups]. now apply Hg'.
Qed.

Theorem create_group_preserves p : blen (t_file st) + 3000 < LIM -> Placed (fst (t_create_group st p)).
Proof.
  intros Hb. rewrite Hf, blen_image in Hb by exact Hok. rewrite (create_group_linked st p lay Hf Hok Hb).
  destruct (negb (NS.validate_group_path p)); [exact placed_here|]. cbv zeta.
  destruct (negb (parent_registered st _)); [exact placed_here|].
  set (ha := 48 + lsize lay) in *. apply create_linked_placed; [apply new_group_item_ok | | |].
  - rewrite lsize_app. cbn [lsize]. rewrite new_group_item_size. blia.
  - unfold LIM in Hb. blia.
  - intros lay2 HS q ha' sa' H. rewrite plookup_pset in H.
    destruct (bytes_eqb (NS.trim_suffix_slash p) q).
    + inversion H; subst. split; [reflexivity|]. apply (same_shape_group _ _ ha HS).
      exists lay, (zeros 256), (new_snode 32), (ohdr_block (group_ohdr (ha + 1576) ha)), []. split; reflexivity.
    + destruct (Hreg _ _ _ H) as [E G]. split; [exact E|]. apply (same_shape_group _ _ ha' HS). now apply GroupIn_app.
Qed.

Theorem create_dataset_preserves p code dims data :
  blen (fst (alloc_dataset (t_file st) code dims data)) < LIM -> Placed (fst (t_create_dataset st p code dims data)).
Proof.
  intros Hb. rewrite Hf, alloc_dataset_image in Hb by exact Hok. cbn [fst] in Hb.
  rewrite (create_dataset_linked st p code dims data lay Hf Hok).
  destruct (negb (NS.validate_dataset_name p)); [exact placed_here|]. cbv zeta.
  set (da := 48 + lsize lay) in *. set (it := new_dset_item code dims data da) in *.
  assert (Hit : item_ok it) by (subst it; unfold new_dset_item; destruct (dtype_of_code code) as [[c s] b]; exact I).
  rewrite blen_image in Hb by (apply Forall_app; split; [exact Hok | now constructor]).
  apply create_linked_placed; [exact Hit | exact Hb | |].
  - rewrite lsize_app in Hb. cbn [lsize] in Hb. subst it. unfold new_dset_item in Hb. destruct (dtype_of_code code) as [[c s] b].
    cbn [item_size] in Hb. unfold LIM in Hb. subst da. blia.
  - intros lay2 HS q ha' sa' H. destruct (Hreg _ _ _ H) as [E G]. split; [exact E|].
    apply (same_shape_group _ _ ha' HS). now apply GroupIn_app.
Qed.
End Step.

Theorem step_group_preserves st p : Placed st -> blen (t_file st) + 3000 < LIM -> Placed (fst (t_step st (TGroup p))).
Proof. intros (lay & Hf & Hok & Hroot & Hreg) Hb. exact (create_group_preserves st lay Hf Hok Hroot Hreg p Hb). Qed.

Theorem step_dataset_preserves st p code dims data : Placed st ->
  blen (fst (alloc_dataset (t_file st) code dims data)) < LIM -> Placed (fst (t_step st (TDataset p code dims data))).
Proof. intros (lay & Hf & Hok & Hroot & Hreg) Hb. exact (create_dataset_preserves st lay Hf Hok Hroot Hreg p code dims data Hb). Qed.

(* the image a closed file has: Close replaces the first 48 bytes *)
Lemma close_image lay : Forall item_ok lay -> t_close (image lay) = enc_superblock (sb_eof (48 + lsize lay)) ++ layout 48 lay.
Proof.
  intros H. unfold t_close. rewrite blen_image by exact H. f_equal.
Qed.
