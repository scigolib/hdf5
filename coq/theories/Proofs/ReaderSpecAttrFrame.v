(* C06, reader against specification: the attribute message (0x000C), versions 1, 2 and 3 (version 2 for the repaired
   reader only: before the repair the reader pads it like version 1, ReaderSpecAttr.v).
   Framing: version | reserved | name size | datatype size | dataspace size | [v3: character set] | name | datatype |
   dataspace | data, with name / datatype / dataspace padded to multiples of 8 bytes in version 1.
   For every message (bytes < 256, shorter than 65536 bytes - the object header's 16-bit message size) that the strict
   specification decoder accepts, ParseAttributeMessage (Model/CodecAttr.v dec_attribute_gen, either variant of the version 2
   padding switch) returns an error or: the same
   name, a dataspace that agrees (ReaderSpecDataspace.ds_agree), a datatype that agrees when it is of class 0 / 1 / 3
   (ReaderSpecType.dt_agree), and data bytes that start with the specification's data (the reader hands back the rest
   of the message, i.e. including up to 7 bytes of object-header padding). *)
From HV Require Import Base.Prelude Base.Outcome Base.Bytes Spec.Parse Spec.FormatMsg
  Model.CodecMsg Model.CodecType Model.CodecAttr
  Proofs.RobustNoPanicBase Proofs.RobustNoPanicOhdr Proofs.RobustNoPanicType
  Proofs.ReaderSpecBase Proofs.ReaderSpecDataspace Proofs.ReaderSpecType.

Definition at_agree (a : attribute_spec) (v : attribute') : Prop :=
  atp_name v = as_name a /\
  ds_agree (as_space a) (atp_ds v) /\
  (dt_class (atp_dt v) = 0 \/ dt_class (atp_dt v) = 1 \/ dt_class (atp_dt v) = 3 -> dt_agree (as_dtype a) (atp_dt v)) /\
  match atp_data v with
  | Some d => firstn (length (as_data a)) d = as_data a
  | None => as_data a = []
  end.

(* alignTo8: (s + 7) & ^7 on uint16 *)
Lemma land_ldiff x a b : N.land x (N.ldiff a b) = N.ldiff (N.land x a) b.
Proof.
  apply N.bits_inj. intros i. rewrite N.land_spec, !N.ldiff_spec, N.land_spec. apply andb_assoc.
Qed.

Lemma land_65528 x : x < 65536 -> N.land x 65528 = x / 8 * 8.
Proof.
  intros H. change 65528 with (N.ldiff (N.ones 16) (N.ones 3)).
  rewrite land_ldiff, N.land_ones, N.ldiff_ones_r, N.shiftl_mul_pow2, N.shiftr_div_pow2.
  change (2 ^ 16) with 65536. change (2 ^ 3) with 8. rewrite N.mod_small by exact H. reflexivity.
Qed.

Lemma adv_pad (pad : bool) s : s + 7 < 65536 ->
  (if pad then align8_u16 s else s) = s + N.of_nat (if pad then N.to_nat (up8 s - s) else 0).
Proof.
  intros H. destruct pad; [|blia].
  unfold align8_u16, wrap16, up8. rewrite N.mod_small by exact H. rewrite land_65528 by exact H. blia.
Qed.

Lemma p_cstr_all (b : list N) name z : p_cstr b = Ok (name, z) -> length z = 0%nat -> b = name ++ [0].
Proof.
  revert name z. induction b as [|a b IH]; intros name z H Hz; cbn [p_cstr] in H; [discriminate|].
  destruct (a =? 0) eqn:A.
  - injection H as <- <-. apply N.eqb_eq in A. subst a. destruct b; [reflexivity|discriminate Hz].
  - destruct (p_cstr b) as [[s r']| |] eqn:E; cbn [obind] in H; try discriminate.
    injection H as <- <-. cbn [app]. f_equal. now apply (IH s r').
Qed.

Lemma slice_prefix (bs : list N) a b c s :
  slice bs a b = Ok s -> a <= c -> c <= b -> slice bs a c = Ok (firstn (N.to_nat (c - a)) s).
Proof.
  intros H Hac Hcb. apply slice_inv in H as (_ & Hb & ->).
  rewrite slice_eq, firstn_firstn, Nat.min_l by blia. reflexivity.
Qed.

Lemma firstn_app_exact (a b : list N) n : n = length a -> firstn n (a ++ b) = a.
Proof. intros ->. apply firstn_length_app. Qed.

(* Every version at once.  Version [ver] is padded by the specification iff ver = 1, by the reader iff ver < 2 (repaired) or ver < 3 (before the
   repair): the two agree except for the unrepaired reader on version 2
   (ReaderSpecAttr.attribute_v2_padding_refuted). *)
Lemma attribute_reader_spec (rep : bool) (lsz : nat) (pad_ok : bool) (bs : bytes) (a : attribute_spec) (tg : list tag) ver :
  bytes_ok bs = true -> blen bs < 65536 ->
  lsz = 4%nat \/ lsz = 8%nat ->
  spec_dec_attribute strict lsz pad_ok bs = Ok (a, tg) ->
  index bs 0 = Ok ver -> (rep = false -> ver <> 2) ->
  simple_rank0 (as_space a) = false ->
  err_or (at_agree a) (dec_attribute_gen rep false bs).
Proof.
  intros Hb Hlen Hl H HV HR NS. unfold spec_dec_attribute in H.
  rewrite (at_pos_0 bs) in H. assert (P0 : 0 <= blen bs) by blia.
  s_byte H ver' B1 I0. s_guard H GV.
  assert (ver' = ver) by congruence. subst ver'.
  assert (V : ver = 1 \/ ver = 2 \/ ver = 3) by blia. clear GV.
  s_byte H fl B2 I1. s_guard H GF.
  change (0 + 1) with 1 in *. change (1 + 1) with 2 in *.
  s_u H ns B3 RN. s_u H ts B4 RT. s_u H ss B5 RS.
  change (N.of_nat 2) with 2 in *. change (2 + 2) with 4 in *. change (4 + 2) with 6 in *. change (6 + 2) with 8 in *.
  match type of H with obind ?o _ = _ => destruct o as [[cset r0]| |] eqn:EC; cbn [obind] in H; try discriminate H end.
  assert (C : exists off, r0 = at_pos bs off /\ off = (if 3 <=? ver then 9 else 8) /\ off <= blen bs).
  { destruct V as [-> | [-> | ->]]; cbn [N.eqb Pos.eqb N.leb N.compare Pos.compare Pos.compare_cont] in *.
    1,2: injection EC as _ <-; eauto.
    s_byte EC c BC IC. s_guard EC GC. injection EC as _ <-. eauto. }
  destruct C as (off & -> & Hoff & Boff).
  assert (O89 : 8 <= off <= 9) by (destruct V as [-> | [-> | ->]]; cbn in Hoff; blia).
  set (pad := ver =? 1) in *.
  s_take H nameb B6 SN LN. rewrite N2Nat.id in *.
  s_zeros H B7 Z1.
  remember (off + ns + N.of_nat (if pad then N.to_nat (up8 ns - ns) else 0)) as P1 eqn:HP1.
  destruct (p_cstr nameb) as [[name z]| |] eqn:E; cbn [obind] in H; try discriminate H. s_guard H GZ.
  s_take H tb B8 ST LT. rewrite N2Nat.id in *.
  s_zeros H B9 Z2.
  remember (P1 + ts + N.of_nat (if pad then N.to_nat (up8 ts - ts) else 0)) as P2 eqn:HP2.
  destruct (spec_dec_datatype strict pad tb) as [[t tg0]| |] eqn:E0; cbn [obind] in H; try discriminate H.
  s_take H sb B10 SS LS. rewrite N2Nat.id in *.
  s_zeros H B11 Z3.
  remember (P2 + ss + N.of_nat (if pad then N.to_nat (up8 ss - ss) else 0)) as P3 eqn:HP3.
  destruct (spec_dec_dataspace lsz pad sb) as [sp| |] eqn:E1; cbn [obind] in H; try discriminate H.
  s_take H dat B12 SD LD. rewrite N2Nat.id in *.
  s_end H PE PF ZZ.
  injection H as <- <-. cbn [as_version as_space] in *.
  apply andb_true_iff in GZ as [GZ1 GZ2]. apply Nat.eqb_eq in GZ1.
  pose proof (p_cstr_all _ _ _ E GZ1) as HN.
  assert (LN' : ns = blen name + 1).
  { unfold blen. rewrite <- (N2Nat.id ns), <- LN, HN, app_length. cbn [length]. blia. }
  (* the reader pads exactly when the specification does *)
  assert (PAD : (if rep then ver <? 2 else ver <? 3) = pad).
  { destruct rep; [|specialize (HR eq_refl)]; destruct V as [-> | [-> | ->]]; try reflexivity. now elim HR. }
  assert (A1 : off + (if pad then align8_u16 ns else ns) = P1) by (rewrite adv_pad by blia; blia).
  assert (A2 : P1 + (if pad then align8_u16 ts else ts) = P2) by (rewrite adv_pad by blia; blia).
  assert (A3 : P2 + (if pad then align8_u16 ss else ss) = P3) by (rewrite adv_pad by blia; blia).
  unfold dec_attribute_gen, rd16.
  rewrite (ltb_false (blen bs) 8) by blia. rewrite I0. cbn [obind].
  apply N.eqb_eq in GF. subst fl. rewrite I1. cbn [obind].
  change (N.land 0 3 =? 0) with true. cbn [negb]. rewrite !andb_false_r. cbv beta iota.
  rewrite RN. cbn [obind]. rewrite RT. cbn [obind]. rewrite RS. cbn [obind].
  rewrite PAD, <- Hoff.
  rewrite A1, A2, A3.
  rewrite (ltb_false (blen bs) (off + ns)) by blia.
  replace (0 <? ns) with true by (symmetry; apply N.ltb_lt; blia).
  rewrite (slice_prefix bs off (off + ns) (off + ns - 1) nameb SN) by blia. cbn [obind].
  rewrite (ltb_false (blen bs) (P1 + ts)) by blia. rewrite ST. cbn [obind].
  pose proof (slice_bytes_ok _ _ _ _ Hb ST) as Hbt.
  destruct (dec_datatype tb) as [dv| |] eqn:DT; cbn [obind]; [|exact I|exfalso; revert DT; apply dec_datatype_no_panic].
  rewrite (ltb_false (blen bs) (P2 + ss)) by blia. rewrite SS. cbn [obind].
  pose proof (dataspace_reader_spec lsz pad sb sp Hl E1 NS) as DSA.
  destruct (dec_dataspace sb) as [dsv| |]; cbn [obind]; [|exact I|destruct DSA].
  assert (NAME : firstn (N.to_nat (off + ns - 1 - off)) nameb = name).
  { rewrite HN. apply firstn_app_exact. unfold blen in LN'. blia. }
  assert (DTA : dt_class dv = 0 \/ dt_class dv = 1 \/ dt_class dv = 3 -> dt_agree t dv).
  { intros _. exact (proj1 (datatype_agree _ _ _ _ Hbt E0) dv DT). }
  destruct (P3 <? blen bs) eqn:LP.
  - destruct (MaxAttributeSize <? blen bs - P3); [exact I|].
    unfold slice_from. rewrite (proj2 (N.leb_le P3 (blen bs))) by blia. cbn [obind].
    cbn [err_or]. unfold at_agree. cbn [atp_name atp_ds atp_dt atp_data as_name as_space as_dtype as_data].
    split; [exact NAME|]. split; [exact DSA|]. split; [exact DTA|].
    (* data: the specification's bytes are the first ones of the rest of the message *)
    unfold slice in SD.
    destruct ((P3 <=? P3 + nelem sp * dtype_size t) && (P3 + nelem sp * dtype_size t <=? blen bs)); [|discriminate].
    injection SD as <-. bnorm. rewrite firstn_length. f_equal.
    rewrite skipn_length. unfold blen in *. blia.
  - apply N.ltb_ge in LP.
    cbn [err_or]. unfold at_agree. cbn [atp_name atp_ds atp_dt atp_data as_name as_space as_dtype as_data].
    split; [exact NAME|]. split; [exact DSA|]. split; [exact DTA|].
    destruct dat; [reflexivity|]. cbn [length] in LD. exfalso. blia.
Qed.

Lemma attribute_v1_reader_spec (rep : bool) (lsz : nat) (pad_ok : bool) (bs : bytes) (a : attribute_spec) (tg : list tag) :
  bytes_ok bs = true -> blen bs < 65536 ->
  lsz = 4%nat \/ lsz = 8%nat ->
  spec_dec_attribute strict lsz pad_ok bs = Ok (a, tg) ->
  index bs 0 = Ok 1 ->
  simple_rank0 (as_space a) = false ->
  err_or (at_agree a) (dec_attribute_gen rep false bs).
Proof. intros; eapply attribute_reader_spec; eauto; discriminate. Qed.

Lemma attribute_v3_reader_spec (rep : bool) (lsz : nat) (pad_ok : bool) (bs : bytes) (a : attribute_spec) (tg : list tag) :
  bytes_ok bs = true -> blen bs < 65536 ->
  lsz = 4%nat \/ lsz = 8%nat ->
  spec_dec_attribute strict lsz pad_ok bs = Ok (a, tg) ->
  index bs 0 = Ok 3 ->
  simple_rank0 (as_space a) = false ->
  err_or (at_agree a) (dec_attribute_gen rep false bs).
Proof. intros; eapply attribute_reader_spec; eauto; discriminate. Qed.

Lemma attribute_v2_repaired_reader_spec (lsz : nat) (pad_ok : bool) (bs : bytes) (a : attribute_spec) (tg : list tag) :
  bytes_ok bs = true -> blen bs < 65536 ->
  lsz = 4%nat \/ lsz = 8%nat ->
  spec_dec_attribute strict lsz pad_ok bs = Ok (a, tg) ->
  index bs 0 = Ok 2 ->
  simple_rank0 (as_space a) = false ->
  err_or (at_agree a) (dec_attribute_gen true false bs).
Proof. intros; eapply attribute_reader_spec; eauto; discriminate. Qed.

(* the hypotheses are satisfiable: attribute "a", 1-byte unsigned integer, dataspace [2] (4-byte lengths), two data bytes;
   version 1 (name padded to 8, datatype 12 -> 16, dataspace 12 -> 16) in a version 1 object header, and version 3 *)
Definition attr_v1_example : bytes :=
  [1; 0; 2; 0; 12; 0; 12; 0] ++ [97; 0; 0; 0; 0; 0; 0; 0] ++ [16; 0; 0; 0; 1; 0; 0; 0; 0; 0; 8; 0] ++ zeros 4
  ++ [1; 1; 0; 0; 0; 0; 0; 0; 2; 0; 0; 0] ++ zeros 4 ++ [5; 6] ++ zeros 6.
Example attribute_v1_example :
  exists a, spec_dec_attribute strict 4 true attr_v1_example = Ok (a, []) /\ index attr_v1_example 0 = Ok 1 /\
            simple_rank0 (as_space a) = false /\ bytes_ok attr_v1_example = true /\
            dec_attribute false attr_v1_example =
              Ok {| atp_name := [97];
                    atp_dt := {| dt_class := 0; dt_version := 1; dt_size := 1; dt_cbf := 0; dt_props := [0; 0; 8; 0] |};
                    atp_ds := {| dsp_version := 1; dsp_type := 1; dsp_dims := [2]; dsp_maxdims := None |};
                    atp_data := Some ([5; 6] ++ zeros 6) |}.
Proof. eexists. repeat split; vm_compute; reflexivity. Qed.
