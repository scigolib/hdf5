(* C11: the two transcriptions of EncodePipelineMessage agree.
   Model/Filters.v (property C08: encode_msg over filter descriptors) and Model/CodecFilter.v
   (property C11: enc_pipeline over writer filters) produce the same bytes for every descriptor list whose
   names have at most 65528 bytes;
   the C08 module is only Required (its outcome type and parse_filters have the same short names). *)
From HV Require Import Base.Prelude Base.Outcome Base.Bytes Model.CodecFilter Proofs.CodecFilter.
From HV Require Model.Filters Proofs.FiltersPipeline.

(* a C08 descriptor seen as what a writer.Filter contributes: ID(), Name(), Encode() *)
Definition to_wfilter (d : Filters.fdesc) : wfilter :=
  {| wf_id := Filters.fid d; wf_name := Filters.fname d; wf_flags := Filters.fflags d; wf_cd := Filters.fcd d |}.

Lemma le2_wrap16 x : le 2 (wrap16 x) = le 2 x.
Proof. cbn [le]. unfold wrap16. f_equal; [lia|]. f_equal. lia. Qed.
Lemma le4_wrap32 x : le 4 (wrap32 x) = le 4 x.
Proof. cbn [le]. unfold wrap32. f_equal; [lia|]. f_equal; [lia|]. f_equal; [lia|]. f_equal. lia. Qed.

(* names up to 65528 bytes: the cut of the name field in the C11 transcription (copy into the exactly sized
   buffer, which the C08 transcription does not model) does nothing *)
Definition name_fits (d : Filters.fdesc) : Prop := N.of_nat (length (Filters.fname d)) <= 65528.

Lemma enc_filter_same d : name_fits d -> enc_filter (to_wfilter d) = Filters.encode_filter d.
Proof.
  destruct d as [id nl flags ncd name cd]. unfold name_fits. cbn [Filters.fname]. intros Hn.
  unfold enc_filter, Filters.encode_filter, to_wfilter.
  cbn [wf_id wf_name wf_flags wf_cd Filters.fid Filters.fname Filters.fflags Filters.fcd].
  pose proof (namefield_whole name) as Q.
  rewrite !le2_wrap16. unfold blen in *. bnorm.
  rewrite !(wrap16_small (N.of_nat (length name))) by lia.
  rewrite Q by exact Hn. clear Q.
  set (NL := N.of_nat (length name)) in *.
  do 5 f_equal.
  - destruct (0 <? NL) eqn:E; [|reflexivity].
    unfold padded_name_w. rewrite E. f_equal. unfold zeros. f_equal. lia.
  - f_equal. apply map_ext. intros v. apply le4_wrap32.
Qed.

(* both encoders: the same refusal (empty pipeline) and the same bytes, for all descriptor lists with names
   of at most 65528 bytes *)
Theorem enc_pipeline_same_as_c08 (ds : list Filters.fdesc) : Forall name_fits ds ->
  Filters.encode_msg ds =
  if encok_pipeline (map to_wfilter ds) then Filters.Ok (enc_pipeline (map to_wfilter ds)) else Filters.Err.
Proof.
  intros Hn. destruct ds as [|d0 r]; [reflexivity|].
  unfold Filters.encode_msg, encok_pipeline, enc_pipeline.
  rewrite map_length. cbn [length Nat.eqb negb]. cbv iota.
  f_equal. rewrite map_map. cbn [zeros repeat app]. do 8 f_equal. f_equal.
  apply map_ext_in. intros d Hin. symmetry. apply enc_filter_same.
  rewrite Forall_forall in Hn. apply Hn, Hin.
Qed.

Lemma desc_wf_name_fits d : FiltersPipeline.desc_wf d -> name_fits d.
Proof. intros (_ & _ & _ & Hnlen & _). unfold name_fits. lia. Qed.

Corollary enc_pipeline_same_as_c08_wf (ds : list Filters.fdesc) : Forall FiltersPipeline.desc_wf ds ->
  Filters.encode_msg ds =
  if encok_pipeline (map to_wfilter ds) then Filters.Ok (enc_pipeline (map to_wfilter ds)) else Filters.Err.
Proof. intros H. apply enc_pipeline_same_as_c08. eapply Forall_impl; [|exact H]. apply desc_wf_name_fits. Qed.

(* beyond: for a 65529-byte name the C08 transcription keeps the whole name (65537 bytes), the Go encoder
   and the C11 transcription write none of it (8 bytes); C08's theorems assume names below 65000 bytes *)
Lemma c08_encode_filter_overlong_differs :
  let d := Filters.mk_fdesc 1 65529 0 0 (repeat 65 (N.to_nat 65529)) [] in
  blen (Filters.encode_filter d) = 65537 /\ blen (enc_filter (to_wfilter d)) = 8.
Proof. vm_compute. split; reflexivity. Qed.

Lemma desc_wf_wf_filter d :
  FiltersPipeline.desc_wf d -> Forall (fun b => b < 256) (Filters.fname d) -> wf_filter (to_wfilter d) = true.
Proof.
  intros (Hid & Hfl & Hnl & Hnlen & Hnz & Hncd & Hcdlen & Hcd) Hb.
  unfold wf_filter, to_wfilter. cbn [wf_id wf_name wf_flags wf_cd]. unfold blen.
  repeat (apply andb_true_iff; split); try (apply N.ltb_lt; blia); try (apply N.leb_le; blia).
  - apply forallb_forall. intros b Hin. rewrite Forall_forall in Hnz, Hb.
    apply andb_true_iff; split; [apply negb_true_iff, N.eqb_neq, Hnz, Hin | apply N.ltb_lt, Hb, Hin].
  - apply forallb_forall. intros v Hin. rewrite Forall_forall in Hcd. apply N.ltb_lt, Hcd, Hin.
Qed.
