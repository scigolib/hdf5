(* C09 at file level: the selection validation of Model/IOProgSlice.v (validate, validate_slice: boolean checks per
   dimension INDEX) computes the same verdict as the validation of Model/Hyperslab.v (Hs.validate, Hs.slice_validate:
   structural loops with SafeMultiply / wrap64 / sub64), and the selection it returns is the filled selection whose axes
   are Hs.axes_of.  Only the counts and the dataset extents have to be uint64 values (u64_sel and
   Forall u64 dims imply that). *)
From HV Require Import Base.Prelude Base.Outcome Base.Bytes Model.IOProg Model.IOProgReader Model.IOProgSlice Model.SliceRefine.
From HV Require Proofs.HyperslabBase Proofs.HyperslabValidate.
Module HVa := HV.Proofs.HyperslabValidate.

Lemma axes_of_fill s n : axes_of_sel (fill s n) = Hs.axes_of (hsel_of s) n.
Proof. reflexivity. Qed.

(* validateSelectionDimensions *)
Lemma lens_refine s n :
  (length (s_start s) =? n)%nat && (length (s_count s) =? n)%nat &&
  match s_stride s with Some x => (length x =? n)%nat | None => true end &&
  match s_block s with Some x => (length x =? n)%nat | None => true end
  = HVa.okb (Hs.validate_selection_dimensions (hsel_of s) n).
Proof.
  unfold Hs.validate_selection_dimensions, hsel_of. cbn [Hs.h_start Hs.h_count Hs.h_stride Hs.h_block].
  destruct (length (s_start s) =? n)%nat; [|reflexivity]. destruct (length (s_count s) =? n)%nat; [|reflexivity].
  destruct (s_stride s) as [x|]; [destruct (length x =? n)%nat; [|reflexivity]|];
    (destruct (s_block s) as [y|]; [destruct (length y =? n)%nat|]; reflexivity).
Qed.

(* sel_lens of the filled selection is lens_ok of the selection, spelled with the other record *)
Lemma fill_lens s dims : validate s dims <> None -> sel_lens (fill s (length dims)) (length dims).
Proof.
  unfold validate. rewrite lens_refine.
  destruct (Hs.validate_selection_dimensions (hsel_of s) (length dims)) eqn:E; cbn [HVa.okb negb]; [|congruence].
  intros _. apply HVa.vsd_ok in E. exact E.
Qed.

(* CalculateHyperslabElements *)
Definition che_step (t : option N) (c : N) : option N :=
  match t with
  | Some t => if (c =? 0) || (18446744073709551616 <=? t * c) then None else Some (t * c)
  | None => None
  end.

Lemma che_fold_none cs : fold_left che_step cs None = None.
Proof. induction cs; cbn [fold_left che_step]; [reflexivity|assumption]. Qed.

Lemma che_fold : forall cs t, fold_left che_step cs (Some t) = Hs.che_loop t cs.
Proof.
  induction cs as [|c r IH]; intros t; cbn [fold_left Hs.che_loop che_step]; [reflexivity|].
  rewrite HVa.safe_multiply_eq, N.ltb_antisym.
  destruct (c =? 0); [apply che_fold_none|]. cbn [orb].
  destruct (18446744073709551616 <=? t * c); [apply che_fold_none|apply IH].
Qed.

Lemma che_refines cs : che cs = HVa.okb (Hs.calculate_hyperslab_elements cs).
Proof.
  unfold che, Hs.calculate_hyperslab_elements. destruct cs as [|c r]; [reflexivity|].
  change (fold_left _ (c :: r) (Some 1)) with (fold_left che_step (c :: r) (Some 1)).
  rewrite che_fold. destruct (Hs.che_loop 1 (c :: r)) as [t|]; [|reflexivity].
  unfold Hs.max_hyperslab_elements. rewrite N.ltb_antisym.
  destruct (t =? 0), (t <=? 1000000000); reflexivity.
Qed.

(* The program checks dimension i by index; the model walks the lists.  Index 0 of a cons is its head, index S i
   of a cons is index i of its tail, so the first index peels off one step of the model's loop. *)
Lemma forallb_seq_S (p : nat -> bool) n : forallb p (seq 0 (S n)) = p 0%nat && forallb (fun i => p (S i)) (seq 0 n).
Proof. cbn [seq forallb]. f_equal. rewrite <- seq_shift. induction (seq 0 n); cbn [map forallb]; congruence. Qed.

Lemma vhb_loop_refines : forall dims st cn sr bl,
  length st = length dims -> length cn = length dims -> length sr = length dims ->
  Forall Hs.u64 cn -> Forall Hs.u64 dims ->
  forallb (vhb_dim {| start := st; count := cn; stride := sr; block := bl |} dims) (idxs dims)
  = HVa.okb (Hs.vhb_loop true st cn sr dims).
Proof.
  unfold idxs, vhb_dim, nthN. cbn [start count stride].
  induction dims as [|d dims IH]; intros [|s0 st] [|c0 cn] [|r0 sr] bl L1 L2 L3 Uc Ud; cbn [length] in *; try discriminate;
    [reflexivity|].
  inversion Uc; inversion Ud; subst. rewrite forallb_seq_S. cbn [nth Hs.vhb_loop].
  rewrite <- HVa.vhb_dim_eq by assumption.
  destruct (Hs.vhb_dim true s0 c0 r0 d); [|reflexivity]. apply (IH st cn sr bl); auto.
Qed.

Lemma vdb_loop_refines : forall dims st cn sr bl,
  length st = length dims -> length cn = length dims -> length sr = length dims -> length bl = length dims ->
  Forall Hs.u64 cn -> Forall Hs.u64 dims ->
  forallb (vdb_dim {| start := st; count := cn; stride := sr; block := bl |} dims) (idxs dims)
  = HVa.okb (Hs.vdb_loop true (Hs.zip4 st cn sr bl) dims).
Proof.
  unfold idxs, vdb_dim, nthN. cbn [start count stride block].
  induction dims as [|d dims IH]; intros [|s0 st] [|c0 cn] [|r0 sr] [|b0 bl] L1 L2 L3 L4 Uc Ud; cbn [length] in *;
    try discriminate; [reflexivity|].
  inversion Uc; inversion Ud; subst. rewrite forallb_seq_S. cbn [nth Hs.zip4 Hs.vdb_loop].
  pose proof (HVa.vdb_dim_eq (Hs.mkAxis s0 c0 r0 b0) d ltac:(assumption) ltac:(assumption)) as E.
  cbn [Hs.a_start Hs.a_count Hs.a_stride Hs.a_block] in E. rewrite <- E.
  destruct (Hs.vdb_dim true _ d); [|reflexivity]. apply (IH st cn sr bl); auto.
Qed.

Lemma slice_loop_refines : forall dims st cn,
  length st = length dims -> length cn = length dims -> Forall Hs.u64 dims ->
  forallb (fun i => negb ((nthN dims i <? nthN cn i) || (nthN dims i - nthN cn i <? nthN st i))) (idxs dims)
  = HVa.okb (Hs.slice_loop true st cn dims).
Proof.
  unfold idxs, nthN.
  induction dims as [|d dims IH]; intros [|s0 st] [|c0 cn] L1 L2 Ud; cbn [length] in *; try discriminate; [reflexivity|].
  inversion Ud; subst. rewrite forallb_seq_S. cbn [nth Hs.slice_loop].
  rewrite <- HVa.slice_dim_eq by assumption.
  destruct (Hs.slice_dim true s0 c0 d); [|reflexivity]. apply (IH st cn); auto.
Qed.

(* validateHyperslabSelection *)
Lemma validate_refines s dims :
  Forall Hs.u64 dims -> HVa.u64_sel (hsel_of s) (length dims) ->
  validate s dims = match Hs.validate (hsel_of s) dims with Hs.Ok => Some (fill s (length dims)) | Hs.Err => None end.
Proof.
  intros Ud (_ & Uc & _ & _).
  unfold validate, Hs.validate, Hs.validate_gen. rewrite lens_refine.
  destruct (Hs.validate_selection_dimensions (hsel_of s) (length dims)) eqn:E; cbn [HVa.okb negb]; [|reflexivity].
  apply HVa.vsd_ok in E. destruct E as (L1 & L2 & L3 & L4).
  unfold Hs.validate_hyperslab_bounds. rewrite L1, L2, L3, !Nat.eqb_refl. cbn [andb negb].
  destruct s as [st cn osr obl].
  unfold hsel_of, fill, Hs.axes_of, Hs.stride_of, Hs.block_of, Hs.ones in *.
  cbn [s_start s_count s_stride s_block Hs.h_start Hs.h_count Hs.h_stride Hs.h_block count] in *.
  rewrite vhb_loop_refines, che_refines, vdb_loop_refines by assumption.
  destruct (Hs.vhb_loop true _ _ _ dims); [|reflexivity].
  destruct (Hs.calculate_hyperslab_elements cn); [|reflexivity].
  destruct (Hs.vdb_loop true _ dims); reflexivity.
Qed.

(* the second validation inside readHyperslab sees the filled selection: the same verdict, the same filled selection *)
Lemma validate_refill s dims :
  Forall Hs.u64 dims -> HVa.u64_sel (hsel_of s) (length dims) ->
  Hs.validate (hsel_of s) dims = Hs.Ok ->
  validate (refill (fill s (length dims))) dims = Some (fill s (length dims)).
Proof.
  intros Ud U V.
  assert (E : Hs.validate (hsel_of (refill (fill s (length dims)))) dims = Hs.validate (hsel_of s) dims).
  { unfold Hs.validate, Hs.validate_gen in *.
    destruct (Hs.validate_selection_dimensions (hsel_of s) (length dims)) eqn:EL; [|discriminate].
    apply HVa.vsd_ok in EL. rewrite (proj2 (HVa.vsd_ok (hsel_of (refill (fill s (length dims)))) _)) by exact EL.
    destruct s; reflexivity. }
  rewrite validate_refines, E, V by (assumption || (destruct s; exact U)). destruct s; reflexivity.
Qed.

(* the bounds loop of ReadSlice *)
Lemma validate_slice_refines st cn dims :
  Forall Hs.u64 dims -> Forall Hs.u64 st -> Forall Hs.u64 cn ->
  validate_slice st cn dims =
  match Hs.slice_validate st cn dims with
  | Hs.Ok => Some (fill {| s_start := st; s_count := cn; s_stride := None; s_block := None |} (length dims))
  | Hs.Err => None
  end.
Proof.
  intros Ud _ _. unfold validate_slice, Hs.slice_validate, Hs.slice_validate_gen.
  destruct (Nat.eqb_spec (length st) (length dims)) as [L1|]; cbn [andb negb]; [|reflexivity].
  destruct (Nat.eqb_spec (length cn) (length dims)) as [L2|]; cbn [andb negb]; [|reflexivity].
  replace (idxs st) with (idxs dims) by (unfold idxs; congruence).
  rewrite slice_loop_refines by assumption.
  destruct (Hs.slice_loop true st cn dims); reflexivity.
Qed.

Print Assumptions axes_of_fill.
Print Assumptions fill_lens.
Print Assumptions validate_refines.
Print Assumptions validate_refill.
Print Assumptions validate_slice_refines.
