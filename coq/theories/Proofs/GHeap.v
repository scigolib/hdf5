(* C12 (Props/C12.v): the global-heap writer and reader of Model/GHeap.v.  Bytes: what an encoded object
   followed by anything contains (obj_fields), shape and length of an encoded collection (encode_wfc0,
   content_shape, hdr16).  Loops: one turn of the reader's and of the format predicate's object loop on an
   encoded object (parse_objs_obj, wf_objs_obj), hence both on an encoded collection.  Writer: write_obj and
   flush keep Inv (extents tiled, cur_ok, slack bounding the uint16 index); run_close_inv sums it up. *)
From HV Require Import Base.Prelude Base.Bytes Model.GHeap Model.GHeapTie.

Local Open Scope N_scope.

(* [blen], [zeros] and [slice] are those of Model/GHeap.v (a count in N, unchecked slicing), not the
   checked ones of Base/Bytes.v: hence their own length and slicing facts *)
Lemma blen_app : forall a b, blen (a ++ b) = blen a + blen b.
Proof. intros. unfold blen. rewrite app_length. lia. Qed.

Lemma blen_nil : blen [] = 0.
Proof. reflexivity. Qed.

Lemma blen_cons : forall x l, blen (x :: l) = 1 + blen l.
Proof. intros. unfold blen. cbn [length]. lia. Qed.

Lemma blen_zeros : forall n, blen (zeros n) = n.
Proof. intros. unfold blen, zeros. rewrite repeat_length. lia. Qed.

Lemma blen_le : forall n v, blen (le n v) = N.of_nat n.
Proof. intros. unfold blen. now rewrite length_le. Qed.

Lemma le_bytes : forall n v, Forall (fun b => b < 256) (le n v).
Proof.
  induction n; intros; cbn [le]; constructor; auto. apply N.mod_lt. lia.
Qed.

Lemma firstn_blen_app : forall (a b : bytes) n, n = blen a -> firstn (N.to_nat n) (a ++ b) = a.
Proof.
  intros a b n ->. unfold blen. rewrite Nat2N.id.
  rewrite firstn_app, Nat.sub_diag, firstn_all. cbn. now rewrite app_nil_r.
Qed.

Lemma skipn_blen_app : forall (a b : bytes) n, n = blen a -> skipn (N.to_nat n) (a ++ b) = b.
Proof.
  intros a b n ->. unfold blen. rewrite Nat2N.id.
  rewrite skipn_app, Nat.sub_diag, skipn_all. reflexivity.
Qed.

Lemma skipn_add_app : forall (p r : bytes) n m, n = blen p + m ->
  skipn (N.to_nat n) (p ++ r) = skipn (N.to_nat m) r.
Proof.
  intros p r n m ->. unfold blen.
  replace (N.to_nat (N.of_nat (length p) + m)) with (length p + N.to_nat m)%nat by lia.
  rewrite skipn_app.
  replace (length p + N.to_nat m - length p)%nat with (N.to_nat m) by lia.
  rewrite skipn_all2 by lia. reflexivity.
Qed.

Lemma slice_app_at : forall (p m s : bytes) off n, off = blen p -> n = blen m ->
  slice (p ++ m ++ s) off n = m.
Proof.
  intros. unfold slice. rewrite skipn_blen_app by assumption. now apply firstn_blen_app.
Qed.

Lemma slice_0 : forall (m s : bytes) n, n = blen m -> slice (m ++ s) 0 n = m.
Proof. intros. now apply (slice_app_at [] m s). Qed.

Lemma slice_full : forall (b : bytes) n, n = blen b -> slice b 0 n = b.
Proof.
  intros. rewrite <- (app_nil_r b) at 1. now apply slice_0.
Qed.

Lemma slice_prefix : forall (b : bytes) n, n <= blen b -> slice b 0 n = firstn (N.to_nat n) b.
Proof. reflexivity. Qed.

Lemma align8_ge : forall x, x <= align8 x.
Proof. intros. unfold align8. destruct (x mod 8 =? 0) eqn:E; lia. Qed.

Lemma align8_lt : forall x, align8 x < x + 8.
Proof. intros. unfold align8. destruct (x mod 8 =? 0) eqn:E; lia. Qed.

Lemma align8_id : forall x, x mod 8 = 0 -> align8 x = x.
Proof. intros. unfold align8. destruct (x mod 8 =? 0) eqn:E; lia. Qed.

Lemma obj_total_ge : forall l, 16 <= obj_total l /\ l + 16 <= obj_total l /\ obj_total l mod 8 = 0.
Proof. intros. unfold obj_total, align8. destruct (l mod 8 =? 0) eqn:E; lia. Qed.

Lemma enc_obj_unfold : forall i r d, enc_obj (mkobj i r d) =
  le 2 i ++ le 2 r ++ [0; 0; 0; 0] ++ le 8 (blen d) ++ d ++ zeros (align8 (blen d) - blen d).
Proof. reflexivity. Qed.

Lemma hdr_fields : forall i r l (R : bytes),
  let rest := le 2 i ++ le 2 r ++ [0; 0; 0; 0] ++ le 8 l ++ R in
  slice rest 0 2 = le 2 i /\ slice rest 2 2 = le 2 r /\ slice rest 4 4 = [0; 0; 0; 0] /\
  slice rest 8 8 = le 8 l /\ skipn 16 rest = R /\ blen rest = 16 + blen R.
Proof.
  intros. subst rest. repeat split; try reflexivity.
  rewrite !blen_app, !blen_le. unfold blen. cbn [length]. lia.
Qed.

Lemma obj_fields : forall o (T : bytes),
  let b := enc_obj o ++ T in
  let n := blen (o_data o) in
  slice b 0 2 = le 2 (o_index o) /\ slice b 2 2 = le 2 (o_ref o) /\ slice b 4 4 = [0; 0; 0; 0]
  /\ slice b 8 8 = le 8 n /\ slice b 16 n = o_data o
  /\ skipn (N.to_nat (obj_total n)) b = T /\ blen b = obj_total n + blen T.
Proof.
  intros [i r d] T. cbn [o_index o_ref o_data]. cbv zeta.
  rewrite enc_obj_unfold, <- !app_assoc.
  set (pad := zeros (align8 (blen d) - blen d)).
  destruct (hdr_fields i r (blen d) (d ++ pad ++ T)) as (F0 & F2 & F4 & F8 & F16 & FL).
  assert (Hp : blen (d ++ pad) = align8 (blen d)).
  { unfold pad. rewrite blen_app, blen_zeros. pose proof (align8_ge (blen d)). lia. }
  repeat split; try assumption; unfold obj_total.
  - unfold slice. change (N.to_nat 16) with 16%nat. rewrite F16. now apply firstn_blen_app.
  - replace (N.to_nat (16 + align8 (blen d))) with (16 + N.to_nat (align8 (blen d)))%nat by lia.
    rewrite <- skipn_skipn, F16, app_assoc. now apply skipn_blen_app.
  - rewrite FL, app_assoc, blen_app, Hp. lia.
Qed.

Lemma blen_enc_obj : forall o, blen (enc_obj o) = obj_total (blen (o_data o)).
Proof.
  intros. destruct (obj_fields o []) as (_ & _ & _ & _ & _ & _ & H).
  rewrite app_nil_r in H. rewrite H. apply N.add_0_r.
Qed.

(* consecutive indices from k, reference count 1 (what addObject produces) *)
Fixpoint objs_from (k : N) (objs : list gobj) : Prop :=
  match objs with
  | [] => True
  | o :: r => o_index o = k /\ o_ref o = 1 /\ objs_from (k + 1) r
  end.

Fixpoint total_of (objs : list gobj) : N :=
  match objs with [] => 0 | o :: r => obj_total (blen (o_data o)) + total_of r end.

Lemma total_of_app : forall a b, total_of (a ++ b) = total_of a + total_of b.
Proof. induction a; intros; cbn [app total_of]; [lia | rewrite IHa; lia]. Qed.

Lemma total_of_count : forall l, 16 * N.of_nat (length l) <= total_of l.
Proof.
  induction l; cbn [total_of length]; [lia|].
  pose proof (obj_total_ge (blen (o_data a))). lia.
Qed.

Lemma blen_flat_enc : forall l, blen (flat_map enc_obj l) = total_of l.
Proof.
  induction l; cbn [flat_map total_of]; [reflexivity|].
  rewrite blen_app, blen_enc_obj, IHl. reflexivity.
Qed.

Lemma objs_from_app : forall a k b,
  objs_from k (a ++ b) <-> objs_from k a /\ objs_from (k + N.of_nat (length a)) b.
Proof.
  induction a; intros k b; cbn [app objs_from length].
  - replace (k + N.of_nat 0) with k by lia. tauto.
  - rewrite IHa. replace (k + 1 + N.of_nat (length a0)) with (k + N.of_nat (S (length a0))) by lia. tauto.
Qed.

Lemma objs_from_in : forall l k o, objs_from k l -> In o l ->
  k <= o_index o /\ o_index o < k + N.of_nat (length l) /\ o_ref o = 1.
Proof.
  induction l; intros k o H Hin; [destruct Hin|].
  cbn [objs_from] in H. destruct H as (Hi & Hr & Hf). cbn [length].
  destruct Hin as [-> | Hin].
  - lia.
  - specialize (IHl _ _ Hf Hin). lia.
Qed.

Lemma in_total_of : forall l o, In o l -> obj_total (blen (o_data o)) <= total_of l.
Proof.
  induction l; intros o Hin; [destruct Hin|]. cbn [total_of].
  destruct Hin as [-> | Hin]; [lia|]. specialize (IHl _ Hin). lia.
Qed.

Lemma get_object_in : forall l k o, objs_from k l -> In o l -> get_object l (o_index o) = Ok o.
Proof.
  induction l; intros k o H Hin; [destruct Hin|].
  cbn [get_object]. destruct H as (Hi & Hr & Hf).
  destruct Hin as [-> | Hin].
  - now rewrite N.eqb_refl.
  - pose proof (objs_from_in _ _ _ Hf Hin).
    destruct (o_index a =? o_index o) eqn:E; [lia|]. eauto.
Qed.

Definition W64 : N := 18446744073709551616.

Lemma parse_objs_obj : forall fuel o T,
  0 < o_index o < 65536 -> o_ref o < 65536 -> blen (o_data o) < W64 ->
  parse_objs (S fuel) (enc_obj o ++ T) =
  match parse_objs fuel T with Ok l => Ok (o :: l) | Err e => Err e end.
Proof.
  intros fuel o T Hi Hr Hd.
  destruct (obj_fields o T) as (F0 & F2 & _ & F8 & Fd & Fs & FL).
  pose proof (obj_total_ge (blen (o_data o))).
  cbn [parse_objs]. rewrite FL, F0, F2, F8, !unle_le_small by (cbn; unfold W64 in *; lia).
  fold (obj_total (blen (o_data o))). rewrite Fd, Fs.
  destruct (_ <? 16) eqn:E1; [lia|].
  destruct (_ <? blen (o_data o)) eqn:E2; [lia|].
  destruct (o_index o =? 0) eqn:E3; [lia|].
  destruct (_ <? 16 + blen (o_data o)) eqn:E4; [lia|].
  now destruct o.
Qed.

Lemma parse_objs_enc : forall objs k T fuel,
  objs_from k objs -> 0 < k -> k + N.of_nat (length objs) <= 65536 ->
  total_of objs < W64 ->
  (forall f, (2 <= f)%nat -> parse_objs f T = Ok []) ->
  (length objs + 2 <= fuel)%nat ->
  parse_objs fuel (flat_map enc_obj objs ++ T) = Ok objs.
Proof.
  induction objs as [|o objs IH]; intros k T fuel Hf Hk Hn Ht HT Hfuel;
    cbn [flat_map app total_of objs_from length] in *.
  - apply HT. lia.
  - destruct Hf as (Hi & Hr & Hf). destruct fuel as [|fuel]; [lia|].
    pose proof (obj_total_ge (blen (o_data o))).
    rewrite <- app_assoc, parse_objs_obj by (unfold W64 in *; lia).
    now rewrite (IH (k + 1) T fuel) by (auto; lia).
Qed.

Record wfc0 (c : coll) : Prop := {
  wf_sum : c_used c + c_free c = c_size c;
  wf_used : c_used c = 16 + total_of (c_objs c);
  wf_idx : objs_from 1 (c_objs c);
  wf_next : c_next c = 1 + N.of_nat (length (c_objs c));
  wf_cnt : c_next c < 65536;
  wf_mod : c_size c mod 8 = 0 }.

(* a well-formed builder whose size fits the 8-byte size field (true for every collection of a file
   below 2^64 bytes) *)
Definition wfc (c : coll) : Prop := wfc0 c /\ c_size c < W64.

Definition tail_zeros (c : coll) : N := if 16 <=? c_free c then c_free c - 16 else c_free c.

Lemma parse_tail : forall c f, (2 <= f)%nat -> c_free c < W64 ->
  parse_objs f (enc_free c ++ zeros (tail_zeros c)) = Ok [].
Proof.
  intros c f Hf Hfree. destruct f as [|[|f]]; try lia.
  unfold enc_free, tail_zeros. destruct (16 <=? c_free c) eqn:E.
  - rewrite <- !app_assoc.
    destruct (hdr_fields 0 0 (c_free c - 16) (zeros (c_free c - 16))) as (F0 & _ & _ & F8 & _ & FL).
    cbn [parse_objs]. bnorm. rewrite FL, F0, F8, blen_zeros, !unle_le_small by (cbn; unfold W64 in *; lia).
    destruct (_ <? 16) eqn:E1; [lia|].
    destruct (_ <? c_free c - 16) eqn:E2; [lia|].
    cbn [N.eqb]. rewrite skipn_all2; [reflexivity|].
    pose proof (align8_ge (c_free c - 16)). rewrite blen_zeros in FL. unfold blen in FL. blia.
  - cbn [app parse_objs]. rewrite blen_zeros.
    destruct (c_free c <? 16) eqn:E1; [reflexivity | lia].
Qed.

Lemma blen_enc_free : forall c, blen (enc_free c) = if 16 <=? c_free c then 16 else 0.
Proof. intros. unfold enc_free. destruct (16 <=? c_free c); reflexivity. Qed.

Lemma blen_content : forall c, blen (coll_content c) = 16 + total_of (c_objs c) + blen (enc_free c).
Proof.
  intros. unfold coll_content. rewrite !blen_app, blen_le, blen_flat_enc.
  unfold blen at 1 2 3. cbn [length sig_gcol]. lia.
Qed.

Lemma encode_wfc0 : forall c, wfc0 c ->
  encode_collection c = Some (coll_content c ++ zeros (tail_zeros c))
  /\ blen (coll_content c ++ zeros (tail_zeros c)) = c_size c.
Proof.
  intros c [Hs Hu _ _ _ _]. unfold encode_collection.
  assert (Hz : blen (coll_content c) + tail_zeros c = c_size c).
  { rewrite blen_content, blen_enc_free. unfold tail_zeros. destruct (16 <=? c_free c) eqn:E; lia. }
  destruct (blen (coll_content c) <=? c_size c) eqn:E; [|lia].
  replace (c_size c - blen (coll_content c)) with (tail_zeros c) by lia.
  now rewrite blen_app, blen_zeros.
Qed.

Definition encode_wfc c (Hw : wfc c) := encode_wfc0 c (proj1 Hw).

Lemma content_shape : forall c,
  coll_content c ++ zeros (tail_zeros c) =
  (sig_gcol ++ [1] ++ [0; 0; 0] ++ le 8 (c_size c)) ++
  flat_map enc_obj (c_objs c) ++ (enc_free c ++ zeros (tail_zeros c)).
Proof. intros. unfold coll_content. now rewrite <- !app_assoc. Qed.

Lemma hdr16 : forall sz (R : bytes),
  let b := (sig_gcol ++ [1] ++ [0; 0; 0] ++ le 8 sz) ++ R in
  slice b 0 4 = sig_gcol /\ nth 4 b 0 = 1 /\ slice b 5 3 = [0; 0; 0] /\ slice b 8 8 = le 8 sz
  /\ skipn 16 b = R /\ blen b = 16 + blen R /\ slice b 0 16 = sig_gcol ++ [1] ++ [0; 0; 0] ++ le 8 sz.
Proof.
  intros. subst b. repeat split; try reflexivity.
  rewrite !blen_app, blen_le. unfold blen. cbn [length sig_gcol]. lia.
Qed.

Lemma wfc_bounds : forall c, wfc c ->
  c_free c < W64 /\ total_of (c_objs c) < W64 /\ 16 <= c_size c
  /\ 16 * N.of_nat (length (c_objs c)) <= c_size c.
Proof.
  intros c [[Hs Hu _ _ _ _] Hl]. pose proof (total_of_count (c_objs c)). lia.
Qed.

Lemma parse_encoded : forall c, wfc c ->
  parse_objs (S (S (N.to_nat (c_size c / 16))))
             (skipn 16 (coll_content c ++ zeros (tail_zeros c))) = Ok (c_objs c).
Proof.
  intros c Hw. pose proof (wfc_bounds c Hw) as (Hf & Ht & Hsz & Hcnt).
  destruct Hw as [[Hs Hu Hi Hn Hc Hm] Hl].
  rewrite content_shape.
  destruct (hdr16 (c_size c) (flat_map enc_obj (c_objs c) ++ enc_free c ++ zeros (tail_zeros c)))
    as (_ & _ & _ & _ & -> & _).
  apply (parse_objs_enc (c_objs c) 1); auto using parse_tail; lia.
Qed.

(* the file: the extents written by the heap writer, newest first; every extent ends at or below the
   start of the one written after it *)
Fixpoint disk_ok (d : list (N * bytes)) (lim : N) : Prop :=
  match d with
  | [] => True
  | (a, b) :: r => 16 <= blen b /\ a + blen b <= lim /\ disk_ok r a
  end.

Lemma disk_ok_mono : forall d l1 l2, disk_ok d l1 -> l1 <= l2 -> disk_ok d l2.
Proof. destruct d as [|[a b] r]; cbn [disk_ok]; intros; [auto|]. intuition lia. Qed.

Lemma disk_ok_in : forall d lim a b, disk_ok d lim -> In (a, b) d -> 16 <= blen b /\ a + blen b <= lim.
Proof.
  induction d as [|[a0 b0] r IH]; intros lim a b H Hin; [destruct Hin|].
  destruct H as (H1 & H2 & H3), Hin as [[= -> ->] | Hin]; [lia|].
  specialize (IH _ _ _ H3 Hin). lia.
Qed.

Lemma read_at_in : forall d lim a b n, disk_ok d lim -> In (a, b) d -> n <= blen b ->
  read_at d a n = Some (slice b 0 n).
Proof.
  induction d as [|[a0 b0] r IH]; intros lim a b n H Hin Hn; [destruct Hin|].
  cbn [read_at]. destruct H as (H1 & H2 & H3), Hin as [[= -> ->] | Hin].
  - rewrite N.leb_refl, (proj2 (N.leb_le _ _)), N.sub_diag by lia. reflexivity.
  - pose proof (disk_ok_in _ _ _ _ H3 Hin).
    rewrite (proj2 (N.leb_gt _ _)) by lia. cbn [andb]. eauto.
Qed.

Lemma read_collection_encoded : forall d lim c b, disk_ok d lim -> wfc c ->
  encode_collection c = Some b -> In (c_addr c, b) d ->
  read_collection d (c_addr c) = Ok (mkrc (c_addr c) (c_size c) (c_objs c)).
Proof.
  intros d lim c b Hd Hw He Hin.
  destruct (encode_wfc c Hw) as (E & Hlen).
  assert (b = coll_content c ++ zeros (tail_zeros c)) as -> by congruence.
  pose proof (wfc_bounds c Hw) as (_ & _ & Hsz & _).
  pose proof (parse_encoded c Hw) as Hp.
  pose proof (proj2 Hw) as Hl.
  assert (FH : slice (coll_content c ++ zeros (tail_zeros c)) 0 16
               = sig_gcol ++ [1] ++ [0; 0; 0] ++ le 8 (c_size c)) by (rewrite content_shape; apply hdr16).
  unfold read_collection.
  rewrite (read_at_in d lim (c_addr c) _ 16 Hd Hin), FH by lia.
  change (slice (sig_gcol ++ [1] ++ [0; 0; 0] ++ le 8 (c_size c)) 0 4) with sig_gcol.
  change (nth 4 (sig_gcol ++ [1] ++ [0; 0; 0] ++ le 8 (c_size c)) 0) with 1.
  change (slice (sig_gcol ++ [1] ++ [0; 0; 0] ++ le 8 (c_size c)) 8 8) with (le 8 (c_size c)).
  rewrite bytes_eqb_refl, N.eqb_refl, unle_le_small by (cbn; unfold W64 in *; lia). cbn [negb].
  destruct (c_size c <? 16) eqn:E16; [lia|].
  rewrite (read_at_in d lim (c_addr c) _ (c_size c) Hd Hin), slice_full, Hp by lia. reflexivity.
Qed.

Lemma all_zero_zeros : forall n, all_zero (zeros n) = true.
Proof.
  intros. unfold all_zero, zeros. induction (N.to_nat n); cbn [repeat forallb]; auto.
Qed.

Lemma existsb_fresh : forall k seen, (forall x, In x seen -> x < k) -> existsb (N.eqb k) seen = false.
Proof. intros k seen H. now apply existsb_fresh, Forall_forall. Qed.

Lemma wf_objs_obj : forall fuel seen o T, 0 < o_index o < 65536 -> blen (o_data o) < W64 ->
  wf_objs 16 (S fuel) seen (enc_obj o ++ T) =
  negb (existsb (N.eqb (o_index o)) seen) && wf_objs 16 fuel (o_index o :: seen) T.
Proof.
  intros fuel seen o T Hi Hd.
  destruct (obj_fields o T) as (F0 & _ & F4 & F8 & _ & Fs & FL).
  pose proof (obj_total_ge (blen (o_data o))).
  cbn [wf_objs]. bnorm. rewrite FL, F0, F4, F8, !unle_le_small by (cbn; unfold W64 in *; lia).
  fold (obj_total (blen (o_data o))). rewrite Fs.
  destruct (_ =? 0) eqn:E0; [lia|].
  destruct (_ <? 16) eqn:E1; [lia|].
  destruct (o_index o =? 0) eqn:E2; [lia|].
  rewrite (proj2 (N.leb_le _ _)) by lia. now rewrite andb_true_r.
Qed.

Lemma wf_tail : forall c f seen, (1 <= f)%nat -> c_free c < W64 ->
  wf_objs 16 f seen (enc_free c ++ zeros (tail_zeros c)) = true.
Proof.
  intros c f seen Hf Hfree. destruct f as [|f]; [lia|].
  unfold enc_free, tail_zeros. destruct (16 <=? c_free c) eqn:E.
  - rewrite <- !app_assoc.
    destruct (hdr_fields 0 0 (c_free c - 16) (zeros (c_free c - 16))) as (F0 & F2 & F4 & F8 & _ & FL).
    cbn [wf_objs]. bnorm. rewrite FL, F0, F2, F4, F8, blen_zeros, !unle_le_small by (cbn; unfold W64 in *; lia).
    destruct (_ =? 0) eqn:E0; [lia|].
    destruct (_ <? 16) eqn:E1; [lia|].
    apply N.eqb_eq. lia.
  - cbn [app wf_objs]. rewrite blen_zeros.
    destruct (c_free c =? 0) eqn:E0; [reflexivity|].
    destruct (c_free c <? 16) eqn:E1; [|lia]. apply all_zero_zeros.
Qed.

Lemma wf_objs_enc : forall objs k seen T fuel,
  objs_from k objs -> 0 < k -> k + N.of_nat (length objs) <= 65536 ->
  total_of objs < W64 ->
  (forall x, In x seen -> x < k) ->
  (forall f s, (1 <= f)%nat -> wf_objs 16 f s T = true) ->
  (length objs + 1 <= fuel)%nat ->
  wf_objs 16 fuel seen (flat_map enc_obj objs ++ T) = true.
Proof.
  induction objs as [|o objs IH]; intros k seen T fuel Hf Hk Hn Ht Hseen HT Hfuel;
    cbn [flat_map app total_of objs_from length] in *.
  - apply HT. lia.
  - destruct Hf as (Hi & Hr & Hf). destruct fuel as [|fuel]; [lia|].
    pose proof (obj_total_ge (blen (o_data o))).
    rewrite <- app_assoc, wf_objs_obj, Hi, existsb_fresh by (auto; unfold W64 in *; lia).
    apply (IH (k + 1)); auto; try lia.
    intros x [<- | Hx]; [|apply Hseen in Hx]; lia.
Qed.

Lemma wf_gcol_encoded : forall c b, wfc c -> encode_collection c = Some b -> wf_gcol 16 b = true.
Proof.
  intros c b Hw He.
  destruct (encode_wfc c Hw) as (E & Hlen).
  assert (b = coll_content c ++ zeros (tail_zeros c)) as -> by congruence.
  pose proof (wfc_bounds c Hw) as (Hfree & Ht & Hsz & Hcnt).
  destruct Hw as [[Hs Hu Hi Hn Hc Hm] Hl].
  unfold wf_gcol. rewrite Hlen. revert Hlen. rewrite content_shape. intros _.
  destruct (hdr16 (c_size c) (flat_map enc_obj (c_objs c) ++ enc_free c ++ zeros (tail_zeros c)))
    as (F0 & F4 & F5 & F8 & F16 & _).
  bnorm. rewrite F0, F4, F5, F8, F16, unle_le_small by (cbn; unfold W64 in *; lia).
  rewrite Hm, !N.eqb_refl, (proj2 (N.leb_le _ _) Hsz), bytes_eqb_refl. cbn [all_zero forallb N.eqb andb].
  apply (wf_objs_enc (c_objs c) 1); auto using wf_tail; try lia.
  intros x [].
Qed.

Lemma parse_encode_reference : forall id, h_addr id < W64 -> h_idx id < 4294967296 ->
  parse_reference (encode_reference id) = Ok id.
Proof.
  intros [a i] Ha Hi. cbn [h_addr h_idx] in *. unfold parse_reference, encode_reference.
  cbn [h_addr h_idx].
  rewrite slice_0, (slice_app_at (le 8 a) (le 4 i) [0; 0; 0; 0]) by (now rewrite blen_le).
  rewrite !blen_app, !blen_le, !unle_le_small by (cbn; unfold W64 in *; lia). reflexivity.
Qed.

Section Machine.
Variables minsz blk : N.

Definition params_ok : Prop :=
  0 < blk /\ blk mod 8 = 0 /\ minsz mod 8 = 0 /\ minsz + blk <= 1048000.
Hypothesis Hp : params_ok.

(* 16 * nextIndex + freeSpace stays below this bound after the first object of a collection:
   this is what keeps the uint16 object index from wrapping *)
Definition K : N := minsz + blk + 48.
Definition slack (c : coll) : Prop := 16 * c_next c + c_free c <= K.

Lemma new_size_props : forall tot, tot mod 8 = 0 ->
  let sz := new_size minsz blk tot in
  16 + tot + 16 <= sz /\ sz mod 8 = 0 /\ sz < tot + 32 + minsz + blk.
Proof.
  intros tot Ht. destruct Hp as (Hb & Hb8 & Hm8 & _). unfold new_size. cbv zeta.
  destruct (minsz <? 16 + tot + 16) eqn:E; [|lia].
  (* rounding n up to a multiple of blk: n + (blk - 1) = blk * q + r with r < blk *)
  pose proof (N.div_mod (16 + tot + 16 + (blk - 1)) blk) as Hq.
  pose proof (N.mod_lt (16 + tot + 16 + (blk - 1)) blk) as Hr.
  rewrite (N.mul_comm _ blk). split; [lia|]. split; [|lia].
  rewrite N.mul_mod, Hb8, N.mul_0_l by lia. reflexivity.
Qed.

Lemma add_object_wfc0 : forall c d, wfc0 c -> c_next c + 1 < 65536 -> obj_total (blen d) <= c_free c ->
  wfc0 (fst (add_object c d)).
Proof.
  intros c d [Hs Hu Hi Hn Hc Hm] Hnx Hsp. unfold add_object. cbn [fst].
  constructor; cbn [c_used c_free c_size c_objs c_next]; rewrite ?wrap16_small by exact Hnx.
  - lia.
  - rewrite total_of_app. cbn [total_of o_data]. lia.
  - apply objs_from_app. split; [exact Hi|]. cbn [objs_from o_index o_ref]. repeat split; lia.
  - rewrite app_length. cbn [length]. lia.
  - exact Hnx.
  - exact Hm.
Qed.

Definition cur_ok (st : gstate) (c : coll) : Prop :=
  wfc0 c /\ slack c /\ c_addr c + c_size c <= eof st.

(* an issued heap id points at the written bytes: in the open collection, or in a closed collection
   whose encoding is on disk *)
Definition in_cur (st : gstate) (id : heapid) (d : bytes) : Prop :=
  exists c, cur st = Some c /\ c_addr c = h_addr id /\ In (mkobj (h_idx id) 1 d) (c_objs c).
Definition on_disk (dk : list (N * bytes)) (id : heapid) (d : bytes) : Prop :=
  exists c b, wfc0 c /\ c_addr c = h_addr id /\ encode_collection c = Some b
              /\ In (c_addr c, b) dk /\ In (mkobj (h_idx id) 1 d) (c_objs c).
Definition holds (st : gstate) (id : heapid) (d : bytes) : Prop :=
  in_cur st id d \/ on_disk (disk st) id d.

Definition closed_ok (dk : list (N * bytes)) : Prop :=
  forall a b, In (a, b) dk -> exists c, wfc0 c /\ c_addr c = a /\ encode_collection c = Some b.

Record Inv (st : gstate) : Prop := {
  inv_disk : disk_ok (disk st) (match cur st with Some c => c_addr c | None => eof st end);
  inv_cur : forall c, cur st = Some c -> cur_ok st c;
  inv_closed : closed_ok (disk st) }.

Lemma Inv_init : forall e0, Inv (mkst None e0 []).
Proof.
  intros. constructor; cbn [cur disk eof disk_ok]; auto.
  - intros c H. discriminate.
  - intros a b [].
Qed.

Lemma Inv_alloc : forall st n, Inv st -> Inv (mkst (cur st) (eof st + n) (disk st)).
Proof.
  intros st n [Hd Hc Hcl]. constructor; cbn [cur disk eof]; auto.
  - destruct (cur st); [exact Hd|]. eapply disk_ok_mono; [exact Hd | lia].
  - intros c Hcur. destruct (Hc c Hcur) as (A & B & C). refine (conj A (conj B _)). cbn [eof]. lia.
Qed.

Lemma holds_alloc : forall st n id d, holds st id d -> holds (mkst (cur st) (eof st + n) (disk st)) id d.
Proof. intros st n id d H. exact H. Qed.

Lemma first_object : forall a d,
  let sz := new_size minsz blk (obj_total (blen d)) in
  let c1 := fst (add_object (mkcoll a sz [] 1 16 (sz - 16)) d) in
  wfc0 c1 /\ slack c1.
Proof.
  intros a d sz c1.
  pose proof (obj_total_ge (blen d)) as (T1 & T2 & T3).
  pose proof (new_size_props _ T3) as (S1 & S2 & S3). fold sz in S1, S2, S3.
  split.
  - apply add_object_wfc0; cbn [c_next c_free]; try lia.
    constructor; cbn [c_used c_free c_size c_objs c_next total_of objs_from length]; auto; lia.
  - unfold c1, slack, add_object, K. cbn [fst c_next c_free]. rewrite wrap16_small; lia.
Qed.

Lemma flush_final : forall st, Inv st ->
  exists fin, flush st = Some fin /\ eof fin = eof st /\ disk_ok (disk fin) (eof st)
    /\ closed_ok (disk fin) /\ (forall id d, holds st id d -> on_disk (disk fin) id d).
Proof.
  intros st [Hd Hc Hcl]. unfold flush, holds, in_cur.
  destruct (cur st) as [c|].
  - destruct (Hc c eq_refl) as (Hw & _ & Hlim).
    destruct (encode_wfc0 c Hw) as (He & Hlen). rewrite He.
    eexists. split; [reflexivity|]. cbn [eof disk]. split; [reflexivity|]. split; [|split].
    + cbn [disk_ok]. destruct Hw as [Hs Hu _ _ _ _]. refine (conj _ (conj _ Hd)); lia.
    + intros a b [E | Hin]; [inversion E; subst a b; exists c; auto | now apply Hcl].
    + intros id d [(c0 & E0 & A0 & I0) | (c0 & b0 & H1 & H2 & H3 & H4 & H5)].
      * assert (c0 = c) as -> by congruence. exists c, (coll_content c ++ zeros (tail_zeros c)).
        exact (conj Hw (conj A0 (conj He (conj (or_introl eq_refl) I0)))).
      * exists c0, b0. exact (conj H1 (conj H2 (conj H3 (conj (or_intror H4) H5)))).
  - exists st. repeat apply conj; auto. intros id d [(c0 & E0 & _) | H]; [discriminate | exact H].
Qed.

Lemma write_obj_inv : forall st d, Inv st ->
  exists st' id, write_obj minsz blk st d = Some (st', id) /\ Inv st' /\ holds st' id d
    /\ (forall id0 d0, holds st id0 d0 -> holds st' id0 d0) /\ eof st <= eof st'.
Proof.
  intros st d HI. unfold write_obj.
  pose proof (obj_total_ge (blen d)) as (T1 & _).
  destruct (match cur st with None => true | Some c => negb (has_space c _) end) eqn:En.
  - (* a fresh collection at the end of the file, after the open one (if any) has been flushed *)
    destruct (flush_final st HI) as (fin & -> & Heof & Hd & Hcl & Hon).
    destruct (first_object (eof fin) d) as (Hw & Hsl).
    unfold create_heap, add_object. cbn [cur eof disk].
    eexists _, _. split; [reflexivity|]. split; [|split; [|split]].
    + constructor; cbn [cur eof disk c_addr].
      * now rewrite Heof.
      * intros c0 [= <-]. exact (conj Hw (conj Hsl (N.le_refl _))).
      * exact Hcl.
    + left. eexists. split; [reflexivity|]. split; [reflexivity|]. now left.
    + intros id0 d0 H. right. now apply Hon.
    + cbn [eof]. lia.
  - destruct HI as [Hd Hc Hcl]. destruct (cur st) as [c|] eqn:Ecur; [|discriminate].
    apply negb_false_iff, N.leb_le in En.
    destruct (Hc c eq_refl) as (Hw & Hsl & Hlim).
    assert (Hnx : c_next c + 1 < 65536).
    { unfold slack, K in Hsl. destruct Hp as (_ & _ & _ & Hsum). lia. }
    pose proof (add_object_wfc0 c d Hw Hnx En) as Hw'.
    unfold add_object in *. cbn [fst] in Hw'.
    eexists _, _. split; [reflexivity|]. split; [|split; [|split]].
    + constructor; cbn [cur eof disk c_addr]; [exact Hd | | exact Hcl].
      intros c0 [= <-]. refine (conj Hw' (conj _ Hlim)).
      unfold slack in *. cbn [c_next c_free]. rewrite wrap16_small; lia.
    + left. eexists. split; [reflexivity|]. split; [reflexivity|]. apply in_or_app. right. now left.
    + intros id0 d0 [(c0 & E0 & A0 & I0) | H0]; [left | now right].
      assert (c0 = c) as -> by congruence. eexists. split; [reflexivity|]. split; [exact A0|]. apply in_or_app. now left.
    + apply N.le_refl.
Qed.

Lemma run_inv : forall ops st, Inv st ->
  exists st' ids, run minsz blk st ops = Some (st', ids) /\ Inv st' /\ eof st <= eof st'
    /\ length ids = length (writes ops)
    /\ (forall id0 d0, holds st id0 d0 -> holds st' id0 d0)
    /\ (forall i d, nth_error (writes ops) i = Some d ->
          exists id, nth_error ids i = Some id /\ holds st' id d).
Proof.
  induction ops as [|[d | n] r IH]; intros st HI; cbn [run writes].
  - exists st, []. repeat apply conj; auto; [lia|]. intros [|i] d H; discriminate.
  - destruct (write_obj_inv st d HI) as (st1 & id & -> & HI1 & Hh & Hpres & Heof).
    destruct (IH st1 HI1) as (st2 & ids & -> & HI2 & Heof2 & Hlen & Hpres2 & Hnth).
    exists st2, (id :: ids). cbn [length]. repeat apply conj; auto; [lia|].
    intros [|i] d0 H; cbn [nth_error] in *; [|now apply Hnth].
    injection H as <-. eauto.
  - destruct (IH _ (Inv_alloc st n HI)) as (st2 & ids & -> & HI2 & Heof2 & Hlen & Hpres2 & Hnth).
    exists st2, ids. cbn [eof] in Heof2. repeat apply conj; auto. lia.
Qed.

Lemma run_close_inv : forall e0 ops,
  exists fin ids, run_close minsz blk e0 ops = Some (fin, ids)
    /\ disk_ok (disk fin) (eof fin) /\ closed_ok (disk fin) /\ length ids = length (writes ops)
    /\ (forall i d, nth_error (writes ops) i = Some d ->
          exists id, nth_error ids i = Some id /\ on_disk (disk fin) id d).
Proof.
  intros e0 ops. unfold run_close.
  destruct (run_inv ops _ (Inv_init e0)) as (st & ids & -> & HI & _ & Hlen & _ & Hnth).
  destruct (flush_final st HI) as (fin & -> & Heof & Hd & Hcl & Hon).
  exists fin, ids. rewrite Heof. do 4 (split; [easy|]).
  intros i d Hi. destruct (Hnth i d Hi) as (id & Hid & Hh). eauto.
Qed.
End Machine.

Lemma resolve_on_disk : forall dk lim id d, disk_ok dk lim -> lim < W64 -> on_disk dk id d ->
  resolve dk (encode_reference id) = Ok d.
Proof.
  intros dk lim id d Hd Hlim (c & b & Hw & Ha & He & Hin & Ho).
  destruct (disk_ok_in _ _ _ _ Hd Hin) as (Hb1 & Hb2).
  destruct (encode_wfc0 c Hw) as (He' & Hlen).
  assert (Hwc : wfc c) by (split; [exact Hw | assert (blen b = c_size c) by congruence; lia]).
  pose proof (objs_from_in _ _ _ (wf_idx c Hw) Ho) as (I1 & I2 & _). cbn [o_index] in I1, I2.
  pose proof (wf_next c Hw) as Hn. pose proof (wf_cnt c Hw) as Hc.
  pose proof (get_object_in _ _ _ (wf_idx c Hw) Ho) as Hg. cbn [o_index] in Hg.
  unfold resolve. rewrite parse_encode_reference, <- Ha by lia.
  rewrite (read_collection_encoded dk lim c b Hd Hwc He Hin). cbn [r_objs]. now rewrite Hg.
Qed.

Lemma wf_on_disk : forall dk lim, disk_ok dk lim -> lim < W64 -> closed_ok dk ->
  forall a b, In (a, b) dk -> wf_gcol 16 b = true.
Proof.
  intros dk lim Hd Hlim Hcl a b Hin.
  destruct (Hcl a b Hin) as (c & Hw & Ha & He).
  destruct (disk_ok_in _ _ _ _ Hd Hin) as (Hb1 & Hb2).
  destruct (encode_wfc0 c Hw) as (He' & Hlen).
  assert (Hb : blen b = c_size c) by congruence.
  apply (wf_gcol_encoded c b); [split; [exact Hw | lia] | exact He].
Qed.

(* never a Go run-time failure, whatever is written *)
Lemma C12_total_lemma : forall minsz blk e0 ops, params_ok minsz blk ->
  exists fin ids, run_close minsz blk e0 ops = Some (fin, ids).
Proof.
  intros minsz blk e0 ops Hp. destruct (run_close_inv minsz blk Hp e0 ops) as (fin & ids & H & _). eauto.
Qed.

Lemma C12_roundtrip_lemma : forall minsz blk e0 ops fin ids, params_ok minsz blk ->
  run_close minsz blk e0 ops = Some (fin, ids) -> eof fin < W64 ->
  length ids = length (writes ops) /\
  forall i d, nth_error (writes ops) i = Some d ->
    exists id, nth_error ids i = Some id /\ resolve (disk fin) (encode_reference id) = Ok d.
Proof.
  intros minsz blk e0 ops fin ids Hp Hrun Hlim.
  destruct (run_close_inv minsz blk Hp e0 ops) as (fin' & ids' & Hr & Hd & _ & Hlen & Hnth).
  rewrite Hrun in Hr. injection Hr as <- <-. split; [exact Hlen|].
  intros i d Hi. destruct (Hnth i d Hi) as (id & Hid & Hon). exists id. split; [exact Hid|].
  now apply (resolve_on_disk (disk fin) (eof fin)).
Qed.

Lemma C12_wellformed_lemma : forall minsz blk e0 ops fin ids, params_ok minsz blk ->
  run_close minsz blk e0 ops = Some (fin, ids) -> eof fin < W64 ->
  forall a b, In (a, b) (disk fin) -> wf_gcol 16 b = true.
Proof.
  intros minsz blk e0 ops fin ids Hp Hrun Hlim.
  destruct (run_close_inv minsz blk Hp e0 ops) as (fin' & ids' & Hr & Hd & Hcl & _).
  rewrite Hrun in Hr. injection Hr as <- <-.
  now apply (wf_on_disk (disk fin) (eof fin)).
Qed.

(* every issued object index is a genuine uint16 other than 0 (0 is the free-space marker):
   the 16-bit counter cannot wrap, because a collection never holds more than (minsz+blk+48)/16
   objects (params_ok bounds that by 65535; with the shipped 4096/4096 it is 514) *)
Lemma C12_index_lemma : forall minsz blk e0 ops fin ids, params_ok minsz blk ->
  run_close minsz blk e0 ops = Some (fin, ids) ->
  forall i id, nth_error ids i = Some id -> 1 <= h_idx id /\ h_idx id < 65536.
Proof.
  intros minsz blk e0 ops fin ids Hp Hrun i id Hi.
  destruct (run_close_inv minsz blk Hp e0 ops) as (fin' & ids' & Hr & _ & _ & Hlen & Hnth).
  rewrite Hrun in Hr. injection Hr as <- <-.
  assert (Hlt : (i < length (writes ops))%nat).
  { rewrite <- Hlen. apply nth_error_Some. congruence. }
  destruct (nth_error (writes ops) i) as [d|] eqn:Ed; [|apply nth_error_None in Ed; lia].
  destruct (Hnth i d Ed) as (id' & Hid' & c & b & Hw & _ & _ & _ & Ho).
  assert (id' = id) as -> by congruence.
  pose proof (objs_from_in _ _ _ (wf_idx c Hw) Ho) as (I1 & I2 & _). cbn [o_index] in I1, I2.
  pose proof (wf_next c Hw). pose proof (wf_cnt c Hw). lia.
Qed.

Definition is_vstring (b : vbase) : bool := match b with VString => true | _ => false end.

(* repaired encoder: the reader sees class 9, size 16, the sequence/string flag, and the base type
   message as the properties; the base type parses to the class/size/sign the writer registered *)
Lemma C12_vlen_dt_lemma : forall b, exists m base bprops,
  enc_vlen b = Ok m /\ enc_base b = Ok base
  /\ parse_datatype m = Ok (mkdt 9 1 16 (vl_bits b) base)
  /\ parse_datatype base = Ok (mkdt (fst (fst (base_cls b))) 1 (snd (fst (base_cls b))) (snd (base_cls b)) bprops)
  /\ is_variable_string (mkdt 9 1 16 (vl_bits b) base) = is_vstring b
  /\ vlen_recognised b m = true.
Proof.
  (* the two encoders are evaluated first, so that the parser only ever runs on closed bytes *)
  destruct b; eexists _, _, _;
    (split; [vm_compute; reflexivity|]); (split; [vm_compute; reflexivity|]);
    vm_compute; repeat split.
Qed.

(* the encoder as found (enc_vlen_old, finding D10): every vlen message parses as class 0 (fixed point) *)
Lemma C12_vlen_dt_old_lemma : forall b, exists m d,
  enc_vlen_old b = Ok m /\ parse_datatype m = Ok d /\ d_class d = 0 /\ d_version d = 9
  /\ vlen_recognised b m = false.
Proof.
  destruct b; eexists _, _;
    (split; [vm_compute; reflexivity|]); (split; [vm_compute; reflexivity|]);
    vm_compute; repeat split.
Qed.

Definition ex_ops : list op :=
  [W []; W (repeat 7 (N.to_nat 4032)); W [1; 2; 3]; A 100; W []; W (repeat 171 (N.to_nat 70000));
   W (unhex "00ff00e4bda0e5a5bd00")].

(* a history with an element filling a collection exactly, a roll-over, a foreign allocation, an
   element larger than a collection and embedded NULs: 3 collections at the expected addresses, all
   references resolve, all collections are well-formed; they are NOT well-formed under the HDF5
   library's free-space size convention (D16), and a collection that is 8 bytes longer than its
   declared size is rejected.  (Stated as one boolean so that vm_compute never has to print the
   70 KiB collections.) *)
Definition ex_check : bool :=
  match run_close 4096 4096 2048 ex_ops with
  | None => false
  | Some (fin, ids) =>
      list_eqb (fun x y => (fst x =? fst y) && (snd x =? snd y))
               (map (fun e => (fst e, blen (snd e))) (disk fin)) [(10340, 73728); (6144, 4096); (2048, 4096)]
      && list_eqb (fun x y => (h_addr x =? h_addr y) && (h_idx x =? h_idx y)) ids
           [mkid 2048 1; mkid 2048 2; mkid 6144 1; mkid 6144 2; mkid 10340 1; mkid 10340 2]
      && all_resolve (disk fin) ids (writes ex_ops)
      && forallb (fun e => wf_gcol 16 (snd e)) (disk fin)
      && negb (existsb (fun e => wf_gcol 0 (snd e)) (disk fin))
      && negb (existsb (fun e => wf_gcol 16 (snd e ++ [0; 0; 0; 0; 0; 0; 0; 0])) (disk fin))
  end.

Lemma C12_example_lemma : ex_check = true.
Proof. vm_compute. reflexivity. Qed.

Lemma params_shipped : params_ok 4096 4096.
Proof. unfold params_ok. repeat split; try reflexivity; lia. Qed.
