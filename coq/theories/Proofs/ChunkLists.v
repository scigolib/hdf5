(* List vocabulary of the chunk model: takeN / dropN / slice / blit, rangeN, buffers as concatenations of blocks
   (concat_blocks, blk_concat, window_blit), then folds: fold_left and bind_fold facts, and a fold whose steps
   rewrite consecutive blocks as one blit (bind_fold_blit_blocks, fold_blit_blocks). *)
From HV Require Import Base.Prelude Base.Bytes Model.Chunk.

Local Open Scope N_scope.

Lemma lenN_nil {A} : lenN (@nil A) = 0. Proof. reflexivity. Qed.
Lemma lenN_app {A} (a b : list A) : lenN (a ++ b) = lenN a + lenN b.
Proof. unfold lenN. rewrite app_length. lia. Qed.
Lemma lenN_takeN {A} n (l : list A) : lenN (takeN n l) = N.min n (lenN l).
Proof. unfold lenN, takeN. rewrite firstn_length. lia. Qed.
Lemma lenN_dropN {A} n (l : list A) : lenN (dropN n l) = lenN l - n.
Proof. unfold lenN, dropN. rewrite skipn_length. lia. Qed.
Lemma lenN_slice {A} (l : list A) off len : off + len <= lenN l -> lenN (slice l off len) = len.
Proof. intros. unfold slice. rewrite lenN_takeN, lenN_dropN. lia. Qed.
Lemma lenN_zerosN n : lenN (zerosN n) = n.
Proof. unfold lenN, zerosN. rewrite repeat_length. lia. Qed.
Lemma lenN_blit dst off src : off + lenN src <= lenN dst -> lenN (blit dst off src) = lenN dst.
Proof. intros. unfold blit. rewrite !lenN_app, lenN_takeN, lenN_dropN. lia. Qed.
Lemma firstn_add' {A} (a b : nat) (l : list A) : firstn (a + b) l = firstn a l ++ firstn b (skipn a l).
Proof.
  revert l. induction a; intros l; cbn [Nat.add]; [reflexivity|].
  destruct l; cbn [firstn skipn app]; [rewrite firstn_nil; reflexivity | f_equal; apply IHa].
Qed.

Lemma length_zipWith {A B C} (f : A -> B -> C) a : forall b, length a = length b -> length (zipWith f a b) = length a.
Proof. induction a; intros [|? ?] H; try discriminate; cbn [zipWith length] in *; auto. Qed.

Lemma takeN_all {A} n (l : list A) : lenN l <= n -> takeN n l = l.
Proof. intros. unfold takeN. apply firstn_all2. unfold lenN in *. lia. Qed.
Lemma dropN_all {A} n (l : list A) : lenN l <= n -> dropN n l = [].
Proof. intros. unfold dropN. apply skipn_all2. unfold lenN in *. lia. Qed.
Lemma takeN_0 {A} (l : list A) : takeN 0 l = [].
Proof. reflexivity. Qed.
Lemma dropN_0 {A} (l : list A) : dropN 0 l = l.
Proof. reflexivity. Qed.
Lemma takeN_dropN {A} n (l : list A) : takeN n l ++ dropN n l = l.
Proof. apply firstn_skipn. Qed.
Lemma takeN_app_l {A} n (a b : list A) : n <= lenN a -> takeN n (a ++ b) = takeN n a.
Proof.
  intros. unfold takeN, lenN in *. rewrite firstn_app.
  replace (N.to_nat n - length a)%nat with 0%nat by lia. cbn [firstn]. apply app_nil_r.
Qed.
Lemma takeN_app_r {A} n (a b : list A) : lenN a <= n -> takeN n (a ++ b) = a ++ takeN (n - lenN a) b.
Proof.
  intros. unfold takeN, lenN in *. rewrite firstn_app, firstn_all2 by lia.
  f_equal. f_equal. lia.
Qed.
Lemma takeN_app_exact {A} (a b : list A) : takeN (lenN a) (a ++ b) = a.
Proof. rewrite takeN_app_l by lia. apply takeN_all. lia. Qed.
Lemma dropN_app_l {A} n (a b : list A) : n <= lenN a -> dropN n (a ++ b) = dropN n a ++ b.
Proof.
  intros. unfold dropN, lenN in *. rewrite skipn_app.
  replace (N.to_nat n - length a)%nat with 0%nat by lia. reflexivity.
Qed.
Lemma dropN_app_r {A} n (a b : list A) : lenN a <= n -> dropN n (a ++ b) = dropN (n - lenN a) b.
Proof.
  intros. unfold dropN, lenN in *. rewrite skipn_app, skipn_all2 by lia.
  cbn [app]. f_equal. lia.
Qed.
Lemma dropN_app_exact {A} (a b : list A) : dropN (lenN a) (a ++ b) = b.
Proof. rewrite dropN_app_r by lia. rewrite N.sub_diag. reflexivity. Qed.
Lemma dropN_dropN {A} a b (l : list A) : dropN a (dropN b l) = dropN (b + a) l.
Proof. unfold dropN. rewrite skipn_skipn. f_equal. lia. Qed.
Lemma takeN_takeN {A} a b (l : list A) : takeN a (takeN b l) = takeN (N.min a b) l.
Proof. unfold takeN. rewrite firstn_firstn. f_equal. lia. Qed.
Lemma takeN_dropN_comm {A} a b (l : list A) : takeN a (dropN b l) = dropN b (takeN (b + a) l).
Proof.
  unfold takeN, dropN. rewrite firstn_skipn_comm. f_equal. f_equal. lia.
Qed.
Lemma takeN_add {A} a b (l : list A) : takeN (a + b) l = takeN a l ++ takeN b (dropN a l).
Proof.
  unfold takeN, dropN. replace (N.to_nat (a + b)) with (N.to_nat a + N.to_nat b)%nat by lia.
  apply firstn_add'.
Qed.

Lemma slice_0_all {A} (l : list A) n : lenN l <= n -> slice l 0 n = l.
Proof. intros. unfold slice. rewrite dropN_0. apply takeN_all; auto. Qed.
Lemma slice_slice {A} (l : list A) a L b n : b + n <= L -> slice (slice l a L) b n = slice l (a + b) n.
Proof.
  intros. unfold slice, takeN, dropN.
  rewrite skipn_firstn_comm, firstn_firstn, skipn_skipn.
  f_equal; [lia|]. f_equal. lia.
Qed.
Lemma slice_app_mid {A} (a x b : list A) : slice (a ++ x ++ b) (lenN a) (lenN x) = x.
Proof. unfold slice. rewrite dropN_app_exact. apply takeN_app_exact. Qed.
Lemma slice_add {A} (l : list A) off a b : slice l off (a + b) = slice l off a ++ slice l (off + a) b.
Proof. unfold slice. rewrite takeN_add, dropN_dropN. reflexivity. Qed.
Lemma slice_repeat (v : N) off n m : off + n <= m -> slice (repeat v (N.to_nat m)) off n = repeat v (N.to_nat n).
Proof.
  intros. unfold slice, takeN, dropN.
  replace (N.to_nat m) with (N.to_nat off + (N.to_nat n + (N.to_nat m - N.to_nat off - N.to_nat n)))%nat by lia.
  rewrite !repeat_app.
  rewrite skipn_app, skipn_all2 by (rewrite repeat_length; lia).
  rewrite repeat_length, Nat.sub_diag. cbn [skipn app].
  rewrite firstn_app, firstn_all2 by (rewrite repeat_length; lia).
  rewrite repeat_length, Nat.sub_diag. cbn [firstn]. apply app_nil_r.
Qed.

Lemma blit_slice_id l off n : off + n <= lenN l -> blit l off (slice l off n) = l.
Proof.
  intros. unfold blit. rewrite lenN_slice by auto. unfold slice.
  rewrite <- dropN_dropN. rewrite takeN_dropN. apply takeN_dropN.
Qed.
Lemma slice_blit_same l off x : off + lenN x <= lenN l -> slice (blit l off x) off (lenN x) = x.
Proof.
  intros. unfold blit.
  pose proof (slice_app_mid (takeN off l) x (dropN (off + lenN x) l)) as E.
  rewrite lenN_takeN in E. replace (N.min off (lenN l)) with off in E by lia. exact E.
Qed.
Lemma slice_blit_after l off x o n :
  off + lenN x <= lenN l -> off + lenN x <= o -> slice (blit l off x) o n = slice l o n.
Proof.
  intros. unfold blit, slice. rewrite app_assoc.
  rewrite dropN_app_r by (rewrite lenN_app, lenN_takeN; lia).
  rewrite lenN_app, lenN_takeN, dropN_dropN. f_equal. f_equal. lia.
Qed.
Lemma slice_blit_before l off x o n :
  off + lenN x <= lenN l -> o + n <= off -> slice (blit l off x) o n = slice l o n.
Proof.
  intros. unfold blit, slice.
  rewrite dropN_app_l by (rewrite lenN_takeN; lia).
  rewrite takeN_app_l by (rewrite lenN_dropN, lenN_takeN; lia).
  unfold takeN, dropN. rewrite skipn_firstn_comm, firstn_firstn. f_equal. lia.
Qed.
Lemma blit_blit_adjacent l off x y :
  off + lenN x + lenN y <= lenN l -> blit (blit l off x) (off + lenN x) y = blit l off (x ++ y).
Proof.
  intros. unfold blit.
  assert (E : lenN (takeN off l ++ x) = off + lenN x) by (rewrite lenN_app, lenN_takeN; lia).
  rewrite (app_assoc (takeN off l) x).
  rewrite <- E at 1. rewrite takeN_app_exact.
  rewrite dropN_app_r by lia. rewrite E, dropN_dropN, lenN_app.
  rewrite <- !app_assoc. f_equal. f_equal. f_equal. f_equal. lia.
Qed.
Lemma blit_nil l off : off <= lenN l -> blit l off [] = l.
Proof. intros. unfold blit. cbn [app]. rewrite lenN_nil, N.add_0_r. apply takeN_dropN. Qed.
Lemma blit_whole l x : lenN x = lenN l -> blit l 0 x = x.
Proof. intros E. unfold blit. rewrite takeN_0, dropN_all by lia. apply app_nil_r. Qed.
Lemma blit_blit_inner l off L a x :
  off + L <= lenN l -> a + lenN x <= L ->
  blit l off (blit (slice l off L) a x) = blit l (off + a) x.
Proof.
  intros. unfold blit.
  assert (HS : lenN (slice l off L) = L) by (apply lenN_slice; auto).
  rewrite !lenN_app, !lenN_takeN, lenN_dropN, HS.
  replace (off + (N.min a L + (lenN x + (L - (a + lenN x))))) with (off + L) by lia.
  rewrite takeN_add. rewrite <- !app_assoc. f_equal.
  unfold slice. rewrite takeN_takeN. replace (N.min a L) with a by lia.
  f_equal. f_equal.
  set (D := dropN off l).
  assert (E1 : dropN (off + L) l = dropN L D) by (unfold D; rewrite dropN_dropN; reflexivity).
  assert (E2 : dropN (off + a + lenN x) l = dropN (a + lenN x) D)
    by (unfold D; rewrite dropN_dropN; f_equal; lia).
  rewrite E1, E2.
  rewrite <- (takeN_dropN L D) at 3.
  rewrite dropN_app_l; [reflexivity|].
  rewrite lenN_takeN. unfold D. rewrite lenN_dropN. lia.
Qed.

Lemma rangeN_0 : rangeN 0 = [].
Proof. reflexivity. Qed.
Lemma rangeN_succ n : rangeN (n + 1) = rangeN n ++ [n].
Proof.
  unfold rangeN. replace (N.to_nat (n + 1)) with (N.to_nat n + 1)%nat by lia.
  rewrite seq_app, map_app. cbn [seq map Nat.add]. f_equal. f_equal. lia.
Qed.
Lemma in_rangeN x n : In x (rangeN n) <-> x < n.
Proof.
  unfold rangeN. rewrite in_map_iff. split.
  - intros (k & <- & Hk). apply in_seq in Hk. lia.
  - intros. exists (N.to_nat x). split; [lia|]. apply in_seq. lia.
Qed.
Lemma length_rangeN n : length (rangeN n) = N.to_nat n.
Proof. unfold rangeN. rewrite map_length, seq_length. reflexivity. Qed.
Lemma rangeN_ind (P : N -> Prop) : P 0 -> (forall n, P n -> P (n + 1)) -> forall n, P n.
Proof. intros. induction n using N.peano_ind; auto. rewrite <- N.add_1_r. auto. Qed.
Lemma rangeN_add a b : rangeN (a + b) = rangeN a ++ map (fun i => a + i) (rangeN b).
Proof.
  induction b using rangeN_ind.
  - rewrite N.add_0_r, rangeN_0. cbn [map]. symmetry; apply app_nil_r.
  - rewrite N.add_assoc, !rangeN_succ, IHb, map_app, app_assoc. reflexivity.
Qed.

Lemma concat_range_succ (f : N -> bytes) n :
  concat (map f (rangeN (n + 1))) = concat (map f (rangeN n)) ++ f n.
Proof. rewrite rangeN_succ, map_app, concat_app. cbn [map concat]. rewrite app_nil_r. reflexivity. Qed.
Lemma lenN_concat_range (f : N -> bytes) n b :
  (forall k, k < n -> lenN (f k) = b) -> lenN (concat (map f (rangeN n))) = n * b.
Proof.
  induction n using rangeN_ind; intros H; [reflexivity|].
  rewrite concat_range_succ, lenN_app, IHn, H by (intros; try apply H; lia). lia.
Qed.

Lemma slice_dropN {A} (l : list A) off n a : slice (dropN a l) off n = slice l (a + off) n.
Proof. unfold slice. rewrite dropN_dropN. reflexivity. Qed.

Lemma blk_bound k n B : k < n -> k * B + B <= n * B.
Proof. nia. Qed.

Lemma concat_blocks_prefix B n l : concat (map (fun k => blk B k l) (rangeN n)) = takeN (n * B) l.
Proof.
  induction n using rangeN_ind; [reflexivity|].
  rewrite concat_range_succ, IHn, N.mul_add_distr_r, N.mul_1_l, takeN_add. reflexivity.
Qed.
Lemma concat_blocks B n l : lenN l = n * B -> concat (map (fun k => blk B k l) (rangeN n)) = l.
Proof. intros. rewrite concat_blocks_prefix. apply takeN_all. lia. Qed.

Lemma lenN_blk B n k l : lenN l = n * B -> k < n -> lenN (blk B k l) = B.
Proof. intros E Hk. apply lenN_slice. rewrite E. now apply blk_bound. Qed.

Lemma blk_concat B n (f : N -> bytes) k :
  (forall i, i < n -> lenN (f i) = B) -> k < n -> blk B k (concat (map f (rangeN n))) = f k.
Proof.
  intros Hf. revert k. induction n using rangeN_ind; intros k Hk; [lia|].
  rewrite concat_range_succ.
  assert (Hlen : lenN (concat (map f (rangeN n))) = n * B) by (apply lenN_concat_range; intros; apply Hf; lia).
  unfold blk, slice. destruct (N.eq_dec k n) as [->|Hne].
  - rewrite <- Hlen, dropN_app_exact. apply takeN_all. rewrite Hf; lia.
  - pose proof (blk_bound k n B ltac:(lia)).
    rewrite <- (IHn (fun i Hi => Hf i ltac:(lia)) k) by lia.
    rewrite dropN_app_l by lia. apply takeN_app_l. rewrite lenN_dropN. lia.
Qed.

Lemma blk_zeros B n k : k < n -> blk B k (zerosN (n * B)) = zerosN B.
Proof. intros. apply slice_repeat. now apply blk_bound. Qed.

Lemma concat_zeros n B : concat (map (fun _ => zerosN B) (rangeN n)) = zerosN (n * B).
Proof.
  induction n using rangeN_ind; [reflexivity|].
  rewrite concat_range_succ, IHn. unfold zerosN. rewrite <- repeat_app. f_equal. lia.
Qed.

Lemma blk_slice B n k l off : k < n -> blk B k (slice l off (n * B)) = slice l (off + k * B) B.
Proof. intros. apply slice_slice. now apply blk_bound. Qed.
Lemma window_blit B d a n (g : N -> bytes) full :
  lenN full = d * B -> a + n <= d -> (forall i, i < n -> lenN (g i) = B) ->
  concat (map (fun k => if (a <=? k) && (k <? a + n) then g (k - a) else blk B k full) (rangeN d))
  = blit full (a * B) (concat (map g (rangeN n))).
Proof.
  intros Hlen Han Hg.
  replace d with (a + (n + (d - a - n))) in * by lia.
  rewrite !rangeN_add, !map_app, !concat_app, !map_map.
  unfold blit. rewrite (lenN_concat_range g n B Hg). f_equal; [|f_equal].
  - rewrite <- concat_blocks_prefix.
    f_equal. apply map_ext_in. intros k Hk. apply in_rangeN in Hk.
    replace ((a <=? k) && (k <? a + n)) with false by lia. reflexivity.
  - f_equal. apply map_ext_in. intros k Hk. apply in_rangeN in Hk.
    replace ((a <=? a + k) && (a + k <? a + n)) with true by lia. f_equal. lia.
  - rewrite <- (concat_blocks B (d - a - n) (dropN (a * B + n * B) full)) by (rewrite lenN_dropN; lia).
    f_equal. apply map_ext_in. intros k Hk. apply in_rangeN in Hk.
    replace ((a <=? a + (n + k)) && (a + (n + k) <? a + n)) with false by lia.
    unfold blk. rewrite slice_dropN. f_equal. lia.
Qed.

Lemma fold_left_filter {A B} (p : B -> bool) (f : A -> B -> A) l a :
  fold_left (fun acc x => if p x then f acc x else acc) l a = fold_left f (filter p l) a.
Proof.
  revert a. induction l; intros; cbn [fold_left filter]; auto.
  destruct (p a); cbn [fold_left]; auto.
Qed.
Lemma fold_left_id {A B} (f : A -> B -> A) l a :
  (forall x, In x l -> f a x = a) -> fold_left f l a = a.
Proof.
  induction l; intros H; cbn [fold_left]; auto.
  rewrite H by auto with datatypes. apply IHl. intros; apply H; auto with datatypes.
Qed.
Lemma fold_left_inv {A B} (P : A -> Prop) (f : A -> B -> A) l a :
  P a -> (forall acc x, In x l -> P acc -> P (f acc x)) -> P (fold_left f l a).
Proof.
  revert a. induction l; intros a0 Ha H; cbn [fold_left]; auto.
  apply IHl; [apply H; auto with datatypes|]. intros; apply H; auto with datatypes.
Qed.

Lemma bind_fold_ok {A B} (f : A -> B -> res A) (g : A -> B -> A) (P : A -> Prop) l a :
  P a ->
  (forall acc x, In x l -> P acc -> f acc x = Ok (g acc x) /\ P (g acc x)) ->
  bind_fold f l a = Ok (fold_left g l a) /\ P (fold_left g l a).
Proof.
  unfold bind_fold. revert a. induction l; intros a0 Ha H; cbn [fold_left]; auto.
  destruct (H a0 a) as [E Pn]; auto with datatypes. rewrite E.
  apply IHl; auto. intros; apply H; auto with datatypes.
Qed.

Lemma bind_fold_map {A B C} (f : A -> C -> res A) (h : B -> C) l a :
  bind_fold f (map h l) a = bind_fold (fun acc x => f acc (h x)) l a.
Proof.
  unfold bind_fold. generalize (Ok a). induction l; intros r; cbn [map fold_left]; auto.
Qed.
Lemma bind_fold_err {A B} (f : A -> B -> res A) l e :
  fold_left (fun acc b => match acc with Ok x => f x b | Err e => Err e end) l (Err e) = Err e.
Proof. induction l; cbn [fold_left]; auto. Qed.
Lemma bind_fold_cons {A B} (f : A -> B -> res A) x l a :
  bind_fold f (x :: l) a = match f a x with Ok a' => bind_fold f l a' | Err e => Err e end.
Proof. unfold bind_fold. cbn [fold_left]. destruct (f a x); [reflexivity|apply bind_fold_err]. Qed.
Lemma bind_fold_pure {A B} (g : A -> B -> A) l a : bind_fold (fun x b => Ok (g x b)) l a = Ok (fold_left g l a).
Proof. unfold bind_fold. revert a. induction l; intros; cbn [fold_left]; auto. Qed.

Lemma bind_fold_blit_blocks m B off (step : bytes -> N -> res bytes) (g : N -> bytes) dst0 :
  (forall i, i < m -> lenN (g i) = B) ->
  off + m * B <= lenN dst0 ->
  (forall i dst, i < m -> lenN dst = lenN dst0 ->
                 slice dst (off + i * B) B = slice dst0 (off + i * B) B ->
                 step dst i = Ok (blit dst (off + i * B) (g i))) ->
  bind_fold step (rangeN m) dst0 = Ok (blit dst0 off (concat (map g (rangeN m)))).
Proof.
  unfold bind_fold.
  induction m using rangeN_ind; intros Hg Hlen Hstep.
  - cbn [rangeN N.to_nat seq map fold_left concat]. f_equal. symmetry. apply blit_nil. lia.
  - rewrite rangeN_succ, fold_left_app. cbn [fold_left].
    rewrite IHm; [| intros; apply Hg; lia | lia | intros; apply Hstep; auto; lia].
    assert (Hc : lenN (concat (map g (rangeN m))) = m * B) by (apply lenN_concat_range; intros; apply Hg; lia).
    assert (Hm : lenN (g m) = B) by (apply Hg; lia).
    rewrite Hstep.
    + rewrite map_app, concat_app. cbn [map concat]. rewrite app_nil_r.
      rewrite <- blit_blit_adjacent by (rewrite Hc, Hm; lia).
      rewrite Hc. reflexivity.
    + lia.
    + apply lenN_blit. rewrite Hc. lia.
    + apply slice_blit_after; rewrite Hc; lia.
Qed.

Lemma fold_blit_blocks m B off (step : bytes -> N -> bytes) (g : N -> bytes) dst0 :
  (forall i, i < m -> lenN (g i) = B) ->
  off + m * B <= lenN dst0 ->
  (forall i dst, i < m -> lenN dst = lenN dst0 ->
                 slice dst (off + i * B) B = slice dst0 (off + i * B) B ->
                 step dst i = blit dst (off + i * B) (g i)) ->
  fold_left step (rangeN m) dst0 = blit dst0 off (concat (map g (rangeN m))).
Proof.
  intros Hg Hlen Hstep. assert (I : forall x y : bytes, Ok x = Ok y -> x = y) by (intros x y [= ->]; reflexivity).
  apply I. rewrite <- bind_fold_pure. apply (bind_fold_blit_blocks m B off); auto.
  intros. f_equal. auto.
Qed.
