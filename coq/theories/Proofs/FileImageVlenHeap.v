(* C12 end to end, heap side:
   (A) with no other allocation in between (history = W only), the extents the heap writer of Model/GHeap.v has written after
       Close are ADJACENT, from the end-of-file it started at to the end-of-file it leaves (chain);
   (B) a file that contains a chain behind a prefix of the right length has every extent placed at its address;
   (C) the reader program p_gheap (Model/IOProgReader.v: ReadGlobalHeapCollection as an I/O program) on a file in which every
       extent of the heap writer is placed returns the objects that GHeap.read_collection (the C12 reader model) returns on the
       extents: the two transcriptions of the object loop agree (gcol_parse). *)
From HV Require Import Base.Prelude Model.GHeap.
From HV Require Proofs.GHeap.
From HV Require Import Base.Outcome Base.Bytes Model.CodecSuper Model.IOProg Proofs.IOProg Model.IOProgReader.
From HV Require Import Model.FileImage Proofs.FileImage.

Local Open Scope N_scope.

Lemma gblen (b : bytes) : GHeap.blen b = blen b. Proof. reflexivity. Qed.
Lemma gslice_rd (b : bytes) off n : GHeap.slice b off n = rd b off n. Proof. reflexivity. Qed.

Lemma writes_map_W (es : list bytes) : writes (map W es) = es.
Proof. induction es as [|e r IH]; cbn [map writes]; [reflexivity|now rewrite IH]. Qed.

Fixpoint chain (a : N) (l : list (N * bytes)) (e : N) : Prop :=
  match l with
  | [] => a = e
  | (a0, b) :: r => a0 = a /\ chain (a + blen b) r e
  end.

Lemma chain_snoc : forall l a e b, chain a l e -> chain a (l ++ [(e, b)]) (e + blen b).
Proof.
  induction l as [|[a0 b0] r IH]; intros a e b H; cbn [chain app] in *.
  - subst. split; reflexivity.
  - destruct H as [-> H]. split; [reflexivity|]. now apply IH.
Qed.

Lemma encode_len c b : encode_collection c = Some b -> blen b = c_size c.
Proof.
  unfold encode_collection. destruct (GHeap.blen (coll_content c) <=? c_size c) eqn:E; [|discriminate].
  intros H. assert (Hb : b = coll_content c ++ GHeap.zeros (c_size c - GHeap.blen (coll_content c))) by congruence.
  subst b. clear H. apply N.leb_le in E.
  unfold GHeap.zeros, GHeap.blen, blen in *. rewrite app_length, repeat_length. blia.
Qed.

Section Chain.
Variables minsz blk e0 : N.

(* the invariant of a history without foreign allocations *)
Definition tiled (st : gstate) : Prop :=
  match cur st with
  | None => disk st = [] /\ eof st = e0
  | Some c => chain e0 (rev (disk st)) (c_addr c) /\ eof st = c_addr c + c_size c
  end.

Lemma write_obj_tiled st d st' id : tiled st -> write_obj minsz blk st d = Some (st', id) -> tiled st'.
Proof.
  unfold tiled, write_obj. intros HT H.
  destruct (cur st) as [c|] eqn:Ec.
  - destruct HT as [HC HE].
    destruct (negb (has_space c (obj_total (GHeap.blen d)))) eqn:Es.
    + unfold flush in H. rewrite Ec in H.
      destruct (encode_collection c) as [b|] eqn:Ee; [|discriminate].
      cbn [create_heap cur eof disk add_object] in H. injection H as <- _.
      cbn [cur eof disk c_addr c_size rev]. split; [|reflexivity].
      rewrite HE, <- (encode_len c b Ee). now apply chain_snoc.
    + rewrite Ec in H. cbn [add_object] in H. injection H as <- _.
      cbn [cur eof disk c_addr c_size]. split; assumption.
  - destruct HT as [HD HE]. cbn [negb flush] in H. unfold flush in H. rewrite Ec in H.
    cbn [create_heap cur eof disk add_object] in H. injection H as <- _.
    cbn [cur eof disk c_addr c_size]. rewrite HD, HE. cbn [rev chain]. split; reflexivity.
Qed.

Lemma run_tiled : forall es st st' ids, tiled st -> GHeap.run minsz blk st (map W es) = Some (st', ids) -> tiled st'.
Proof.
  induction es as [|e r IH]; intros st st' ids HT H; cbn [map GHeap.run] in H.
  - now injection H as <- _.
  - destruct (write_obj minsz blk st e) as [[st1 id]|] eqn:Ew; [|discriminate].
    destruct (GHeap.run minsz blk st1 (map W r)) as [[st2 ids2]|] eqn:Er; [|discriminate].
    injection H as <- _. exact (IH st1 st2 ids2 (write_obj_tiled st e st1 id HT Ew) Er).
Qed.

Theorem run_close_chain es fin ids :
  run_close minsz blk e0 (map W es) = Some (fin, ids) -> chain e0 (rev (disk fin)) (eof fin).
Proof.
  unfold run_close. intros H.
  destruct (GHeap.run minsz blk (mkst None e0 []) (map W es)) as [[st ids']|] eqn:Er; [|discriminate].
  assert (HT : tiled st) by (apply (run_tiled es (mkst None e0 []) st ids' ltac:(unfold tiled; cbn [cur disk eof]; split; reflexivity) Er)).
  revert H HT. unfold flush, tiled. destruct (cur st) as [c|]; intros H HT.
  - destruct (encode_collection c) as [b|] eqn:Ee; [|discriminate]. injection H as <- _.
    cbn [disk eof rev]. destruct HT as [HC ->]. rewrite <- (encode_len c b Ee). now apply chain_snoc.
  - injection H as <- _. destruct HT as [-> ->]. reflexivity.
Qed.
End Chain.

Lemma chain_placed : forall l a e (pre suf : bytes), chain a l e -> blen pre = a ->
  (forall a0 b, In (a0, b) l -> placed (pre ++ concat (map snd l) ++ suf) a0 b) /\ blen (pre ++ concat (map snd l)) = e.
Proof.
  induction l as [|[a1 b1] r IH]; intros a e pre suf H Hp; cbn [chain map snd concat] in *.
  - split; [intros ? ? []|]. rewrite app_nil_r. congruence.
  - destruct H as [-> H].
    assert (Hp' : blen (pre ++ b1) = a + blen b1) by (rewrite blen_app, Hp; reflexivity).
    destruct (IH (a + blen b1) e (pre ++ b1) suf H Hp') as [IH1 IH2].
    split.
    + intros a0 b [E|Hin].
      * injection E as <- <-. exists pre, (concat (map snd r) ++ suf). split; [now rewrite <- !app_assoc|exact Hp].
      * specialize (IH1 a0 b Hin). rewrite <- !app_assoc in IH1. rewrite <- !app_assoc. exact IH1.
    + now rewrite <- app_assoc in IH2.
Qed.

Lemma chain_ge : forall l a e a0 b, chain a l e -> In (a0, b) l -> a <= a0.
Proof.
  induction l as [|[a1 b1] r IH]; intros a e a0 b H Hin; [destruct Hin|]. cbn [chain] in H. destruct H as [-> H].
  destruct Hin as [E|Hin].
  - assert (a = a0) by congruence. blia.
  - pose proof (IH (a + blen b1) e a0 b H Hin). blia.
Qed.

Lemma read_at_ge : forall dk a n x lo, (forall a0 b, In (a0, b) dk -> lo <= a0) -> read_at dk a n = Some x -> lo <= a.
Proof.
  induction dk as [|[a0 b] r IH]; intros a n x lo HL H; cbn [read_at] in H; [discriminate|].
  destruct ((a0 <=? a) && (a + n <=? a0 + GHeap.blen b)) eqn:E.
  - apply andb_true_iff in E as [E1 _]. apply N.leb_le in E1. specialize (HL a0 b (or_introl eq_refl)). blia.
  - apply (IH a n x lo); [|exact H]. intros a1 b1 Hin. apply (HL a1 b1). now right.
Qed.

Lemma read_collection_ge dk a rc lo : (forall a0 b, In (a0, b) dk -> lo <= a0) -> read_collection dk a = GHeap.Ok rc -> lo <= a.
Proof.
  unfold read_collection. intros HL H. destruct (read_at dk a 16) as [h|] eqn:Eh; [|discriminate].
  exact (read_at_ge dk a 16 h lo HL Eh).
Qed.

Definition obj_pair (x : gobj) : N * bytes := (o_index x, o_data x).

Lemma skipn_blen (d : bytes) off : blen (skipn (N.to_nat off) d) = blen d - off.
Proof. unfold blen. rewrite skipn_length. blia. Qed.

(* the reader model works on the collection from off on, the program on the whole collection at off + o *)
Lemma slice_skipn (data : bytes) off o n : off + o + n <= blen data ->
  Bytes.slice data (off + o) (off + o + n) = Ok (GHeap.slice (skipn (N.to_nat off) data) o n).
Proof.
  intros H. unfold Bytes.slice, GHeap.slice. rewrite !leb_true by blia. cbn [andb]. rewrite skipn_skipn.
  f_equal. f_equal; [blia | f_equal; blia].
Qed.
Lemma rd_le_skipn (data : bytes) off o k : off + o + k <= blen data ->
  rd_le data (off + o) k = Ok (unle (GHeap.slice (skipn (N.to_nat off) data) o k)).
Proof. intros H. unfold rd_le. now rewrite slice_skipn. Qed.

Lemma gcol_parse : forall k k' (data : bytes) off l, (k <= k')%nat ->
  parse_objs k (skipn (N.to_nat off) data) = GHeap.Ok l ->
  gcol_objs k' 8 data off = Ok (map obj_pair l).
Proof.
  induction k as [|k IH]; intros k' data off l Hk H; [discriminate|].
  destruct k' as [|k']; [blia|].
  cbn [parse_objs gcol_objs] in *. rewrite gblen, skipn_blen in H.
  set (rest := skipn (N.to_nat off) data) in *.
  destruct (blen data - off <? 16) eqn:E16.
  - injection H as <-. apply N.ltb_lt in E16.
    destruct (off <? blen data) eqn:Eo; [|reflexivity].
    replace (blen data <? off + (8 + 8)) with true by (symmetry; apply N.ltb_lt; blia). reflexivity.
  - apply N.ltb_ge in E16.
    replace (off <? blen data) with true by (symmetry; apply N.ltb_lt; blia).
    replace (blen data <? off + (8 + 8)) with false by (symmetry; apply N.ltb_ge; blia).
    pose proof (rd_le_skipn data off 0 2 ltac:(blia)) as R2. rewrite N.add_0_r in R2.
    pose proof (rd_le_skipn data off 8 8 ltac:(blia)) as R8. fold rest in R2, R8.
    rewrite R2, R8. cbn [obind].
    set (id := unle (GHeap.slice rest 0 2)) in *. set (sz := unle (GHeap.slice rest 8 8)) in *.
    replace (blen data - off - (8 + 8)) with (blen data - off - 16) by blia.
    destruct (blen data - off - 16 <? sz) eqn:Es.
    + destruct (id =? 0); [|discriminate]. injection H as <-. reflexivity.
    + apply N.ltb_ge in Es.
      assert (Hskip : skipn (N.to_nat (16 + align8 sz)) rest = skipn (N.to_nat (off + (8 + 8) + align8 sz)) data).
      { unfold rest. rewrite skipn_skipn. f_equal. blia. }
      fold (align8 sz). rewrite Hskip in H.
      destruct (id =? 0).
      * exact (IH k' data _ l ltac:(blia) H).
      * replace (blen data - off <? 16 + sz) with false in H by (symmetry; apply N.ltb_ge; blia).
        destruct (parse_objs k (skipn (N.to_nat (off + (8 + 8) + align8 sz)) data)) as [l'|] eqn:Ep; [|discriminate].
        injection H as <-.
        rewrite (IH k' data _ l' ltac:(blia) Ep).
        rewrite (slice_skipn data off (8 + 8) sz) by blia. reflexivity.
Qed.

Lemma get_object_find : forall l idx x, get_object l idx = GHeap.Ok x ->
  find (fun p => fst p =? idx) (map obj_pair l) = Some (idx, o_data x).
Proof.
  induction l as [|y r IH]; intros idx x H; cbn [get_object map find obj_pair fst] in *; [discriminate|].
  destruct (o_index y =? idx) eqn:E.
  - apply N.eqb_eq in E. assert (y = x) by congruence. subst. reflexivity.
  - now apply IH.
Qed.

Section OnImage.
Variable f : bytes.
Variable dk : list (N * bytes).
Hypothesis Hpl : forall a b, In (a, b) dk -> placed f a b.

Lemma read_at_placed : forall a n x, read_at dk a n = Some x -> placed f a x /\ blen x = n.
Proof.
  revert Hpl. induction dk as [|[a0 b] r IH]; intros HP a n x H; cbn [read_at] in H; [discriminate|].
  destruct ((a0 <=? a) && (a + n <=? a0 + GHeap.blen b)) eqn:E.
  - apply andb_true_iff in E as [E1 E2]. apply N.leb_le in E1, E2. rewrite gblen in E2.
    injection H as <-. rewrite gslice_rd. split.
    + replace a with (a0 + (a - a0)) at 1 by blia. apply placed_slice; [apply HP; now left|blia].
    + apply blen_rd. blia.
  - apply IH; [|exact H]. intros a1 b1 Hin. apply HP. now right.
Qed.

Variable sb : superblock'.
Hypothesis Ho : spp_offsize sb = 8.
Hypothesis Hf : blen f <= MAXI64.

(* ReadGlobalHeapCollection as an I/O program on the image = the C12 reader model on the extents *)
Theorem p_gheap_read_collection a rc fuel :
  read_collection dk a = GHeap.Ok rc -> (N.to_nat (blen f / 16) + 2 <= fuel)%nat ->
  run0 f (p_gheap sb fuel a) = Ok (map obj_pair (r_objs rc)).
Proof.
  unfold read_collection. intros H Hfuel.
  destruct (read_at dk a 16) as [h|] eqn:Eh; [|discriminate].
  destruct (read_at_placed _ _ _ Eh) as [Ph Lh].
  destruct (negb (bytes_eqb (GHeap.slice h 0 4) sig_gcol)) eqn:Esig; [discriminate|].
  destruct (negb (nth 4 h 0 =? 1)) eqn:Ever; [discriminate|].
  set (sz := unle (GHeap.slice h 8 8)) in *.
  destruct (sz <? 16) eqn:Esz; [discriminate|]. apply N.ltb_ge in Esz.
  destruct (read_at dk a sz) as [d|] eqn:Ed; [|discriminate].
  destruct (read_at_placed _ _ _ Ed) as [Pd Ld].
  destruct (parse_objs (S (S (N.to_nat (sz / 16)))) (skipn 16 d)) as [l|] eqn:Ep; [|discriminate].
  injection H as <-. cbn [r_objs].
  unfold p_gheap. rewrite Ho. change (negb ((8 =? 4) || (8 =? 8))) with false. cbv iota.
  change (8 + 8) with 16.
  rewrite (run0_read_exact _ f a h 16 _ Ph (eq_sym Lh)).
  assert (L16 : length h = 16%nat) by (unfold blen in Lh; blia).
  do 16 (destruct h as [|? h]; [discriminate L16|]). destruct h; [|discriminate L16].
  cbv [GHeap.slice N.to_nat Pos.to_nat Pos.iter_op Nat.add skipn firstn nth] in Esig, Ever, sz.
  unfold sig_gcol in Esig. cbv [firstn]. rewrite Esig.
  match goal with |- context [index ?hl 4] =>
    replace (index hl 4) with (Ok b3) by reflexivity; replace (rd_le hl 8 8) with (Ok sz) by reflexivity end.
  cbn [obind lift bind fst snd].
  apply negb_false_iff in Ever. rewrite Ever. cbn [negb].
  fold sz. replace (sz <? 16) with false by (symmetry; apply N.ltb_ge; exact Esz).
  rewrite run0_bind.
  pose proof (placed_bound _ _ _ Pd) as Hb.
  rewrite (run0_read_bytes_at f a d sz Pd (eq_sym Ld)) by blia.
  change (if 16 mod 8 =? 0 then 16 else 16 + (8 - 16 mod 8)) with 16.
  cbn [run0 run lift].
  assert (Hg : gcol_objs fuel 8 d 16 = Ok (map obj_pair l)).
  { apply (gcol_parse (S (S (N.to_nat (sz / 16)))) fuel d 16 l); [|exact Ep].
    assert (sz / 16 <= blen f / 16) by (apply N.div_le_mono; blia). blia. }
  rewrite Hg. reflexivity.
Qed.
End OnImage.
