(* C11, compound datatypes as trees, part 3: the round trips of the flat and of the recursive reader; examples. *)
From HV Require Import Base.Prelude Base.Outcome Base.Bytes Model.CodecType Model.CodecCompound
  Model.CodecCompoundTree Proofs.CodecType Proofs.CodecCompoundTree Proofs.CodecCompoundTree2.

Lemma enc_compound_flat v s fs : v = 1 \/ v = 3 ->
  enc_compound (to_compound v s fs) = member_hdr (flat (CComp v s fs)).
Proof. intros [-> | ->]; reflexivity. Qed.

Lemma wf_comp_inv v s fs : wf_ctype (CComp v s fs) = true ->
  (v = 1 \/ v = 3) /\ s <> 0 /\ s < 4294967296 /\ (v = 1 -> nfs fs <= 65535) /\ nfs fs < 4294967296 /\
  nonempty fs = true /\ wf_fields fs = true.
Proof.
  cbn [wf_ctype]. intros H.
  rewrite !andb_true_iff in H. destruct H as ((((Hv & Hs) & Hn) & Hne) & Hwf).
  apply size_ok_inv in Hs as [Hs0 Hs].
  apply orb_true_iff in Hv as [Hv|Hv]; apply N.eqb_eq in Hv; subst v; cbn [N.eqb Pos.eqb] in Hn.
  - apply N.leb_le in Hn. repeat split; auto; lia.
  - apply N.ltb_lt in Hn. repeat split; auto; lia.
Qed.

Lemma nonempty_nfs fs : nonempty fs = true -> 1 <= nfs fs.
Proof. destruct fs; [discriminate|]. cbn [nfs]. lia. Qed.

(* ParseCompoundType on the DatatypeMessage of a well-formed tree returns its member list *)
Lemma parse_compound_flat v s fs : wf_ctype (CComp v s fs) = true ->
  parse_compound (flat (CComp v s fs)) = Ok (proj_compound v s fs).
Proof.
  intros H. destruct (wf_comp_inv _ _ _ H) as (Hv & Hs0 & Hs & Hn1 & Hn & Hne & Hwf).
  destruct (proj2 wf_dec_mut fs Hwf) as [Hnm HF].
  pose proof (nonempty_nfs _ Hne) as Hn0. rewrite nfs_length in Hn0.
  unfold parse_compound. cbn [flat dt_class dt_version dt_cbf dt_size dt_props].
  rewrite N.eqb_refl. cbn [negb].
  destruct Hv as [-> | ->]; unfold comp_props, comp_cbf, proj_compound; cbn [N.eqb Pos.eqb].
  - set (l := flat_fields fs) in *. set (body := concat (map enc_field_v1 l)).
    pose proof (length_fields_le_v1 l) as Hl. fold body in Hl.
    replace (blen body <? 2) with false.
    2:{ symmetry. apply N.ltb_ge. destruct l as [|f l']; [cbn [length] in Hn0; lia|].
        subst body. cbn [map concat]. rewrite blen_app, blen_enc_field_v1. lia. }
    assert (Hw : N.land (wrap16 (N.of_nat (length l))) 65535 = nfs fs).
    { subst l. rewrite <- nfs_length. unfold wrap16. change 65535 with (N.ones 16).
      rewrite N.land_ones. change (2 ^ 16) with 65536. rewrite N.mod_mod by lia. apply N.mod_small. specialize (Hn1 eq_refl). lia. }
    rewrite Hw.
    pose proof (v1_members_ok fs [] [] (S (length body)) Hnm (decsF_datatype _ _ _ (HF enc_field_v1))) as HM.
    cbn [app] in HM. rewrite app_nil_r in HM. fold l in HM. fold body in HM.
    change (blen []) with 0 in HM. rewrite HM by lia. cbn [obind].
    unfold comp_cbf. cbn [N.eqb Pos.eqb]. reflexivity.
  - set (l := flat_fields fs) in *. set (body := concat (map enc_field_v3 l)).
    pose proof (length_fields_le_v3 l) as Hl. fold body in Hl.
    assert (Hw : wrap32 (N.of_nat (length l)) = nfs fs) by (subst l; rewrite <- nfs_length; rewrite wrap32_small; lia).
    rewrite Hw.
    rewrite ltb_false by (rewrite blen_app, blen_le; blia).
    rewrite ltb_false by (rewrite blen_app, blen_le; blia).
    rewrite (rd_le_head 4 4) by (auto; lia). cbn [obind].
    pose proof (v3_members_ok fs (le 4 (nfs fs)) [] (S (length (le 4 (nfs fs) ++ body))) Hnm
                  (decsF_datatype _ _ _ (HF enc_field_v3))) as HM.
    rewrite app_nil_r in HM. fold l in HM. fold body in HM. rewrite blen_le in HM. change (N.of_nat 4) with 4 in HM.
    rewrite HM by (rewrite app_length; lia). cbn [obind]. reflexivity.
Qed.

Lemma compound_tree_roundtrip v s fs : wf_ctype (CComp v s fs) = true ->
  dec_compound (enc_compound (to_compound v s fs)) = Ok (proj_compound v s fs).
Proof.
  intros H. destruct (wf_comp_inv _ _ _ H) as (Hv & _).
  unfold dec_compound. rewrite enc_compound_flat by auto. rewrite wf_dec by auto. cbn [obind].
  now apply parse_compound_flat.
Qed.

Lemma wf_fields_names fs : wf_fields fs = true ->
  forallb (fun f => negb (length (fd_name f) =? 0)%nat) (flat_fields fs) = true.
Proof.
  induction fs as [|n o t r IH] using cfields_ind; [reflexivity|]. cbn [wf_fields flat_fields forallb fd_name]. intros H.
  rewrite !andb_true_iff in H. destruct H as (((Hn & _) & _) & Hr).
  unfold name_ok in Hn. apply andb_true_iff in Hn as [Hn _]. rewrite Hn, IH by auto. reflexivity.
Qed.

Lemma wf_ctype_encok v s fs : wf_ctype (CComp v s fs) = true -> encok_compound (to_compound v s fs) = true.
Proof.
  intros H. destruct (wf_comp_inv _ _ _ H) as (Hv & Hs0 & Hs & Hn1 & Hn & Hne & Hwf).
  pose proof (nonempty_nfs _ Hne) as Hn0. rewrite nfs_length in Hn0, Hn1.
  unfold encok_compound, to_compound, nfields. cbn [cp_fields cp_size cp_version].
  rewrite wf_fields_names by auto.
  replace (length (flat_fields fs) =? 0)%nat with false by (symmetry; apply Nat.eqb_neq; lia).
  replace (s =? 0) with false by (symmetry; apply N.eqb_neq; auto). cbn [negb andb].
  destruct (N.eqb_spec v 1) as [E|E]; [|reflexivity]. rewrite andb_true_r. apply N.leb_le. auto.
Qed.

Definition dec_tree_go (fuel : nat) : list field -> outcome cfields :=
  fix go (l : list field) : outcome cfields :=
    match l with
    | [] => Ok CNil
    | f :: r => t <- dec_tree fuel (fd_type f);; rs <- go r;; Ok (CCons (fd_name f) (fd_offset f) t rs)
    end.

Lemma dec_tree_S fuel d :
  dec_tree (S fuel) d =
  if negb (dt_class d =? DT_COMPOUND) then Ok (CLeaf d) else
  c <- parse_compound d;; fs <- dec_tree_go fuel (cpp_members c);; Ok (CComp (cpp_version c) (cpp_size c) fs).
Proof. reflexivity. Qed.

Lemma dec_tree_leaf fuel d : negb (dt_class d =? DT_COMPOUND) = true -> dec_tree fuel d = Ok (CLeaf d).
Proof. intros H. destruct fuel; cbn [dec_tree]; rewrite H; reflexivity. Qed.

Lemma dec_tree_mut :
  (forall t, wf_ctype t = true -> forall fuel, (depth t <= fuel)%nat -> dec_tree fuel (flat t) = Ok t) /\
  (forall fs, wf_fields fs = true -> forall fuel, (depth_fields fs <= fuel)%nat ->
     dec_tree_go fuel (flat_fields fs) = Ok fs).
Proof.
  apply ctree_mutind.
  - intros d H fuel _. cbn [flat]. apply dec_tree_leaf.
    cbn [wf_ctype] in H. unfold leaf_ok in H. apply andb_true_iff in H as [H _]. now apply andb_true_iff in H as [_ H].
  - intros v s fs IH H fuel Hf. cbn [depth] in Hf. destruct fuel as [|fuel]; [lia|].
    rewrite dec_tree_S. rewrite parse_compound_flat by auto.
    cbn [flat dt_class]. rewrite N.eqb_refl. cbn [negb obind proj_compound cpp_members cpp_version cpp_size].
    destruct (wf_comp_inv _ _ _ H) as (_ & _ & _ & _ & _ & _ & Hwf).
    rewrite IH by (auto; lia). reflexivity.
  - reflexivity.
  - intros n o t IHt r IHr H fuel Hf. cbn [wf_fields] in H. cbn [depth_fields] in Hf.
    apply andb_true_iff in H as [H Hr]. apply andb_true_iff in H as [H Ht].
    assert (Hwt : wf_ctype t = true).
    { destruct r; [exact Ht|]. now apply (proj1 sd_wf_mut). }
    cbn [flat_fields dec_tree_go fd_type fd_name fd_offset].
    rewrite IHt by (auto; lia). cbn [obind].
    fold (dec_tree_go fuel). rewrite IHr by (auto; lia). reflexivity.
Qed.

Lemma compound_tree_deep_roundtrip v s fs : wf_ctype (CComp v s fs) = true ->
  (t <- dec_datatype (enc_compound (to_compound v s fs));; dec_tree (S (depth_fields fs)) t) = Ok (CComp v s fs).
Proof.
  intros H. destruct (wf_comp_inv _ _ _ H) as (Hv & _).
  rewrite enc_compound_flat by auto. rewrite wf_dec by auto. cbn [obind].
  apply (proj1 dec_tree_mut); auto.
Qed.

Lemma compound_tree_deep_roundtrip' v s fs : wf_ctype (CComp v s fs) = true ->
  dec_compound_tree (enc_compound (to_compound v s fs)) = Ok (CComp v s fs).
Proof.
  intros H. destruct (wf_comp_inv _ _ _ H) as (Hv & _). unfold dec_compound_tree.
  rewrite enc_compound_flat by auto. rewrite wf_dec by auto. cbn [obind].
  apply (proj1 dec_tree_mut); auto. pose proof (depth_le (CComp v s fs)). lia.
Qed.

(* the examples are well-formed; the shapes excluded beyond the leaf classes really fail *)

Lemma tree_examples_wf :
  wf_ctype (tree_example 3) = true /\ wf_ctype (tree_example 1) = true /\ wf_ctype deep_example = true.
Proof. vm_compute. auto. Qed.

Lemma compound_v1_member_refuted :
  match v1_member_witness with
  | CComp v s fs => encok_compound (to_compound v s fs) = true /\ dec_compound (enc_compound (to_compound v s fs)) = Err
  | _ => False
  end.
Proof. vm_compute. split; reflexivity. Qed.

Lemma compound_greedy_tail_refuted :
  match greedy_tail_witness with
  | CComp v s fs => encok_compound (to_compound v s fs) = true /\ dec_compound (enc_compound (to_compound v s fs)) = Err
  | _ => False
  end.
Proof. vm_compute. split; reflexivity. Qed.
