(* C11, object header version 2 with continuation chunks (Model/CodecOhdrCont.v), part 1:
   fuel monotonicity, conservativity over Model/CodecOhdr.v, refusal witnesses. *)
From HV Require Import Base.Prelude Base.Outcome Base.Bytes Model.CodecOhdr Model.CodecOhdrCont.

(* Both loops are the same program except at a continuation message, where the model without chunks stops.
   [dm_hyp H] follows the run recorded in [H : ... = Ok r] through every test, read and pattern match, dropping
   the branches in which [H] is an error; what is left are the successful paths, on which the goal makes the
   same choices and is closed by [H] itself or by the induction hypothesis for the recursive call. *)
Ltac dm_hyp H :=
  repeat (match type of H with
          | context [if ?c then _ else _] => destruct c eqn:?
          | context [obind ?o _] => destruct o eqn:?; cbn [obind] in *
          | context [match ?p with [] => _ | _ :: _ => _ end] => destruct p eqn:?
          | context [let (_, _) := ?p in _] => destruct p eqn:?
          end; try discriminate H).

Lemma v2_loop_c_mono : forall (f f' : nat) file os ls isBE sbBE hdr isCont cur e pend vis r,
  (f <= f')%nat ->
  v2_loop_c f file os ls isBE sbBE hdr isCont cur e pend vis = Ok r ->
  v2_loop_c f' file os ls isBE sbBE hdr isCont cur e pend vis = Ok r.
Proof.
  induction f as [|f IH]; intros f' file os ls isBE sbBE hdr isCont cur e pend vis r Hle H; [discriminate H|].
  destruct f' as [|f']; [lia|].
  assert (Hle' : (f <= f')%nat) by lia.
  cbn [v2_loop_c] in *.
  dm_hyp H; cbn [obind]; try exact H; try (eapply IH; eassumption);
    try (match goal with E : v2_loop_c f _ _ _ _ _ _ _ _ _ _ _ = Ok _ |- _ => rewrite (IH _ _ _ _ _ _ _ _ _ _ _ _ _ Hle' E) end;
         cbn [obind]; exact H).
Qed.

Lemma fuel_c_ge file : (S (length file) <= fuel_c file)%nat.
Proof. unfold fuel_c. lia. Qed.

(* the message loop of Model/CodecOhdr.v never queues a chunk: where it succeeds, the loop with chunks does the same *)
Lemma v2_loop_conservative : forall (f : nat) file os ls isBE sbBE hdr cur e vis r,
  v2_loop f file isBE hdr cur e = Ok r ->
  v2_loop_c f file os ls isBE sbBE hdr false cur e [] vis = Ok r.
Proof.
  induction f as [|f IH]; intros file os ls isBE sbBE hdr cur e vis r H; [discriminate H|].
  cbn [v2_loop v2_loop_c andb negb] in *. rewrite andb_true_r.
  dm_hyp H; cbn [obind]; try (eapply IH; eassumption); try exact H;
    try (match goal with E : v2_loop f _ _ _ _ _ = Ok _ |- _ => rewrite (IH _ os ls _ sbBE _ _ _ vis _ E) end;
         cbn [obind]; exact H).
Qed.

Lemma parse_v2_conservative os ls file addr flags isBE sbBE version r :
  parse_v2 file addr flags isBE sbBE version = Ok r ->
  parse_v2_c os ls file addr flags isBE sbBE version = Ok r.
Proof.
  unfold parse_v2, parse_v2_c. intros H.
  dm_hyp H; cbn [obind];
    match goal with E : v2_loop _ _ _ _ _ _ = Ok _ |- _ =>
      rewrite (v2_loop_c_mono _ _ _ _ _ _ _ _ _ _ _ _ _ _ (fuel_c_ge file) (v2_loop_conservative _ _ os ls _ sbBE _ _ _ [] _ E))
    end; cbn [obind]; exact H.
Qed.

(* conservativity: wherever the model without continuation chunks returns a header, the model with
   them returns the same header - for every file image, address, offset / length size *)
Lemma dec_ohdr_conservative os ls sbBE file addr r :
  dec_ohdr sbBE file addr = Ok r -> dec_ohdr_c os ls sbBE file addr = Ok r.
Proof.
  unfold dec_ohdr, dec_ohdr_c. intros H.
  dm_hyp H; cbn [obind]; try exact H; apply parse_v2_conservative; exact H.
Qed.
