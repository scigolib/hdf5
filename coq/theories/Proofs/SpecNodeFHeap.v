(* C05: the writer's fractal heap encoders (Model/FHeap.v encode_header / encode_dblock, transcriptions of
   internal/structures/fractalheap_write.go writeHeaderAt / writeDirectBlockAt, tied to the Go code by C15) against the
   specification decoders Spec/FormatNode.v spec_dec_fheap_hdr / spec_dec_fhdb.

   Model/FHeap.v has its own Ok/Err/zeros/len/slice; it is only Required here (MF.x), the specification side is imported. *)
From HV Require Import Base.Prelude Base.Outcome Base.Bytes Base.Crc32 Spec.Lookup3 Spec.Parse Spec.Format Spec.FormatNode
  Proofs.SpecSuper.
From HV Require Model.FHeap Proofs.FHeap.
Module MF := HV.Model.FHeap.
Module PF := HV.Proofs.FHeap.

Definition lt64 (v : N) : bool := v <? 18446744073709551616.

Lemma lt64_lt v : lt64 v = true -> v < 256 ^ N.of_nat 8.
Proof. apply N.ltb_lt. Qed.


Definition logical_fheap_hdr (h : MF.heap) : fheap_spec :=
  {| fh_idlen := MF.ID_LEN; fh_filtlen := 0; fh_flags := 0; fh_maxobj := MF.MAX_OBJ; fh_nexthuge := 0; fh_hugebt := 0;
     fh_free := MF.h_free h; fh_fsaddr := 0; fh_mansize := MF.h_mansize h; fh_manalloc := MF.h_alloc h;
     fh_iter := MF.h_manoff h; fh_nman := MF.h_nobj h; fh_hugesize := 0; fh_nhuge := 0; fh_tinysize := 0; fh_ntiny := 0;
     fh_width := MF.TABLE_WIDTH; fh_start := MF.h_start h; fh_maxdirect := MF.h_maxdb h; fh_maxheap := MF.MAX_HEAP_BITS;
     fh_startrows := 0; fh_root := MF.h_root h; fh_currows := MF.h_rows h |}.

(* the writer stores 0 for the huge-object B-tree and free-space manager addresses: the second tag is unconditional *)
Definition tags_fheap_hdr (h : MF.heap) : list tag :=
  (if crc32 (MF.header_body h) =? hashlittle (MF.header_body h) 0 then [] else [T_fheap_hdr_crc32])
  ++ [T_fheap_addr_0_not_undef].

(* what the theorems ask of the heap state: every field fits the bytes it is written in (otherwise the encoder truncates
   and the decoded value differs), and the block sizes satisfy the specification's constraints (powers of two,
   start <= max direct <= 2^(max heap size)) *)
Definition wf_fheap_hdr (h : MF.heap) : bool :=
  lt64 (MF.h_free h) && lt64 (MF.h_mansize h) && lt64 (MF.h_alloc h) && lt64 (MF.h_manoff h) && lt64 (MF.h_nobj h)
  && lt64 (MF.h_root h) && (MF.h_rows h <? 65536)
  && pow2 (MF.h_start h) && pow2 (MF.h_maxdb h)
  && (MF.h_maxdb h <=? 2 ^ MF.MAX_HEAP_BITS) && (MF.h_start h <=? MF.h_maxdb h).

Lemma encode_header_eq h : MF.encode_header h = MF.header_body h ++ le 4 (crc32 (MF.header_body h)).
Proof. reflexivity. Qed.

(* the decoder on the header bytes followed by ANY stored checksum value c *)
Lemma spec_fheap_hdr_any tol h c : wf_fheap_hdr h = true -> c < 256 ^ N.of_nat 4 ->
  spec_dec_fheap_hdr tol 8 8 (MF.header_body h ++ le 4 c) =
    (tg1 <- check_sum tol T_fheap_hdr_crc32 (MF.header_body h) c;;
     tg2 <- dev tol T_fheap_addr_0_not_undef;;
     Ok (logical_fheap_hdr h, tg1 ++ tg2, [])).
Proof.
  unfold wf_fheap_hdr. intros ((((W & P1)%andb_true_iff & P2)%andb_true_iff & B1)%andb_true_iff & B2)%andb_true_iff Hc.
  repeat (apply andb_true_iff in W as [W ?]).
  repeat match goal with H : _ = true |- _ => apply N.ltb_lt in H end.
  assert (MF.h_start h < 256 ^ N.of_nat 8 /\ MF.h_maxdb h < 256 ^ N.of_nat 8) as [Hst Hmd].
  { apply N.leb_le in B1, B2. change (2 ^ MF.MAX_HEAP_BITS) with 65536 in B1.
    change (256 ^ N.of_nat 8) with 18446744073709551616. lia. }
  unfold spec_dec_fheap_hdr. set (bs := MF.header_body h ++ le 4 c) at 2.
  unfold MF.header_body at 1. change MF.SIG_FRHP with frhp_sig. rewrite <- !app_assoc.
  parse p_expect_app. parse p_byte_cons. parse guard_Ok. do 2 parse p_u_le. parse p_byte_cons. parse guard_Ok.
  do 20 parse p_u_le.
  (* no filters: nothing lies between the last field and the checksum *)
  cbn [N.ltb N.compare]. rewrite obind_Ok. cbn beta iota zeta.
  parse p_u_le_end. unfold bs. rewrite consumed_app.
  destruct (check_sum tol T_fheap_hdr_crc32 (MF.header_body h) c) as [tg1| |]; [|reflexivity..].
  rewrite !obind_Ok, P1, P2, B1, B2. parse guard_Ok. reflexivity.
Qed.

(* the tolerant decoder accepts every well-formed header the writer encodes, with exactly these tags *)
Lemma spec_fheap_hdr_tolerant : forall h, wf_fheap_hdr h = true ->
  spec_dec_fheap_hdr tolerant 8 8 (MF.encode_header h) = Ok (logical_fheap_hdr h, tags_fheap_hdr h, []).
Proof.
  intros h W. rewrite encode_header_eq, spec_fheap_hdr_any, check_sum_of_crc by (assumption || apply crc32_lt).
  unfold tags_fheap_hdr. now destruct (crc32 (MF.header_body h) =? hashlittle (MF.header_body h) 0).
Qed.

(* the strict decoder rejects every one of them (address 0 where the undefined address belongs) *)
Lemma spec_fheap_hdr_strict : forall h, wf_fheap_hdr h = true ->
  spec_dec_fheap_hdr strict 8 8 (MF.encode_header h) = Err.
Proof.
  intros h W. rewrite encode_header_eq, spec_fheap_hdr_any, check_sum_of_crc by (assumption || apply crc32_lt).
  now destruct (crc32 (MF.header_body h) =? hashlittle (MF.header_body h) 0).
Qed.


Definition fhdb_pre (b : MF.dblock) : bytes :=
  MF.SIG_FHDB ++ [0] ++ le 8 (MF.db_hdraddr b) ++ le 2 (MF.db_boff b).

(* the bytes the trailing CRC-32 covers: the block buffer without its last four bytes *)
Definition fhdb_body (b : MF.dblock) : bytes :=
  MF.take (MF.db_size b - MF.CKSUM)
          (fhdb_pre b ++ MF.copy_into (MF.zeros (MF.db_size b - MF.PREFIX)) (MF.db_objs b)).

Definition wf_fhdb (b : MF.dblock) : bool :=
  (MF.PREFIX + MF.CKSUM <=? MF.db_size b) && (MF.db_boff b <? 65536) && lt64 (MF.db_hdraddr b).

Lemma encode_dblock_eq b : MF.encode_dblock b = fhdb_body b ++ le 4 (crc32 (fhdb_body b)).
Proof. reflexivity. Qed.

Lemma fhdb_body_split b : 19 <= MF.db_size b ->
  fhdb_body b = fhdb_pre b
                ++ MF.take (MF.db_size b - 19) (MF.copy_into (MF.zeros (MF.db_size b - MF.PREFIX)) (MF.db_objs b)).
Proof.
  intros Hs. unfold fhdb_body, MF.CKSUM.
  assert (Hp : MF.len (fhdb_pre b) = 15) by reflexivity.
  rewrite PF.take_app_r by (rewrite Hp; lia). rewrite Hp. f_equal. f_equal. lia.
Qed.

(* the decoder on prefix ++ data ++ ANY trailing 4-byte value c *)
Lemma spec_fhdb_any tol ha bo (body rest : list N) c :
  body = (fhdb_sig ++ [0] ++ le 8 ha ++ le 2 bo) ++ rest ->
  ha < 256 ^ N.of_nat 8 -> bo < 256 ^ N.of_nat 2 -> c < 256 ^ N.of_nat 4 ->
  spec_dec_fhdb tol 8 ha 2 bo 0 (body ++ le 4 c) =
    if c =? 0 then Ok (15, [])
    else (_ <- guard (c =? crc32 body);; tg <- dev tol T_fhdb_trailing_crc32;; Ok (15, tg)).
Proof.
  intros -> Hha Hbo Hc. remember (fhdb_sig ++ [0] ++ le 8 ha ++ le 2 bo) as pre eqn:Ep.
  assert (E : blen pre = 15) by now subst pre.
  unfold spec_dec_fhdb. rewrite Ep at 1. rewrite <- !app_assoc.
  parse p_expect_app. parse p_byte_cons. parse guard_Ok.
  parse p_u_le. parse guard_Ok by apply N.eqb_refl. parse p_u_le. parse guard_Ok by apply N.eqb_refl.
  change (N.testbit 0 1) with false. cbn beta iota zeta. rewrite (consumed_app pre), E.
  (* [length (le 4 c)] computes to 4: without its last four bytes the block is what it consumed before them *)
  change (firstn _ (pre ++ rest ++ le 4 c)) with (consumed (pre ++ rest ++ le 4 c) (le 4 c)).
  rewrite (app_assoc pre), consumed_app.
  rewrite app_length, length_le, Nat.add_sub, skipn_app, skipn_all, Nat.sub_diag. cbn [app skipn].
  parse guard_Ok by apply Nat.leb_le, Nat.le_add_l. now rewrite unle_le_small.
Qed.

Lemma wf_fhdb_fields b : wf_fhdb b = true ->
  19 <= MF.db_size b /\ MF.db_boff b < 256 ^ N.of_nat 2 /\ MF.db_hdraddr b < 256 ^ N.of_nat 8.
Proof.
  unfold wf_fhdb. intros [[S B]%andb_true_iff A]%andb_true_iff.
  repeat split; [apply N.leb_le, S | apply N.ltb_lt, B | apply lt64_lt, A].
Qed.

(* everything but the nature of the last four bytes is conformant: the decoder's answer for any tolerance *)
Lemma spec_fhdb tol b : wf_fhdb b = true ->
  spec_dec_fhdb tol 8 (MF.db_hdraddr b) 2 (MF.db_boff b) 0 (MF.encode_dblock b) =
    if crc32 (fhdb_body b) =? 0 then Ok (15, []) else (tg <- dev tol T_fhdb_trailing_crc32;; Ok (15, tg)).
Proof.
  intros W. destruct (wf_fhdb_fields b W) as (Hs & Hbo & Hha).
  rewrite encode_dblock_eq, (spec_fhdb_any tol _ _ _ _ _ (fhdb_body_split b Hs)), N.eqb_refl
    by (assumption || apply crc32_lt).
  reflexivity.
Qed.

(* the tolerant decoder accepts every well-formed direct block, and reports the trailing CRC-32 unless it is 0 *)
Lemma spec_fhdb_tolerant : forall b, wf_fhdb b = true ->
  spec_dec_fhdb tolerant 8 (MF.db_hdraddr b) 2 (MF.db_boff b) 0 (MF.encode_dblock b) =
    Ok (15, if crc32 (fhdb_body b) =? 0 then [] else [T_fhdb_trailing_crc32]).
Proof. intros b W. rewrite spec_fhdb by assumption. destruct (crc32 (fhdb_body b) =? 0); reflexivity. Qed.

(* the strict decoder accepts a direct block only when its last four bytes, the CRC-32, happen to be 0 *)
Lemma spec_fhdb_strict : forall b, wf_fhdb b = true ->
  spec_dec_fhdb strict 8 (MF.db_hdraddr b) 2 (MF.db_boff b) 0 (MF.encode_dblock b) =
    if crc32 (fhdb_body b) =? 0 then Ok (15, []) else Err.
Proof. intros b W. rewrite spec_fhdb by assumption. destruct (crc32 (fhdb_body b) =? 0); reflexivity. Qed.

(* Reachable states.  Proofs/FHeap.v: every state reached from NewWritableFractalHeap(bs) by an admissible history (inserts that fit one
   direct block, get / overwrite / delete of live ids, write-out + reload) satisfies the representation relation
   [PF.R bs h fs sp].  R fixes every header field but the two addresses (root block address, heap header address in the
   block), which WriteToFile / WriteAt set (MF.set_addrs) before encoding; [addr_ok] carries them through a history.
   The specification also asks for a power-of-two block size, which R does not know: hypothesis [pow2 bs]
   (the library only calls NewWritableFractalHeap with 64 KiB and 512 KiB; see fheap_hdr_start_not_pow2_refuted). *)

Lemma R_wf_fheap_hdr bs h fs sp :
  MF.bs_ok bs = true -> pow2 bs = true -> PF.R bs h fs sp -> lt64 (MF.h_root h) = true -> wf_fheap_hdr h = true.
Proof.
  intros Hbs Hp HR Hroot. destruct (PF.bs_ok_bounds bs Hbs) as [[Hb1 Hb2] Hcap].
  pose proof (PF.R_free _ _ _ _ HR) as Q1. pose proof (PF.R_mansize _ _ _ _ HR) as Q2.
  pose proof (PF.R_alloc _ _ _ _ HR) as Q3. pose proof (PF.R_manoff _ _ _ _ HR) as Q4.
  pose proof (PF.R_nobj _ _ _ _ HR) as Q5. pose proof (PF.R_rows _ _ _ _ HR) as Q6.
  pose proof (PF.R_start _ _ _ _ HR) as Q7. pose proof (PF.R_maxdb _ _ _ _ HR) as Q8.
  pose proof (PF.R_vol _ _ _ _ HR) as V1. pose proof (PF.R_objlen _ _ _ _ HR) as V2.
  pose proof (PF.R_cnt _ _ _ _ HR) as V3. rewrite Hcap in V2.
  unfold wf_fheap_hdr. rewrite Q1, Q2, Q3, Q4, Q5, Q6, Q7, Q8, Hroot, Hp.
  change (2 ^ MF.MAX_HEAP_BITS) with 65536. unfold lt64.
  repeat (apply andb_true_iff; split); try reflexivity; try (apply N.ltb_lt; lia); apply N.leb_le; lia.
Qed.

Lemma R_wf_fhdb bs h fs sp :
  MF.bs_ok bs = true -> PF.R bs h fs sp -> lt64 (MF.db_hdraddr (MF.h_blk h)) = true -> wf_fhdb (MF.h_blk h) = true.
Proof.
  intros Hbs HR Ha. destruct (PF.bs_ok_bounds bs Hbs) as [[Hb1 Hb2] Hcap].
  unfold wf_fhdb. rewrite (PF.R_size _ _ _ _ HR), (PF.R_boff _ _ _ _ HR), Ha.
  change (MF.PREFIX + MF.CKSUM) with 19.
  repeat (apply andb_true_iff; split); try reflexivity. apply N.leb_le. lia.
Qed.

(* what WriteToFile / WriteAt encode for a state in R: the header and the direct block with the addresses filled in
   (PF.store_files: ha = 2048, ba = 2194 in the model's file) *)
Lemma spec_fheap_hdr_stored bs h fs sp ha ba :
  MF.bs_ok bs = true -> pow2 bs = true -> PF.R bs h fs sp -> lt64 ba = true ->
  let h1 := MF.set_addrs h ha ba in
  spec_dec_fheap_hdr tolerant 8 8 (MF.encode_header h1) = Ok (logical_fheap_hdr h1, tags_fheap_hdr h1, [])
  /\ spec_dec_fheap_hdr strict 8 8 (MF.encode_header h1) = Err.
Proof.
  intros Hbs Hp HR Hba h1.
  assert (W : wf_fheap_hdr h1 = true).
  { apply (R_wf_fheap_hdr bs h1 fs sp); try assumption. apply PF.R_set_addrs. assumption. }
  split; [apply spec_fheap_hdr_tolerant | apply spec_fheap_hdr_strict]; assumption.
Qed.

Lemma spec_fhdb_stored bs h fs sp ha ba :
  MF.bs_ok bs = true -> PF.R bs h fs sp -> lt64 ha = true ->
  let b := MF.h_blk (MF.set_addrs h ha ba) in
  spec_dec_fhdb tolerant 8 ha 2 0 0 (MF.encode_dblock b) =
    Ok (15, if crc32 (fhdb_body b) =? 0 then [] else [T_fhdb_trailing_crc32])
  /\ spec_dec_fhdb strict 8 ha 2 0 0 (MF.encode_dblock b) = if crc32 (fhdb_body b) =? 0 then Ok (15, []) else Err.
Proof.
  intros Hbs HR Hha b.
  assert (HR1 : PF.R bs (MF.set_addrs h ha ba) fs sp) by (apply PF.R_set_addrs; assumption).
  assert (W : wf_fhdb b = true) by (apply (R_wf_fhdb bs _ fs sp); assumption).
  assert (E1 : MF.db_hdraddr b = ha) by reflexivity.
  assert (E2 : MF.db_boff b = 0) by (apply (PF.R_boff _ _ _ _ HR1)).
  pose proof (spec_fhdb_tolerant b W) as T. pose proof (spec_fhdb_strict b W) as S.
  rewrite E1, E2 in T, S. split; assumption.
Qed.

Definition addrs (h : MF.heap) : N * N := (MF.h_root h, MF.db_hdraddr (MF.h_blk h)).
Definition addr_ok (h : MF.heap) : Prop := lt64 (fst (addrs h)) = true /\ lt64 (snd (addrs h)) = true.

(* no operation on the heap's objects touches the two addresses *)
Lemma insert_addr cap h d pick :
  MF.h_ind h = None ->
  ((MF.len d =? 0) || (MF.MAX_OBJ <? MF.len d) = true \/ MF.needs_transition cap h (MF.len d) = false) ->
  addrs (fst (MF.insert cap h d pick)) = addrs h.
Proof.
  intros Hind Hc. unfold MF.insert.
  destruct (MF.len d =? 0); [reflexivity|]. destruct (MF.MAX_OBJ <? MF.len d); [reflexivity|].
  destruct Hc as [Hc|Hc]; [discriminate|]. rewrite Hc, Hind. unfold MF.insert_direct.
  now destruct (cap (MF.db_size (MF.h_blk h)) <? MF.db_free (MF.h_blk h) + MF.len d).
Qed.

Lemma overwrite_addr h id d : addrs (fst (MF.overwrite h id d)) = addrs h.
Proof.
  unfold MF.overwrite. destruct (MF.parse_id h id) as [[off n]|]; [|reflexivity].
  destruct (negb (MF.len d =? n)); [reflexivity|].
  destruct (MF.len (MF.db_objs (MF.h_blk h)) <=? off); [reflexivity|].
  now destruct (MF.len (MF.db_objs (MF.h_blk h)) <? off + n).
Qed.

Lemma delete_addr h id : addrs (fst (MF.delete h id)) = addrs h.
Proof.
  unfold MF.delete. destruct (MF.parse_id h id) as [[off n]|]; [|reflexivity].
  destruct (MF.len (MF.db_objs (MF.h_blk h)) <=? off); [reflexivity|].
  now destruct (MF.len (MF.db_objs (MF.h_blk h)) <? off + n).
Qed.

Lemma step_addr_ok bs h fs sp o sp' x :
  MF.bs_ok bs = true -> PF.R bs h fs sp -> MF.spec_step bs sp o = Some (sp', x) -> addr_ok h ->
  addr_ok (fst (fst (MF.step MF.cap_new bs (h, fs) o))).
Proof.
  intros Hbs HR Hs A. unfold addr_ok.
  destruct o as [d pick|id|id d|id|].
  - assert (Hc : (MF.len d =? 0) || (MF.MAX_OBJ <? MF.len d) = true
                 \/ MF.needs_transition MF.cap_new h (MF.len d) = false).
    { cbn [MF.spec_step] in Hs.
      destruct ((MF.len d =? 0) || (MF.MAX_OBJ <? MF.len d)); [left; reflexivity|right].
      destruct (N.ltb_spec (MF.cap_new bs) (MF.sp_vol sp + MF.len d)); [discriminate|].
      unfold MF.needs_transition.
      rewrite (PF.R_ind _ _ _ _ HR), (PF.R_freeoff _ _ _ _ HR), (PF.R_size _ _ _ _ HR).
      destruct (N.leb_spec (MF.sp_vol sp + MF.len d) (MF.cap_new bs)); [reflexivity|lia]. }
    pose proof (insert_addr MF.cap_new h d pick (PF.R_ind _ _ _ _ HR) Hc) as E.
    unfold MF.step. destruct (MF.insert MF.cap_new h d pick) as [h1 r]. cbn [fst] in *. now rewrite E.
  - exact A.
  - pose proof (overwrite_addr h id d) as E.
    unfold MF.step. destruct (MF.overwrite h id d) as [h1 r]. cbn [fst] in *. now rewrite E.
  - pose proof (delete_addr h id) as E.
    unfold MF.step. destruct (MF.delete h id) as [h1 r]. cbn [fst] in *. now rewrite E.
  - destruct (PF.step_SL_R bs h fs sp Hbs HR) as (fs1 & Hst & _). rewrite Hst. split; reflexivity.
Qed.

Lemma run_addr_ok bs hist : forall h fs sp sp' eouts,
  MF.bs_ok bs = true -> PF.R bs h fs sp -> addr_ok h -> MF.spec_run bs sp hist = Some (sp', eouts) ->
  exists h' fs', MF.run MF.cap_new bs (h, fs) hist = (h', fs', eouts) /\ PF.R bs h' fs' sp' /\ addr_ok h'.
Proof.
  induction hist as [|o r IH]; intros h fs sp sp' eouts Hbs HR HA Hs; cbn [MF.spec_run MF.run] in *.
  - injection Hs as <- <-. exists h, fs. split; [reflexivity|split; assumption].
  - destruct (MF.spec_step bs sp o) as [[sp1 x]|] eqn:E1; [|discriminate].
    destruct (MF.spec_run bs sp1 r) as [[sp2 xs]|] eqn:E2; [|discriminate]. injection Hs as <- <-.
    pose proof (step_addr_ok bs h fs sp o sp1 x Hbs HR E1 HA) as HA1.
    destruct (PF.step_refines bs h fs sp o sp1 x Hbs HR E1) as (h1 & fs1 & Hst & HR1).
    rewrite Hst in HA1. cbn [fst] in HA1.
    destruct (IH h1 fs1 sp1 sp2 xs Hbs HR1 HA1 E2) as (h2 & fs2 & Hrun & HR2 & HA2).
    exists h2, fs2. split; [|split; assumption]. rewrite Hst, Hrun. reflexivity.
Qed.

(* every state reached by an admissible history is well formed for both encoders; it has one direct block *)
Lemma reachable_wf bs hist :
  MF.bs_ok bs = true -> pow2 bs = true -> MF.one_block bs hist = true -> MF.targets_live bs hist = true ->
  let h := MF.heap_of MF.cap_new bs hist in
  wf_fheap_hdr h = true /\ wf_fhdb (MF.h_blk h) = true /\ MF.db_boff (MF.h_blk h) = 0 /\ MF.blocks_view h = [].
Proof.
  intros Hbs Hp H1 H2.
  destruct (PF.admissible_spec_run bs hist MF.spec0 H1 H2) as (sp & eouts & Hs).
  assert (HA0 : addr_ok (MF.new_heap bs)) by (split; reflexivity).
  destruct (run_addr_ok bs hist _ _ _ _ _ Hbs (PF.R_new bs Hbs) HA0 Hs) as (h & fs & Hr & HR & [A1 A2]).
  unfold MF.heap_of. rewrite Hr. cbv zeta.
  split; [|split; [|split]].
  - apply (R_wf_fheap_hdr bs h fs sp); assumption.
  - apply (R_wf_fhdb bs h fs sp); assumption.
  - apply (PF.R_boff _ _ _ _ HR).
  - unfold MF.blocks_view. rewrite (PF.R_ind _ _ _ _ HR). apply (PF.R_others _ _ _ _ HR).
Qed.

(* composed with the invariant: header and current direct block of every reachable state *)
Lemma spec_fheap_hdr_reachable : forall bs hist,
  MF.bs_ok bs = true -> pow2 bs = true -> MF.one_block bs hist = true -> MF.targets_live bs hist = true ->
  let h := MF.heap_of MF.cap_new bs hist in
  spec_dec_fheap_hdr tolerant 8 8 (MF.encode_header h) = Ok (logical_fheap_hdr h, tags_fheap_hdr h, [])
  /\ spec_dec_fheap_hdr strict 8 8 (MF.encode_header h) = Err.
Proof.
  intros bs hist Hbs Hp H1 H2 h. destruct (reachable_wf bs hist Hbs Hp H1 H2) as (W & _).
  split; [apply spec_fheap_hdr_tolerant | apply spec_fheap_hdr_strict]; exact W.
Qed.

Lemma spec_fhdb_reachable : forall bs hist,
  MF.bs_ok bs = true -> pow2 bs = true -> MF.one_block bs hist = true -> MF.targets_live bs hist = true ->
  let b := MF.h_blk (MF.heap_of MF.cap_new bs hist) in
  spec_dec_fhdb tolerant 8 (MF.db_hdraddr b) 2 0 0 (MF.encode_dblock b) =
    Ok (15, if crc32 (fhdb_body b) =? 0 then [] else [T_fhdb_trailing_crc32])
  /\ spec_dec_fhdb strict 8 (MF.db_hdraddr b) 2 0 0 (MF.encode_dblock b) =
       (if crc32 (fhdb_body b) =? 0 then Ok (15, []) else Err).
Proof.
  intros bs hist Hbs Hp H1 H2 b. destruct (reachable_wf bs hist Hbs Hp H1 H2) as (_ & W & E & _).
  fold b in W, E. pose proof (spec_fhdb_tolerant b W) as T. pose proof (spec_fhdb_strict b W) as S.
  rewrite E in T, S. split; assumption.
Qed.

(* NewWritableFractalHeap(64), one 10-byte object, written out (header at 2048, block at 2194) and loaded back *)
Definition fheap_witness : MF.heap := MF.heap_of MF.cap_new 64 [MF.Ins (MF.obj 1 10) 0; MF.SL].

(* findings C05-fheap-hdr-crc32 and C05-fheap-addr-0-not-undef *)
Lemma fheap_hdr_refuted :
  wf_fheap_hdr fheap_witness = true /\
  MF.h_root fheap_witness = 2194 /\
  spec_dec_fheap_hdr strict 8 8 (MF.encode_header fheap_witness) = Err /\
  spec_dec_fheap_hdr tolerant 8 8 (MF.encode_header fheap_witness) =
    Ok (logical_fheap_hdr fheap_witness, [T_fheap_hdr_crc32; T_fheap_addr_0_not_undef], []) /\
  spec_dec_fheap_hdr (fun t => match t with T_fheap_hdr_crc32 => false | _ => true end) 8 8
    (MF.encode_header fheap_witness) = Err /\
  spec_dec_fheap_hdr (fun t => match t with T_fheap_addr_0_not_undef => false | _ => true end) 8 8
    (MF.encode_header fheap_witness) = Err.
Proof.
  assert (W : wf_fheap_hdr fheap_witness = true) by (vm_compute; reflexivity).
  assert (C : (crc32 (MF.header_body fheap_witness) =? hashlittle (MF.header_body fheap_witness) 0) = false)
    by (vm_compute; reflexivity).
  split; [exact W|]. split; [vm_compute; reflexivity|].
  rewrite spec_fheap_hdr_strict, spec_fheap_hdr_tolerant by exact W. unfold tags_fheap_hdr. rewrite C.
  do 2 (split; [reflexivity|]).
  split;
    rewrite encode_header_eq, spec_fheap_hdr_any, check_sum_of_crc, C by (exact W || apply crc32_lt); reflexivity.
Qed.

(* finding C05-fhdb-trailing-crc32 *)
Lemma fhdb_refuted :
  wf_fhdb (MF.h_blk fheap_witness) = true /\
  spec_dec_fhdb strict 8 2048 2 0 0 (MF.encode_dblock (MF.h_blk fheap_witness)) = Err /\
  spec_dec_fhdb tolerant 8 2048 2 0 0 (MF.encode_dblock (MF.h_blk fheap_witness)) = Ok (15, [T_fhdb_trailing_crc32]).
Proof. repeat split; vm_compute; reflexivity. Qed.

(* the hypothesis [pow2 bs] is needed: a heap created with a block size that is not a power of two gets a header that
   no tolerance makes acceptable (starting block size / maximum direct block size must be powers of two).  The library
   itself only passes 64 KiB and 512 KiB. *)
Lemma fheap_hdr_start_not_pow2_refuted :
  MF.bs_ok 100 = true /\ spec_dec_fheap_hdr tolerant 8 8 (MF.encode_header (MF.new_heap 100)) = Err.
Proof. split; vm_compute; reflexivity. Qed.

(* Not covered: block sizes above 64 KiB (MF.bs_ok; the model fixes MAX_HEAP_BITS = 16 and a 2-byte block offset, while
   NewWritableFractalHeap widens the maximum heap size for larger blocks, e.g. 19 bits / 3-byte offsets for the 512 KiB
   heap of dense groups), heaps that moved to an indirect root (WriteToFile refuses them), and states outside PF.R. *)
