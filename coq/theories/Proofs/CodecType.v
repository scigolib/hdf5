(* C11, datatype message (Model/CodecType.v): the bit packing of the first header word; [plen] and what the decoder
   does after an encoded header (dec_dt_header); the round trip and the length class by class; variable-length types
   under the repaired header layout, and the witness against the other one. *)
From HV Require Import Base.Prelude Base.Outcome Base.Bytes Model.CodecType Proofs.CodecMsg.

(* bit packing of class | version<<4 | cbf<<8 *)

Lemma land_low_shiftl a b k : a < 2 ^ k -> N.land a (N.shiftl b k) = 0.
Proof.
  intros Ha. apply N.bits_inj. intros n. rewrite N.land_spec, N.bits_0.
  destruct (N.ltb_spec n k) as [Hn|Hn].
  - rewrite N.shiftl_spec_low by auto. apply andb_false_r.
  - replace (N.testbit a n) with false; [reflexivity|].
    symmetry. destruct (N.eq_dec a 0) as [->|Hz]; [apply N.bits_0|].
    apply N.bits_above_log2. apply N.log2_lt_pow2; [lia|].
    eapply N.lt_le_trans; [exact Ha|]. apply N.pow_le_mono_r; lia.
Qed.

Lemma lor_shiftl_add a b k : a < 2 ^ k -> N.lor a (N.shiftl b k) = a + b * 2 ^ k.
Proof.
  intros Ha. rewrite <- N.lxor_lor by (apply land_low_shiftl; auto).
  rewrite <- N.add_nocarry_lxor by (apply land_low_shiftl; auto).
  now rewrite N.shiftl_mul_pow2.
Qed.

Lemma dt_word_arith c v b : c < 16 -> v < 16 -> b < 16777216 ->
  dt_word c v b = c + 16 * v + 256 * b.
Proof.
  intros Hc Hv Hb. unfold dt_word, wrap32.
  rewrite !N.shiftl_mul_pow2.
  change (2 ^ 4) with 16. change (2 ^ 8) with 256.
  rewrite (N.mod_small (v * 16)) by lia. rewrite (N.mod_small (b * 256)) by lia.
  replace (v * 16) with (N.shiftl v 4) by (rewrite N.shiftl_mul_pow2; reflexivity).
  rewrite lor_shiftl_add by (change (2 ^ 4) with 16; lia).
  replace (b * 256) with (N.shiftl b 8) by (rewrite N.shiftl_mul_pow2; reflexivity).
  rewrite lor_shiftl_add by (change (2 ^ 4) with 16; change (2 ^ 8) with 256; lia).
  change (2 ^ 4) with 16. change (2 ^ 8) with 256. lia.
Qed.

Lemma dt_word_fields c v b : c < 16 -> v < 16 -> b < 16777216 ->
  let w := dt_word c v b in
  w < 4294967296 /\ N.land w 15 = c /\ N.land (N.shiftr w 4) 15 = v /\
  N.land (N.shiftr w 8) 16777215 = b.
Proof.
  intros Hc Hv Hb w. subst w. rewrite dt_word_arith by auto.
  change 15 with (N.ones 4). change 16777215 with (N.ones 24).
  rewrite !N.land_ones, !N.shiftr_div_pow2.
  change (2 ^ 4) with 16. change (2 ^ 8) with 256. change (2 ^ 24) with 16777216.
  repeat split; lia.
Qed.

Lemma blen_dt_header c v b s : blen (dt_header c v b s) = 8.
Proof. unfold dt_header. rewrite blen_app, !blen_le. reflexivity. Qed.

(* the class-dependent properties length of ParseDatatypeMessage *)
Definition plen (fuel : nat) (c v : N) (P : bytes) : outcome N :=
  if c =? DT_FIXED then Ok 4
  else if c =? DT_FLOAT then Ok 12
  else if c =? DT_BITFIELD then Ok 4
  else if c =? DT_TIME then Ok 2
  else if c =? DT_COMPOUND then
    match compound_props_len (dec_dt fuel) P v with
    | Ok n => Ok n
    | Err => Ok (blen P)
    | Panic => Panic
    end
  else Ok (blen P).

Lemma dec_dt_header fuel c v b size P :
  c < 16 -> v < 16 -> b < 16777216 -> size < 4294967296 ->
  dec_dt (S fuel) (dt_header c v b size ++ P) =
  obind (plen fuel c v P) (fun n =>
    let n := if blen P <? n then blen P else n in
    Ok {| dt_class := c; dt_version := v; dt_size := size; dt_cbf := b;
          dt_props := firstn (N.to_nat n) P |}).
Proof.
  intros Hc Hv Hb Hs.
  destruct (dt_word_fields c v b Hc Hv Hb) as (Hw & H1 & H2 & H3).
  assert (R0 : rd_le (dt_header c v b size ++ P) 0 4 = Ok (dt_word c v b)).
  { unfold dt_header. rewrite <- app_assoc. apply (rd_le_head 4 4); auto. }
  assert (R4 : rd_le (dt_header c v b size ++ P) 4 4 = Ok size).
  { unfold dt_header. rewrite <- app_assoc. apply (rd_le_at (le 4 (dt_word c v b)) 4 4 size P 4); auto. }
  cbn [dec_dt]. rewrite R0, R4. cbn [obind]. rewrite H1, H2, H3.
  rewrite blen_app, blen_dt_header.
  replace (8 + blen P <? 8) with false by (symmetry; apply N.ltb_ge; blia).
  replace (8 + blen P - 8) with (blen P) by blia.
  (* one case per way of finding the properties length n; in each the decoder takes min(n, |P|) bytes after the
     8-byte header, which is what the right-hand side says *)
  unfold plen.
  destruct (c =? DT_FIXED); [|destruct (c =? DT_FLOAT); [|destruct (c =? DT_BITFIELD);
    [|destruct (c =? DT_TIME); [|destruct (c =? DT_COMPOUND)]]]]; cbn [obind].
  (* compound: the member walk runs on the bytes after the header *)
  all: try (rewrite slice_from_app by (rewrite blen_dt_header; reflexivity); cbn [obind];
            destruct (compound_props_len (dec_dt fuel) P v) as [n| |]; cbn [obind]; [| |reflexivity]).
  (* the cut is decided by comparing n with |P| *)
  all: match goal with
       | |- context [if 8 + blen ?Q <? 8 + ?n then _ else _] =>
           replace (8 + blen Q <? 8 + n) with (blen Q <? n)
             by (destruct (N.ltb_spec (blen Q) n), (N.ltb_spec (8 + blen Q) (8 + n)); auto; blia);
           destruct (N.ltb_spec (blen Q) n)
       end.
  (* and the slice after the header is a prefix of P *)
  all: match goal with
       | |- context [slice (dt_header ?c ?v ?b ?s ++ ?Q) 8 _] =>
           rewrite (slice_mid_firstn (dt_header c v b s) Q 8 0)
             by (rewrite ?blen_dt_header; blia); reflexivity
       end.
Qed.

Lemma pad8_ge n : n <= pad8 n.
Proof. unfold pad8. lia. Qed.

Lemma wf_datatype_inv x : wf_datatype x = true ->
  (dt_class x = 0 \/ dt_class x = 1 \/ dt_class x = 3 \/ dt_class x = 7 \/ dt_class x = 5 \/ dt_class x = 6) /\
  dt_size x < 4294967296 /\ dt_cbf x < 16777216 /\
  (dt_class x = 6 -> dt_version x < 16 /\ compound_props_exact x = true) /\
  (dt_class x = 5 -> pad8 (blen (dt_props x)) < 16777216).
Proof.
  unfold wf_datatype, encok_datatype. intros H. rewrite !andb_true_iff in H.
  destruct H as (((((((_ & Hok) & Hnv) & Hsize) & Hcbf) & _) & Hcmp) & Hopq).
  apply N.ltb_lt in Hsize, Hcbf.
  cbv [DT_FIXED DT_FLOAT DT_STRING DT_REFERENCE DT_OPAQUE DT_COMPOUND DT_VLEN] in *.
  refine (conj _ (conj Hsize (conj Hcbf (conj _ _)))).
  - destruct (N.eqb_spec (dt_class x) 0); [auto|]. destruct (N.eqb_spec (dt_class x) 1); [auto|].
    destruct (N.eqb_spec (dt_class x) 3); [auto|]. destruct (N.eqb_spec (dt_class x) 7); [auto|].
    destruct (N.eqb_spec (dt_class x) 5); [auto 6|]. destruct (N.eqb_spec (dt_class x) 6); [auto 6|].
    destruct (dt_class x =? 9); discriminate.
  - intros E. rewrite E in Hcmp. apply andb_true_iff in Hcmp as [Hv ?]. now apply N.ltb_lt in Hv.
  - intros E. rewrite E in Hopq. now apply N.ltb_lt.
Qed.

Lemma datatype_roundtrip_gen rep x : wf_datatype x = true ->
  dec_datatype (enc_datatype_gen rep x) = Ok (proj_datatype x).
Proof.
  intros H. apply wf_datatype_inv in H as (Hc & Hsize & Hcbf & Hcmp & Hopq).
  destruct x as [c v size b P]; cbn [dt_class dt_version dt_size dt_cbf dt_props] in *.
  unfold dec_datatype.
  destruct Hc as [-> | [-> | [-> | [-> | [-> | ->]]]]];
    unfold enc_datatype_gen, proj_datatype; cbn [dt_class dt_version dt_size dt_cbf dt_props];
    cbv [DT_FIXED DT_FLOAT DT_STRING DT_REFERENCE DT_OPAQUE DT_COMPOUND DT_VLEN] in *;
    cbn [N.eqb Pos.eqb orb] in *.
  - cbn [length app]. rewrite dec_dt_header by (auto; lia). reflexivity.
  - cbn [length app]. rewrite dec_dt_header by (auto; lia). reflexivity.
  - cbn [length app]. rewrite dec_dt_header by (auto; lia). reflexivity.
  - rewrite <- (app_nil_r (dt_header 7 1 b size)) at 2.
    cbn [length app]. rewrite dec_dt_header by (auto; lia). reflexivity.
  - specialize (Hopq eq_refl). rewrite wrap32_small by lia. cbn [length]. rewrite dec_dt_header by (auto; lia).
    unfold plen. cbv [DT_FIXED DT_FLOAT DT_BITFIELD DT_TIME DT_COMPOUND]. cbn [N.eqb Pos.eqb obind].
    rewrite N.ltb_irrefl. rewrite firstn_blen. reflexivity.
  - destruct (Hcmp eq_refl) as [Hv Hex]. unfold compound_props_exact in Hex. cbn [dt_props dt_version] in Hex.
    rewrite app_length. replace (length (dt_header 6 v b size)) with 8%nat
      by (pose proof (blen_dt_header 6 v b size) as E; unfold blen in E; blia).
    rewrite dec_dt_header by (auto; lia).
    unfold plen. cbv [DT_FIXED DT_FLOAT DT_BITFIELD DT_TIME DT_COMPOUND]. cbn [N.eqb Pos.eqb].
    destruct (compound_props_len (dec_dt (8 + length P)) P v) as [n| |]; [| |discriminate]; cbn [obind].
    + apply N.eqb_eq in Hex. subst n. rewrite N.ltb_irrefl, firstn_blen. reflexivity.
    + rewrite N.ltb_irrefl, firstn_blen. reflexivity.
Qed.

Lemma datatype_roundtrip x : wf_datatype x = true ->
  dec_datatype (enc_datatype x) = Ok (proj_datatype x).
Proof. apply datatype_roundtrip_gen. Qed.

Lemma datatype_blen_gen rep x : wf_datatype x = true -> blen (enc_datatype_gen rep x) = size_datatype_gen rep x.
Proof.
  intros H. apply wf_datatype_inv in H as (Hc & _).
  destruct x as [c v size b P]; cbn [dt_class dt_version dt_size dt_cbf dt_props] in *.
  destruct Hc as [-> | [-> | [-> | [-> | [-> | ->]]]]];
    unfold enc_datatype_gen, size_datatype_gen; cbn [dt_class dt_version dt_size dt_cbf dt_props];
    cbv [DT_FIXED DT_FLOAT DT_STRING DT_REFERENCE DT_OPAQUE DT_COMPOUND DT_VLEN] in *;
    cbn [N.eqb Pos.eqb orb] in *;
    rewrite ?blen_app, ?blen_dt_header, ?blen_zeros; try reflexivity.
  all: try (unfold numeric_props; cbv [DT_FLOAT]; cbn [N.eqb Pos.eqb]; reflexivity).
  all: pose proof (pad8_ge (blen P)); blia.
Qed.

Lemma datatype_blen x : wf_datatype x = true -> blen (enc_datatype x) = size_datatype x.
Proof. apply datatype_blen_gen. Qed.

Lemma vlen_repaired_roundtrip x : wf_vlen x = true ->
  dec_datatype (enc_datatype_gen true x) = Ok (proj_vlen x).
Proof.
  unfold wf_vlen. intros H.
  apply andb_true_iff in H as [H Hcbf]. apply andb_true_iff in H as [H Hsize].
  apply andb_true_iff in H as [Hc Hs0]. apply N.eqb_eq in Hc. apply N.ltb_lt in Hcbf, Hsize.
  destruct x as [c v size b P]; cbn [dt_class dt_version dt_size dt_cbf dt_props] in *. subst c.
  unfold dec_datatype, enc_datatype_gen, proj_vlen. cbn [dt_class dt_version dt_size dt_cbf dt_props].
  cbv [DT_FIXED DT_FLOAT DT_STRING DT_REFERENCE DT_OPAQUE DT_COMPOUND DT_VLEN vlen_repaired_version].
  cbn [N.eqb Pos.eqb orb]. cbn [length].
  rewrite dec_dt_header by (auto; lia).
  unfold plen. cbv [DT_FIXED DT_FLOAT DT_BITFIELD DT_TIME DT_COMPOUND]. cbn [N.eqb Pos.eqb obind].
  rewrite N.ltb_irrefl, firstn_blen. reflexivity.
Qed.

(* the encoder of the tree under test (vlen_header_repaired = true) *)
Lemma vlen_roundtrip x : wf_vlen x = true -> dec_datatype (enc_datatype x) = Ok (proj_vlen x).
Proof. exact (vlen_repaired_roundtrip x). Qed.

(* D10: the variable-length datatype header of [enc_datatype_gen false] (the writer before /repo 71914eb) does not
   survive decode(encode x) *)
Lemma vlen_refuted :
  exists x, dt_class x = DT_VLEN /\ encok_datatype x = true /\
            match dec_datatype (enc_datatype_gen false x) with
            | Ok y => transported x y = false
            | _ => True
            end.
Proof. exists vlen_witness. vm_compute. repeat split. Qed.
