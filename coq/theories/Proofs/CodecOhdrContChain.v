(* C11, continuation chunks, part 2: what the loop does on one message, on a run of messages, at a linking message and
   at the end of a chunk; then on a whole chain of chunks (ochks_loop), with the fuel it needs. *)
From HV Require Import Base.Prelude Base.Outcome Base.Bytes Model.CodecOhdr Proofs.CodecMsg Proofs.CodecOhdr
  Model.CodecOhdrCont Proofs.CodecOhdrCont.

Lemma fa_rd_end {file off k v bigendian} (F : file_at file off (enc_uint bigendian k v)) o :
  o = off -> v < 256 ^ k -> rd_end file o k bigendian = Ok v.
Proof.
  unfold enc_uint, rd_end in *. intros -> Hv.
  destruct bigendian; [apply (fa_rd_be F) | apply (fa_rd_le F)]; auto; now rewrite N2Nat.id.
Qed.

Lemma blen_enc_uint bigendian k v : blen (enc_uint bigendian k v) = k.
Proof. unfold enc_uint. destruct bigendian; rewrite ?blen_be, ?blen_le; apply N2Nat.id. Qed.

Lemma size_ok_inv k : size_ok k = true -> 1 <= k <= 8.
Proof.
  unfold size_ok. intros H. repeat (apply orb_true_iff in H as [H|H]); apply N.eqb_eq in H; blia.
Qed.

Lemma parse_cont_ok os ls sbBE a s :
  size_ok os = true -> size_ok ls = true -> a < 256 ^ os -> s < 256 ^ ls -> s <> 0 ->
  parse_cont os ls sbBE (enc_uint sbBE os a ++ enc_uint sbBE ls s) = Ok (a, s).
Proof.
  intros Hos Hls Ha Hs Hs0. unfold parse_cont. rewrite Hos, Hls. cbn [negb].
  pose proof (size_ok_inv _ Hos). pose proof (size_ok_inv _ Hls).
  rewrite blen_app, !blen_enc_uint.
  replace (os + ls <? wrap8 (os + ls)) with false
    by (symmetry; apply N.ltb_ge; unfold wrap8; rewrite N.mod_small; blia).
  destruct (fa_split _ _ _ _ (fa_whole (enc_uint sbBE os a ++ enc_uint sbBE ls s))) as [Fa Fs].
  rewrite blen_enc_uint in Fs.
  rewrite (fa_rd_end Fa), (fa_rd_end Fs) by auto. cbn [obind].
  now rewrite (proj2 (N.eqb_neq _ _)).
Qed.

Lemma body_v2_app x y : body_v2 (x ++ y) = body_v2 x ++ body_v2 y.
Proof. unfold body_v2. rewrite map_app. apply concat_app. Qed.
Lemma chunk_size_v2_app x y : chunk_size_v2 (x ++ y) = chunk_size_v2 x + chunk_size_v2 y.
Proof. rewrite <- !blen_body_v2, body_v2_app. apply blen_app. Qed.
Lemma msgs_at_v2_app x : forall y cur,
  msgs_at_v2 (x ++ y) cur = msgs_at_v2 x cur ++ msgs_at_v2 y (cur + chunk_size_v2 x).
Proof.
  induction x as [|m r IH]; intros y cur.
  - cbn [app msgs_at_v2]. change (chunk_size_v2 []) with 0. now rewrite N.add_0_r.
  - cbn [app msgs_at_v2]. rewrite IH, chunk_size_v2_cons. do 3 f_equal. blia.
Qed.
Lemma wf_msgs_c_cons m r : wf_msgs_c (m :: r) = true ->
  hm_type m < 256 /\ (hm_type m =? MSG_CONT) = false /\ 1 <= blen (hm_data m) < 65536 /\ wf_msgs_c r = true.
Proof.
  unfold wf_msgs_c. cbn [forallb]. intros H. apply andb_true_iff in H as [H Hr].
  apply andb_true_iff in H as [H H2]. apply wf_msg_v2_inv in H as (? & ? & ?). apply N.ltb_lt in H2. auto.
Qed.
Lemma wf_msgs_c_app x y : wf_msgs_c (x ++ y) = wf_msgs_c x && wf_msgs_c y.
Proof. apply forallb_app. Qed.

Lemma link_msg_size os ls sbBE ad sz : chunk_size_v2 [cont_msg os ls sbBE ad sz] = link_size os ls.
Proof.
  rewrite chunk_size_v2_cons. unfold cont_msg. cbn [hm_data]. rewrite blen_app, !blen_enc_uint.
  change (chunk_size_v2 []) with 0. unfold link_size. blia.
Qed.

Lemma chunk_msgs_size os ls sbBE a b pos r :
  chunk_size_v2 (chunk_msgs os ls sbBE a b (next_link os ls pos r))
  = chunk_size_v2 a + (if is_nil r then 0 else link_size os ls) + chunk_size_v2 b.
Proof.
  destruct r as [|k' r']; cbn [next_link chunk_msgs is_nil].
  - rewrite chunk_size_v2_app. blia.
  - rewrite !chunk_size_v2_app, link_msg_size. blia.
Qed.

Lemma wf_ochk_inv k : wf_ochk k = true ->
  wf_msgs_c (k_a k) = true /\ wf_msgs_c (k_b k) = true /\ blen (k_gap k) < 4 /\ blen (k_ck k) = 4.
Proof.
  unfold wf_ochk. intros H. apply andb_true_iff in H as [H H4]. apply andb_true_iff in H as [H H3].
  apply andb_true_iff in H as [H1 H2]. apply N.ltb_lt in H3. apply N.eqb_eq in H4. auto.
Qed.

Section Loop.
Variables (file : bytes) (os ls : N) (sbBE : bool).
Hypothesis Hfile : blen file < 9223372036854775808.
Hypothesis Hos : size_ok os = true.
Hypothesis Hls : size_ok ls = true.
Hypothesis Hfo : blen file < 256 ^ os.
Hypothesis Hfl : blen file < 256 ^ ls.

Notation LOOP fuel isCont cur E pend vis := (v2_loop_c fuel file os ls false sbBE 4 isCont cur E pend vis).

Lemma loop_read fuel isCont cur E pend vis ty (data : bytes) :
  file_at file cur ([ty] ++ le 2 (blen data) ++ [0] ++ data) ->
  1 <= blen data < 65536 -> cur + 6 <= blen file ->
  cur < E -> (isCont = true -> cur + 4 <= E) ->
  LOOP (S fuel) isCont cur E pend vis =
    (let m := {| hmp_type := ty; hmp_offset := cur; hmp_data := data |} in
     let next := cur + 4 + blen data in
     if ty =? MSG_CONT then
       c <- parse_cont os ls sbBE data;;
       let a := fst c in let s := snd c in
       if (s <? 8) || existsb (N.eqb a) vis || (1024 <=? N.of_nat (length vis)) then Err else
       if negb (readable file a 4) then Err else
       sig <- slice file a (a + 4);;
       if negb (bytes_eqb sig OCHK) then Err else
       rest <- LOOP fuel isCont next E (pend ++ [(wrap64 (a + 4), sub64 (wrap64 (a + s)) 4)]) (a :: vis);;
       Ok (m :: rest)
     else
       rest <- LOOP fuel isCont next E pend vis;;
       Ok (m :: rest)).
Proof.
  intros Hat Hd H6 HE HC.
  pose proof (fa_bound _ _ _ Hat) as Hb. rewrite !blen_app in Hb.
  apply fa_split in Hat as [A1 F]. apply fa_split in F as [A2 A3]. apply fa_app_r in A3.
  rewrite blen_le in *. change (blen [ty]) with 1 in *. change (blen [0]) with 1 in *.
  cbn [v2_loop_c]. unfold readable.
  rewrite (wrap64_small (cur + 4)), (proj2 (N.ltb_lt cur E)) by blia.
  replace (negb (isCont && (E <? cur + 4))) with true by (destruct isCont; [rewrite ltb_false by auto|]; reflexivity).
  rewrite leb_true, (fa_index A1), (fa_rd_le A2) by (auto; blia). cbn [andb negb obind].
  now rewrite (proj2 (N.eqb_neq _ _)), (wrap64_small (cur + 4 + blen data)), leb_true, (fa_slice A3) by blia.
Qed.

Lemma loop_seg ms : forall (fuel : nat) (isCont : bool) (cur E : N) pend vis tail,
  file_at file cur (body_v2 ms) -> wf_msgs_c ms = true ->
  cur + chunk_size_v2 ms + 1 <= blen file ->
  cur + chunk_size_v2 ms <= E + (if isCont then 0 else 4) ->
  LOOP fuel isCont (cur + chunk_size_v2 ms) E pend vis = Ok tail ->
  LOOP (length ms + fuel) isCont cur E pend vis = Ok (msgs_at_v2 ms cur ++ tail).
Proof.
  induction ms as [|m r IH]; intros fuel isCont cur E pend vis tail Hat Hwf Hb HE Ht.
  - change (chunk_size_v2 []) with 0 in Ht. rewrite N.add_0_r in Ht. exact Ht.
  - apply wf_msgs_c_cons in Hwf as (Hty & Hnc & Hd & Hr).
    destruct m as [ty data]. cbn [hm_type hm_data] in *.
    rewrite chunk_size_v2_cons in *. cbn [hm_data] in *.
    unfold body_v2 in Hat. cbn [map concat] in Hat. fold (body_v2 r) in Hat.
    rewrite enc_msg_v2_shape in Hat by blia.
    apply fa_split in Hat as [A B]. rewrite !blen_app, blen_le in B.
    change (blen [ty]) with 1 in B. change (blen [0]) with 1 in B.
    cbn [length Nat.add msgs_at_v2 hm_type hm_data app].
    rewrite loop_read with (ty := ty) (data := data); auto; try blia.
    2:{ destruct isCont; blia. }
    2:{ intros ->. blia. }
    cbv zeta. rewrite Hnc.
    rewrite (IH fuel isCont (cur + 4 + blen data) E pend vis tail); auto; try blia.
    + eapply fa_eq; [exact B|blia].
    + replace (cur + 4 + blen data + chunk_size_v2 r) with (cur + (4 + blen data + chunk_size_v2 r)) by blia. exact Ht.
Qed.

(* a linking message: the chunk it names is queued *)
Lemma loop_cont fuel isCont cur E pend vis a s tail :
  file_at file cur (enc_msg_v2 (cont_msg os ls sbBE a s)) ->
  cur < E -> (isCont = true -> cur + 4 <= E) ->
  file_at file a OCHK -> 8 <= s -> a + s <= blen file ->
  existsb (N.eqb a) vis = false -> (length vis < 1024)%nat ->
  LOOP fuel isCont (cur + link_size os ls) E (pend ++ [(a + 4, a + s - 4)]) (a :: vis) = Ok tail ->
  LOOP (S fuel) isCont cur E pend vis =
    Ok ({| hmp_type := MSG_CONT; hmp_offset := cur; hmp_data := hm_data (cont_msg os ls sbBE a s) |} :: tail).
Proof.
  intros Hat HE HC Hsig Hs8 Has Hvis Hlen Ht.
  pose proof (size_ok_inv _ Hos). pose proof (size_ok_inv _ Hls).
  set (data := hm_data (cont_msg os ls sbBE a s)) in *.
  assert (Hd : blen data = os + ls).
  { subst data. unfold cont_msg. cbn [hm_data]. rewrite blen_app, !blen_enc_uint. reflexivity. }
  unfold cont_msg in Hat. fold data in Hat || idtac.
  change (enc_msg_v2 {| hm_type := MSG_CONT; hm_data := enc_uint sbBE os a ++ enc_uint sbBE ls s |})
    with (enc_msg_v2 {| hm_type := MSG_CONT; hm_data := data |}) in Hat.
  rewrite enc_msg_v2_shape in Hat by (unfold MSG_CONT; blia).
  pose proof (fa_bound _ _ _ Hat) as Hb. rewrite !blen_app, blen_le in Hb.
  change (blen [MSG_CONT]) with 1 in Hb. change (blen [0]) with 1 in Hb.
  pose proof (fa_bound _ _ _ Hsig) as Hb2. change (blen OCHK) with 4 in Hb2.
  rewrite loop_read with (ty := MSG_CONT) (data := data); auto; try blia.
  cbv zeta. change (MSG_CONT =? MSG_CONT) with true. cbv iota.
  subst data. unfold cont_msg at 1. cbn [hm_data].
  rewrite parse_cont_ok; auto; try blia.
  cbn [obind fst snd].
  unfold readable. rewrite (ltb_false s 8), Hvis, (proj2 (N.leb_gt 1024 _)), (leb_true (a + 4)), (fa_slice Hsig) by (try reflexivity; blia). cbn [orb negb obind].
  change (bytes_eqb OCHK OCHK) with true. cbn [negb].
  rewrite !wrap64_small by blia. rewrite sub64_small by blia.
  fold (cont_msg os ls sbBE a s). rewrite Hd.
  replace (cur + 4 + (os + ls)) with (cur + link_size os ls) by (unfold link_size; blia).
  rewrite Ht. cbn [obind]. reflexivity.
Qed.

Lemma loop_end_cond isCont cur E : cur + 4 < 18446744073709551616 ->
  (E <= cur \/ (isCont = true /\ E < cur + 4)) ->
  (cur <? E) && negb (isCont && (E <? wrap64 (cur + 4))) = false.
Proof.
  intros Hs [H|[-> H]].
  - replace (cur <? E) with false by (symmetry; apply N.ltb_ge; auto). reflexivity.
  - rewrite wrap64_small by auto. replace (E <? cur + 4) with true by (symmetry; apply N.ltb_lt; auto).
    cbn [andb negb]. apply andb_false_r.
Qed.
Lemma loop_end_nil fuel isCont cur E vis : cur + 4 < 18446744073709551616 ->
  (E <= cur \/ (isCont = true /\ E < cur + 4)) -> LOOP (S fuel) isCont cur E [] vis = Ok [].
Proof. intros Hs H. cbn [v2_loop_c]. rewrite loop_end_cond; auto. Qed.
Lemma loop_end_pop fuel isCont cur E s e vis tail : cur + 4 < 18446744073709551616 ->
  (E <= cur \/ (isCont = true /\ E < cur + 4)) ->
  LOOP fuel true s e [] vis = Ok tail -> LOOP (S fuel) isCont cur E [(s, e)] vis = Ok tail.
Proof. intros Hs H Ht. cbn [v2_loop_c]. rewrite loop_end_cond; auto. Qed.

Lemma loop_chunk_last (fuel : nat) (isCont : bool) (cur E : N) vis ms :
  file_at file cur (body_v2 ms) -> wf_msgs_c ms = true ->
  cur + chunk_size_v2 ms + 1 <= blen file ->
  cur + chunk_size_v2 ms <= E + (if isCont then 0 else 4) ->
  (E <= cur + chunk_size_v2 ms \/ (isCont = true /\ E < cur + chunk_size_v2 ms + 4)) ->
  LOOP (length ms + S fuel) isCont cur E [] vis = Ok (msgs_at_v2 ms cur).
Proof.
  intros. rewrite <- (app_nil_r (msgs_at_v2 ms cur)). apply loop_seg; auto.
  apply loop_end_nil; auto. blia.
Qed.

Lemma loop_chunk_link (fuel : nat) (isCont : bool) (cur E : N) vis ma mb ad sz tail :
  let ms := ma ++ [cont_msg os ls sbBE ad sz] ++ mb in
  file_at file cur (body_v2 ms) -> wf_msgs_c ma = true -> wf_msgs_c mb = true ->
  cur + chunk_size_v2 ms + 1 <= blen file ->
  cur + chunk_size_v2 ms <= E + (if isCont then 0 else 4) ->
  (E <= cur + chunk_size_v2 ms \/ (isCont = true /\ E < cur + chunk_size_v2 ms + 4)) ->
  file_at file ad OCHK -> 8 <= sz -> ad + sz <= blen file ->
  existsb (N.eqb ad) vis = false -> (length vis < 1024)%nat ->
  LOOP fuel true (ad + 4) (ad + sz - 4) [] (ad :: vis) = Ok tail ->
  LOOP (length ma + S (length mb + S fuel)) isCont cur E [] vis = Ok (msgs_at_v2 ms cur ++ tail).
Proof.
  intros ms Hat Hwa Hwb Hb HE Hend Hsig Hs8 Has Hvis Hlen Ht. subst ms.
  pose proof (size_ok_inv _ Hos). pose proof (size_ok_inv _ Hls).
  set (c := cont_msg os ls sbBE ad sz) in *.
  pose proof (link_msg_size os ls sbBE ad sz) as Hc. fold c in Hc.
  rewrite !chunk_size_v2_app, Hc in *. rewrite !body_v2_app in Hat.
  assert (A1 : file_at file cur (body_v2 ma)) by (apply fa_app_l in Hat; exact Hat).
  assert (A2 : file_at file (cur + chunk_size_v2 ma) (enc_msg_v2 c)).
  { apply fa_app_r in Hat. apply fa_app_l in Hat. rewrite blen_body_v2 in Hat.
    unfold body_v2 in Hat. cbn [map concat] in Hat. rewrite app_nil_r in Hat. exact Hat. }
  assert (A3 : file_at file (cur + chunk_size_v2 ma + link_size os ls) (body_v2 mb)).
  { apply fa_app_r in Hat. apply fa_app_r in Hat. rewrite !blen_body_v2, Hc in Hat. exact Hat. }
  rewrite !msgs_at_v2_app, Hc, <- !app_assoc.
  apply loop_seg; auto; try blia; try (destruct isCont; blia).
  cbn [msgs_at_v2 app]. subst c. unfold cont_msg at 1 2. cbn [hm_type hm_data].
  unfold link_size in *.
  apply loop_cont; auto; try blia; try (destruct isCont; blia); try (intros ->; blia).
  cbn [app]. unfold link_size.
  apply loop_seg; auto; try blia; try (destruct isCont; blia).
  apply loop_end_pop; auto; try blia.
  destruct Hend as [Hend|[-> Hend]]; [left|right; split; auto]; blia.
Qed.

Fixpoint ochk_fuel (ks : list ochk) : nat :=
  match ks with
  | [] => O
  | k :: r => match r with
              | [] => length (k_a k ++ k_b k) + S O
              | _ :: _ => length (k_a k) + S (length (k_b k) + S (ochk_fuel r))
              end
  end.

Lemma ochk_head pos k r :
  file_at file pos (build_ochks os ls sbBE pos (k :: r)) -> wf_ochk k = true ->
  let addr := pos + blen (k_between k) in
  let size := ochk_size os ls k (is_nil r) in
  let ms := chunk_msgs os ls sbBE (k_a k) (k_b k) (next_link os ls (addr + size) r) in
  file_at file addr OCHK /\ file_at file (addr + 4) (body_v2 ms) /\ addr + size <= blen file /\
  chunk_size_v2 ms + blen (k_gap k) + 8 = size /\ 8 <= size /\
  file_at file (addr + size) (build_ochks os ls sbBE (addr + size) r).
Proof.
  intros Hat Hwf addr size ms.
  apply wf_ochk_inv in Hwf as (_ & _ & Hg & Hck).
  cbn [build_ochks] in Hat. fold addr size ms in Hat.
  apply fa_app_r in Hat. fold addr in Hat.
  assert (Hsz : chunk_size_v2 ms + blen (k_gap k) + 8 = size).
  { subst ms size. rewrite chunk_msgs_size. unfold ochk_size. blia. }
  assert (Hbl : blen (enc_ochk ms (k_gap k) (k_ck k)) = size).
  { unfold enc_ochk. rewrite !blen_app, blen_body_v2, Hck. change (blen OCHK) with 4. blia. }
  pose proof (fa_app_l _ _ _ _ Hat) as H1. pose proof (fa_app_r _ _ _ _ Hat) as H2. rewrite Hbl in H2.
  pose proof (fa_bound _ _ _ H1) as Hb. rewrite Hbl in Hb.
  unfold enc_ochk in H1.
  repeat split; auto; try blia.
  - apply fa_app_l in H1. exact H1.
  - apply fa_app_r in H1. apply fa_app_l in H1. exact H1.
Qed.

Lemma ochks_loop : forall r k pos vis,
  file_at file pos (build_ochks os ls sbBE pos (k :: r)) ->
  forallb wf_ochk (k :: r) = true ->
  Forall (fun v => v < pos + blen (k_between k) + 1) vis ->
  (length vis + length r <= 1024)%nat ->
  LOOP (ochk_fuel (k :: r)) true (pos + blen (k_between k) + 4)
       (pos + blen (k_between k) + ochk_size os ls k (is_nil r) - 4) [] vis
  = Ok (msgs_ochks os ls sbBE pos (k :: r)).
Proof.
  induction r as [|k' r' IH]; intros k pos vis Hat Hwf Hvis Hlen.
  - cbn [forallb] in Hwf. apply andb_true_iff in Hwf as [Hk _].
    destruct (ochk_head pos k [] Hat Hk) as (Hsig & Hbody & Hb & Hsz & Hs8 & _).
    apply wf_ochk_inv in Hk as (Hwa & Hwb & Hg & Hck).
    cbn [msgs_ochks is_nil next_link chunk_msgs ochk_fuel] in *. rewrite app_nil_r.
    apply loop_chunk_last; auto; try blia;
      try (rewrite wf_msgs_c_app, Hwa, Hwb; reflexivity); try (right; split; auto; blia).
  - cbn [forallb] in Hwf. apply andb_true_iff in Hwf as [Hk Hr].
    destruct (ochk_head pos k (k' :: r') Hat Hk) as (Hsig & Hbody & Hb & Hsz & Hs8 & Hnext).
    pose proof Hr as Hr0. cbn [forallb] in Hr0. apply andb_true_iff in Hr0 as [Hk' _].
    destruct (ochk_head _ k' r' Hnext Hk') as (Hsig' & _ & Hb' & _ & Hs8' & _).
    apply wf_ochk_inv in Hk as (Hwa & Hwb & Hg & Hck).
    cbn [msgs_ochks is_nil ochk_fuel] in *.
    set (addr := pos + blen (k_between k)) in *.
    set (size := ochk_size os ls k false) in *.
    cbn [next_link chunk_msgs fst snd] in *.
    set (ad := addr + size + blen (k_between k')) in *.
    set (sz := ochk_size os ls k' (is_nil r')) in *.
    apply loop_chunk_link; auto; try blia;
      try (right; split; auto; blia);
      try (apply existsb_fresh; eapply Forall_impl; [|exact Hvis]; cbn beta; intros v Hv; blia);
      try (cbn [length] in Hlen; blia).
    apply IH; auto.
    + constructor; [blia|]. eapply Forall_impl; [|exact Hvis]. cbn beta. intros v Hv. blia.
    + cbn [length] in *. blia.
Qed.

Lemma ochk_fuel_bound : forall ks pos, forallb wf_ochk ks = true ->
  N.of_nat (ochk_fuel ks) <= blen (build_ochks os ls sbBE pos ks).
Proof.
  induction ks as [|k r IH]; intros pos Hwf; [cbn; blia|].
  cbn [forallb] in Hwf. apply andb_true_iff in Hwf as [Hk Hr].
  apply wf_ochk_inv in Hk as (_ & _ & _ & Hck).
  cbn [build_ochks]. unfold enc_ochk. rewrite !blen_app, blen_body_v2, chunk_msgs_size, Hck.
  change (blen OCHK) with 4.
  pose proof (length_le_chunk (k_a k)). pose proof (length_le_chunk (k_b k)).
  specialize (IH (pos + blen (k_between k) + ochk_size os ls k (is_nil r)) Hr).
  destruct r as [|k' r']; cbn [ochk_fuel is_nil] in *.
  - rewrite app_length. blia.
  - unfold link_size. blia.
Qed.

End Loop.
