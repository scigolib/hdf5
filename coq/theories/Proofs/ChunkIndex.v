(* C01: the chunk index written by ChunkBTreeWriter is read back entry for entry by ParseBTreeV1Node +
   CollectAllChunks (Model/ChunkIndex.v).  Reads and writes on the file image; the decoder on encoded keys and
   entries (parse_entries_enc) and on a serialized leaf (parse_node_serialized, parse_node_leaf); the round trip
   index_roundtrip_core and its refusal / refuted companions; coordinate lookup (index_lookup); the reader's chunk loop
   composed with the tiling theorem (read_chunked_file_correct); reads below the index survive its writing
   (read_bytes_at_write_at_before). *)
From HV Require Import Base.Prelude Model.Chunk Base.Outcome Base.Bytes Model.ChunkIndex.
From HV Require Import Proofs.ChunkLists Proofs.ChunkSpec Proofs.ChunkCoords Proofs.ChunkTiling.
From Coq Require Import Permutation.

Local Open Scope N_scope.

Lemma blen_firstn (n : nat) (l : list N) : (n <= length l)%nat -> blen (firstn n l) = N.of_nat n.
Proof. intros. unfold blen. rewrite firstn_length. blia. Qed.

Lemma read_at_app (pre mid suf : list N) off n :
  off = blen pre -> n = blen mid -> off <= MAXINT64 -> read_at (pre ++ mid ++ suf) off n = Some mid.
Proof.
  intros -> -> Hm. unfold read_at. rewrite !blen_app.
  replace ((blen pre <=? MAXINT64) && (blen pre + blen mid <=? blen pre + (blen mid + blen suf))) with true
    by (symmetry; apply andb_true_iff; split; apply N.leb_le; blia).
  f_equal. unfold blen. rewrite !Nat2N.id.
  rewrite skipn_app, skipn_all, Nat.sub_diag. cbn [skipn app].
  rewrite firstn_app, firstn_all, Nat.sub_diag. cbn [firstn]. apply app_nil_r.
Qed.

Lemma read_bytes_at_app (pre mid suf : list N) off n :
  off = blen pre -> n = blen mid -> n <> 0 -> off + n <= MAXINT64 ->
  read_bytes_at (pre ++ mid ++ suf) off n = Some mid.
Proof.
  intros Ho Hn Hz Hm. unfold read_bytes_at.
  replace (n =? 0) with false by lia.
  unfold MAXINT64 in Hm. rewrite wrap64_small by lia.
  replace ((off + n <? off) || (MAXINT64 <? off + n)) with false
    by (unfold MAXINT64; lia).
  (* the probe of the last byte *)
  assert (Hp : exists b, read_at (pre ++ mid ++ suf) (off + n - 1) 1 = Some b).
  { unfold read_at. rewrite !blen_app. subst off n.
    replace ((blen pre + blen mid - 1 <=? MAXINT64)
             && (blen pre + blen mid - 1 + 1 <=? blen pre + (blen mid + blen suf))) with true
      by (unfold MAXINT64; blia).
    eexists; reflexivity. }
  destruct Hp as [b ->]. apply read_at_app; auto. unfold MAXINT64. lia.
Qed.

Lemma write_at_shape (f buf : list N) a :
  buf <> [] -> exists pre suf, write_at f a buf = pre ++ buf ++ suf /\ blen pre = a.
Proof.
  intros Hb. unfold write_at. destruct buf as [|b0 br]; [congruence|].
  set (buf := b0 :: br). set (g := f ++ zeros (N.to_nat (a + blen buf - blen f))).
  exists (firstn (N.to_nat a) g), (skipn (N.to_nat (a + blen buf)) g). split; [reflexivity|].
  rewrite blen_firstn; [lia|]. unfold g. rewrite app_length, length_zeros. unfold blen. lia.
Qed.

Lemma read_at_prefix (x y : list N) off n : off + n <= blen x -> read_at (x ++ y) off n = read_at x off n.
Proof.
  intros H. unfold read_at. rewrite blen_app.
  replace (off + n <=? blen x + blen y) with true by lia.
  replace (off + n <=? blen x) with true by lia.
  destruct (off <=? MAXINT64); cbn [andb]; [|reflexivity]. f_equal.
  rewrite skipn_app, firstn_app.
  replace (N.to_nat n - length (skipn (N.to_nat off) x))%nat with 0%nat
    by (rewrite skipn_length; unfold blen in H; lia).
  cbn [firstn]. apply app_nil_r.
Qed.

Lemma write_at_before (f buf : list N) a off n :
  off + n <= a -> off + n <= blen f -> read_at (write_at f a buf) off n = read_at f off n.
Proof.
  intros H1 H2. unfold write_at. destruct buf as [|b0 br]; [reflexivity|].
  generalize (b0 :: br). intros buf.
  generalize (zeros (N.to_nat (a + blen buf - blen f))) as z. intros z.
  destruct (N.le_ge_cases a (blen f)) as [Ha|Ha].
  - rewrite firstn_app. bnorm. replace (N.to_nat a - length f)%nat with 0%nat by (unfold blen in Ha; lia).
    cbn [firstn]. rewrite app_nil_r, read_at_prefix.
    + rewrite <- (firstn_skipn (N.to_nat a) f) at 2. symmetry. apply read_at_prefix.
      rewrite blen_firstn; [lia|]. unfold blen in Ha. lia.
    + rewrite blen_firstn; [lia|]. unfold blen in Ha. lia.
  - rewrite firstn_app. bnorm. rewrite (firstn_all2 (n := N.to_nat a) f) by (unfold blen in Ha; lia).
    rewrite <- !app_assoc. apply read_at_prefix. lia.
Qed.

Lemma blen_enc_coords cs : blen (flat_map (le 8) cs) = 8 * N.of_nat (length cs).
Proof.
  induction cs as [|c r IH]; [reflexivity|].
  cbn [flat_map length]. rewrite blen_app, blen_le, IH. lia.
Qed.
Lemma blen_enc_key nb fm cs : blen (enc_key nb fm cs) = 8 + 8 * N.of_nat (length cs).
Proof. unfold enc_key. rewrite !blen_app, !blen_le, blen_enc_coords. lia. Qed.
Lemma blen_enc_entry e : blen (enc_entry e) = 16 + 8 * N.of_nat (length (w_coord e)).
Proof. unfold enc_entry. rewrite blen_app, blen_enc_key, blen_le. lia. Qed.
Lemma blen_enc_entries dim es :
  Forall (fun e => length (w_coord e) = dim) es ->
  blen (flat_map enc_entry es) = N.of_nat (length es) * (16 + 8 * N.of_nat dim).
Proof.
  induction 1 as [|e r He _ IH]; [reflexivity|].
  cbn [flat_map length]. rewrite blen_app, blen_enc_entry, IH, He. lia.
Qed.
Lemma blen_node_header n : blen (node_header n) = 24.
Proof. unfold node_header, SIG_TREE. rewrite !blen_app, !blen_le. reflexivity. Qed.

Lemma rd_le_eq (data pre : list N) k kN v (suf : list N) off :
  data = pre ++ le k v ++ suf -> off = blen pre -> kN = N.of_nat k -> v < 256 ^ kN -> rd_le data off kN = Ok v.
Proof. intros -> ? ? ?. apply rd_le_at; auto. Qed.
Lemma slice_from_eq (data pre suf : list N) a : data = pre ++ suf -> a = blen pre -> slice_from data a = Ok suf.
Proof. intros -> ?. apply slice_from_app; auto. Qed.

Lemma pow256_8 : 256 ^ 8 = 18446744073709551616. Proof. reflexivity. Qed.
Lemma pow256_4 : 256 ^ 4 = 4294967296. Proof. reflexivity. Qed.
Lemma pow256_2 : 256 ^ 2 = 65536. Proof. reflexivity. Qed.

Lemma read_address_le8 v (rest : list N) : v <= U64MAX -> read_address (le 8 v ++ rest) 8 = v.
Proof.
  intros Hv. unfold read_address. rewrite blen_app, blen_le.
  replace (N.min (N.min 8 (N.of_nat 8 + blen rest)) 8) with 8 by lia.
  change (N.to_nat 8) with (length (le 8 v)). rewrite firstn_app, Nat.sub_diag, firstn_all. cbn [firstn].
  rewrite app_nil_r. apply unle_le_small. change (256 ^ N.of_nat 8) with 18446744073709551616.
  unfold U64MAX in Hv. lia.
Qed.

Lemma read_address_le8' v : v <= U64MAX -> read_address (le 8 v) 8 = v.
Proof. intros. rewrite <- (app_nil_r (le 8 v)). now apply read_address_le8. Qed.

Lemma all_pos_cons c cs : all_pos (c :: cs) = true <-> 0 < c /\ all_pos cs = true.
Proof.
  unfold all_pos. cbn [forallb]. rewrite andb_true_iff, N.ltb_lt. reflexivity.
Qed.

Lemma parse_coords_enc : forall (cs cdims : list N) (data pre suf : list N) off,
  length cs = length cdims -> all_pos cdims = true -> Forall (fun x => x <= U64MAX) cs ->
  data = pre ++ flat_map (le 8) cs ++ suf -> off = blen pre ->
  parse_coords (length cs) cdims data off = Ok (scaled_of_key cdims cs).
Proof.
  induction cs as [|c r IH]; intros cdims data pre suf off Hl Hp Hc Hd Ho.
  - destruct cdims; [reflexivity|discriminate].
  - destruct cdims as [|cd cds]; [discriminate|].
    apply all_pos_cons in Hp as [Hcd Hp]. apply Forall_cons_iff in Hc as [Hc0 Hcr].
    cbn [length parse_coords]. cbn [flat_map] in Hd. rewrite <- app_assoc in Hd.
    rewrite (rd_le_eq data pre 8 8 c (flat_map (le 8) r ++ suf) off); auto;
      [|rewrite pow256_8; unfold U64MAX in Hc0; lia].
    cbn [obind]. replace (cd =? 0) with false by lia.
    rewrite (IH cds data (pre ++ le 8 c) suf (off + 8)); auto.
    + subst data. now rewrite <- app_assoc.
    + rewrite blen_app, blen_le. lia.
Qed.

(* key of an entry as the reader reports it *)
Definition key_of (cdims : list N) (e : wentry) : ckey := (scaled_of_key cdims (w_coord e), w_nbytes e, 0).

Lemma entry_ok_spec dim e : entry_ok dim e = true ->
  length (w_coord e) = dim /\ Forall (fun x => x <= U64MAX) (w_coord e) /\ w_addr e <= U64MAX /\ w_nbytes e < 4294967296.
Proof.
  unfold entry_ok. rewrite !andb_true_iff, Nat.eqb_eq, N.leb_le, N.ltb_lt, forallb_forall.
  intros [[[H1 H2] H3] H4]. repeat split; auto.
  apply Forall_forall. intros x Hx. apply N.leb_le. auto.
Qed.

Lemma parse_key_enc cdims nb fm cs (data pre suf : list N) off :
  length cs = length cdims -> all_pos cdims = true -> Forall (fun x => x <= U64MAX) cs ->
  nb < 4294967296 -> fm < 4294967296 ->
  data = pre ++ enc_key nb fm cs ++ suf -> off = blen pre ->
  rd_le data off 4 = Ok nb /\ rd_le data (off + 4) 4 = Ok fm /\
  parse_coords (length cs) cdims data (off + 8) = Ok (scaled_of_key cdims cs).
Proof.
  intros Hl Hp Hc Hnb Hfm Hd Ho. unfold enc_key in Hd. rewrite <- !app_assoc in Hd.
  split; [|split].
  - apply (rd_le_eq data pre 4 4 nb (le 4 fm ++ flat_map (le 8) cs ++ suf)); auto.
  - apply (rd_le_eq data (pre ++ le 4 nb) 4 4 fm (flat_map (le 8) cs ++ suf)); auto.
    + subst data. now rewrite <- app_assoc.
    + rewrite blen_app, blen_le. lia.
  - apply (parse_coords_enc cs cdims data (pre ++ le 4 nb ++ le 4 fm) suf); auto.
    + subst data. now rewrite <- !app_assoc.
    + rewrite !blen_app, !blen_le. lia.
Qed.

Lemma parse_entries_enc cdims lastc : forall (es : list wentry) (data pre suf : list N) off i klen,
  all_pos cdims = true -> Forall (fun e => entry_ok (length cdims) e = true) es ->
  length lastc = length cdims -> Forall (fun x => x <= U64MAX) lastc ->
  data = pre ++ flat_map enc_entry es ++ enc_key 0 0 lastc ++ suf -> off = blen pre ->
  i + N.of_nat (length es) < klen ->
  parse_entries (length es) i klen (length cdims) 8 cdims data off
  = Ok (map (key_of cdims) es ++ [(scaled_of_key cdims lastc, 0, 0)], map w_addr es).
Proof.
  induction es as [|e r IH]; intros data pre suf off i klen Hp He Hll Hlc Hd Ho Hk.
  - cbn [flat_map app] in Hd. cbn [length parse_entries map app].
    replace (blen data <? off + (8 + 8 * N.of_nat (length cdims))) with false.
    2:{ symmetry. apply N.ltb_ge. subst data off. rewrite !blen_app, blen_enc_key, Hll. lia. }
    destruct (parse_key_enc cdims 0 0 lastc data pre suf off) as (K1 & K2 & K3); auto; try lia.
    rewrite K1, K2. cbn [obind]. rewrite <- Hll, K3. cbn [obind].
    replace (klen <=? i) with false by (cbn [length] in Hk; lia).
    reflexivity.
  - apply Forall_cons_iff in He as [He0 Her].
    destruct (entry_ok_spec _ _ He0) as (E1 & E2 & E3 & E4).
    cbn [flat_map] in Hd. unfold enc_entry at 1 in Hd. rewrite <- !app_assoc in Hd.
    cbn [length parse_entries map app].
    set (rest := flat_map enc_entry r ++ enc_key 0 0 lastc ++ suf) in *.
    assert (Hlen : blen data = off + (8 + 8 * N.of_nat (length cdims)) + 8 + blen rest).
    { subst data off. rewrite !blen_app, blen_enc_key, blen_le, E1. fold rest. lia. }
    replace (blen data <? off + (8 + 8 * N.of_nat (length cdims))) with false
      by lia.
    destruct (parse_key_enc cdims (w_nbytes e) 0 (w_coord e) data pre (le 8 (w_addr e) ++ rest) off)
      as (K1 & K2 & K3); auto; try lia.
    rewrite K1, K2. cbn [obind]. rewrite <- E1 at 1. rewrite K3. cbn [obind].
    replace (klen <=? i) with false by (cbn [length] in Hk; lia).
    replace (blen data <? off + (8 + 8 * N.of_nat (length cdims)) + 8) with false
      by lia.
    rewrite (slice_from_eq data (pre ++ enc_key (w_nbytes e) 0 (w_coord e)) (le 8 (w_addr e) ++ rest)).
    2:{ subst data. now rewrite <- !app_assoc. }
    2:{ rewrite blen_app, blen_enc_key, E1. lia. }
    cbn [obind]. rewrite read_address_le8 by auto.
    rewrite (IH data (pre ++ enc_key (w_nbytes e) 0 (w_coord e) ++ le 8 (w_addr e)) suf); auto.
    + subst data. unfold rest. now rewrite <- !app_assoc.
    + rewrite !blen_app, blen_enc_key, blen_le, E1. lia.
    + cbn [length] in Hk. lia.
Qed.

Lemma insert_entry_perm e l : Permutation (insert_entry e l) (e :: l).
Proof.
  induction l as [|x r IH]; cbn [insert_entry]; [reflexivity|].
  destruct (coords_lt _ _); [reflexivity|]. rewrite IH. apply perm_swap.
Qed.
Lemma sort_entries_perm es : Permutation (sort_entries es) es.
Proof.
  induction es as [|e r IH]; [reflexivity|].
  unfold sort_entries in *. cbn [fold_right]. rewrite insert_entry_perm. now constructor.
Qed.
Lemma sort_entries_length es : length (sort_entries es) = length es.
Proof. apply Permutation_length, sort_entries_perm. Qed.
Lemma sort_entries_Forall (P : wentry -> Prop) es : Forall P es -> Forall P (sort_entries es).
Proof. intros H. eapply Permutation_Forall; [apply Permutation_sym, sort_entries_perm|exact H]. Qed.

Definition last_key (cdims : list N) : ckey := (scaled_of_key cdims (repeat U64MAX (length cdims)), 0, 0).

Lemma entries_dim dim es : Forall (fun e => entry_ok dim e = true) es -> Forall (fun e => length (w_coord e) = dim) es.
Proof. intros H. eapply Forall_impl; [|exact H]. intros e He. apply (entry_ok_spec _ _ He). Qed.

Lemma blen_serialize_leaf dim es : Forall (fun e => entry_ok dim e = true) es ->
  blen (serialize_leaf dim es) = 24 + N.of_nat (length es) * (16 + 8 * N.of_nat dim) + (8 + 8 * N.of_nat dim).
Proof.
  intros H. unfold serialize_leaf. rewrite !blen_app, blen_node_header, blen_enc_key, repeat_length.
  rewrite (blen_enc_entries dim) by (apply entries_dim; auto). lia.
Qed.

Lemma combine_keys cdims es :
  combine (map (key_of cdims) es ++ [last_key cdims]) (map w_addr es) = map (expected_entry cdims) es.
Proof. induction es as [|e r IH]; [reflexivity|]. cbn [map app combine]. now rewrite IH. Qed.

Lemma header_fields n :
  let h := node_header n in
  slice h 0 4 = Ok SIG_TREE /\ index h 4 = Ok 1 /\ index h 5 = Ok 0 /\ rd_le h 6 2 = Ok (wrap16 n) /\
  slice_from h 8 = Ok (le 8 U64MAX ++ le 8 U64MAX) /\ slice_from h (8 + 8) = Ok (le 8 U64MAX).
Proof.
  intros h. assert (Hw : wrap16 n < 65536) by (unfold wrap16; apply N.mod_lt; lia).
  refine (conj _ (conj _ (conj _ (conj _ (conj _ _))))).
  - apply (slice_app' [] SIG_TREE ([1] ++ [0] ++ le 2 (wrap16 n) ++ le 8 U64MAX ++ le 8 U64MAX)); reflexivity.
  - apply (index_app SIG_TREE 1 ([0] ++ le 2 (wrap16 n) ++ le 8 U64MAX ++ le 8 U64MAX)). reflexivity.
  - apply (index_app (SIG_TREE ++ [1]) 0 (le 2 (wrap16 n) ++ le 8 U64MAX ++ le 8 U64MAX)). reflexivity.
  - apply (rd_le_eq h (SIG_TREE ++ [1] ++ [0]) 2 2 (wrap16 n) (le 8 U64MAX ++ le 8 U64MAX)); auto;
      try (rewrite pow256_2; lia); try (unfold h, node_header; now rewrite <- !app_assoc).
  - apply (slice_from_eq h (SIG_TREE ++ [1] ++ [0] ++ le 2 (wrap16 n))); [|reflexivity].
    unfold h, node_header. now rewrite <- !app_assoc.
  - apply (slice_from_eq h (SIG_TREE ++ [1] ++ [0] ++ le 2 (wrap16 n) ++ le 8 U64MAX)); [|reflexivity].
    unfold h, node_header. now rewrite <- !app_assoc.
Qed.

(* ParseBTreeV1Node on a file that holds node_header n followed by body: everything up to the key loop *)
Lemma parse_node_hdr rp cdims ndims n (body pre suf : list N) addr :
  addr = blen pre -> addr + 24 <= MAXINT64 ->
  parse_node rp (pre ++ node_header n ++ body ++ suf) addr 8 ndims cdims
  = if wrap16 n =? 0 then Ok (mk_bnode 1 0 (wrap16 n) U64MAX U64MAX [] [])
    else match read_bytes_at ((pre ++ node_header n) ++ body ++ suf) (addr + 24)
                             (wrap16 n * (8 + 8 * N.of_nat ndims + 8) + (8 + 8 * N.of_nat ndims)) with
         | None => Err
         | Some data =>
             r <- parse_entries (N.to_nat (wrap16 n)) 0 (key_slots rp (wrap16 n)) ndims 8 cdims data 0;;
             Ok (mk_bnode 1 0 (wrap16 n) U64MAX U64MAX (fst r) (snd r))
         end.
Proof.
  intros Ha Hm.
  unfold parse_node. change (8 + 8 * 2) with 24. bnorm.
  rewrite (read_at_app pre (node_header n) (body ++ suf) addr 24); auto;
    try (now rewrite blen_node_header); try (unfold MAXINT64 in *; lia).
  destruct (header_fields n) as (H1 & H2 & H3 & H4 & H5 & H6).
  rewrite H1. cbn [obind]. change (bytes_eqb SIG_TREE SIG_TREE) with true. cbn [negb].
  rewrite H2, H3, H4, H5, H6. cbn [obind].
  rewrite read_address_le8 by (unfold U64MAX; lia).
  rewrite read_address_le8' by (unfold U64MAX; lia).
  unfold MAXINT64 in Hm. rewrite wrap64_small by lia. rewrite (app_assoc pre (node_header n) (body ++ suf)). reflexivity.
Qed.

(* ... on a serialized leaf whose count fits 16 bits: the key loop runs on the bytes after the header *)
Lemma parse_node_serialized rp cdims es (pre suf : list N) addr :
  Forall (fun e => entry_ok (length cdims) e = true) es -> es <> [] -> N.of_nat (length es) < 65536 ->
  addr = blen pre -> addr + blen (serialize_leaf (length cdims) es) <= MAXINT64 ->
  parse_node rp (pre ++ serialize_leaf (length cdims) es ++ suf) addr 8 (length cdims) cdims
  = r <- parse_entries (length es) 0 (key_slots rp (N.of_nat (length es))) (length cdims) 8 cdims
           (flat_map enc_entry es ++ enc_key 0 0 (repeat U64MAX (length cdims))) 0;;
    Ok (mk_bnode 1 0 (N.of_nat (length es)) U64MAX U64MAX (fst r) (snd r)).
Proof.
  intros He Hne Hn Ha Hm. rewrite blen_serialize_leaf in Hm by auto. unfold MAXINT64 in Hm.
  set (n := N.of_nat (length es)) in *.
  assert (Hn0 : n <> 0) by (destruct es; [congruence|unfold n; cbn [length]; lia]).
  set (body := flat_map enc_entry es ++ enc_key 0 0 (repeat U64MAX (length cdims))).
  assert (Hb : n * (8 + 8 * N.of_nat (length cdims) + 8) + (8 + 8 * N.of_nat (length cdims)) = blen body).
  { unfold body. rewrite blen_app, blen_enc_key, repeat_length.
    rewrite (blen_enc_entries (length cdims)) by (apply entries_dim; auto). fold n. lia. }
  replace (serialize_leaf (length cdims) es ++ suf) with (node_header n ++ body ++ suf)
    by (unfold serialize_leaf, body; now rewrite <- !app_assoc).
  rewrite parse_node_hdr by (auto; unfold MAXINT64; lia).
  rewrite wrap16_small by lia. replace (n =? 0) with false by lia.
  rewrite (read_bytes_at_app (pre ++ node_header n) body suf); auto; unfold MAXINT64; try lia.
  - unfold n. rewrite Nat2N.id. reflexivity.
  - rewrite blen_app, blen_node_header. lia.
Qed.

Lemma parse_node_leaf rp cdims es (f pre suf : list N) addr :
  all_pos cdims = true -> Forall (fun e => entry_ok (length cdims) e = true) es ->
  es <> [] -> N.of_nat (length es) <= index_capacity rp ->
  f = pre ++ serialize_leaf (length cdims) es ++ suf -> addr = blen pre ->
  addr + blen (serialize_leaf (length cdims) es) <= MAXINT64 ->
  parse_node rp f addr 8 (length cdims) cdims
  = Ok (mk_bnode 1 0 (N.of_nat (length es)) U64MAX U64MAX
                 (map (key_of cdims) es ++ [last_key cdims]) (map w_addr es)).
Proof.
  intros Hp He Hne Hn -> Ha Hm.
  assert (Hn' : N.of_nat (length es) < 65536 /\ N.of_nat (length es) < key_slots rp (N.of_nat (length es))).
  { unfold index_capacity, MAX_ENTRIES, key_slots in *. destruct rp; [lia|].
    rewrite wrap16_small; lia. }
  rewrite parse_node_serialized by tauto.
  rewrite (parse_entries_enc cdims (repeat U64MAX (length cdims)) es _ [] []); auto.
  - apply repeat_length.
  - apply Forall_forall. intros x Hx. apply repeat_spec in Hx. subst x. unfold U64MAX. lia.
  - cbn [app]. now rewrite app_nil_r.
  - lia.
Qed.

Lemma index_wf_spec cdims es eof : index_wf cdims es eof = true ->
  es <> [] /\ Forall (fun e => entry_ok (length cdims) e = true) es /\ distinct_coords es = true /\
  all_pos cdims = true /\
  eof + blen (serialize_leaf (length cdims) es) <= MAXINT64.
Proof.
  unfold index_wf. rewrite !andb_true_iff, negb_true_iff, Nat.eqb_neq, N.leb_le, forallb_forall.
  intros [[[[H1 H2] H3] H5] H6]. repeat split; auto.
  - destruct es; [cbn in H1; congruence|discriminate].
  - apply Forall_forall. auto.
Qed.

(* WriteToFile on a list it accepts: one leaf at the end of file *)
Lemma write_index_st_ok rp dim es f eof :
  Forall (fun e => entry_ok dim e = true) es -> es <> [] ->
  (rp = true -> N.of_nat (length es) <= MAX_ENTRIES) ->
  let buf := serialize_leaf dim (sort_entries es) in
  write_index_st rp dim es f eof = (write_at f eof buf, wrap64 (eof + blen buf), Ok eof).
Proof.
  intros He Hne Hcap buf. unfold write_index_st.
  replace (forallb (fun e => Nat.eqb (length (w_coord e)) dim) es) with true.
  2:{ symmetry. apply forallb_forall. intros e Hin. apply Nat.eqb_eq.
      rewrite Forall_forall in He. apply (entry_ok_spec _ _ (He e Hin)). }
  cbn [negb]. destruct es as [|e0 er]; [congruence|].
  replace (rp && (MAX_ENTRIES <? N.of_nat (length (e0 :: er)))) with false.
  2:{ symmetry. destruct rp; [|reflexivity]. cbn [andb]. apply N.ltb_ge. auto. }
  cbv zeta. fold buf.
  unfold alloc. replace (blen buf =? 0) with false; [reflexivity|].
  symmetry. apply N.eqb_neq. unfold buf. rewrite blen_serialize_leaf by (apply sort_entries_Forall; auto). lia.
Qed.

Lemma blen_serialize_sorted dim es : Forall (fun e => entry_ok dim e = true) es ->
  blen (serialize_leaf dim (sort_entries es)) = blen (serialize_leaf dim es).
Proof.
  intros H. rewrite !blen_serialize_leaf; auto; [|apply sort_entries_Forall; auto].
  now rewrite sort_entries_length.
Qed.

Lemma sort_entries_nonempty es : es <> [] -> sort_entries es <> [].
Proof.
  intros H E. apply H. apply length_zero_iff_nil. rewrite <- sort_entries_length, E. reflexivity.
Qed.

Lemma serialize_leaf_nonempty dim es : serialize_leaf dim es <> [].
Proof. unfold serialize_leaf, node_header, SIG_TREE. discriminate. Qed.

(* the round trip from the facts it uses (distinct_coords is not among them: it is the condition under which the
   model's insertion sort and Go's sort.Slice agree, see Model/ChunkIndex.v) *)
Theorem index_roundtrip_core rp cdims es f eof :
  es <> [] -> Forall (fun e => entry_ok (length cdims) e = true) es ->
  N.of_nat (length es) <= index_capacity rp -> all_pos cdims = true ->
  eof + blen (serialize_leaf (length cdims) es) <= MAXINT64 ->
  let f' := write_at f eof (serialize_leaf (length cdims) (sort_entries es)) in
    write_index rp (length cdims) es f eof = Ok (f', eof + blen (serialize_leaf (length cdims) es), eof) /\
    read_index rp f' eof 8 cdims = COk (map (expected_entry cdims) (sort_entries es)).
Proof.
  intros Hne He Hn Hp Hm.
  set (dim := length cdims) in *.
  set (buf := serialize_leaf dim (sort_entries es)).
  assert (Hbl : blen buf = blen (serialize_leaf dim es)) by (apply blen_serialize_sorted; auto).
  fold dim. fold buf. cbv zeta. split.
  - unfold write_index. rewrite write_index_st_ok; auto.
    2:{ intros ->. exact Hn. }
    cbv zeta. fold buf. cbn [st_result].
    rewrite Hbl. do 3 f_equal. apply wrap64_small. unfold MAXINT64 in Hm. lia.
  - destruct (write_at_shape f buf eof (serialize_leaf_nonempty _ _)) as (pre & suf & Hw & Hpl).
    unfold read_index.
    rewrite (parse_node_leaf rp cdims (sort_entries es) (write_at f eof buf) pre suf eof); auto.
    + unfold collect_all_chunks. cbn [n_level n_keys n_children collect N.eqb].
      now rewrite combine_keys.
    + apply sort_entries_Forall; auto.
    + apply sort_entries_nonempty; auto.
    + now rewrite sort_entries_length.
    + fold dim. fold buf. rewrite Hbl. exact Hm.
Qed.

(* the repaired code: every well-formed list of at most MaxChunkBTreeEntries = 65535 entries *)
Theorem index_roundtrip cdims es f eof :
  index_wf cdims es eof = true -> N.of_nat (length es) <= MAX_ENTRIES ->
  exists f',
    write_index true (length cdims) es f eof = Ok (f', eof + blen (serialize_leaf (length cdims) es), eof) /\
    read_index true f' eof 8 cdims = COk (map (expected_entry cdims) (sort_entries es)).
Proof.
  intros Hw Hn. destruct (index_wf_spec _ _ _ Hw) as (Hne & He & _ & Hp & Hm).
  eexists. apply index_roundtrip_core; auto.
Qed.

(* ... and every longer list is refused by the writer before it allocates or writes: the state (file, end of file)
   is the one the call was given.  No hypothesis on the entries. *)
Theorem index_refused_unchanged dim es f eof :
  MAX_ENTRIES < N.of_nat (length es) ->
  write_index_st true dim es f eof = (f, eof, Err).
Proof.
  intros Hn. unfold write_index_st.
  destruct (negb (forallb (fun e => Nat.eqb (length (w_coord e)) dim) es)); [reflexivity|].
  destruct es as [|e0 er]; [reflexivity|].
  replace (MAX_ENTRIES <? N.of_nat (length (e0 :: er))) with true by lia.
  reflexivity.
Qed.

(* both together: the writer/reader pair is total on well-formed input - round trip or clean refusal *)
Theorem index_total cdims es f eof :
  index_wf cdims es eof = true ->
  (N.of_nat (length es) <= MAX_ENTRIES /\
   exists f',
     write_index_st true (length cdims) es f eof = (f', eof + blen (serialize_leaf (length cdims) es), Ok eof) /\
     read_index true f' eof 8 cdims = COk (map (expected_entry cdims) (sort_entries es)))
  \/
  (MAX_ENTRIES < N.of_nat (length es) /\ write_index_st true (length cdims) es f eof = (f, eof, Err)).
Proof.
  intros Hw. destruct (N.le_gt_cases (N.of_nat (length es)) MAX_ENTRIES) as [Hn|Hn].
  - left. split; [exact Hn|].
    destruct (index_roundtrip cdims es f eof Hw Hn) as (f' & P1 & P2).
    exists f'. split; [|exact P2].
    unfold write_index in P1. destruct (write_index_st true (length cdims) es f eof) as [[g e] [r| |]];
      cbn [st_result] in P1; try discriminate. now inversion P1.
  - right. split; [exact Hn|]. now apply index_refused_unchanged.
Qed.

(* BEFORE 18c9d53 (rep = false): 65536 entries (any multiple of 65536): the 16-bit count is written as 0, the reader
   sees an empty leaf and returns NO chunk, without an error - every chunk of the dataset reads back as zeros *)
Theorem index_count_wraps_refuted cdims es f eof :
  Forall (fun e => entry_ok (length cdims) e = true) es ->
  es <> [] -> wrap16 (N.of_nat (length es)) = 0 ->
  eof + 24 <= MAXINT64 ->
  exists f' eof',
    write_index false (length cdims) es f eof = Ok (f', eof', eof) /\
    read_index false f' eof 8 cdims = COk [] /\ map (expected_entry cdims) (sort_entries es) <> [].
Proof.
  intros He Hne Hw Hm.
  set (dim := length cdims) in *.
  set (buf := serialize_leaf dim (sort_entries es)).
  exists (write_at f eof buf), (wrap64 (eof + blen buf)). split; [|split].
  - unfold write_index. rewrite write_index_st_ok by (auto; intro; discriminate). reflexivity.
  - destruct (write_at_shape f buf eof (serialize_leaf_nonempty _ _)) as (pre & suf & Hws & Hpl).
    assert (Hfile : write_at f eof buf = pre ++ node_header (N.of_nat (length (sort_entries es))) ++
              (flat_map enc_entry (sort_entries es) ++ enc_key 0 0 (repeat U64MAX dim)) ++ suf).
    { rewrite Hws. unfold buf, serialize_leaf. now rewrite <- !app_assoc. }
    unfold read_index. rewrite Hfile.
    rewrite (parse_node_hdr false cdims (length cdims)) by auto.
    rewrite sort_entries_length, Hw. cbn [N.eqb]. reflexivity.
  - intros E. apply map_eq_nil in E. apply (sort_entries_nonempty es Hne E).
Qed.

(* BEFORE 18c9d53 (rep = false): 65535 entries: the count fits, but the reader sizes its key slice with EntriesUsed+1
   in uint16 = 0 and panics storing the first key *)
Theorem index_65535_refuted cdims es f eof :
  all_pos cdims = true -> Forall (fun e => entry_ok (length cdims) e = true) es ->
  N.of_nat (length es) = 65535 ->
  eof + blen (serialize_leaf (length cdims) es) <= MAXINT64 ->
  exists f' eof',
    write_index false (length cdims) es f eof = Ok (f', eof', eof) /\
    read_index false f' eof 8 cdims = CPanic.
Proof.
  intros Hp He Hn Hm.
  assert (Hne : es <> []) by (intros ->; cbn in Hn; lia).
  set (buf := serialize_leaf (length cdims) (sort_entries es)).
  exists (write_at f eof buf), (wrap64 (eof + blen buf)). split.
  - unfold write_index. rewrite write_index_st_ok by (auto; intro; discriminate). reflexivity.
  - destruct (write_at_shape f buf eof (serialize_leaf_nonempty _ _)) as (pre & suf & -> & Hpl).
    pose proof (sort_entries_Forall _ _ He) as Hs.
    pose proof (sort_entries_length es) as Hsl.
    unfold read_index, buf.
    rewrite parse_node_serialized; auto using sort_entries_nonempty;
      [| rewrite Hsl; lia | rewrite blen_serialize_sorted by auto; lia].
    replace (N.of_nat (length (sort_entries es))) with 65535 by (rewrite Hsl; lia).
    change (key_slots false 65535) with 0.
    (* the first iteration of the key loop *)
    destruct (sort_entries es) as [|s0 sr]; [cbn in Hsl; lia|].
    apply Forall_cons_iff in Hs as [Hs0 Hsr].
    destruct (entry_ok_spec _ _ Hs0) as (E1 & E2 & E3 & E4).
    cbn [length parse_entries flat_map].
    change (enc_entry s0) with (enc_key (w_nbytes s0) 0 (w_coord s0) ++ le 8 (w_addr s0)). rewrite <- !app_assoc.
    bnorm. match goal with |- context [parse_coords _ _ ?d _] => set (body := d) end.
    replace (blen body <? 0 + (8 + 8 * N.of_nat (length cdims))) with false
      by (unfold body; rewrite blen_app, blen_enc_key, E1; lia).
    destruct (parse_key_enc cdims (w_nbytes s0) 0 (w_coord s0) body [] _ 0 E1 Hp E2 E4 eq_refl eq_refl eq_refl)
      as (K1 & K2 & K3).
    rewrite K1, K2. cbn [obind]. rewrite E1 in K3. rewrite K3. reflexivity.
Qed.

(* the reader's coordinate of a written entry *)
Definition sc_of (cdims : list N) (e : wentry) : list N := scaled_of_key cdims (w_coord e).

Lemma lookup_none cdims L c :
  Forall (fun e => length (w_coord e) = length cdims) L ->
  ~ In c (map (sc_of cdims) L) -> lookup_chunk (length cdims) (map (expected_entry cdims) L) c = None.
Proof.
  induction L as [|x r IH]; intros Hl Hn; [reflexivity|].
  apply Forall_cons_iff in Hl as [Hx Hr].
  cbn [map lookup_chunk expected_entry]. cbn [map] in Hn.
  rewrite IH by (auto; intros Hin; apply Hn; right; exact Hin).
  unfold k_scaled. cbn [fst].
  rewrite firstn_all2 by (rewrite length_scaled_of_key; auto).
  destruct (coords_eqb (scaled_of_key cdims (w_coord x)) c) eqn:E; [|reflexivity].
  apply (list_eqb_eq _ N.eqb_eq) in E. exfalso. apply Hn. left. exact E.
Qed.

(* when the reader's key -> coordinate map is injective on the written keys, the lookup of the coordinate of a
   written entry returns exactly that entry's address and size, in whatever order the entries were collected *)
Lemma lookup_found cdims L e :
  Forall (fun e => length (w_coord e) = length cdims) L ->
  NoDup (map (sc_of cdims) L) -> In e L ->
  lookup_chunk (length cdims) (map (expected_entry cdims) L) (sc_of cdims e) = Some (w_addr e, w_nbytes e).
Proof.
  induction L as [|x r IH]; intros Hl Hnd Hin; [destruct Hin|].
  apply Forall_cons_iff in Hl as [Hx Hr]. cbn [map] in Hnd. apply NoDup_cons_iff in Hnd as [Hnx Hnd].
  cbn [map lookup_chunk expected_entry].
  destruct Hin as [->|Hin].
  - rewrite lookup_none by auto.
    unfold k_scaled, k_nbytes. cbn [fst snd].
    rewrite firstn_all2 by (rewrite length_scaled_of_key; auto).
    replace (coords_eqb (scaled_of_key cdims (w_coord e)) (sc_of cdims e)) with true; [reflexivity|].
    symmetry. now apply (list_eqb_eq _ N.eqb_eq).
  - rewrite IH by auto. reflexivity.
Qed.

Theorem index_lookup cdims es f eof :
  index_wf cdims es eof = true -> N.of_nat (length es) <= MAX_ENTRIES ->
  NoDup (map (sc_of cdims) es) ->
  exists f' chunks,
    write_index true (length cdims) es f eof = Ok (f', eof + blen (serialize_leaf (length cdims) es), eof) /\
    read_index true f' eof 8 cdims = COk chunks /\
    (forall e, In e es -> lookup_chunk (length cdims) chunks (sc_of cdims e) = Some (w_addr e, w_nbytes e)) /\
    (forall c, ~ In c (map (sc_of cdims) es) -> lookup_chunk (length cdims) chunks c = None).
Proof.
  intros Hpre Hcap Hnd. destruct (index_roundtrip cdims es f eof Hpre Hcap) as (f' & Hw & Hr).
  destruct (index_wf_spec _ _ _ Hpre) as (Hne & He & _).
  exists f', (map (expected_entry cdims) (sort_entries es)). split; [exact Hw|]. split; [exact Hr|].
  pose proof (sort_entries_perm es) as HP.
  assert (Hl : Forall (fun e => length (w_coord e) = length cdims) (sort_entries es)).
  { apply sort_entries_Forall, entries_dim. exact He. }
  split.
  - intros e Hin. apply lookup_found; auto.
    + eapply Permutation_NoDup; [|exact Hnd]. apply Permutation_map, Permutation_sym, HP.
    + eapply Permutation_in; [apply Permutation_sym, HP|exact Hin].
  - intros c Hc. apply lookup_none; auto. intros Hin. apply Hc.
    eapply Permutation_in; [apply Permutation_map, HP|exact Hin].
Qed.

(* the writer's keys: offsets of grid chunks.  The reader's division by the chunk extents inverts the writer's
   multiplication, so different chunk coordinates are never confused (the class of seeded change C01-c) *)
Lemma grid_keys_injective cdims (coords : list (list N)) :
  posl cdims -> Forall (fun c => length c = length cdims) coords -> NoDup coords ->
  NoDup (map (fun c => scaled_of_key cdims (chunk_key cdims c)) coords).
Proof.
  intros Hp Hl Hnd. rewrite (map_ext_in _ (fun c => c)); [rewrite map_id; exact Hnd|].
  intros c Hin. rewrite Forall_forall in Hl. apply scaled_key_id; auto.
Qed.

Lemma total_elements_prod dims : prodN dims < 18446744073709551616 -> posl dims -> total_elements dims = prodN dims.
Proof.
  unfold total_elements. intros Hb Hp.
  assert (G : forall l t, posl l -> 0 < t -> t * prodN l < 18446744073709551616 ->
              fold_left (fun t d => wrap64 (t * d)) l t = t * prodN l).
  { induction l as [|d r IH]; intros t Hl Ht Hlt; [rewrite ?prodN_cons in *|rewrite prodN_cons in *]; cbn [fold_left].
    - unfold prodN. cbn [fold_right]. lia.
    - apply Forall_cons_iff in Hl as [Hd Hr].
      pose proof (prodN_pos r Hr) as Hpr.
      rewrite wrap64_small, IH; auto; nia. }
  rewrite G; auto; lia.
Qed.

Section Compose.
Variables (dims cdims : list N) (esz : N) (data : bytes).
Hypothesis Hshape : shape_ok dims cdims esz.
Hypothesis Hdata : lenN data = vol dims esz.

Let xp (c : list N) : bytes := extract_padded dims cdims esz data c.

(* what the file holds for a written entry: a valid size and, at its address, the padded chunk of its coordinate *)
Definition entry_stored (f : bytes) (e : wentry) : Prop :=
  validate_size (w_nbytes e) MAX_CHUNK = true /\
  read_bytes_at f (w_addr e) (w_nbytes e) = Some (xp (sc_of cdims e)).

Lemma place_chunks_fold f : forall (S : list wentry) raw,
  length cdims = length dims ->
  Forall (fun e => length (w_coord e) = length cdims) S -> Forall (entry_stored f) S ->
  place_chunks f dims cdims esz (map (expected_entry cdims) S) raw
  = match bind_fold (fun full kc => copy_chunk_to_array (snd kc) full (scaled_of_key cdims (fst kc)) cdims dims esz)
                    (map (fun e => (w_coord e, xp (sc_of cdims e))) S) raw with
    | Chunk.Ok d => COk d
    | Chunk.Err c => if c =? E_RANK0 then CPanic else CErr
    end.
Proof.
  intros S raw Hc. revert raw. induction S as [|e r IH]; intros raw Hl Hs; [reflexivity|].
  apply Forall_cons_iff in Hl as [Hl0 Hlr]. apply Forall_cons_iff in Hs as [[Hv Hrd] Hsr].
  cbn [map place_chunks expected_entry]. unfold k_nbytes, k_scaled. cbn [fst snd].
  rewrite Hv. cbn [negb]. rewrite Hrd. rewrite bind_fold_cons. cbn [fst snd].
  rewrite firstn_all2 by (rewrite length_scaled_of_key; lia).
  rewrite firstn_all2 by lia.
  unfold sc_of. destruct (copy_chunk_to_array _ raw _ cdims dims esz) as [raw'|code]; [|reflexivity].
  apply IH; auto.
Qed.

Theorem read_chunked_file_correct rp f root (es : list wentry) :
  vol dims esz <= MAX_CHUNK * 1024 ->
  (exists S, Permutation S es /\ read_index rp f root 8 cdims = COk (map (expected_entry cdims) S)) ->
  Permutation (map w_coord es) (map (chunk_key cdims) (all_chunk_coords dims cdims)) ->
  Forall (entry_stored f) es ->
  read_chunked_file rp f root 8 dims cdims esz = COk data.
Proof.
  intros Hvol (S & HP & Hri) Hkeys Hst.
  destruct Hshape as (Hne & Hc & Hpd & Hpc & Hez).
  unfold read_chunked_file. replace (Nat.ltb (length cdims) (length dims)) with false
    by lia.
  unfold read_index in Hri.
  destruct (parse_node rp f root 8 (length cdims) cdims) as [nd| |]; try discriminate.
  assert (Hpp : 0 < prodN dims) by (apply prodN_pos; exact Hpd).
  assert (Hv : vol dims esz = prodN dims * esz) by apply vol_prod.
  unfold MAX_CHUNK in *.
  rewrite total_elements_prod by (auto; nia).
  replace (negb (prodN dims =? 0) && negb (esz =? 0) && (U64MAX / esz <? prodN dims)) with false.
  2:{ symmetry. apply andb_false_iff. right. apply N.ltb_ge. unfold U64MAX.
      apply N.div_le_lower_bound; nia. }
  unfold validate_size at 1. rewrite <- Hv.
  replace (negb (vol dims esz =? 0) && (vol dims esz <=? 1073741824 * 1024)) with true
    by (symmetry; apply andb_true_iff; split; [apply negb_true_iff, N.eqb_neq; nia|apply N.leb_le; lia]).
  cbn [negb]. rewrite Hri.
  assert (HinS : forall e, In e S -> exists c, In c (all_chunk_coords dims cdims) /\ w_coord e = chunk_key cdims c).
  { intros e Hin. apply (Permutation_in _ HP) in Hin.
    assert (Hk : In (w_coord e) (map w_coord es)) by (apply in_map; exact Hin).
    apply (Permutation_in _ Hkeys) in Hk. apply in_map_iff in Hk as (c & Hck & Hcin). exists c. auto. }
  assert (Hclen : forall c, In c (all_chunk_coords dims cdims) -> length c = length cdims).
  { intros c Hin. rewrite all_chunk_coords_enum in Hin by auto. apply in_coords_length in Hin.
    rewrite Hin, length_num_chunks; auto. }
  assert (Hlen : Forall (fun e => length (w_coord e) = length cdims) S).
  { apply Forall_forall. intros e Hin. destruct (HinS e Hin) as (c & Hcin & ->).
    apply length_chunk_key, Hclen, Hcin. }
  rewrite place_chunks_fold; auto.
  2:{ eapply Permutation_Forall; [apply Permutation_sym, HP|exact Hst]. }
  (* the same fold as read_chunked on (key, chunk) pairs of a permutation of the grid *)
  assert (Hmap : map (fun e => (w_coord e, xp (sc_of cdims e))) S
                 = map (fun c => (chunk_key cdims c, extract_padded dims cdims esz data c)) (map (sc_of cdims) S)).
  { rewrite map_map. apply map_ext_in. intros e Hin. destruct (HinS e Hin) as (c & Hcin & Hk).
    unfold xp, sc_of. rewrite Hk, scaled_key_id by (auto; apply Hclen; auto). reflexivity. }
  rewrite Hmap.
  assert (Hperm : Permutation (map (sc_of cdims) S) (all_chunk_coords dims cdims)).
  { rewrite (Permutation_map (sc_of cdims) HP).
    unfold sc_of. rewrite <- (map_map w_coord (scaled_of_key cdims)).
    rewrite (Permutation_map (scaled_of_key cdims) Hkeys). rewrite map_map.
    rewrite (map_ext_in _ (fun c => c)); [rewrite map_id; reflexivity|].
    intros c Hin. apply scaled_key_id; auto. }
  pose proof (chunk_tiling_any_order dims cdims esz data (map (sc_of cdims) S)
                (conj Hne (conj Hc (conj Hpd (conj Hpc Hez)))) Hdata Hperm) as Ht.
  unfold read_chunked in Ht. rewrite existsb_zero_pos in Ht by auto.
  fold (vol dims esz) in Ht. rewrite Ht. reflexivity.
Qed.
End Compose.

Lemma read_at_some_bounds f off n b : read_at f off n = Some b -> off <= MAXINT64 /\ off + n <= blen f.
Proof.
  unfold read_at. destruct ((off <=? MAXINT64) && (off + n <=? blen f)) eqn:E; [|discriminate].
  intros _. apply andb_true_iff in E as [E1 E2]. split; now apply N.leb_le.
Qed.

Lemma wrap64_no_overflow off n :
  off <= 9223372036854775807 -> n < 18446744073709551616 -> off <= wrap64 (off + n) -> wrap64 (off + n) = off + n.
Proof.
  intros Ho Hn Hle. unfold wrap64 in *. apply N.mod_small.
  destruct (N.lt_ge_cases (off + n) 18446744073709551616) as [|Hge]; [assumption|exfalso].
  assert (Hm : (off + n) mod 18446744073709551616 = off + n - 18446744073709551616).
  { symmetry. apply (N.mod_unique _ _ 1); lia. }
  rewrite Hm in Hle. lia.
Qed.

(* chunk bytes written before the index (below its address) are still read after the index has been written *)
Lemma read_bytes_at_write_at_before f buf a off n b :
  off + n <= a -> n <> 0 -> n < 18446744073709551616 ->
  read_bytes_at f off n = Some b -> read_bytes_at (write_at f a buf) off n = Some b.
Proof.
  intros Ha Hn Hn64. unfold read_bytes_at. replace (n =? 0) with false by lia.
  destruct ((wrap64 (off + n) <? off) || (MAXINT64 <? wrap64 (off + n))) eqn:E; [discriminate|].
  apply orb_false_iff in E as [E1 E2]. apply N.ltb_ge in E1.
  destruct (read_at f (wrap64 (off + n) - 1) 1) as [p|] eqn:Ep; [|discriminate].
  intros Hr. destruct (read_at_some_bounds _ _ _ _ Hr) as [Hoff Hb].
  rewrite (wrap64_no_overflow off n Hoff Hn64 E1) in *.
  destruct (read_at_some_bounds _ _ _ _ Ep) as [_ Hpb].
  rewrite (write_at_before f buf a (off + n - 1) 1), Ep by lia.
  rewrite (write_at_before f buf a off n Ha Hb). exact Hr.
Qed.

