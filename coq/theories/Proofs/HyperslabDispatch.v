(* C09: validation + dispatcher: ReadHyperslab / ReadSlice return the selection of the full read
   for every valid selection and an error for every other one. *)
From HV Require Import Base.Prelude Base.Bytes Model.Hyperslab Proofs.HyperslabBase Proofs.HyperslabValidate
  Proofs.HyperslabRaw Proofs.HyperslabContig Proofs.HyperslabChunk Proofs.SliceRefineSliceH.

Definition layout_ok (lay : layout) (full dims : list N) : Prop :=
  lenN full = prodN dims /\
  match lay with
  | Chunked cdims => length cdims = length dims /\ Forall (fun c => 0 < c) cdims
  | _ => True
  end.

Theorem dispatch_correct lay full dims s :
  axes_valid s dims -> s <> [] -> layout_ok lay full dims ->
  dispatch lay full dims s = select full dims s.
Proof.
  intros V Hne (Hlen & Hl). destruct lay as [| |cdims]; cbn [dispatch].
  - apply extract_from_raw_correct; assumption.
  - apply read_hyperslab_contiguous_correct; assumption.
  - destruct Hl. apply read_hyperslab_chunked_correct; assumption.
Qed.

Lemma dispatch_zero lay full dims s : out_elems s = 0 -> dispatch lay full dims s = [].
Proof.
  intros E. destruct lay; cbn [dispatch].
  - unfold extract_from_raw. rewrite E. reflexivity.
  - unfold read_hyperslab_contiguous, read_contiguous_optimized, read_contiguous_row_by_row.
    rewrite E. cbn [N.eqb]. destruct (is_contiguous_selection s dims); reflexivity.
  - unfold read_hyperslab_chunked. rewrite E. reflexivity.
Qed.

Lemma validate_nonempty h dims : validate h dims = Ok -> dims <> [].
Proof.
  unfold validate, validate_gen. intros H Hd. subst dims. cbn [length] in H.
  destruct (validate_selection_dimensions h 0) eqn:E0; [|discriminate].
  apply vsd_ok in E0. destruct E0 as (_ & L2 & _).
  destruct (h_count h); [|discriminate].
  destruct (validate_hyperslab_bounds _ _ _ _ _); discriminate.
Qed.

Lemma axes_of_nonempty h (dims : list N) : lens_ok h (length dims) -> dims <> [] -> axes_of h (length dims) <> [].
Proof.
  intros (L1 & L2 & L3 & L4) Hne. unfold axes_of.
  destruct dims as [|d ds]; [congruence|]. cbn [length] in *.
  destruct (h_start h), (h_count h), (stride_of h (S (length ds))), (block_of h (S (length ds))); discriminate.
Qed.

Theorem read_hyperslab_ok lay full dims h :
  u64_sel h (length dims) -> Forall u64 dims -> layout_ok lay full dims ->
  validate h dims = Ok ->
  read_hyperslab lay full dims h = Some (select full dims (axes_of h (length dims))).
Proof.
  intros U Ud L E. unfold read_hyperslab. rewrite E. f_equal.
  pose proof (validate_sound h dims U Ud E) as (Lens & V).
  apply dispatch_correct; try assumption.
  apply axes_of_nonempty; [assumption|]. eapply validate_nonempty; eassumption.
Qed.

Theorem read_hyperslab_rejects lay full dims h :
  u64_sel h (length dims) -> Forall u64 dims -> ~ valid h dims -> read_hyperslab lay full dims h = None.
Proof.
  intros U Ud NV. unfold read_hyperslab. destruct (validate h dims) eqn:E; [|reflexivity].
  exfalso. apply NV. apply validate_sound; assumption.
Qed.

Theorem read_hyperslab_valid lay full dims h :
  u64_sel h (length dims) -> Forall u64 dims -> layout_ok lay full dims ->
  dims <> [] -> prodN (h_count h) <= max_hyperslab_elements -> valid h dims ->
  read_hyperslab lay full dims h = Some (select full dims (axes_of h (length dims))).
Proof.
  intros U Ud L Hne Hlim V. apply read_hyperslab_ok; try assumption.
  apply validate_complete; assumption.
Qed.

Lemma slice_valid_u64 : forall start count dims, length start = length dims -> length count = length dims ->
  Forall2 (fun sc d => fst sc + snd sc <= d) (combine start count) dims -> Forall u64 dims ->
  Forall u64 start /\ Forall u64 count.
Proof.
  induction start as [|s0 s IH]; intros [|c0 c] [|d0 d] L1 L2 V U; cbn [length combine] in *; try discriminate;
    [split; constructor|].
  inversion V; inversion U; subst. cbn [fst snd] in *. destruct (IH c d) as [A B]; try lia; try assumption.
  unfold u64 in *. split; constructor; try assumption; lia.
Qed.

(* a request inside the dataset with at most MaxHyperslabElements elements is read; a count of 0 makes it empty *)
Theorem read_slice_ok lay full dims start count :
  Forall u64 dims -> layout_ok lay full dims -> dims <> [] ->
  prodN count <= max_hyperslab_elements ->
  slice_valid start count dims ->
  read_slice lay full dims start count = Some (select full dims (slice_axes start count)).
Proof.
  intros Ud L Hne Hlim SV. unfold read_slice.
  rewrite (proj2 (slice_validate_ok start count dims Ud) SV). cbv zeta.
  pose proof SV as (L1 & L2 & V).
  destruct (zero_or_pos count) as [Z|P].
  - apply (slice_axes_zero_count start) in Z; [|congruence].
    rewrite (out_elems_zero_count _ Z), dispatch_zero, select_zero_count by auto using out_elems_zero_count. reflexivity.
  - pose proof (slice_valid_valid start count dims SV P) as HV.
    destruct (slice_valid_u64 start count dims L1 L2 V Ud) as [U1 U2].
    rewrite dispatch_correct; try assumption.
    + destruct (out_elems (slice_axes start count) =? 0); [reflexivity|].
      (* the explicit unit stride and block make the same axes as the defaults *)
      rewrite validate_complete; [reflexivity|exact (u64_sel_slice start count _ U1 U2)|assumption..|exact Hlim|exact HV].
    + rewrite <- (axes_of_slice start count _ L1). apply HV.
    + unfold slice_axes. destruct dims; [congruence|]. destruct start, count; discriminate.
Qed.

Theorem read_slice_rejects lay full dims start count :
  Forall u64 dims -> ~ slice_valid start count dims -> read_slice lay full dims start count = None.
Proof.
  intros Ud NV. unfold read_slice. destruct (slice_validate start count dims) eqn:E; [|reflexivity].
  exfalso. apply NV. apply slice_validate_ok; assumption.
Qed.
