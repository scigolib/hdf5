(* C06, reader against specification: the datatype message header for ALL eleven classes (fixed, float, time, string,
   bit field, opaque, compound, reference, enumeration, variable length, array; nested descriptions included).
   For every byte string (bytes < 256) the strict specification decoder accepts, ParseDatatypeMessage returns an error or a
   value whose class, version and size are the ones the specification reads (dt_header_agree); never a panic.
   (The class-specific meaning of the bit field for classes 0 / 1 / 3 is in ReaderSpecType.v; member lists, base types and
   array dimensions are handed back by the reader as raw property bytes.) *)
From HV Require Import Base.Prelude Base.Outcome Base.Bytes Spec.Parse Spec.FormatMsg Model.CodecMsg Model.CodecType
  Proofs.RobustNoPanicBase Proofs.RobustNoPanicOhdr Proofs.RobustNoPanicType Proofs.ReaderSpecBase Proofs.ReaderSpecType.

Definition dt_header_agree (t : dtype) (v : datatype) : Prop :=
  dt_class v = dtype_class t /\ dt_size v = dtype_size t /\ dt_version v = dtype_ver t.

Lemma datatype_header_reader_spec (pad_ok : bool) (bs : bytes) (t : dtype) (tg : list tag) :
  bytes_ok bs = true ->
  spec_dec_datatype strict pad_ok bs = Ok (t, tg) ->
  err_or (dt_header_agree t) (dec_datatype bs).
Proof.
  intros Hb H. destruct (dec_datatype bs) as [v| |] eqn:D; cbn [err_or]; [|exact I|].
  - destruct (proj1 (datatype_agree _ _ _ _ Hb H) v D) as (C & Z & V & _). repeat split; assumption.
  - revert D. apply dec_datatype_no_panic.
Qed.
