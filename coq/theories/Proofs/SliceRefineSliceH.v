(* C09, ReadSlice: element-level facts (Model/Hyperslab.v side): a request inside the dataset with positive counts is a
   valid hyperslab with unit stride and block; a zero count selects nothing; an accepted selection has at most
   MaxHyperslabElements blocks. *)
From HV Require Import Base.Prelude Base.Bytes Model.Hyperslab Proofs.HyperslabBase Proofs.HyperslabValidate.

Lemma validate_count_bound h dims : validate h dims = Ok -> prodN (h_count h) <= max_hyperslab_elements.
Proof.
  unfold validate, validate_gen. intros H.
  destruct (validate_selection_dimensions h (length dims)); [|discriminate].
  destruct (validate_hyperslab_bounds true _ _ _ dims); [|discriminate].
  unfold calculate_hyperslab_elements in H. destruct (h_count h) as [|c0 cs] eqn:Ec; [discriminate|].
  destruct (che_loop 1 (c0 :: cs)) as [t|] eqn:E; [|discriminate].
  apply che_loop_some in E. destruct (N.eqb_spec t 0); cbn [orb] in H; [discriminate|].
  destruct (N.ltb_spec max_hyperslab_elements t); [discriminate|]. lia.
Qed.

Lemma sel_coords_zero_count s : Exists (fun a => a_count a = 0) s -> sel_coords s = [].
Proof.
  induction s as [|a r IH]; intros H; inversion H; subst; cbn [sel_coords].
  - unfold axis_idx. rewrite H1. reflexivity.
  - rewrite (IH H1). induction (axis_idx a) as [|i l IHl]; [reflexivity|]. cbn [flat_map map app]. exact IHl.
Qed.
Lemma select_zero_count full dims s : Exists (fun a => a_count a = 0) s -> select full dims s = [].
Proof. intros H. unfold select. now rewrite sel_coords_zero_count. Qed.

(* once the running product is 0 it stays 0 *)
Lemma out_elems_zero_count s : Exists (fun a => a_count a = 0) s -> out_elems s = 0.
Proof.
  intros H.
  assert (Z : forall l, fold_left (fun t a => t * (a_count a * (if a_block a =? 0 then 1 else a_block a))) l 0 = 0)
    by (induction l; cbn [fold_left]; [reflexivity|rewrite N.mul_0_l; assumption]).
  assert (G : forall t, fold_left (fun t a => t * (a_count a * (if a_block a =? 0 then 1 else a_block a))) s t = 0).
  { induction H as [a s Ha|a s _ IH]; intros t; cbn [fold_left]; [|apply IH].
    rewrite Ha, N.mul_0_l, N.mul_0_r. apply Z. }
  unfold out_elems. destruct s; [reflexivity|apply G].
Qed.

Lemma zero_or_pos (cn : list N) : Exists (eq 0) cn \/ Forall (fun c => 0 < c) cn.
Proof.
  induction cn as [|c r [IH|IH]]; [right; constructor|left; now constructor 2|].
  destruct (N.eq_dec c 0) as [->|]; [left; now constructor|right; constructor; [lia|assumption]].
Qed.

Lemma slice_axes_zero_count st cn : length cn = length st -> Exists (eq 0) cn ->
  Exists (fun a => a_count a = 0) (slice_axes st cn).
Proof.
  unfold slice_axes, ones. revert cn. induction st as [|s st IH]; intros [|c cn] L H; try discriminate L; inversion H; subst;
    cbn [length repeat zip4]; [now constructor|]. constructor 2. apply IH; [now injection L|assumption].
Qed.

Lemma axes_of_slice st cn n : length st = n -> axes_of (mkSel st cn None None) n = slice_axes st cn.
Proof. intros <-. reflexivity. Qed.

Lemma slice_axes_valid : forall st cn dims, length st = length dims -> length cn = length dims ->
  Forall2 (fun sc d => fst sc + snd sc <= d) (combine st cn) dims -> Forall (fun c => 0 < c) cn ->
  axes_valid (slice_axes st cn) dims.
Proof.
  unfold slice_axes, ones.
  induction st as [|s st IH]; intros [|c cn] [|d dims] L1 L2 V P; cbn [length] in *; try discriminate;
    cbn [repeat zip4 combine] in *; [constructor|].
  inversion V; inversion P; subst. cbn [fst snd] in *.
  constructor; [|apply IH; try assumption; lia].
  unfold axis_valid. cbn [a_start a_count a_stride a_block]. nia.
Qed.

Lemma slice_valid_valid st cn dims : slice_valid st cn dims -> Forall (fun c => 0 < c) cn ->
  valid (mkSel st cn None None) dims.
Proof.
  intros (L1 & L2 & V) P. split.
  - unfold lens_ok. cbn [h_start h_count stride_of block_of h_stride h_block]. rewrite !ones_length. auto.
  - rewrite (axes_of_slice st cn _ L1). apply slice_axes_valid; assumption.
Qed.

Lemma u64_sel_slice st cn n : Forall u64 st -> Forall u64 cn -> u64_sel (mkSel st cn None None) n.
Proof.
  intros U1 U2. unfold u64_sel. cbn [h_start h_count stride_of block_of h_stride h_block].
  assert (O : Forall u64 (ones n)).
  { unfold ones. induction n; cbn [repeat]; constructor; [unfold u64, u64max; lia|assumption]. }
  auto.
Qed.

Lemma prod_pos_counts (cn : list N) : 0 < prodN cn -> Forall (fun c => 0 < c) cn.
Proof. induction cn as [|c r IH]; intros H; cbn [prodN] in H; constructor; [nia|apply IH; nia]. Qed.

Lemma read_slice_too_large lay full dims st cn : Forall u64 dims -> slice_valid st cn dims ->
  max_hyperslab_elements < prodN cn -> read_slice lay full dims st cn = None.
Proof.
  intros Ud SV Hbig. unfold read_slice. rewrite (proj2 (slice_validate_ok st cn dims Ud) SV). cbv zeta.
  assert (P : Forall (fun c => 0 < c) cn) by (apply prod_pos_counts; unfold max_hyperslab_elements in Hbig; lia).
  pose proof (slice_valid_valid st cn dims SV P) as (_ & AV). destruct SV as (L1 & L2 & _).
  rewrite (axes_of_slice st cn _ L1) in AV.
  assert (Sne : slice_axes st cn <> []).
  { unfold slice_axes. destruct cn as [|c cr]; [cbn [prodN] in Hbig; unfold max_hyperslab_elements in Hbig; lia|].
    destruct st as [|s0 sr]; [rewrite <- L2 in L1; discriminate|]. cbn [length ones repeat zip4]. discriminate. }
  pose proof (out_elems_pos _ _ AV Sne) as Hn.
  replace (out_elems (slice_axes st cn) =? 0) with false by (symmetry; apply N.eqb_neq; lia).
  destruct (validate _ dims) eqn:E; [|reflexivity].
  apply validate_count_bound in E. cbn [h_count] in E. lia.
Qed.
