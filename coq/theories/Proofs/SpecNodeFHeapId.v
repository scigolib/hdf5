(* C05, fractal heap: where the bytes a heap id names live in the direct block the writer encodes
   (finding C05-fheap-offset-excludes-block-prefix).

   III.G: "the offset of the object in the heap's address space"; the address space of a heap whose root is a direct block is
   that block, prefix included, so offset k names byte k of the block.  In the writer the offset of a heap id indexes the
   block's Objects slice (GetObject: Objects[offset : offset+length]) and writeDirectBlockAt copies Objects behind the 15-byte
   prefix: the bytes of the object with id offset k are at block byte 15 + k.  Universally below; the witness shows an id with
   offset 0 whose object is NOT at block byte 0 (that is the block signature). *)
From HV Require Import Base.Prelude Base.Outcome Base.Bytes Base.Crc32 Spec.Parse Spec.FormatNode Proofs.SpecNodeFHeap.
From HV Require Model.FHeap Proofs.FHeap.
Module MF := HV.Model.FHeap.
Module PF := HV.Proofs.FHeap.

Lemma firstn_copy_into : forall (dst src : list N) (k : nat),
  (k <= length src)%nat -> (k <= length dst)%nat -> firstn k (MF.copy_into dst src) = firstn k src.
Proof.
  induction dst as [|d dr IH]; intros src k Hs Hd.
  - cbn [length] in Hd. assert (k = 0%nat) by lia. subst. reflexivity.
  - destruct src as [|s sr]; [cbn [length] in Hs; assert (k = 0%nat) by lia; subst; reflexivity|].
    destruct k; [reflexivity|]. cbn [MF.copy_into firstn length] in *. f_equal. apply IH; lia.
Qed.

(* byte k of Objects is byte 15 + k of the encoded block (as far as the block has room before its trailing checksum) *)
Lemma fhdb_object_position b off n :
  19 <= MF.db_size b -> off + n <= MF.len (MF.db_objs b) -> off + n <= MF.db_size b - 19 ->
  MF.slice (MF.encode_dblock b) (MF.PREFIX + off) n = MF.slice (MF.db_objs b) off n.
Proof.
  intros Hs Ho Hb. rewrite encode_dblock_eq, fhdb_body_split by exact Hs.
  unfold MF.slice, MF.take, MF.drop.
  assert (Hpre : length (fhdb_pre b) = 15%nat) by reflexivity.
  assert (Hk : N.to_nat (MF.PREFIX + off) = (15 + N.to_nat off)%nat) by (unfold MF.PREFIX; lia).
  rewrite Hk. rewrite <- Hpre at 1.
  set (k := N.to_nat off). set (m := N.to_nat n).
  rewrite <- app_assoc, skipn_app. rewrite skipn_all2 with (l := fhdb_pre b) by lia.
  replace (length (fhdb_pre b) + k - length (fhdb_pre b))%nat with k by lia. cbn [app].
  rewrite !firstn_skipn_comm. f_equal.
  set (Z := MF.copy_into (MF.zeros (MF.db_size b - MF.PREFIX)) (MF.db_objs b)).
  assert (HZ : length Z = N.to_nat (MF.db_size b - 15)).
  { unfold Z. pose proof (PF.len_copy_into (MF.zeros (MF.db_size b - MF.PREFIX)) (MF.db_objs b)) as H.
    rewrite PF.len_zeros in H. unfold MF.len in H. unfold MF.PREFIX in *. lia. }
  assert (Hkm : (k + m <= N.to_nat (MF.db_size b - 19))%nat) by (unfold k, m; lia).
  rewrite firstn_app, firstn_firstn, Nat.min_l by exact Hkm.
  rewrite firstn_length, HZ, Nat.min_l by lia.
  replace (k + m - N.to_nat (MF.db_size b - 19))%nat with 0%nat by lia. cbn [firstn]. rewrite app_nil_r.
  unfold Z. apply firstn_copy_into.
  - unfold MF.len in Ho. unfold k, m. bnorm. lia.
  - unfold MF.zeros. rewrite repeat_length. unfold MF.PREFIX, k, m. bnorm. lia.
Qed.

(* GetObject on a heap whose root is its direct block: what it returns for id offset [off] are the bytes at block offset
   15 + off of the block the writer encodes *)
Lemma fheap_get_reads_after_prefix h id data :
  MF.h_ind h = None -> 19 <= MF.db_size (MF.h_blk h) ->
  MF.len (MF.db_objs (MF.h_blk h)) <= MF.db_size (MF.h_blk h) - 19 ->
  MF.get h id = MF.Ok data ->
  exists off n, MF.parse_id h id = MF.Ok (off, n) /\
    MF.slice (MF.encode_dblock (MF.h_blk h)) (MF.PREFIX + off) n = data.
Proof.
  intros Hind Hs Hl. unfold MF.get. destruct (MF.parse_id h id) as [[off n]|]; [|discriminate].
  rewrite Hind. unfold MF.get_in.
  destruct (MF.len (MF.db_objs (MF.h_blk h)) <=? off) eqn:E1; [discriminate|].
  destruct (MF.len (MF.db_objs (MF.h_blk h)) <? off + n) eqn:E2; [discriminate|].
  apply N.leb_gt in E1. apply N.ltb_ge in E2.
  intros H. injection H as <-. exists off, n. split; [reflexivity|].
  apply fhdb_object_position; lia.
Qed.

(* every state of the representation relation of Proofs/FHeap.v (hence every state reached by an admissible history) *)
Lemma fheap_get_reads_after_prefix_R bs h fs sp id data :
  MF.bs_ok bs = true -> PF.R bs h fs sp -> MF.get h id = MF.Ok data ->
  exists off n, MF.parse_id h id = MF.Ok (off, n) /\
    MF.slice (MF.encode_dblock (MF.h_blk h)) (MF.PREFIX + off) n = data.
Proof.
  intros Hbs HR. destruct (PF.bs_ok_bounds bs Hbs) as [[Hb1 Hb2] Hcap].
  pose proof (PF.R_objlen _ _ _ _ HR) as Hl. rewrite Hcap in Hl.
  apply fheap_get_reads_after_prefix.
  - apply (PF.R_ind _ _ _ _ HR).
  - rewrite (PF.R_size _ _ _ _ HR). lia.
  - rewrite (PF.R_size _ _ _ _ HR). exact Hl.
Qed.

(* witness: NewWritableFractalHeap(64), one 10-byte object.  Its id says offset 0, length 10; GetObject returns the object;
   the block's bytes 0..9 are the prefix ("FHDB", version, heap address), the object is at bytes 15..24 *)
Definition id_heap : MF.heap := fst (MF.insert MF.cap_new (MF.new_heap 64) (MF.obj 1 10) 0).

Lemma fheap_offset_excludes_block_prefix_refuted :
  exists id,
    snd (MF.insert MF.cap_new (MF.new_heap 64) (MF.obj 1 10) 0) = MF.Ok id /\
    MF.parse_id id_heap id = MF.Ok (0, 10) /\
    MF.get id_heap id = MF.Ok (MF.obj 1 10) /\
    MF.slice (MF.encode_dblock (MF.h_blk id_heap)) 15 10 = MF.obj 1 10 /\
    MF.slice (MF.encode_dblock (MF.h_blk id_heap)) 0 10 = [70; 72; 68; 66; 0; 0; 0; 0; 0; 0] /\
    MF.slice (MF.encode_dblock (MF.h_blk id_heap)) 0 10 <> MF.obj 1 10.
Proof.
  (* the insertion is run once; every conjunct reads the heap it leaves *)
  unfold id_heap. set (run := MF.insert MF.cap_new (MF.new_heap 64) (MF.obj 1 10) 0). vm_compute in run.
  eexists. split; [reflexivity|].
  repeat apply conj; [vm_compute; reflexivity ..|vm_compute; discriminate].
Qed.
