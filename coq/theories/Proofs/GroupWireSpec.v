(* C05: the GROUP structures the writer emits (Model/GroupWire.v, byte-exact transcriptions tied by tools/props/c03wire.py)
   against the specification decoders of Spec/FormatNode.v and the cross-structure clauses of the walker Spec/Walk.v.
   For each structure, universally over the well-formed states: the tolerant decoder accepts the writer's bytes with the logical
   content and EXACTLY the deviation tags of KNOWN_FINDINGS.json (snod-over-capacity, heap-name-offset-0; none for the heap
   header and the B-tree node); strict accepts iff that tag set is empty.  For the walker's cross-structure clauses:
   snod-unsorted (the names read through the node's offsets come in CREATION order) and btree1-group-keys. *)
From HV Require Import Base.Prelude Base.Outcome Base.Bytes Model.RobustAlloc Model.RobustGroup
  Spec.Parse Spec.Format Spec.FormatNode Spec.Walk
  Model.GroupWire Proofs.GroupWireHeap Proofs.GroupWireSnod Proofs.GroupWireBTree.

Local Open Scope N_scope.

Lemma Q2 : 256 ^ N.of_nat 2 = 65536. Proof. reflexivity. Qed.
Lemma Q4 : 256 ^ N.of_nat 4 = 4294967296. Proof. reflexivity. Qed.

Lemma spec_lheap_header dss fr da (r : list N) :
  dss < 18446744073709551616 -> fr < 18446744073709551616 -> da < 18446744073709551616 ->
  spec_dec_lheap 8 8 (heap_header dss fr da ++ r) = Ok ({| lh_size := dss; lh_free := fr; lh_addr := da |}, r).
Proof.
  intros H1 H2 H3. unfold spec_dec_lheap, heap_header. change sigHEAP with heap_sig. rewrite <- !app_assoc.
  rewrite p_expect_app. cbn [obind app p_byte]. change (0 =? 0) with true. cbn [guard obind].
  change (0 :: 0 :: 0 :: le 8 dss ++ le 8 fr ++ le 8 da ++ r) with (zeros 3 ++ le 8 dss ++ le 8 fr ++ le 8 da ++ r).
  rewrite p_zeros_app. cbn [obind].
  rewrite p_u_le by (rewrite P8; exact H1). cbn [obind].
  rewrite p_u_le by (rewrite P8; exact H2). cbn [obind].
  rewrite p_u_le by (rewrite P8; exact H3). reflexivity.
Qed.

(* every heap WriteTo emits: the header decodes STRICTLY (the decoder has no tolerance parameter: no deviation exists) to the
   segment size, the free-list head and the address right behind the header; what remains is the data segment *)
Theorem spec_lheap_image h a :
  hw_dss h < 18446744073709551616 -> hw_free h < 18446744073709551616 ->
  spec_dec_lheap 8 8 (heap_image h a) =
    Ok ({| lh_size := hw_dss h; lh_free := hw_free h; lh_addr := wrap64 (a + 32) |}, padded h).
Proof.
  intros H1 H2. rewrite heap_image_eq. apply spec_lheap_header; auto.
  apply N.mod_lt. lia.
Qed.

(* the free list of every heap this writer writes (head 1 = H5HL_FREE_NULL) is well-formed for any segment *)
Lemma spec_lheap_free_ok fuel seg : lheap_free_ok fuel 8 seg 1 = true.
Proof. destruct fuel; cbn [lheap_free_ok]; change (1 =? 1) with true; now rewrite orb_true_r. Qed.

Lemma heap_str_at (pre nm suf : list N) : nonul nm = true -> heap_str (pre ++ nm ++ 0 :: suf) (blen pre) = Ok nm.
Proof.
  intros H. unfold heap_str. rewrite !blen_app, blen_cons.
  replace (blen pre <? blen pre + (blen nm + (1 + blen suf))) with true by (symmetry; apply N.ltb_lt; blia).
  unfold blen at 1. rewrite Nat2N.id. bnorm. rewrite skipn_app, skipn_all, Nat.sub_diag. cbn [skipn app].
  rewrite p_cstr_app by exact H. reflexivity.
Qed.

Lemma heap_strs_gen (ns : list bytes) : forall (pre rest : list N),
  Forall (fun n => nonul n = true) ns ->
  omapM (heap_str (pre ++ enc_names ns ++ rest)) (name_offs (blen pre) ns) = Ok ns.
Proof.
  induction ns as [|n ns IH]; intros pre rest H; [reflexivity|].
  apply Forall_cons_iff in H as [Hn Hr].
  assert (Hc : enc_names (n :: ns) = n ++ 0 :: enc_names ns) by (unfold enc_names; cbn [flat_map]; now rewrite <- app_assoc).
  rewrite Hc. cbn [name_offs omapM].
  replace (pre ++ (n ++ 0 :: enc_names ns) ++ rest) with (pre ++ n ++ 0 :: (enc_names ns ++ rest))
    by (rewrite <- !app_assoc; reflexivity).
  rewrite heap_str_at by exact Hn. cbn [obind].
  specialize (IH (pre ++ n ++ [0]) rest Hr). rewrite !blen_app, blen_cons, blen_nil in IH.
  replace (blen pre + (blen n + (1 + 0))) with (blen pre + blen n + 1) in IH by blia.
  replace (pre ++ n ++ 0 :: enc_names ns ++ rest) with ((pre ++ n ++ [0]) ++ enc_names ns ++ rest)
    by (rewrite <- !app_assoc; reflexivity).
  rewrite IH. reflexivity.
Qed.

(* what the writer puts into an entry: no cache, reserved 0 (group_write.go :393) *)
Definition sym_plain (e : sym) : bool := sym_ok e && (sy_cache e =? 0) && (sy_res e =? 0).
Definition spec_sym (e : sym) : sym_entry :=
  {| se_name_off := sy_name e; se_obj := sy_obj e; se_cache := 0; se_btree := 0; se_heap := 0; se_link_off := 0 |}.

Lemma sym_plain_spec e : sym_plain e = true ->
  sy_name e < 18446744073709551616 /\ sy_obj e < 18446744073709551616 /\ sy_cache e = 0 /\ sy_res e = 0.
Proof.
  unfold sym_plain. intros H. apply andb_true_iff in H as [H H3]. apply andb_true_iff in H as [H H2].
  destruct (sym_ok_spec e H) as (A & B & _). apply N.eqb_eq in H2, H3. auto.
Qed.

Lemma spec_sym_entry_enc e (r : list N) : sym_plain e = true ->
  spec_dec_sym_entry 8 (enc_sym 8 e ++ r) = Ok (spec_sym e, r).
Proof.
  intros H. destruct (sym_plain_spec e H) as (H1 & H2 & H3 & H4).
  unfold spec_dec_sym_entry, enc_sym, write_address. change (N.to_nat 8) with 8%nat. rewrite H3, H4, <- !app_assoc.
  rewrite p_u_le by (rewrite P8; exact H1). cbn [obind].
  rewrite p_u_le by (rewrite P8; exact H2). cbn [obind].
  rewrite p_u_le by (rewrite Q4; lia). cbn [obind].
  change (le 4 0) with (zeros 4). rewrite p_zeros_app. cbn [obind].
  rewrite p_take_app by apply length_zeros. cbn [obind]. reflexivity.
Qed.

Lemma spec_sym_entries_enc es : forall (r : list N), Forall (fun e => sym_plain e = true) es ->
  p_sym_entries 8 (length es) (flat_map (enc_sym 8) es ++ r) = Ok (map spec_sym es, r).
Proof.
  induction es as [|e es IH]; intros r H; [reflexivity|].
  apply Forall_cons_iff in H as [He Hr]. cbn [length p_sym_entries flat_map map]. rewrite <- app_assoc.
  rewrite spec_sym_entry_enc by exact He. cbn [obind]. rewrite IH by exact Hr. reflexivity.
Qed.

Definition has_off0 (s : snode) : bool := existsb (fun e => sy_name e =? 0) (stn_entries s).

Theorem spec_snod_bytes tol leafK s m (r : list N) :
  snode_ok s = true -> Forall (fun e => sym_plain e = true) (stn_entries s) -> (length (stn_entries s) <= m)%nat ->
  spec_dec_snod tol 8 leafK (snod_bytes s m ++ r) =
    (tg1 <- devif (2 * leafK <? stn_num s) tol T_snod_over_capacity;;
     tg2 <- devif (has_off0 s) tol T_heap_name_offset_0;;
     Ok (map spec_sym (stn_entries s), tg1 ++ tg2, zeros (40 * (m - length (stn_entries s))) ++ r)).
Proof.
  intros Hok Hp Hm. destruct (snode_ok_spec s Hok) as (Hv & Hn & Hlt & _ & _).
  unfold spec_dec_snod, snod_bytes. change sigSNOD with snod_sig. rewrite <- !app_assoc.
  rewrite p_expect_app. cbn [obind app p_byte]. rewrite Hv. change (1 =? 1) with true. cbn [guard obind].
  change (0 :: le 2 (stn_num s) ++ flat_map (enc_sym 8) (firstn m (stn_entries s)) ++ zeros (40 * (m - length (stn_entries s))) ++ r)
    with (zeros 1 ++ le 2 (stn_num s) ++ flat_map (enc_sym 8) (firstn m (stn_entries s)) ++ zeros (40 * (m - length (stn_entries s))) ++ r).
  rewrite p_zeros_app. cbn [obind].
  rewrite p_u_le by (rewrite Q2; exact Hlt). cbn [obind].
  destruct (devif (2 * leafK <? stn_num s) tol T_snod_over_capacity) as [tg1| |]; cbn [obind]; try reflexivity.
  rewrite firstn_all2 by exact Hm.
  replace (N.to_nat (stn_num s)) with (length (stn_entries s)) by (rewrite Hn; unfold llen; lia).
  rewrite spec_sym_entries_enc by exact Hp. cbn [obind].
  replace (existsb (fun e : sym_entry => se_name_off e =? 0) (map spec_sym (stn_entries s))) with (has_off0 s).
  - destruct (devif (has_off0 s) tol T_heap_name_offset_0); reflexivity.
  - unfold has_off0. clear. induction (stn_entries s) as [|e es IH]; cbn [existsb map]; [reflexivity|].
    rewrite <- IH. reflexivity.
Qed.

Definition snod_tags (leafK : N) (s : snode) : list tag :=
  (if 2 * leafK <? stn_num s then [T_snod_over_capacity] else []) ++ (if has_off0 s then [T_heap_name_offset_0] else []).

Theorem spec_snod_tolerant leafK s m (r : list N) :
  snode_ok s = true -> Forall (fun e => sym_plain e = true) (stn_entries s) -> (length (stn_entries s) <= m)%nat ->
  spec_dec_snod tolerant 8 leafK (snod_bytes s m ++ r) =
    Ok (map spec_sym (stn_entries s), snod_tags leafK s, zeros (40 * (m - length (stn_entries s))) ++ r).
Proof.
  intros. rewrite spec_snod_bytes by assumption. unfold snod_tags, devif, dev, tolerant.
  destruct (2 * leafK <? stn_num s), (has_off0 s); reflexivity.
Qed.

Theorem spec_snod_strict leafK s m (r : list N) :
  snode_ok s = true -> Forall (fun e => sym_plain e = true) (stn_entries s) -> (length (stn_entries s) <= m)%nat ->
  spec_dec_snod strict 8 leafK (snod_bytes s m ++ r) =
    match snod_tags leafK s with
    | [] => Ok (map spec_sym (stn_entries s), [], zeros (40 * (m - length (stn_entries s))) ++ r)
    | _ => Err
    end.
Proof.
  intros. rewrite spec_snod_bytes by assumption. unfold snod_tags, devif, dev, strict.
  destruct (2 * leafK <? stn_num s), (has_off0 s); reflexivity.
Qed.

(* finding C05-heap-name-offset-0, universally: the first AddString of a group's heap returns offset 0, so every written node
   with at least one link carries the tag and strict rejects it *)
Theorem snod_heap_name_offset_0 leafK s m e es (r : list N) :
  snode_ok s = true -> Forall (fun e => sym_plain e = true) (stn_entries s) -> (length (stn_entries s) <= m)%nat ->
  stn_entries s = e :: es -> sy_name e = 0 ->
  spec_dec_snod strict 8 leafK (snod_bytes s m ++ r) = Err /\
  In T_heap_name_offset_0 (snod_tags leafK s).
Proof.
  intros Hok Hp Hm He H0. rewrite spec_snod_strict by assumption.
  assert (Ho : has_off0 s = true) by (unfold has_off0; rewrite He; cbn [existsb]; rewrite H0; reflexivity).
  unfold snod_tags. rewrite Ho. split.
  - destruct (2 * leafK <? stn_num s); reflexivity.
  - apply in_or_app. right. left. reflexivity.
Qed.

(* finding C05-snod-over-capacity, universally: leaf K = 4 (what the written superblocks say), more than 8 links *)
Theorem snod_over_capacity s m (r : list N) :
  snode_ok s = true -> Forall (fun e => sym_plain e = true) (stn_entries s) -> (length (stn_entries s) <= m)%nat ->
  (spec_dec_snod strict 8 4 (snod_bytes s m ++ r) = Err <-> (8 < stn_num s \/ has_off0 s = true)) /\
  (In T_snod_over_capacity (snod_tags 4 s) <-> 8 < stn_num s).
Proof.
  intros Hok Hp Hm. rewrite spec_snod_strict by assumption. unfold snod_tags. change (2 * 4) with 8.
  destruct (8 <? stn_num s) eqn:E; [apply N.ltb_lt in E | apply N.ltb_ge in E]; destruct (has_off0 s); cbn [app In];
    (split; split; intros X; auto; try discriminate; try lia; try (destruct X as [X|X]; try discriminate; try lia);
     try (destruct X as [X|X]; try discriminate; try contradiction)).
Qed.

Definition spec_group_node (b : btnode) (kcs : list (N * N)) : btree1_spec :=
  {| b1_type := 0; b1_level := 0; b1_n := N.of_nat (length kcs); b1_left := btn_left b; b1_right := btn_right b;
     b1_keys := map (fun kc => [fst kc]) kcs ++ [[0]]; b1_children := map snd kcs |}.

Lemma spec_group_entries kcs : forall (r : list N),
  Forall (fun kc => fst kc < 18446744073709551616 /\ snd kc < 18446744073709551616) kcs ->
  p_entries 8 8 0 0 (length kcs) (flat_map enc_pair kcs ++ r) = Ok (map (fun kc => [fst kc]) kcs, map snd kcs, r).
Proof.
  induction kcs as [|[key ch] kcs IH]; intros r H; [reflexivity|].
  apply Forall_cons_iff in H as [[Hk Hc] Hr]. cbn [fst snd] in Hk, Hc.
  cbn [length p_entries flat_map map]. unfold p_key. change (0 =? 0) with true. cbv iota.
  change (enc_pair (key, ch)) with (le 8 key ++ le 8 ch). cbn [fst snd]. rewrite <- !app_assoc.
  rewrite p_u_le by (rewrite P8; exact Hk). cbn [obind].
  rewrite p_u_le by (rewrite P8; exact Hc). cbn [obind].
  rewrite IH by exact Hr. reflexivity.
Qed.

Theorem spec_group_btree tol b kcs (r : list N) :
  bt_group_ok b kcs -> Forall (fun kc => fst kc < 18446744073709551616) kcs -> (length kcs <= 32)%nat ->
  spec_dec_btree1 tol 8 8 0 0 16 (bt_bytes b kcs 32 ++ r) =
    Ok (spec_group_node b kcs, [], zeros (16 * (32 - length kcs)) ++ r).
Proof.
  intros (Hp & Ht & Hl & Hu & Hlt & Hrt & Hcs) Hks Hn.
  unfold spec_dec_btree1, bt_bytes, bt_header. change sigTREE with tree_sig. rewrite <- !app_assoc.
  rewrite p_expect_app. cbn [obind app p_byte]. rewrite Ht, Hl. change (0 =? 0) with true. cbn [guard obind].
  rewrite p_u_le by (rewrite Q2, Hu; lia). cbn [obind]. rewrite Hu.
  change (2 * 16) with 32. replace (32 <? N.of_nat (length kcs)) with false by (symmetry; apply N.ltb_ge; lia).
  cbn [devif obind].
  rewrite p_u_le by (rewrite P8; exact Hlt). cbn [obind].
  rewrite p_u_le by (rewrite P8; exact Hrt). cbn [obind].
  rewrite Nat2N.id. rewrite spec_group_entries.
  2:{ apply Forall_forall. intros kc Hin. split; [exact (proj1 (Forall_forall _ _) Hks kc Hin) | exact (proj1 (Forall_forall _ _) Hcs kc Hin)]. }
  cbn [obind]. unfold p_key. change (0 =? 0) with true. cbv iota.
  replace (zeros (16 * (32 - length kcs)) ++ zeros 8 ++ r) with (le 8 0 ++ zeros (16 * (32 - length kcs)) ++ r).
  - rewrite p_u_le by (rewrite P8; lia). reflexivity.
  - rewrite le8_0, !app_assoc. f_equal. rewrite <- !zeros_app. f_equal. lia.
Qed.

(* finding C05-btree1-group-keys: the clause the walker evaluates for a child - every name is greater than the name at key i and
   not greater than the name at key i+1 - is false for EVERY non-empty child when both keys name the same string; the writer's
   node has keys (0, 0) (writer_node) and never updates them *)
Theorem group_keys_clause_fails lo (ents : list gentry) :
  ents <> [] -> forallb (fun e => bytes_ltb lo (ge_name e) && bytes_leb (ge_name e) lo) ents = false.
Proof.
  intros H. destruct ents as [|e r]; [congruence|]. cbn [forallb]. unfold bytes_leb.
  now rewrite andb_negb_r.
Qed.

Example ex_snod_spec :
  snode_ok ex_snode = true /\ Forall (fun e => sym_plain e = true) (stn_entries ex_snode) /\
  spec_dec_snod strict 8 4 (snod_bytes ex_snode 32) = Err /\
  spec_dec_snod tolerant 8 4 (snod_bytes ex_snode 32) =
    Ok (map spec_sym (stn_entries ex_snode), [T_heap_name_offset_0], zeros 1200).
Proof. repeat split; try (repeat constructor); vm_compute; reflexivity. Qed.
