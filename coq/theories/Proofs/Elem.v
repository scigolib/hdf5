(* Element encoders / decoders: round trips of integers (int_roundtrip; the wrong signedness), float bit patterns and
   fixed-length strings; then the integer -> binary64 widening: its three fields (unpack, f64_fields_of_N) and exactness
   below 2^53 (f64_of_N_exact, f64_of_Z_exact). *)
From HV Require Import Base.Prelude Base.Bytes Model.Elem.

Local Open Scope N_scope.

Lemma length_le n v : length (le n v) = n.
Proof. exact (Bytes.length_le n v). Qed.

Lemma unle_le n : forall v, unle (le n v) = v mod 2 ^ (8 * N.of_nat n).
Proof. intros v. rewrite Bytes.unle_le. change 256 with (2 ^ 8). now rewrite <- N.pow_mul_r. Qed.

Lemma unle_firstn_le n v : v < 2 ^ (8 * N.of_nat n) -> unle (firstn n (le n v)) = v.
Proof. intros. rewrite firstn_all2 by (rewrite length_le; lia). rewrite unle_le. now apply N.mod_small. Qed.

Lemma wbits_pow w : (2 ^ wbits w = Z.of_N (2 ^ (8 * N.of_nat w)))%Z.
Proof. unfold wbits. rewrite N2Z.inj_pow. f_equal. lia. Qed.

Lemma dec_enc_raw w v :
  Z.of_N (unle (firstn w (enc_int w v))) = (v mod 2 ^ wbits w)%Z.
Proof.
  assert (H : (0 < 2 ^ wbits w)%Z) by (apply Z.pow_pos_nonneg; unfold wbits; lia).
  pose proof (Z.mod_pos_bound v _ H) as B.
  unfold enc_int. rewrite wbits_pow in *. rewrite unle_firstn_le; lia.
Qed.

Lemma int_roundtrip w signed v : (0 < w)%nat -> in_range w signed v ->
  dec_int w signed (enc_int w v) = v.
Proof.
  intros Hw Hr. unfold dec_int. rewrite dec_enc_raw.
  assert (HM : (2 ^ wbits w = 2 * 2 ^ (wbits w - 1))%Z).
  { rewrite <- Z.pow_succ_r by (unfold wbits; lia). f_equal. lia. }
  assert (HH : (0 < 2 ^ (wbits w - 1))%Z) by (apply Z.pow_pos_nonneg; unfold wbits; lia).
  set (M := (2 ^ wbits w)%Z) in *. set (H := (2 ^ (wbits w - 1))%Z) in *.
  unfold in_range in Hr. destruct signed; cbn [andb].
  - destruct (Z_lt_le_dec v 0).
    + assert (E : (v mod M = v + M)%Z) by (symmetry; apply (Z.mod_unique v M (-1)); lia).
      rewrite E. replace (H <=? v + M)%Z with true by lia. lia.
    + rewrite Z.mod_small by lia. replace (H <=? v)%Z with false by lia. reflexivity.
  - apply Z.mod_small. lia.
Qed.

(* unsigned values with the top bit set are not read as negative *)
Lemma unsigned_nonneg w v : (0 < w)%nat -> in_range w false v -> (0 <= dec_int w false (enc_int w v))%Z.
Proof. intros. rewrite int_roundtrip by auto. unfold in_range in *. lia. Qed.

(* the same bytes read with the wrong signedness differ exactly when the top bit is set *)
Lemma signed_read_of_unsigned_any w v : in_range w false v ->
  dec_int w true (enc_int w v) = if (2 ^ (wbits w - 1) <=? v)%Z then (v - 2 ^ wbits w)%Z else v.
Proof.
  intros Hr. unfold dec_int. rewrite dec_enc_raw. unfold in_range in Hr.
  rewrite Z.mod_small by lia. reflexivity.
Qed.
Lemma signed_read_of_unsigned w v : (0 < w)%nat -> in_range w false v ->
  dec_int w true (enc_int w v) = if (2 ^ (wbits w - 1) <=? v)%Z then (v - 2 ^ wbits w)%Z else v.
Proof. intros _. apply signed_read_of_unsigned_any. Qed.

Lemma f64_roundtrip bits : bits < 2 ^ 64 -> to_f64_f64 (enc_f64 bits) = bits.
Proof. apply (unle_firstn_le 8). Qed.
Lemma f32_bits_roundtrip bits : bits < 2 ^ 32 -> unle (firstn 4 (enc_f32 bits)) = bits.
Proof. apply (unle_firstn_le 4). Qed.

Lemma until_nul_app_zeros s k : until_nul (s ++ repeat 0 k) = until_nul s.
Proof.
  induction s; cbn [app until_nul].
  - destruct k; reflexivity.
  - destruct (a =? 0); auto. f_equal. auto.
Qed.

Lemma string_roundtrip n s : dec_string n (enc_string n s) = until_nul (firstn n s).
Proof.
  unfold dec_string, enc_string. destruct (Nat.leb n (length s)) eqn:E.
  - apply Nat.leb_le in E. rewrite firstn_firstn, Nat.min_id. reflexivity.
  - apply Nat.leb_gt in E.
    rewrite firstn_all2 by (rewrite app_length, repeat_length; lia).
    rewrite until_nul_app_zeros. rewrite firstn_all2 by lia. reflexivity.
Qed.

Lemma length_enc_string n s : length (enc_string n s) = n.
Proof.
  unfold enc_string. destruct (Nat.leb n (length s)) eqn:E.
  - apply Nat.leb_le in E. rewrite firstn_length. lia.
  - apply Nat.leb_gt in E. rewrite app_length, repeat_length. lia.
Qed.

Lemma string_roundtrip_exact n s : (length s <= n)%nat -> Forall (fun b => b <> 0) s ->
  dec_string n (enc_string n s) = s.
Proof.
  intros Hl Hs. rewrite string_roundtrip. unfold bytes, byte in *. rewrite firstn_all2 by lia.
  induction Hs; cbn [until_nul]; auto.
  replace (x =? 0) with false by lia. f_equal. apply IHHs. cbn [length] in Hl. lia.
Qed.

(* the three fields of sign * 2^63 + e * 2^52 + f, with P for 2^52 *)
Lemma unpack P S e f : e < 2048 -> f < P ->
  let b := S * (2048 * P) + (e * P + f) in
  b / (2048 * P) = S /\ (b / P) mod 2048 = e /\ b mod P = f.
Proof.
  intros He Hf b.
  assert (Eq : b / P = S * 2048 + e) by (symmetry; apply (N.div_unique b P _ f); [exact Hf | unfold b; lia]).
  repeat split; symmetry.
  - apply (N.div_unique b _ _ (e * P + f)); [nia | unfold b; lia].
  - rewrite Eq. apply (N.mod_unique _ 2048 S); [exact He | lia].
  - apply (N.mod_unique b P (S * 2048 + e)); [exact Hf | unfold b; lia].
Qed.

(* m is shifted left until its top bit is bit 52; the exponent field records the shift; a sign bit on top changes
   the sign field only *)
Lemma f64_fields_of_N (s : bool) m : 0 < m < 2 ^ 53 ->
  f64_fields ((if s then 2 ^ 63 else 0) + f64_of_N m)
  = (s, m * 2 ^ (52 - N.log2 m), (Z.of_N (N.log2 m) - 52)%Z).
Proof.
  intros [Hm0 Hm]. unfold f64_fields, f64_of_N. replace (m =? 0) with false by lia.
  pose proof (N.log2_spec m Hm0) as [Hlo Hhi]. rewrite N.pow_succ_r' in Hhi.
  apply N.log2_lt_pow2 in Hm; [|exact Hm0].
  set (l := N.log2 m) in *. replace (l <=? 52) with true by lia.
  assert (HP : 2 ^ l * 2 ^ (52 - l) = 2 ^ 52) by (rewrite <- N.pow_add_r; f_equal; lia).
  change (2 ^ 63) with (2048 * 2 ^ 52).
  set (q := 2 ^ (52 - l)) in *. set (P := 2 ^ 52) in *.
  assert (H1 : P <= m * q < 2 * P) by nia. clearbody q P. clear Hlo Hhi HP.
  replace (if s then 2048 * P else 0) with ((if s then 1 else 0) * (2048 * P)) by (destruct s; lia).
  destruct (unpack P (if s then 1 else 0) (1023 + l) (m * q - P)) as (-> & -> & ->); [lia | lia |].
  replace (1023 + l =? 0) with false by lia.
  destruct s; cbn [N.eqb negb]; (f_equal; [f_equal; lia | lia]).
Qed.

(* the documented widening is exact up to 2^53 *)
Lemma f64_of_N_exact m : 0 < m < 2 ^ 53 ->
  f64_fields (f64_of_N m) = (false, m * 2 ^ (52 - N.log2 m), (Z.of_N (N.log2 m) - 52)%Z).
Proof. exact (f64_fields_of_N false m). Qed.

Lemma f64_of_Z_exact z : (0 < Z.abs z < 2 ^ 53)%Z ->
  f64_fields (f64_of_Z z)
  = ((z <? 0)%Z, Z.to_N (Z.abs z) * 2 ^ (52 - N.log2 (Z.to_N (Z.abs z))),
     (Z.of_N (N.log2 (Z.to_N (Z.abs z))) - 52)%Z).
Proof.
  intros H. unfold f64_of_Z.
  assert (Hm : 0 < Z.to_N (Z.abs z) < 2 ^ 53) by (change (2 ^ 53) with (Z.to_N (2 ^ 53)); lia).
  destruct (z <? 0)%Z eqn:Ez.
  - replace (Z.to_N (- z)) with (Z.to_N (Z.abs z)) by lia. exact (f64_fields_of_N true _ Hm).
  - replace (Z.to_N z) with (Z.to_N (Z.abs z)) by lia. exact (f64_fields_of_N false _ Hm).
Qed.
