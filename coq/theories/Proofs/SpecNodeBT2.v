(* C05, node level: the writer's version 2 B-tree encoders (Model/BT2.v encode_header / encode_leaf, the transcription of
   internal/structures/btreev2_write.go encodeHeader / encodeLeafNode that C14 ties on every run) against the format
   SPECIFICATION decoders Spec/FormatNode.v spec_dec_bt2hdr / spec_dec_bt2leaf (III.A.2).

   For every header whose fields fit their widths and satisfy the specification's sanity clauses, and every leaf of
   well-formed 11-byte records, the specification decoder returns exactly the fields / records the encoder was given; the only
   departure is the checksum algorithm (CRC-32 where the specification demands lookup3: listed C05-btree2-crc32).  The strict
   decoder accepts exactly when the two algorithms happen to agree on the covered bytes.  Composed with the invariant of
   Proofs/BT2.v: this holds for the header and leaf of EVERY state reachable by a history of the write API (any rebalancing
   mode), which in addition always has type 5 and record size 11 (the fact behind C05-btree2-attr-type-5). *)
From HV Require Import Base.Prelude Base.Outcome Base.Bytes Base.Crc32 Spec.Lookup3 Spec.Parse Spec.Format Spec.FormatNode
  Proofs.SpecSuper.
From HV Require Model.BT2 Proofs.BT2.
Module MB := HV.Model.BT2.
Module PB := HV.Proofs.BT2.

Definition spec_hdr (h : MB.hdr) : bt2hdr_spec :=
  {| b2_type := MB.h_type h; b2_nodesize := MB.h_node_size h; b2_recsize := MB.h_rec_size h; b2_depth := MB.h_depth h;
     b2_split := MB.h_split h; b2_merge := MB.h_merge h; b2_root := MB.h_root h; b2_nroot := MB.h_nroot h;
     b2_total := MB.h_total h |}.

(* the deviation of a checksummed v2 B-tree structure whose covered bytes are [body] *)
Definition bt2_tags (body : bytes) : list tag := if crc32 body =? hashlittle body 0 then [] else [T_btree2_crc32].

(* the specification's sanity clauses on header fields (the two guards of spec_dec_bt2hdr) *)
Definition hdr_g1 (h : MB.hdr) : bool :=
  (0 <? MB.h_split h) && (MB.h_split h <=? 100) && (MB.h_merge h <=? 100) && (0 <? MB.h_rec_size h).
Definition hdr_g2 (h : MB.hdr) : bool :=
  if MB.h_depth h =? 0 then (MB.h_total h =? MB.h_nroot h) && (10 + MB.h_nroot h * MB.h_rec_size h <=? MB.h_node_size h)
  else MB.h_nroot h <=? MB.h_total h.
Definition hdr_spec_ok (h : MB.hdr) : bool := hdr_g1 h && hdr_g2 h.

Lemma enc_addr_le osz v : PB.osz_ok osz -> MB.enc_addr osz v = le osz v.
Proof. intros [-> | [-> | [-> | ->]]]; reflexivity. Qed.

Lemma spec_bt2hdr_body tol osz h (tail : list N) :
  PB.osz_ok osz -> PB.hdr_fits osz h -> hdr_spec_ok h = true ->
  spec_dec_bt2hdr tol osz 8 (MB.hdr_body osz h ++ tail) =
    ('(stored, r) <- p_u 4 tail;;
     tg <- check_sum tol T_btree2_crc32 (MB.hdr_body osz h) stored;;
     Ok (spec_hdr h, tg, r)).
Proof.
  intros Ho (F1 & F2 & F3 & F4 & F5 & F6 & F7 & F8 & F9) [G1 G2]%andb_true_iff.
  unfold spec_dec_bt2hdr. set (bs := MB.hdr_body osz h ++ tail) at 2.
  unfold MB.hdr_body at 1. rewrite (enc_addr_le osz _ Ho). change MB.sig_hdr with bthd_sig. rewrite <- !app_assoc.
  parse p_expect_app. parse p_byte_cons. parse guard_Ok. parse p_byte_cons.
  do 3 parse p_u_le. do 2 parse p_byte_cons. do 3 parse p_u_le. unfold bs. rewrite consumed_app.
  destruct (p_u 4 tail) as [[stored r]| |]; [|reflexivity..]. rewrite !obind_Ok.
  destruct (check_sum tol T_btree2_crc32 (MB.hdr_body osz h) stored); [|reflexivity..]. rewrite !obind_Ok.
  unfold hdr_g1 in G1. unfold hdr_g2 in G2. now rewrite G1, G2.
Qed.

Theorem spec_bt2hdr tol osz s :
  PB.osz_ok osz -> PB.hdr_fits osz (MB.header s) -> hdr_spec_ok (MB.header s) = true ->
  spec_dec_bt2hdr tol osz 8 (MB.encode_header osz s) =
    (tg <- check_sum tol T_btree2_crc32 (MB.hdr_body osz (MB.header s)) (crc32 (MB.hdr_body osz (MB.header s)));;
     Ok (spec_hdr (MB.header s), tg, [])).
Proof.
  intros Ho Hf Hok. unfold MB.encode_header. cbv zeta.
  now rewrite spec_bt2hdr_body, p_u_le_end by (assumption || apply crc32_lt).
Qed.

Corollary spec_bt2hdr_tolerant osz s :
  PB.osz_ok osz -> PB.hdr_fits osz (MB.header s) -> hdr_spec_ok (MB.header s) = true ->
  spec_dec_bt2hdr tolerant osz 8 (MB.encode_header osz s) =
    Ok (spec_hdr (MB.header s), bt2_tags (MB.hdr_body osz (MB.header s)), []).
Proof.
  intros Ho Hf Hok. rewrite spec_bt2hdr, check_sum_of_crc by assumption. unfold bt2_tags.
  now destruct (crc32 _ =? hashlittle _ 0).
Qed.

Corollary spec_bt2hdr_strict osz s :
  PB.osz_ok osz -> PB.hdr_fits osz (MB.header s) -> hdr_spec_ok (MB.header s) = true ->
  spec_dec_bt2hdr strict osz 8 (MB.encode_header osz s) =
    match bt2_tags (MB.hdr_body osz (MB.header s)) with [] => Ok (spec_hdr (MB.header s), [], []) | _ => Err end.
Proof.
  intros Ho Hf Hok. rewrite spec_bt2hdr, check_sum_of_crc by assumption. unfold bt2_tags.
  now destruct (crc32 _ =? hashlittle _ 0).
Qed.

(* the record loop of spec_dec_bt2leaf, named *)
Definition go_recs (recsize : nat) : nat -> bytes -> outcome (list bytes * bytes) :=
  fix go (k : nat) (bs : bytes) : outcome (list bytes * bytes) :=
    match k with
    | O => Ok ([], bs)
    | S k' => '(x, r) <- p_take recsize bs;; '(xs, r) <- go k' r;; Ok (x :: xs, r)
    end.

Lemma bt2leaf_unfold tol btype nrec recsize bs :
  spec_dec_bt2leaf tol btype nrec recsize bs =
    ('(_, r) <- p_expect btlf_sig bs;;
     '(v, r) <- p_byte r;; _ <- guard (v =? 0);;
     '(t, r) <- p_byte r;; _ <- guard (t =? btype);;
     '(recs, r) <- go_recs recsize nrec r;;
     let covered := consumed bs r in
     '(stored, r) <- p_u 4 r;;
     tg <- check_sum tol T_btree2_crc32 covered stored;;
     Ok (recs, tg)).
Proof. reflexivity. Qed.

Lemma go_recs_enc rs (r : list N) :
  Forall PB.rec_wf rs -> go_recs 11 (length rs) (flat_map MB.enc_rec rs ++ r) = Ok (map MB.enc_rec rs, r).
Proof.
  induction 1 as [|x rs Hx Hrs IH]; [reflexivity|].
  cbn [length flat_map map go_recs]. rewrite <- app_assoc.
  now rewrite p_take_app, obind_Ok, IH by (apply PB.enc_rec_length, Hx).
Qed.

Lemma spec_bt2leaf_body tol ty rs (tail : list N) :
  Forall PB.rec_wf rs ->
  spec_dec_bt2leaf tol ty (length rs) 11 (MB.leaf_body ty rs ++ tail) =
    ('(stored, r) <- p_u 4 tail;;
     tg <- check_sum tol T_btree2_crc32 (MB.leaf_body ty rs) stored;;
     Ok (map MB.enc_rec rs, tg)).
Proof.
  intros Hrs. rewrite bt2leaf_unfold. set (bs := MB.leaf_body ty rs ++ tail) at 2.
  unfold MB.leaf_body at 1. change MB.sig_leaf with btlf_sig. rewrite <- !app_assoc.
  parse p_expect_app. parse p_byte_cons. parse guard_Ok. parse p_byte_cons. parse guard_Ok by apply N.eqb_refl.
  rewrite go_recs_enc, obind_Ok by assumption. unfold bs. now rewrite consumed_app.
Qed.

(* [rest] = the unused remainder of the node (the node is node-size bytes on disk; the decoder ignores what follows the checksum) *)
Theorem spec_bt2leaf tol s (rest : list N) :
  Forall PB.rec_wf (MB.leaf_recs s) ->
  spec_dec_bt2leaf tol (MB.leaf_type s) (length (MB.leaf_recs s)) 11 (MB.encode_leaf s ++ rest) =
    (tg <- check_sum tol T_btree2_crc32 (MB.leaf_body (MB.leaf_type s) (MB.leaf_recs s))
                     (crc32 (MB.leaf_body (MB.leaf_type s) (MB.leaf_recs s)));;
     Ok (map MB.enc_rec (MB.leaf_recs s), tg)).
Proof.
  intros Hrs. unfold MB.encode_leaf. cbv zeta.
  now rewrite <- app_assoc, spec_bt2leaf_body, p_u_le by (assumption || apply crc32_lt).
Qed.

Corollary spec_bt2leaf_tolerant s (rest : list N) :
  Forall PB.rec_wf (MB.leaf_recs s) ->
  spec_dec_bt2leaf tolerant (MB.leaf_type s) (length (MB.leaf_recs s)) 11 (MB.encode_leaf s ++ rest) =
    Ok (map MB.enc_rec (MB.leaf_recs s), bt2_tags (MB.leaf_body (MB.leaf_type s) (MB.leaf_recs s))).
Proof.
  intros Hrs. rewrite spec_bt2leaf, check_sum_of_crc by exact Hrs. unfold bt2_tags.
  now destruct (crc32 _ =? hashlittle _ 0).
Qed.

Corollary spec_bt2leaf_strict s (rest : list N) :
  Forall PB.rec_wf (MB.leaf_recs s) ->
  spec_dec_bt2leaf strict (MB.leaf_type s) (length (MB.leaf_recs s)) 11 (MB.encode_leaf s ++ rest) =
    match bt2_tags (MB.leaf_body (MB.leaf_type s) (MB.leaf_recs s)) with
    | [] => Ok (map MB.enc_rec (MB.leaf_recs s), []) | _ => Err end.
Proof.
  intros Hrs. rewrite spec_bt2leaf, check_sum_of_crc by exact Hrs. unfold bt2_tags.
  now destruct (crc32 _ =? hashlittle _ 0).
Qed.

(* every record the decoder returns is the 4-byte name hash followed by the 7-byte heap id the encoder was given *)
Lemma enc_rec_fields r : MB.enc_rec r = le 4 (fst r) ++ snd r.
Proof. reflexivity. Qed.

(* constants NewWritableBTreeV2 puts in the header; no operation (and no reload of what the writer wrote) changes them *)
Definition hconst (s : MB.bt2) : Prop :=
  MB.h_rec_size (MB.header s) = 11 /\ MB.h_split (MB.header s) = 100 /\ MB.h_merge (MB.header s) = 40.

Lemma step_hconst c w o : PB.cfg_ok c -> MB.c_mode c = MB.MOff -> PB.winv c w ->
  (PB.is_store o = true -> MB.next w < PB.lim c) -> hconst (MB.bt w) -> hconst (MB.bt (fst (MB.step c w o))).
Proof.
  intros Hc Hm I Hb H.
  destruct o as [n v|n v|n|n|n| | | |].
  - cbn [MB.step]. unfold MB.insert_record.
    destruct (MB.find_index (MB.recs (MB.bt w)) (MB.jenkins n) 0); [exact H|].
    destruct (MB.max_records (MB.node_size (MB.bt w)) <=? N.of_nat (length (MB.recs (MB.bt w)))); exact H.
  - cbn [MB.step]. unfold MB.update_record.
    destruct (MB.find_index (MB.recs (MB.bt w)) (MB.jenkins n) 0); exact H.
  - exact H.
  - exact H.
  - cbn [MB.step]. rewrite Hm, PB.delete_off. unfold MB.remove_record.
    destruct (MB.find_index (MB.recs (MB.bt w)) (MB.jenkins n) 0); exact H.
  - rewrite PB.storeload_ok by (try assumption; apply Hb; reflexivity). exact H.
  - destruct (N.eq_dec (MB.loaded_hdr (MB.bt w)) 0) as [Z|Z]; [rewrite PB.rewrite_refused by exact Z; exact H|].
    rewrite PB.rewrite_ok by assumption. exact H.
  - destruct (N.eq_dec (MB.loaded_hdr (MB.bt w)) 0) as [Z|Z]; [rewrite PB.writeat_refused by exact Z; exact H|].
    rewrite PB.writeat_ok by exact Z. exact H.
  - rewrite PB.store_ok. exact H.
Qed.

Lemma run_from_hconst c : PB.cfg_ok c -> MB.c_mode c = MB.MOff -> forall ops w,
  PB.winv c w -> MB.next w + N.of_nat (PB.count_stores ops) * (PB.ns_of c + PB.hsz c) <= PB.lim c ->
  hconst (MB.bt w) -> hconst (MB.bt (fst (MB.run_from c w ops))).
Proof.
  intros Hc Hm. induction ops as [|o ops IH]; intros w I B H; cbn [MB.run_from]; [exact H|].
  assert (Hb : PB.is_store o = true -> MB.next w < PB.lim c).
  { intro E. cbn [PB.count_stores] in B. rewrite E in B. unfold PB.hsz, MB.hdr_size in *. lia. }
  pose proof (PB.step_winv c w o Hc Hm I Hb) as I1.
  pose proof (PB.step_next c w o Hc Hm I Hb) as N1.
  pose proof (step_hconst c w o Hc Hm I Hb H) as H1.
  destruct (MB.step c w o) as [w1 r1]. cbn [fst] in *.
  assert (B1 : MB.next w1 + N.of_nat (PB.count_stores ops) * (PB.ns_of c + PB.hsz c) <= PB.lim c).
  { rewrite N1. cbn [PB.count_stores] in B. destruct (PB.is_store o); lia. }
  specialize (IH w1 I1 B1 H1).
  destruct (MB.run_from c w1 ops) as [w2 rs2]. exact IH.
Qed.

Lemma reachable_hconst c ops : PB.cfg_ok c -> PB.addr_ok c ops ->
  PB.st_wf (PB.strip_bt (MB.bt (fst (MB.run c ops)))) /\ hconst (MB.bt (fst (MB.run c ops))).
Proof.
  intros Hc Ha. split; [now apply PB.reachable_wf|].
  destruct (PB.mode_irrelevant_strip c ops) as [A _].
  assert (H : hconst (MB.bt (fst (MB.run (PB.cfg_off c) ops)))).
  { unfold MB.run. apply run_from_hconst; [exact Hc | reflexivity | apply PB.init_winv; [exact Hc | reflexivity] | |].
    - unfold MB.init. cbn [MB.next]. exact Ha.
    - unfold MB.init, PB.cfg_off. cbn [MB.c_mode MB.setup_mode MB.bt]. repeat split. }
  rewrite <- A in H. exact H.
Qed.

Lemma st_wf_spec osz s root : PB.st_wf s -> hconst s -> root < 256 ^ N.of_nat osz ->
  PB.hdr_fits osz (MB.header (MB.with_root s root)) /\ hdr_spec_ok (MB.header (MB.with_root s root)) = true /\
  Forall PB.rec_wf (MB.leaf_recs s) /\ MB.leaf_type s = 5 /\
  MB.h_type (MB.header s) = 5 /\ MB.h_rec_size (MB.header s) = 11 /\ MB.h_depth (MB.header s) = 0 /\
  MB.h_nroot (MB.header s) = N.of_nat (length (MB.leaf_recs s)) /\ MB.h_total (MB.header s) = N.of_nat (length (MB.leaf_recs s)).
Proof.
  intros (W1 & W2 & W3 & W4 & W5 & W6 & W7 & W8 & W9 & W10 & W11 & W12 & W13) (K1 & K2 & K3) Hroot.
  pose proof W3 as (C1 & C2 & C3).
  cbn [MB.with_root MB.header].
  split; [|split; [|rewrite W11; repeat split; assumption]].
  - unfold PB.hdr_fits, MB.set_root.
    cbn [MB.h_type MB.h_node_size MB.h_rec_size MB.h_depth MB.h_split MB.h_merge MB.h_root MB.h_nroot MB.h_total].
    rewrite W1, W2, W5, W8, W9. repeat split; try assumption; lia.
  - unfold hdr_spec_ok, hdr_g1, hdr_g2, MB.set_root.
    cbn [MB.h_type MB.h_node_size MB.h_rec_size MB.h_depth MB.h_split MB.h_merge MB.h_root MB.h_nroot MB.h_total].
    rewrite K1, K2, K3, W2, W5, W8, W9. change (0 =? 0) with true. cbv iota. rewrite N.eqb_refl.
    rewrite (PB.max_records_eq _ C1 C2) in W10.
    replace (10 + N.of_nat (length (MB.recs s)) * 11 <=? MB.node_size s) with true; [reflexivity|].
    symmetry. apply N.leb_le. lia.
Qed.

(* After ANY history of the write API (any rebalancing mode, addresses within the offset size): the header the writer
   encodes for the state (with any root address that fits) and its leaf are accepted by the tolerant specification decoder,
   which returns the state's fields / records and the tag set bt2_tags; the strict decoder accepts iff that set is empty. *)
Theorem spec_bt2_reachable c ops root (rest : list N) :
  PB.cfg_ok c -> PB.addr_ok c ops -> root < 256 ^ N.of_nat (MB.c_osz c) ->
  let s := MB.bt (fst (MB.run c ops)) in
  let h := MB.header (MB.with_root s root) in
  spec_dec_bt2hdr tolerant (MB.c_osz c) 8 (MB.encode_header (MB.c_osz c) (MB.with_root s root)) =
    Ok (spec_hdr h, bt2_tags (MB.hdr_body (MB.c_osz c) h), []) /\
  spec_dec_bt2hdr strict (MB.c_osz c) 8 (MB.encode_header (MB.c_osz c) (MB.with_root s root)) =
    match bt2_tags (MB.hdr_body (MB.c_osz c) h) with [] => Ok (spec_hdr h, [], []) | _ => Err end /\
  spec_dec_bt2leaf tolerant 5 (length (MB.leaf_recs s)) 11 (MB.encode_leaf s ++ rest) =
    Ok (map MB.enc_rec (MB.leaf_recs s), bt2_tags (MB.leaf_body 5 (MB.leaf_recs s))) /\
  spec_dec_bt2leaf strict 5 (length (MB.leaf_recs s)) 11 (MB.encode_leaf s ++ rest) =
    match bt2_tags (MB.leaf_body 5 (MB.leaf_recs s)) with [] => Ok (map MB.enc_rec (MB.leaf_recs s), []) | _ => Err end /\
  b2_type (spec_hdr h) = 5 /\ b2_recsize (spec_hdr h) = 11 /\ b2_depth (spec_hdr h) = 0 /\
  b2_root (spec_hdr h) = root /\
  b2_nroot (spec_hdr h) = N.of_nat (length (MB.leaf_recs s)) /\ b2_total (spec_hdr h) = N.of_nat (length (MB.leaf_recs s)).
Proof.
  intros Hc Ha Hroot s h.
  destruct (reachable_hconst c ops Hc Ha) as (W & K). fold s in W, K.
  destruct Hc as [Ho Hcap].
  destruct (st_wf_spec (MB.c_osz c) (PB.strip_bt s) root W K Hroot) as (Hf & Hok & Hrs & Hty & T1 & T2 & T3 & T4 & T5).
  change (MB.header (MB.with_root (PB.strip_bt s) root)) with h in Hf, Hok.
  change (MB.leaf_recs (PB.strip_bt s)) with (MB.leaf_recs s) in *.
  change (MB.leaf_type (PB.strip_bt s)) with (MB.leaf_type s) in Hty.
  change (MB.header (PB.strip_bt s)) with (MB.header s) in *.
  split; [|split; [|split; [|split]]].
  - now apply spec_bt2hdr_tolerant.
  - now apply spec_bt2hdr_strict.
  - rewrite <- Hty. now apply spec_bt2leaf_tolerant.
  - rewrite <- Hty. now apply spec_bt2leaf_strict.
  - subst h. cbn [MB.with_root MB.header spec_hdr MB.set_root b2_type b2_recsize b2_depth b2_root b2_nroot b2_total
                  MB.h_type MB.h_rec_size MB.h_depth MB.h_root MB.h_nroot MB.h_total].
    repeat split; assumption.
Qed.

(* WriteToFile from any state of the invariant: what ReadAt returns at the header address / the root node address recorded in
   the header are exactly the encodings of the state, so the file's bytes decode under the specification decoder *)
Lemma store_on_disk c w : PB.cfg_ok c -> PB.winv c w ->
  let w1 := fst (MB.step c w MB.OStore) in
  MB.read_at (MB.fil w1) (MB.next w + MB.node_size (MB.bt w)) (MB.hdr_size (MB.c_osz c))
    = Some (MB.encode_header (MB.c_osz c) (MB.bt w1)) /\
  MB.read_at (MB.fil w1) (MB.h_root (MB.header (MB.bt w1))) (length (MB.encode_leaf (MB.bt w1)))
    = Some (MB.encode_leaf (MB.bt w1)) /\
  MB.bt w1 = MB.with_root (MB.bt w) (MB.next w).
Proof.
  intros [Ho Hcap] I. pose proof I as (W & Hn & _).
  pose proof W as (W1 & W2 & W3 & W4 & W5 & W6 & W7 & W8 & W9 & W10 & W11 & W12 & W13).
  rewrite PB.store_ok. cbn [fst MB.fil MB.bt].
  split; [|split; [|reflexivity]].
  - rewrite <- (PB.encode_header_length (MB.c_osz c) (MB.with_root (MB.bt w) (MB.next w)) Ho).
    apply PB.read_write_same.
  - change (MB.encode_leaf (MB.with_root (MB.bt w) (MB.next w))) with (MB.encode_leaf (MB.bt w)).
    change (MB.h_root (MB.header (MB.with_root (MB.bt w) (MB.next w)))) with (MB.next w).
    assert (Hll : length (MB.encode_leaf (MB.bt w)) = (4 + 1 + 1 + length (MB.recs (MB.bt w)) * 11 + 4)%nat).
    { rewrite PB.encode_leaf_length; rewrite W11; [reflexivity | exact W13]. }
    pose proof (PB.cap_fits _ _ W3 W10) as Hfit.
    rewrite PB.read_write_below.
    + pose proof (PB.read_write_same (MB.fil w) (MB.next w) (MB.encode_leaf (MB.bt w))) as R.
      apply PB.read_at_some in R. rewrite <- R. reflexivity.
    + rewrite Hll. lia.
    + rewrite PB.write_at_length. lia.
Qed.

Theorem spec_bt2_on_disk c w (root_rest : list N) : PB.cfg_ok c -> PB.winv c w -> hconst (MB.bt w) -> MB.next w < PB.lim c ->
  let w1 := fst (MB.step c w MB.OStore) in
  let s := MB.bt w1 in
  exists hb lb,
    MB.read_at (MB.fil w1) (MB.next w + MB.node_size (MB.bt w)) (MB.hdr_size (MB.c_osz c)) = Some hb /\
    spec_dec_bt2hdr tolerant (MB.c_osz c) 8 hb =
      Ok (spec_hdr (MB.header s), bt2_tags (MB.hdr_body (MB.c_osz c) (MB.header s)), []) /\
    MB.read_at (MB.fil w1) (b2_root (spec_hdr (MB.header s))) (length (MB.encode_leaf s)) = Some lb /\
    spec_dec_bt2leaf tolerant (b2_type (spec_hdr (MB.header s))) (N.to_nat (b2_nroot (spec_hdr (MB.header s)))) 11 lb =
      Ok (map MB.enc_rec (MB.leaf_recs s), bt2_tags (MB.leaf_body 5 (MB.leaf_recs s))).
Proof.
  intros Hc I K Hlim w1 s.
  destruct (store_on_disk c w Hc I) as (R1 & R2 & Es). fold w1 in R1, R2, Es. fold s in R1, R2, Es.
  destruct I as (W & _). destruct Hc as [Ho Hcap].
  destruct (st_wf_spec (MB.c_osz c) (MB.bt w) (MB.next w) W K Hlim) as (Hf & Hok & Hrs & Hty & T1 & T2 & T3 & T4 & T5).
  rewrite <- Es in Hf, Hok.
  assert (Hlr : MB.leaf_recs s = MB.leaf_recs (MB.bt w)) by (rewrite Es; reflexivity).
  assert (Hlt : MB.leaf_type s = 5) by (rewrite Es; exact Hty).
  exists (MB.encode_header (MB.c_osz c) s), (MB.encode_leaf s).
  split; [exact R1|]. split; [now apply spec_bt2hdr_tolerant|]. split; [exact R2|].
  assert (Hty' : b2_type (spec_hdr (MB.header s)) = 5) by (rewrite Es; exact T1).
  assert (Hn' : N.to_nat (b2_nroot (spec_hdr (MB.header s))) = length (MB.leaf_recs s)).
  { rewrite Es. cbn [spec_hdr b2_nroot MB.with_root MB.header MB.set_root MB.h_nroot MB.leaf_recs]. rewrite T4. apply Nat2N.id. }
  rewrite Hty', Hn', <- Hlt, <- (app_nil_r (MB.encode_leaf s)).
  apply spec_bt2leaf_tolerant. rewrite Hlr. exact Hrs.
Qed.

(* witnesses: the hypotheses are satisfiable, the tags occur *)
Definition ex_cfg : MB.cfg := MB.mkCfg MB.MOff 8 512.
Definition ex_ops : list MB.op := [MB.OInsert [97; 98] 5; MB.OInsert [99] 7].
Definition ex_bt : MB.bt2 := MB.bt (fst (MB.run ex_cfg ex_ops)).

Lemma ex_cfg_ok : PB.cfg_ok ex_cfg /\ PB.addr_ok ex_cfg ex_ops.
Proof.
  split; [split|].
  - right. right. right. reflexivity.
  - unfold PB.cap_ok. vm_compute. repeat split; intro; discriminate.
  - unfold PB.addr_ok. vm_compute. intro; discriminate.
Qed.

(* C05-btree2-crc32, refuted on a concrete reachable tree: strict rejects header and leaf, tolerant reports exactly that tag *)
Lemma bt2_crc32_refuted :
  length (MB.leaf_recs ex_bt) = 2%nat /\
  spec_dec_bt2hdr strict 8 8 (MB.encode_header 8 (MB.with_root ex_bt 64)) = Err /\
  snd (fst (match spec_dec_bt2hdr tolerant 8 8 (MB.encode_header 8 (MB.with_root ex_bt 64)) with
            | Ok x => x | _ => (spec_hdr (MB.header ex_bt), [], []) end)) = [T_btree2_crc32] /\
  spec_dec_bt2leaf strict 5 2 11 (MB.encode_leaf ex_bt) = Err /\
  spec_dec_bt2leaf tolerant 5 2 11 (MB.encode_leaf ex_bt) = Ok (map MB.enc_rec (MB.leaf_recs ex_bt), [T_btree2_crc32]).
Proof. vm_compute. repeat split. Qed.
