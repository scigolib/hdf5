(* C01: refinement between the two models of the chunked reader, on every file: the functions of Model/ChunkIndex.v
   (parse_node / collect / place_chunks / read_chunked_file; tied to the Go reader by tools/props/c01unit.py) and the
   reader programs of Model/IOProgReader.v (p_bt1_node / p_collect / p_chunks; tied to the same code by the I/O traces of
   C17).  chunked_branch_refines: whenever the function model succeeds on a file shorter than 2^63 bytes whose root node
   is a leaf (all the writer emits), the intact run of the program succeeds and its chunks, scattered as readChunkedData
   does (assemble_chunks, Model/FileImageChunked.v), are the model's result. *)
From HV Require Import Base.Prelude Model.Chunk Base.Outcome Base.Bytes Model.RobustTerm Model.ChunkIndex.
From HV Require Import Model.IOProg Proofs.IOProg Model.IOProgReader Model.CodecSuper Model.CodecMsg.
From HV Require Import Model.FileImage Proofs.FileImage Model.FileImageChunked.

Local Open Scope N_scope.

Lemma read_at_some f off n b : read_at f off n = Some b -> in_range f off n = true /\ b = rd f off n.
Proof.
  unfold read_at, in_range, rd. destruct (off <=? MAXINT64); [|discriminate]. cbn [andb].
  destruct (off + n <=? blen f); [|discriminate]. intros H. injection H as <-. split; reflexivity.
Qed.
Lemma run0_read_at A f off n b (k : bytes -> prog A) : read_at f off n = Some b -> run0 f (ReadAt off n k) = run0 f (k b).
Proof. intros H. apply read_at_some in H as [H ->]. now apply run0_read_in. Qed.

Lemma run0_read_bytes_at_model f off n b : blen f <= MAXI64 ->
  read_bytes_at f off n = Some b -> run0 f (p_read_bytes_at off n) = Ok b.
Proof.
  intros Hf. unfold read_bytes_at, p_read_bytes_at. destruct (n =? 0) eqn:En; [intros H; injection H as <-; reflexivity|].
  apply N.eqb_neq in En.
  destruct ((wrap64 (off + n) <? off) || (MAXINT64 <? wrap64 (off + n))); [discriminate|].
  destruct (read_at f (wrap64 (off + n) - 1) 1) as [p|] eqn:E1; [|discriminate]. intros H2.
  pose proof (read_at_some _ _ _ _ H2) as [R2 _]. unfold in_range in R2. apply N.leb_le in R2.
  replace (MAXI64 <? off + n) with false by blia.
  rewrite run0_read_in by (unfold in_range; apply N.leb_le; blia).
  now rewrite (run0_read_at _ _ _ _ _ _ H2).
Qed.

Lemma parse_coords_read_dims : forall n cs data off sc, parse_coords n cs data off = Ok sc ->
  exists co off', read_dims data 8 n off = Ok (co, off') /\ sc = scaled_of_key cs co.
Proof.
  induction n as [|n IH]; intros cs data off sc H; cbn [parse_coords read_dims] in *.
  - injection H as <-. exists [], off. split; reflexivity.
  - destruct (rd_le data off 8) as [bo| |] eqn:Eb; cbn [obind] in H; try discriminate.
    destruct cs as [|c cs']; [discriminate|]. destruct (c =? 0); [discriminate|].
    destruct (parse_coords n cs' data (off + 8)) as [r| |] eqn:Er; cbn [obind] in H; try discriminate.
    injection H as <-. destruct (IH _ _ _ _ Er) as (co & off' & E & ->).
    assert (Hl : blen data <? off + 8 = false).
    { unfold rd_le, slice in Eb. destruct ((off <=? off + 8) && (off + 8 <=? blen data)) eqn:Ec; [|discriminate].
      apply andb_true_iff in Ec as [_ Ec]. apply N.leb_le in Ec. apply N.ltb_ge. exact Ec. }
    rewrite Hl. cbn [obind]. rewrite E. cbn [obind]. exists (bo :: co), off'. split; reflexivity.
Qed.

Lemma read_address_le d : read_address d 8 = read_addr_le d 8.
Proof.
  unfold read_address, read_addr_le. cbv zeta. f_equal. rewrite firstn_firstn. f_equal. blia.
Qed.

(* an entry of the program's node against an entry of the function model's node *)
Definition ent_rel (cdims : list N) (e : N * list N * N) (kc : centry) : Prop :=
  fst (fst e) = k_nbytes (fst kc) /\ scaled_of_key cdims (snd (fst e)) = k_scaled (fst kc) /\ snd e = snd kc.

Section Refine.
Variable sb : superblock'.
Hypothesis Ho : spp_offsize sb = 8.

Lemma parse_entries_bt1_keys cdims ndims data : forall k i klen off r,
  parse_entries k i klen ndims 8 cdims data off = Ok r ->
  exists ents, bt1_keys sb (S k) ndims data off = Ok ents /\ length ents = S k /\
    Forall2 (ent_rel cdims) (removelast ents) (combine (fst r) (snd r)).
Proof.
  induction k as [|k IH]; intros i klen off r H; cbn [parse_entries bt1_keys] in *; rewrite ?Ho.
  (* the key, read the same way by both *)
  all: destruct (blen data <? off + (8 + 8 * N.of_nat ndims)); [discriminate|].
  all: destruct (rd_le data off 4) as [nb| |]; cbn [obind] in *; try discriminate.
  all: destruct (rd_le data (off + 4) 4) as [fm| |]; cbn [obind] in *; try discriminate.
  all: destruct (parse_coords ndims cdims data (off + 8)) as [sc| |] eqn:Ec; cbn [obind] in *; try discriminate.
  all: destruct (klen <=? i); [discriminate|].
  all: destruct (parse_coords_read_dims _ _ _ _ _ Ec) as (co & off' & E & ->); rewrite E; cbn [obind Nat.eqb].
  - injection H as <-. eexists. split; [reflexivity|]. cbn [length fst snd removelast combine]. repeat split; constructor.
  - destruct (blen data <? off + (8 + 8 * N.of_nat ndims) + 8); [discriminate|].
    destruct (slice_from data (off + (8 + 8 * N.of_nat ndims))) as [tl| |]; cbn [obind] in *; try discriminate.
    destruct (parse_entries k (i + 1) klen ndims 8 cdims data (off + (8 + 8 * N.of_nat ndims) + 8)) as [r'| |] eqn:Er;
      cbn [obind] in *; try discriminate.
    injection H as <-.
    destruct (IH _ _ _ _ Er) as (ents & E2 & L1 & HR).
    cbn [bt1_keys] in E2. rewrite ?Ho in E2. rewrite E2. cbn [obind].
    eexists. split; [reflexivity|]. cbn [length fst snd]. repeat split; try blia.
    destruct ents as [|e0 ents]; [discriminate|]. cbn [removelast combine]. constructor; [|exact HR].
    unfold ent_rel, k_nbytes, k_scaled. cbn [fst snd]. repeat split. symmetry. apply read_address_le.
Qed.

Lemma parse_node_refines f a cdims nd : blen f <= MAXI64 -> all_pos cdims = true ->
  parse_node true f a 8 (length cdims) cdims = Ok nd ->
  exists ents, run0 f (p_bt1_node sb a (length cdims) cdims) = Ok (n_level nd, ents) /\
    Forall2 (ent_rel cdims) ents (combine (n_keys nd) (n_children nd)).
Proof.
  intros Hf Hpos H. unfold parse_node in H. unfold p_bt1_node. rewrite Ho.
  change (8 + 8 * 2) with 24 in H. change (8 + 2 * 8) with 24.
  destruct (read_at f a 24) as [h|] eqn:Eh; [|discriminate].
  rewrite (run0_read_at _ _ _ _ _ _ Eh).
  destruct (slice h 0 4) as [sg| |] eqn:Es; cbn [obind] in H; try discriminate.
  assert (Esg : sg = firstn 4 h).
  { unfold slice in Es. destruct ((0 <=? 4) && (4 <=? blen h)); [|discriminate]. injection Es as <-. reflexivity. }
  subst sg. change SIG_TREE with [84; 82; 69; 69] in H.
  destruct (bytes_eqb (firstn 4 h) [84; 82; 69; 69]); cbn [negb] in *; [|discriminate].
  destruct (index h 4) as [ty| |]; cbn [obind] in H; try discriminate.
  destruct (index h 5) as [lv| |]; cbn [obind] in *; try discriminate.
  destruct (rd_le h 6 2) as [eu| |]; cbn [obind] in *; try discriminate.
  destruct (slice_from h 8) as [t1| |]; cbn [obind] in H; try discriminate.
  destruct (slice_from h (8 + 8)) as [t2| |]; cbn [obind] in H; try discriminate.
  cbn [lift bind fst snd].
  destruct (eu =? 0).
  - injection H as <-. cbn [n_level n_keys n_children combine]. eexists. split; [reflexivity|constructor].
  - destruct (read_bytes_at f (wrap64 (a + 24)) (eu * (8 + 8 * N.of_nat (length cdims) + 8) + (8 + 8 * N.of_nat (length cdims))))
      as [data|] eqn:Ed; [|discriminate].
    rewrite run0_bind, (run0_read_bytes_at_model _ _ _ _ Hf Ed).
    assert (Hz : existsb (N.eqb 0) (firstn (length cdims) cdims) = false).
    { rewrite firstn_all. unfold all_pos in Hpos. clear - Hpos. induction cdims as [|c r IH]; [reflexivity|].
      cbn [forallb existsb] in *. apply andb_true_iff in Hpos as [H1 H2]. apply N.ltb_lt in H1.
      replace (0 =? c) with false by blia. cbn [orb]. auto. }
    rewrite Hz.
    destruct (parse_entries (N.to_nat eu) 0 (key_slots true eu) (length cdims) 8 cdims data 0) as [r| |] eqn:Er;
      cbn [obind] in H; try discriminate.
    injection H as <-. cbn [n_level n_keys n_children].
    destruct (parse_entries_bt1_keys _ _ _ _ _ _ _ _ Er) as (ents & E2 & _ & HR).
    rewrite E2. cbn [lift bind]. eexists. split; [reflexivity|exact HR].
Qed.

Lemma place_chunks_refines f dims cdims esz : blen f <= MAXI64 -> forall chunks ents raw d,
  Forall2 (ent_rel cdims) ents chunks ->
  place_chunks f dims cdims esz chunks raw = COk d ->
  exists cs, run0 f (p_chunks ents) = Ok cs /\ scatter_chunks dims cdims esz cs raw = COk d.
Proof.
  intros Hf. induction chunks as [|[key addr] r IH]; intros ents raw d HR H; inversion HR as [|e kc ents' r' He Hr']; subst.
  - cbn [place_chunks] in H. injection H as <-. exists []. split; reflexivity.
  - destruct e as [[nb co] a]. destruct He as (E1 & E2 & E3). cbn [fst snd] in E1, E2, E3. subst nb a.
    cbn [place_chunks] in H. cbn [p_chunks].
    unfold validate_size in H. destruct (k_nbytes key =? 0) eqn:Z; cbn [negb andb] in H; [discriminate|].
    destruct (k_nbytes key <=? MAX_CHUNK) eqn:Z2; cbn [negb] in H; [|discriminate].
    apply N.leb_le in Z2. unfold MAX_CHUNK in Z2. replace (1073741824 <? k_nbytes key) with false by lia.
    cbn [orb].
    destruct (read_bytes_at f addr (k_nbytes key)) as [cd|] eqn:Erd; [|discriminate].
    rewrite run0_bind, (run0_read_bytes_at_model _ _ _ _ Hf Erd).
    rewrite <- E2 in H.
    destruct (copy_chunk_to_array cd raw (firstn (length dims) (scaled_of_key cdims co)) (firstn (length dims) cdims) dims esz)
      as [raw'|code] eqn:Ec.
    + destruct (IH _ _ _ Hr' H) as (cs & Ecs & Hs). rewrite run0_bind, Ecs. cbn [run0 run fst].
      eexists. split; [reflexivity|]. cbn [scatter_chunks]. rewrite Ec. exact Hs.
    + destruct (code =? E_RANK0); discriminate.
Qed.

(* the chunked branch of p_dataset_raw (Model/IOProgReader.v), after the three messages have been decoded: the part of
   the reader program the refinement is stated about; Proofs/FileImageChunkedRead.v shows that p_dataset_raw on a
   chunked dataset runs this branch *)
Definition chunked_branch (fuel : nat) (root : N) (cd : list N) (tb : N) : prog rawdata :=
  bind (p_bt1_node sb root (length cd) cd) (fun nd =>
  if (18446744073709551616 <=? tb) || (tb =? 0) || (1099511627776 <? tb) then Fail else
  bind (p_collect sb fuel (length cd) cd (fst nd) (snd nd) []) (fun r =>
  bind (p_chunks (fst r)) (fun cs => Ret (RawChunks cs)))).

Theorem chunked_branch_refines f root dims cdims esz d fuel :
  blen f <= MAXI64 -> all_pos cdims = true -> (0 < fuel)%nat ->
  (forall nd, parse_node true f root 8 (length cdims) cdims = Ok nd -> n_level nd = 0) ->
  read_chunked_file true f root 8 dims cdims esz = COk d ->
  exists cs, run0 f (chunked_branch fuel root cdims (total_elements dims * esz)) = Ok (RawChunks cs) /\
             assemble_chunks dims cdims esz cs = COk d.
Proof.
  intros Hf Hpos Hfu Hlv H. unfold read_chunked_file in H.
  destruct (Nat.ltb (length cdims) (length dims)); [discriminate|].
  destruct (parse_node true f root 8 (length cdims) cdims) as [nd| |] eqn:En; try discriminate.
  specialize (Hlv nd eq_refl).
  destruct (negb (total_elements dims =? 0) && negb (esz =? 0) && (U64MAX / esz <? total_elements dims)); [discriminate|].
  set (tb := total_elements dims * esz) in *.
  unfold validate_size in H. destruct (tb =? 0) eqn:Z; cbn [negb andb] in H; [discriminate|].
  destruct (tb <=? MAX_CHUNK * 1024) eqn:Z2; cbn [negb] in H; [|discriminate].
  apply N.leb_le in Z2. unfold MAX_CHUNK in Z2.
  unfold collect_all_chunks in H. rewrite Hlv in H. cbn [collect N.eqb] in H.
  destruct (parse_node_refines f root cdims nd Hf Hpos En) as (ents & Er & HR).
  unfold chunked_branch. rewrite run0_bind, Er. cbn [fst snd]. rewrite Hlv.
  replace (18446744073709551616 <=? tb) with false by blia.
  rewrite Z. replace (1099511627776 <? tb) with false by blia. cbn [orb].
  destruct fuel as [|fuel']; [blia|]. cbn [p_collect N.eqb bind fst snd].
  destruct (place_chunks_refines f dims cdims esz Hf _ _ _ _ HR H) as (cs & Ecs & Hs).
  rewrite run0_bind, Ecs. exists cs. split; [reflexivity|exact Hs].
Qed.
End Refine.
