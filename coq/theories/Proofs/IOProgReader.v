(* C17: every transcribed entry point of the reader (Model/IOProgReader.v) lies in the strict fragment, hence
   truncation / failing I/O can only turn its answer into an error (Proofs/IOProg.v strict_refines). *)
From HV Require Import Base.Prelude Base.Outcome Base.Bytes Model.IOProg Proofs.IOProg Model.IOProgReader.
From HV Require Import Model.CodecSuper Model.CodecOhdr Model.CodecMsg Model.CodecType Model.CodecAttr Model.CodecFilter.

(* walks a program whose shape depends on data: one constructor, bind, if or match at a time *)
Ltac strict_step :=
  match goal with
  | |- strict (Ret _) => apply st_ret
  | |- strict Fail => apply st_fail
  | |- strict Crash => apply st_crash
  | |- strict (lift _) => apply strict_lift
  | |- strict (ReadAt _ _ _) => apply st_read; intros
  | |- strict (bind _ _) => apply strict_bind; [ | intros ]
  | |- strict (if ?c then _ else _) => destruct c
  | |- strict (match ?x with _ => _ end) => destruct x
  | |- strict (let _ := _ in _) => cbv zeta
  | |- strict ((fun _ => _) _) => cbv beta
  end.
Ltac strict_auto := repeat (strict_step; try assumption; auto).

Lemma slice_agree (b b' : bytes) (m : N) (Hlen : blen b' = blen b)
  (Hag : firstn (N.to_nat m) b' = firstn (N.to_nat m) b) a e : e <= m -> slice b' a e = slice b a e.
Proof.
  intros H. unfold slice. rewrite Hlen.
  destruct ((a <=? e) && (e <=? blen b)) eqn:C; [|reflexivity].
  apply andb_true_iff in C. destruct C as [C1 C2]. apply N.leb_le in C1.
  f_equal. rewrite !firstn_skipn_comm. f_equal.
  replace (N.to_nat a + N.to_nat (e - a))%nat with (Nat.min (N.to_nat e) (N.to_nat m)) by blia.
  rewrite <- !firstn_firstn. f_equal. exact Hag.
Qed.

Lemma index_agree (b b' : bytes) (m : N) (Hlen : blen b' = blen b)
  (Hag : firstn (N.to_nat m) b' = firstn (N.to_nat m) b) i : i < m -> index b' i = index b i.
Proof.
  intros H. unfold index.
  rewrite <- (nth_error_firstn_lt b' (N.to_nat m)), <- (nth_error_firstn_lt b (N.to_nat m)) by blia.
  now rewrite Hag.
Qed.

Lemma rd_le_agree (b b' : bytes) (m : N) (Hlen : blen b' = blen b)
  (Hag : firstn (N.to_nat m) b' = firstn (N.to_nat m) b) off k : off + k <= m -> rd_le b' off k = rd_le b off k.
Proof. intros H. unfold rd_le. now rewrite (slice_agree b b' m Hlen Hag). Qed.
Lemma rd_be_agree (b b' : bytes) (m : N) (Hlen : blen b' = blen b)
  (Hag : firstn (N.to_nat m) b' = firstn (N.to_nat m) b) off k : off + k <= m -> rd_be b' off k = rd_be b off k.
Proof. intros H. unfold rd_be. now rewrite (slice_agree b b' m Hlen Hag). Qed.
Lemma rd_end_agree (b b' : bytes) (m : N) (Hlen : blen b' = blen b)
  (Hag : firstn (N.to_nat m) b' = firstn (N.to_nat m) b) off k e : off + k <= m -> rd_end b' off k e = rd_end b off k e.
Proof. intros H. unfold rd_end. destruct e; [now apply (rd_be_agree b b' m) | now apply (rd_le_agree b b' m)]. Qed.

Lemma read_value_agree (b b' : bytes) (m : N) (Hlen : blen b' = blen b)
  (Hag : firstn (N.to_nat m) b' = firstn (N.to_nat m) b) off size e :
  off + size <= m -> read_value b' off size e = read_value b off size e.
Proof.
  intros H. unfold read_value. rewrite Hlen, (rd_be_agree b b' m Hlen Hag), (rd_le_agree b b' m Hlen Hag) by exact H.
  reflexivity.
Qed.

(* a decoder of a short-read buffer: with fewer bytes it answers the same or fails *)
Definition dec_safe {A} (len : N) (dec : bytes -> N -> outcome A) : Prop :=
  forall b b' g g', g' <= g -> g <= len -> blen b = len -> blen b' = len ->
    firstn (N.to_nat g') b' = firstn (N.to_nat g') b ->
    dec b' g' = dec b g \/ dec b' g' = Err.

Lemma short_safe_lift A len (dec : bytes -> N -> outcome A) :
  dec_safe len dec -> short_safe len (fun b g => lift (dec b g)).
Proof.
  intros H b b' g g' H1 H2 L1 L2 H3. destruct (H b b' g g' H1 H2 L1 L2 H3) as [E|E]; rewrite E; [left|right]; reflexivity.
Qed.

Lemma short_lift_strict A off len (dec : bytes -> N -> outcome A) :
  dec_safe len dec -> strict (ReadAtShort off len (fun b g => lift (dec b g))).
Proof. intros H. apply st_short; [intros; apply strict_lift | exact (short_safe_lift _ _ _ H)]. Qed.

Lemma count_check_safe {A} need g' g (x' x : outcome A) :
  g' <= g -> (need <= g' -> x' = x \/ x' = Err) ->
  (if g' <? need then Err else x') = (if g <? need then Err else x) \/ (if g' <? need then Err else x') = Err.
Proof.
  intros H Hx. destruct (g' <? need) eqn:E'; [right; reflexivity|].
  apply N.ltb_ge in E'. replace (g <? need) with false by (symmetry; apply N.ltb_ge; blia). now apply Hx.
Qed.

Lemma obind_safe {A B} (o : outcome A) (k' k : A -> outcome B) :
  (forall a, k' a = k a \/ k' a = Err) -> obind o k' = obind o k \/ obind o k' = Err.
Proof. intros H. destruct o; cbn [obind]; [apply H | left; reflexivity | left; reflexivity]. Qed.

Lemma obind_ok_elim {A B} (o : outcome A) (k : A -> outcome B) b (P : Prop) :
  (forall a, k a = Ok b -> P) -> obind o k = Ok b -> P.
Proof. intros H. destruct o; cbn [obind]; [apply H | discriminate | discriminate]. Qed.

Lemma valid_size_le8 s : valid_size s = true -> s <= 8.
Proof.
  unfold valid_size. intros H. repeat (apply orb_true_iff in H; destruct H as [H|H]); apply N.eqb_eq in H; blia.
Qed.

Lemma dec_sb_buf_safe : dec_safe 128 dec_sb_buf.
Proof.
  intros b b' g g' H1 H2 L1 L2 H3.
  assert (Hlen : blen b' = blen b) by congruence.
  unfold dec_sb_buf. apply count_check_safe; [exact H1 | intros E48].
  (* the signature, the version and the size bytes lie below 48 *)
  rewrite (slice_agree b b' g' Hlen H3), !(index_agree b b' g' Hlen H3) by blia.
  apply obind_safe; intros sig. destruct (negb (bytes_eqb sig signature)); [left; reflexivity|].
  apply obind_safe; intros version.
  destruct (negb ((version =? 0) || (version =? 2) || (version =? 3))); [left; reflexivity|].
  (* version 0 decodes bytes up to 24 + 9 * 8 = 96 and checks the count against that; versions 2 and 3 decode up
     to 12 + 4 * 8 = 44 *)
  destruct (version =? 0); cbn [andb]; [apply count_check_safe; [exact H1 | intros E96]|].
  all: apply obind_safe; intros [[be1 o1] l1]; cbv zeta.
  all: set (os := if o1 =? 0 then 8 else o1).
  all: destruct (valid_size os && _) eqn:Ev; cbn [negb]; [|left; reflexivity].
  all: apply andb_true_iff, proj1, valid_size_le8 in Ev.
  all: rewrite !(read_value_agree b b' g' Hlen H3) by blia; left; reflexivity.
Qed.

Theorem p_superblock_strict : strict p_superblock.
Proof. exact (short_lift_strict _ _ _ _ dec_sb_buf_safe). Qed.

(* the transcription is the decoder model of C11 applied to the buffer *)
Lemma dec_superblock_is_dec_sb_buf file :
  dec_superblock file =
  dec_sb_buf (firstn 128 file ++ zeros (N.to_nat (128 - N.min (blen file) 128))) (N.min (blen file) 128).
Proof. reflexivity. Qed.

Lemma p_read_bytes_at_strict off size : strict (p_read_bytes_at off size).
Proof. unfold p_read_bytes_at. strict_auto. Qed.
#[export] Hint Resolve p_read_bytes_at_strict : core.

Section WithSuperblock.
Variable sb : superblock'.
(* the superblock is one that ReadSuperblock returns: its length size passed the size validation (superblock.go:131) *)
Hypothesis Hl : valid_size (spp_lensize sb) = true.

Lemma p_v1_block_strict fuel : forall cur end_ count max, strict (p_v1_block sb fuel cur end_ count max).
Proof.
  induction fuel; intros; cbn [p_v1_block]; [constructor|]. strict_auto.
Qed.
Hint Resolve p_v1_block_strict : core.

Lemma p_v1_conts_strict fuel fuelb : forall visited queue msgs name,
  strict (p_v1_conts sb fuel fuelb visited queue msgs name).
Proof.
  induction fuel; intros; cbn [p_v1_conts]; [constructor|]. strict_auto.
Qed.
Hint Resolve p_v1_conts_strict : core.

Lemma p_v1_header_strict fuel addr : strict (p_v1_header sb fuel addr).
Proof. unfold p_v1_header. strict_auto. Qed.
Hint Resolve p_v1_header_strict : core.

Lemma p_v2_loop_strict fuel : forall isBE hdr cur end_ isCont visited pending acc,
  strict (p_v2_loop sb fuel isBE hdr cur end_ isCont visited pending acc).
Proof.
  induction fuel; intros; cbn [p_v2_loop]; [constructor|]. strict_auto.
Qed.
Hint Resolve p_v2_loop_strict : core.

Lemma p_v2_header_strict fuel addr flags isBE : strict (p_v2_header sb fuel addr flags isBE).
Proof. unfold p_v2_header. strict_auto. Qed.
Hint Resolve p_v2_header_strict : core.

Theorem p_ohdr_strict fuel addr : strict (p_ohdr sb fuel addr).
Proof. unfold p_ohdr. strict_auto. Qed.
Hint Resolve p_ohdr_strict : core.

Lemma dec_bt2hdr_safe : dec_safe 38 (dec_bt2hdr sb).
Proof.
  intros b b' g g' H1 H2 L1 L2 H3.
  assert (Hlen : blen b' = blen b) by congruence.
  unfold dec_bt2hdr. apply count_check_safe; [exact H1 | intros E'].
  rewrite !(slice_agree b b' g' Hlen H3), (rd_end_agree b b' g' Hlen H3) by blia.
  left; reflexivity.
Qed.

Lemma p_bt2hdr_strict addr : strict (p_bt2hdr sb addr).
Proof. exact (short_lift_strict _ _ _ _ dec_bt2hdr_safe). Qed.

Lemma leaf_ids_agree b b' m (Hlen : blen b' = blen b) (Hag : firstn (N.to_nat m) b' = firstn (N.to_nat m) b) :
  forall n off, off + 11 * N.of_nat n <= m -> leaf_ids b' n off = leaf_ids b n off.
Proof.
  induction n; intros off H; cbn [leaf_ids]; [reflexivity|].
  rewrite Hlen, (slice_agree b b' m Hlen Hag), IHn by blia. reflexivity.
Qed.

Lemma dec_bt2leaf_safe nrec : dec_safe (6 + nrec * 11 + 4) (dec_bt2leaf nrec).
Proof.
  intros b b' g g' H1 H2 L1 L2 H3.
  assert (Hlen : blen b' = blen b) by congruence.
  unfold dec_bt2leaf.
  destruct ((g' <? 6 + nrec * 11) || (g' <? 10)) eqn:E'; [right; reflexivity|].
  apply orb_false_iff in E'. destruct E' as [Ea Eb]. apply N.ltb_ge in Ea, Eb.
  replace ((g <? 6 + nrec * 11) || (g <? 10)) with false
    by (symmetry; apply orb_false_iff; split; apply N.ltb_ge; blia).
  rewrite (slice_agree b b' g' Hlen H3), (leaf_ids_agree b b' g' Hlen H3) by blia.
  left; reflexivity.
Qed.

Lemma p_bt2leaf_strict addr nrec : strict (p_bt2leaf addr nrec).
Proof. exact (short_lift_strict _ _ _ _ (dec_bt2leaf_safe nrec)). Qed.

Lemma dec_fheaphdr_safe : dec_safe 144 (dec_fheaphdr sb).
Proof.
  intros b b' g g' H1 H2 L1 L2 H3.
  assert (Hlen : blen b' = blen b) by congruence.
  pose proof (valid_size_le8 _ Hl) as Hl8.
  unfold dec_fheaphdr. apply count_check_safe; [exact H1 | intros E'].
  rewrite !(slice_agree b b' g' Hlen H3), !(rd_end_agree b b' g' Hlen H3) by blia.
  left; reflexivity.
Qed.

Lemma p_fheaphdr_strict addr : strict (p_fheaphdr sb addr).
Proof. exact (short_lift_strict _ _ _ _ dec_fheaphdr_safe). Qed.

Lemma dec_dblock_safe hos : dec_safe (5 + spp_offsize sb + hos + 16) (dec_dblock sb hos).
Proof.
  intros b b' g g' H1 H2 L1 L2 H3.
  assert (Hlen : blen b' = blen b) by congruence.
  unfold dec_dblock. apply count_check_safe; [exact H1 | intros E'].
  rewrite !(slice_agree b b' g' Hlen H3) by blia.
  left; reflexivity.
Qed.

Lemma p_heap_object_strict blockAddr offs len hos : strict (p_heap_object sb blockAddr offs len hos).
Proof.
  unfold p_heap_object. apply st_short.
  - intros b g. strict_auto.
  - exact (short_safe_map _ _ _ _ (fun p => bind p _) (short_safe_lift _ _ _ (dec_dblock_safe hos)) eq_refl).
Qed.
Hint Resolve p_bt2hdr_strict p_bt2leaf_strict p_fheaphdr_strict p_heap_object_strict : core.

Lemma p_dense_objs_strict ids : forall root hos hls, strict (p_dense_objs sb ids root hos hls).
Proof. induction ids; intros; cbn [p_dense_objs]; strict_auto. Qed.
Hint Resolve p_dense_objs_strict : core.

Lemma p_dense_strict heapAddr btAddr : strict (p_dense sb heapAddr btAddr).
Proof. unfold p_dense. strict_auto. Qed.
Hint Resolve p_dense_strict : core.

Lemma compact_attrs_strict ms : strict (compact_attrs sb ms).
Proof. induction ms; cbn [compact_attrs]; strict_auto. Qed.
Hint Resolve compact_attrs_strict : core.

Lemma p_attrs_strict ms : strict (p_attrs sb ms).
Proof. unfold p_attrs. strict_auto. Qed.
Hint Resolve p_attrs_strict : core.

(* ReadObjectHeader where what follows uses only the header part: the attribute error kept in the header
   (objectheader.go:153) is not looked at *)
Lemma ohdr_then_strict A fuel addr (k : ohdr' -> prog A) : (forall h, strict (k h)) ->
  strict (bind (p_ohdr sb fuel addr) (fun h =>
          Swallow (bind (p_attrs sb (ohp_msgs h)) (fun a => Ret (Some a))) None (fun _ => k h))).
Proof.
  intros H. apply strict_bind; [auto|]. intros h.
  apply st_swallow_ignore; [strict_auto | reflexivity | apply H].
Qed.

(* Attributes(): the error kept in the header is returned, so the swallowed error becomes a failure *)
Theorem api_attributes_strict fuel addr : strict (api_attributes sb fuel addr).
Proof.
  unfold api_attributes. apply strict_bind; [auto|]. intros h.
  apply st_swallow_fail.
  - strict_auto.
  - intros [a|]; constructor.
  - reflexivity.
Qed.

Theorem p_gheap_strict fuel addr : strict (p_gheap sb fuel addr).
Proof. unfold p_gheap. strict_auto. Qed.

Theorem api_vlen_string_strict fuel ref : strict (api_vlen_string sb fuel ref).
Proof. unfold api_vlen_string. strict_auto. apply p_gheap_strict. Qed.

Theorem p_local_heap_strict addr : strict (p_local_heap sb addr).
Proof. unfold p_local_heap. strict_auto. Qed.

Theorem p_snod_strict addr : strict (p_snod sb addr).
Proof. unfold p_snod. strict_auto. Qed.
Hint Resolve p_snod_strict : core.

Lemma p_snods_strict addrs : strict (p_snods sb addrs).
Proof. induction addrs; cbn [p_snods]; strict_auto. Qed.
Hint Resolve p_snods_strict : core.

Theorem p_group_btree_strict addr : strict (p_group_btree sb addr).
Proof. unfold p_group_btree. strict_auto. Qed.

Lemma p_bt1_node_strict addr ndims cdims : strict (p_bt1_node sb addr ndims cdims).
Proof. unfold p_bt1_node. strict_auto. Qed.
Hint Resolve p_bt1_node_strict : core.

Lemma p_collect_strict fuel ndims cdims : forall level ents visited,
  strict (p_collect sb fuel ndims cdims level ents visited).
Proof.
  induction fuel; intros; cbn [p_collect]; [constructor|].
  destruct (level =? 0); [constructor|].
  revert visited. induction ents as [|[[nb co] ca] rest IHr]; intros visited.
  - constructor.
  - strict_auto.
Qed.
Hint Resolve p_collect_strict : core.

Lemma p_chunks_strict cs : strict (p_chunks cs).
Proof. induction cs as [|[[nb co] a] rest IH]; cbn [p_chunks]; strict_auto. Qed.
Hint Resolve p_chunks_strict : core.

Lemma p_dataset_raw_strict fuel ms : strict (p_dataset_raw sb fuel ms).
Proof. unfold p_dataset_raw. strict_auto. Qed.
Hint Resolve p_dataset_raw_strict : core.

(* Read / ReadStrings / ReadCompound *)
Theorem api_read_raw_strict fuel addr : strict (api_read_raw sb fuel addr).
Proof. apply ohdr_then_strict. auto. Qed.

(* ReadObjectHeader as a value: the header part is the strict program p_ohdr; the attribute part is the strict
   program p_attrs or the marker None (AttributesErr).  It is NOT in the strict fragment by itself (the marker is a
   different value); every API call built on it (api_attributes, api_read_raw) is. *)
Lemma p_read_object_header_run fuel addr f fl c :
  run f fl c (p_read_object_header sb fuel addr) =
  match run f fl c (p_ohdr sb fuel addr) with
  | (Ok h, c') => match run f fl c' (p_attrs sb (ohp_msgs h)) with
                  | (Ok a, c'') => (Ok (h, Some a), c'')
                  | (Err, c'') => (Ok (h, None), c'')
                  | (Panic, c'') => (Panic, c'')
                  end
  | (Err, c') => (Err, c')
  | (Panic, c') => (Panic, c')
  end.
Proof.
  unfold p_read_object_header. rewrite run_bind.
  destruct (run f fl c (p_ohdr sb fuel addr)) as [[h| |] c']; try reflexivity.
  cbn [run]. rewrite run_bind.
  destruct (run f fl c' (p_attrs sb (ohp_msgs h))) as [[a| |] c'']; reflexivity.
Qed.

End WithSuperblock.
