(* C01 end to end, superblock version 0: the composition, stated with the mathematical product of the extents, and a witness
   that the hypotheses are satisfiable. *)
From HV Require Import Base.Prelude Base.Outcome Base.Bytes Model.IOProg Proofs.IOProg Model.IOProgReader Model.IOProgOpen.
From HV Require Import Model.CodecSuper Model.CodecOhdr Model.CodecMsg Model.CodecType.
From HV Require Import Model.FileImage Proofs.FileImage Proofs.FileImageOhdr Proofs.FileImageData Proofs.FileImageProd
  Proofs.FileImageMain.
From HV Require Import Model.FileImageV0 Proofs.FileImageV0 Proofs.FileImageV0Group Proofs.FileImageV0Open.

Section Main.
Variable name : bytes.
Variables class size cbf : N.
Variable dims : list N.
Variable data : bytes.
Hypothesis Hname : link_name_ok name = true.
Hypothesis Hdt : basic_dtype class size cbf = true.
Hypothesis Hdims : dims_ok dims = true.
Hypothesis Hlen : blen data = product dims * size.
Hypothesis Hbound : blen data < 4294967296.
Local Notation f := (image_v0 name class size cbf dims data).

Theorem file_roundtrip0 fuel hfuel : (3 <= fuel)%nat -> (3 < hfuel)%nat ->
  run0 f (p_open true (blen f) fuel hfuel) = Ok (Grp [47] ROOT0_ADDR [Dset name (dset_addr0 data)]) /\
  run0 f p_superblock = Ok SB0' /\
  run0 f (api_read_raw SB0' hfuel (dset_addr0 data)) = Ok (RawBytes data) /\
  exists h, run0 f (p_ohdr SB0' hfuel (dset_addr0 data)) = Ok h /\ decoded_type_shape h = Ok (class, size, cbf, dims).
Proof.
  intros Hf Hh.
  pose proof (Hlen' class size cbf dims data Hdt Hdims Hlen Hbound) as HL.
  pose proof (Hpos' class size cbf dims data Hdt Hdims Hlen) as HP.
  split; [|split; [|split]].
  - destruct fuel as [|[|[|n]]]; try blia.
    exact (open_image0 name class size cbf dims data Hname Hdt Hdims HL Hbound n hfuel Hh).
  - exact (superblock_stage0 name class size cbf dims data Hname Hbound).
  - exact (contig_read SB0' class size cbf dims data DATA0_ADDR Hdt Hdims HL HP Hbound eq_refl eq_refl eq_refl eq_refl eq_refl f _ hfuel
             (P0_dset name class size cbf dims data Hname) (da0_bound data Hbound) Hh (P0_data name class size cbf dims data Hname)).
  - eexists. split; [exact (dset_header0 name class size cbf dims data Hname Hdt Hdims HL Hbound hfuel Hh) | now apply type_shape_decoded].
Qed.

Lemma image0_length : blen f = eof_addr0 data.
Proof.
  exact (image0_len name class size cbf dims data Hname Hdt Hdims (Hlen' class size cbf dims data Hdt Hdims Hlen Hbound) Hbound).
Qed.
End Main.

Lemma file_roundtrip0_stmt : forall name class size cbf dims data fuel hfuel,
  link_name_ok name = true -> basic_dtype class size cbf = true -> dims_ok dims = true ->
  blen data = product dims * size -> blen data < 4294967296 -> (3 <= fuel)%nat -> (3 < hfuel)%nat ->
  let f := image_v0 name class size cbf dims data in
  run0 f (p_open true (blen f) fuel hfuel) = Ok (Grp [47] ROOT0_ADDR [Dset name (dset_addr0 data)]) /\
  run0 f p_superblock = Ok SB0' /\
  run0 f (api_read_raw SB0' hfuel (dset_addr0 data)) = Ok (RawBytes data) /\
  exists h, run0 f (p_ohdr SB0' hfuel (dset_addr0 data)) = Ok h /\ decoded_type_shape h = Ok (class, size, cbf, dims).
Proof. intros. now apply file_roundtrip0. Qed.

Lemma image0_length_stmt : forall name class size cbf dims data,
  link_name_ok name = true -> basic_dtype class size cbf = true -> dims_ok dims = true ->
  blen data = product dims * size -> blen data < 4294967296 ->
  blen (image_v0 name class size cbf dims data) = eof_addr0 data.
Proof. intros. now apply image0_length. Qed.

(* the superblock the reader returns is the projection of the one Close wrote; the cached root addresses in it are the ones the
   root header's symbol table message names *)
Lemma sb0_is_projection data : SB0' = proj_superblock (final_sb0 data).
Proof. reflexivity. Qed.

(* the hypotheses are satisfiable: "/d" = uint8 [1,2,3]; the image has 2033 bytes (the file the library writes, tools/props/c01filev0.py
   first case) *)
Example file_roundtrip0_witness :
  link_name_ok [100] = true /\ basic_dtype DT_FIXED 1 0 = true /\ dims_ok [3] = true /\
  blen [1; 2; 3] = product [3] * 1 /\ blen [1; 2; 3] < 4294967296 /\
  blen (image_v0 [100] DT_FIXED 1 0 [3] [1; 2; 3]) = 2033.
Proof. repeat split. Qed.
