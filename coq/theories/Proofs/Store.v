(* Generic layer of the store proofs: the allocator hands out disjoint ranges, command lists whose
   static checks hold only write inside allowed or freshly allocated extents.  In order: the predicates (NoOverlap,
   ext_ok, legal) with legal_frame; the boolean checkers decide them; alloc_ext / write equations; exec only adds
   extents (exec_grows); the static check cmds_ok and its monotonicity; the invariant inv of a running checked list
   (exec_inv). *)
From HV Require Import Base.Prelude Model.Store.

Local Open Scope N_scope.

Definition edisj (e1 e2 : extent) : Prop := ext_end e1 <= start e2 \/ ext_end e2 <= start e1.

Inductive NoOverlap : list extent -> Prop :=
| NoOverlap_nil : NoOverlap []
| NoOverlap_cons : forall e r, Forall (edisj e) r -> NoOverlap r -> NoOverlap (e :: r).

Definition lens_ok (c : cfg) (l : list extent) : Prop :=
  Forall (fun e => forall L, sized c (kind_of e) = Some L -> len e = L) l.

Definition ext_ok (s : store) : Prop :=
  ovf s = false ->
  Forall (fun e => ext_end e <= next (al s)) (exts s) /\ NoOverlap (exts s).

Definition legal (T : oid -> kind -> bool) (n0 : N) (l : list extent) (w : N * N) : Prop :=
  exists e, In e l /\ start e <= fst w /\ fst w + snd w <= ext_end e /\
            (T (owner e) (kind_of e) = true \/ n0 <= start e).

Definition wmisses (w : N * N) (e : extent) : Prop := fst w + snd w <= start e \/ ext_end e <= fst w.

Lemma NoOverlap_In : forall l a b, NoOverlap l -> In a l -> In b l -> a = b \/ edisj a b.
Proof.
  intros l a b H. induction H as [|e r HF HN IH]; intros Ha Hb; [inversion Ha|].
  rewrite Forall_forall in HF.
  destruct Ha as [<-|Ha], Hb as [<-|Hb]; [left; reflexivity | right; apply HF, Hb | right | apply IH; assumption].
  destruct (HF _ Ha); [right | left]; assumption.
Qed.

Lemma legal_incl : forall T n0 l l' w, legal T n0 l w -> incl l l' -> legal T n0 l' w.
Proof. intros T n0 l l' w (e & Hin & H) Hi. exists e. split; [apply Hi; exact Hin | exact H]. Qed.

Lemma legal_frame : forall T n0 l w e',
  NoOverlap l -> legal T n0 l w -> In e' l -> ext_end e' <= n0 ->
  T (owner e') (kind_of e') = false -> wmisses w e'.
Proof.
  intros T n0 l w e' HN (e & Hin & H1 & H2 & H3) Hin' Hend HT. unfold wmisses.
  destruct H3 as [H3|H3]; [|lia].
  destruct (NoOverlap_In _ _ _ HN Hin Hin') as [->|[D|D]]; [congruence | lia | lia].
Qed.

Lemma disj_spec : forall a b, disj a b = true <-> edisj a b.
Proof. intros. unfold disj, edisj. rewrite orb_true_iff, !N.leb_le. reflexivity. Qed.

Lemma no_overlap_b_spec : forall l, no_overlap_b l = true <-> NoOverlap l.
Proof.
  induction l as [|e r IH]; cbn [no_overlap_b]; [split; [constructor | reflexivity]|].
  assert (HF : forallb (disj e) r = true <-> Forall (edisj e) r).
  { rewrite forallb_forall, Forall_forall. split; intros H x Hx; apply disj_spec, H, Hx. }
  rewrite andb_true_iff, HF, IH. split; [intros [A B]; constructor; assumption | intros H; inversion H; auto].
Qed.

Lemma misses_sound : forall w e, misses w e = true -> wmisses w e.
Proof. unfold misses, wmisses; intros w e H. rewrite orb_true_iff, !N.leb_le in H. exact H. Qed.

Lemma store_ok_b_sound : forall s, store_ok_b s = true -> ext_ok s.
Proof.
  intros s H _. unfold store_ok_b in H. rewrite andb_true_iff, no_overlap_b_spec, forallb_forall in H.
  destruct H as [HN HF]. split; [|exact HN]. apply Forall_forall. intros e He. apply N.leb_le, HF, He.
Qed.

Lemma kind_eqb_eq : forall a b, kind_eqb a b = true <-> a = b.
Proof.
  split.
  - destruct a, b; cbn; intros H; try reflexivity; try discriminate. apply N.eqb_eq in H. congruence.
  - intros <-. destruct a; try reflexivity. apply N.eqb_refl.
Qed.

Lemma find_ext_spec : forall l o k e, find_ext l o k = Some e -> In e l /\ owner e = o /\ kind_of e = k.
Proof.
  induction l as [|x r IH]; intros o k e H; [discriminate|].
  cbn [find_ext] in H.
  destruct ((owner x =? o) && kind_eqb (kind_of x) k) eqn:E.
  - inversion H; subst. apply andb_true_iff in E. destruct E as [E1 E2].
    apply N.eqb_eq in E1. apply kind_eqb_eq in E2. split; [left; reflexivity | split; assumption].
  - destruct (IH _ _ _ H) as (Hin & Ho). split; [right; exact Hin | exact Ho].
Qed.

Lemma alloc_ext_spec : forall s o k n e s',
  alloc_ext s o k n = Some (e, s') ->
  e = mkExt (next (al s)) n o k /\ exts s' = e :: exts s /\ wlog s' = wlog s /\ fsize s' = fsize s.
Proof.
  intros s o k n e s' H. unfold alloc_ext, allocate in H.
  destruct (n =? 0); [discriminate|]. inversion H; subst; cbn. auto.
Qed.

Lemma alloc_ext_next : forall s o k n e s',
  alloc_ext s o k n = Some (e, s') -> ovf s' = false ->
  ovf s = false /\ next (al s') = next (al s) + n.
Proof.
  intros s o k n e s' H Hov. unfold alloc_ext, allocate in H.
  destruct (n =? 0); [discriminate|]. inversion H; subst; cbn in *.
  apply orb_false_iff in Hov. destruct Hov as [H1 H2]. split; [exact H1|].
  apply N.mod_small, N.leb_gt, H2.
Qed.

Lemma alloc_ext_fresh : forall s o k n e s', ext_ok s -> alloc_ext s o k n = Some (e, s') -> ovf s' = false ->
  start e = next (al s) /\ next (al s') = next (al s) + n /\ Forall (fun e' => edisj e e') (exts s).
Proof.
  intros s o k n e s' Hok Ha Hov.
  destruct (alloc_ext_next _ _ _ _ _ _ Ha Hov) as [Hov0 Hn].
  destruct (alloc_ext_spec _ _ _ _ _ _ Ha) as (-> & _).
  destruct (Hok Hov0) as [HF _]. repeat split; auto.
  eapply Forall_impl; [|exact HF]. intros a Ha'. right. exact Ha'.
Qed.

Lemma lens_ok_alloc : forall c s o k n e s',
  lens_ok c (exts s) -> alloc_ext s o k n = Some (e, s') ->
  (forall L, sized c k = Some L -> n = L) -> lens_ok c (exts s').
Proof.
  intros c s o k n e s' Hl H Hs. destruct (alloc_ext_spec _ _ _ _ _ _ H) as (-> & -> & _).
  constructor; [exact Hs | exact Hl].
Qed.

Lemma write_al : forall s a n, al (write s a n) = al s.
Proof. intros. unfold write. destruct (n =? 0); reflexivity. Qed.
Lemma write_exts : forall s a n, exts (write s a n) = exts s.
Proof. intros. unfold write. destruct (n =? 0); reflexivity. Qed.
Lemma write_ovf : forall s a n, ovf (write s a n) = ovf s.
Proof. intros. unfold write. destruct (n =? 0); reflexivity. Qed.
Lemma write_blocks : forall s a n, blocks (write s a n) = blocks s.
Proof. intros. unfold write. destruct (n =? 0); reflexivity. Qed.

Lemma write_log : forall s a n w, In w (wlog (write s a n)) -> In w (wlog s) \/ w = (a, n).
Proof. intros s a n w H. unfold write in H. destruct (n =? 0); [left; exact H|]. destruct H as [H|H]; auto. Qed.

Lemma write_fsize : forall s a n B, fsize s <= B -> a + n <= B -> fsize (write s a n) <= B.
Proof. intros. unfold write. destruct (n =? 0); cbn; lia. Qed.

Lemma write_fsize_ge : forall s a n, fsize s <= fsize (write s a n).
Proof. intros. unfold write. destruct (n =? 0); cbn; lia. Qed.

Definition grows (s s' : store) : Prop := incl (exts s) (exts s') /\ (ovf s' = false -> ovf s = false).

Lemma grows_refl : forall s, grows s s.
Proof. intros s. split; [apply incl_refl | auto]. Qed.

Lemma grows_trans : forall s1 s2 s3, grows s1 s2 -> grows s2 s3 -> grows s1 s3.
Proof. intros s1 s2 s3 [A1 A2] [B1 B2]. split; [eapply incl_tran; eassumption | auto]. Qed.

Lemma grows_alloc : forall s o k n e s', alloc_ext s o k n = Some (e, s') -> grows s s'.
Proof.
  intros s o k n e s' H. split.
  - destruct (alloc_ext_spec _ _ _ _ _ _ H) as (_ & -> & _). apply incl_tl, incl_refl.
  - apply (alloc_ext_next _ _ _ _ _ _ H).
Qed.

Lemma grows_write : forall s a n, grows s (write s a n).
Proof. intros. unfold grows. rewrite write_exts, write_ovf. apply grows_refl. Qed.

Lemma exec_cmd_grows : forall s x s', exec_cmd s x = Some s' -> grows s s'.
Proof.
  intros s x s' E.
  destruct x as [o k n|o k n|o k off n|o k|o k hsz|a n|o parts]; cbn [exec_cmd] in E.
  - destruct (alloc_ext s o k n) as [[e s2]|] eqn:E2; inversion E; subst. apply (grows_alloc _ _ _ _ _ _ E2).
  - destruct (alloc_ext s o k n) as [[e s2]|] eqn:E2; inversion E; subst.
    eapply grows_trans; [apply (grows_alloc _ _ _ _ _ _ E2) | apply grows_write].
  - destruct (find_ext (exts s) o k); inversion E. apply grows_write.
  - destruct (find_ext (exts s) o k); inversion E. apply grows_write.
  - destruct (find_ext (exts s) o k); [|discriminate]. destruct (next (al s) <? start e + hsz).
    + destruct (alloc_ext s o KSpill (start e + hsz - next (al s))) as [[e1 s2]|] eqn:E2; inversion E; subst.
      apply (grows_alloc _ _ _ _ _ _ E2).
    + inversion E. apply grows_refl.
  - inversion E. apply grows_write.
  - unfold allocate in E. destruct (parts_total parts =? 0); inversion E. split; cbn.
    + apply incl_appr, incl_refl.
    + intros H. apply orb_false_iff in H. tauto.
Qed.

Lemma exec_grows : forall cmds s s' b, exec s cmds = (s', b) -> grows s s'.
Proof.
  induction cmds as [|x r IH]; intros s s' b E; cbn [exec] in E; [inversion E; apply grows_refl|].
  destruct (exec_cmd s x) as [s1|] eqn:E1; [|inversion E; apply grows_refl].
  eapply grows_trans; [apply (exec_cmd_grows _ _ _ E1) | apply (IH _ _ _ E)].
Qed.

Definition alloc_sized (c : cfg) (k : kind) (n : N) : bool :=
  match sized c k with Some L => n =? L | None => true end.
Definition write_sized (c : cfg) (k : kind) (hi : N) : bool :=
  match sized c k with Some L => hi <=? L | None => false end.

Definition memb (o : oid) (k : kind) (fr : list (oid * kind)) : bool :=
  existsb (fun p => (fst p =? o) && kind_eqb (snd p) k) fr.

(* static check of a command list: allocations of fixed-size kinds use the fixed size; every write goes
   to an extent (owner, kind) allowed by T or allocated earlier in the same list, within its size *)
Fixpoint cmds_ok (c : cfg) (T : oid -> kind -> bool) (fr : list (oid * kind)) (l : list cmd) : bool :=
  match l with
  | [] => true
  | x :: r =>
      match x with
      | CAlloc o k n => alloc_sized c k n && cmds_ok c T ((o, k) :: fr) r
      | CAllocWrite o k n => alloc_sized c k n && cmds_ok c T ((o, k) :: fr) r
      | CWrite o k off n => (T o k || memb o k fr) && write_sized c k (off + n) && cmds_ok c T fr r
      | CWriteWhole o k => (T o k || memb o k fr) && cmds_ok c T fr r
      | CAdvance _ _ _ => cmds_ok c T fr r
      | CWriteRaw _ _ => false
      | CSplit _ _ => false
      end
  end.

Lemma alloc_sized_spec : forall c k n, alloc_sized c k n = true -> forall L, sized c k = Some L -> n = L.
Proof. unfold alloc_sized; intros c k n H L HL. rewrite HL in H. apply N.eqb_eq; exact H. Qed.

Lemma memb_In : forall o k fr, memb o k fr = true <-> In (o, k) fr.
Proof.
  intros o k fr. unfold memb. rewrite existsb_exists. split.
  - intros ([o' k'] & Hin & H). cbn in H. rewrite andb_true_iff, N.eqb_eq, kind_eqb_eq in H. destruct H; subst. exact Hin.
  - intros Hin. exists (o, k). cbn. rewrite N.eqb_refl, (proj2 (kind_eqb_eq k k) eq_refl). auto.
Qed.

Lemma cmds_ok_weaken : forall c (T T' : oid -> kind -> bool) l fr fr',
  (forall o k, T o k = true -> T' o k = true) -> incl fr fr' ->
  cmds_ok c T fr l = true -> cmds_ok c T' fr' l = true.
Proof.
  intros c T T' l fr fr' HT. revert fr fr'.
  induction l as [|x r IH]; intros fr fr' Hi H; [reflexivity|].
  assert (Hm : forall o k, T o k || memb o k fr = true -> T' o k || memb o k fr' = true).
  { intros o k. rewrite !orb_true_iff, !memb_In. intros [A|A]; [left; apply HT, A | right; apply Hi, A]. }
  assert (Hc : forall p, incl (p :: fr) (p :: fr')) by (intros p; apply incl_cons; [left; reflexivity | apply incl_tl, Hi]).
  destruct x; cbn [cmds_ok] in *; rewrite ?andb_true_iff in *; try discriminate.
  - destruct H as [H1 H2]. split; [exact H1 | apply (IH _ _ (Hc _) H2)].
  - destruct H as [H1 H2]. split; [exact H1 | apply (IH _ _ (Hc _) H2)].
  - destruct H as [[H1 H2] H3]. repeat split; [apply Hm, H1 | exact H2 | apply (IH _ _ Hi H3)].
  - destruct H as [H1 H3]. split; [apply Hm, H1 | apply (IH _ _ Hi H3)].
  - apply (IH _ _ Hi H).
Qed.

Lemma cmds_ok_app : forall c T a b fr, cmds_ok c T fr a = true -> cmds_ok c T fr b = true -> cmds_ok c T fr (a ++ b) = true.
Proof.
  induction a as [|x r IH]; intros b fr Ha Hb; [exact Hb|].
  assert (Hb' : forall p, cmds_ok c T (p :: fr) b = true)
    by (intros p; apply (cmds_ok_weaken c T T b fr (p :: fr)); [auto | apply incl_tl, incl_refl | exact Hb]).
  destruct x; cbn [cmds_ok app] in *; try discriminate; [.. | apply IH; assumption];
    apply andb_true_iff in Ha; destruct Ha as [H1 H2]; rewrite H1; apply IH; auto.
Qed.

(* What holds of the store while a checked list runs without overflow: n0 = the allocator when the list started,
   W0 = the write log then, fr = the (owner, kind) pairs the list has allocated so far, found by find_ext as
   fresh extents. *)
Record inv (T : oid -> kind -> bool) (n0 : N) (W0 : list (N * N)) (fr : list (oid * kind)) (s : store) : Prop := {
  i_ends : Forall (fun e => ext_end e <= next (al s)) (exts s);
  i_disj : NoOverlap (exts s);
  i_next : n0 <= next (al s);
  i_fresh : forall o k e, In (o, k) fr -> find_ext (exts s) o k = Some e -> n0 <= start e;
  i_fs : fsize s <= next (al s);
  i_log : forall w, In w (wlog s) -> In w W0 \/ legal T n0 (exts s) w
}.

Lemma inv_alloc : forall T n0 W0 fr s o k n e s',
  alloc_ext s o k n = Some (e, s') -> ovf s' = false -> (ovf s = false -> inv T n0 W0 fr s) ->
  forall fr', incl fr' ((o, k) :: fr) -> inv T n0 W0 fr' s'.
Proof.
  intros T n0 W0 fr s o k n e s' H Hov Hi fr' Hfr.
  destruct (Hi (proj1 (alloc_ext_next _ _ _ _ _ _ H Hov))) as [I1 I2 I3 I4 I5 I6].
  destruct (alloc_ext_fresh _ _ _ _ _ _ (fun _ => conj I1 I2) H Hov) as (_ & Hn & Hd).
  destruct (alloc_ext_spec _ _ _ _ _ _ H) as (-> & Hx & Hw & Hf).
  constructor; rewrite ?Hx, ?Hw, ?Hf, ?Hn.
  - constructor; [unfold ext_end; cbn; lia | eapply Forall_impl; [|exact I1]; cbn; intros; lia].
  - constructor; [exact Hd | exact I2].
  - lia.
  - intros o2 k2 e2 Hin. cbn [find_ext owner kind_of]. destruct ((o =? o2) && kind_eqb k k2) eqn:Eq.
    + intros [= <-]. exact I3.
    + intros Hf2. destruct (Hfr _ Hin) as [[= <- <-]|Hin']; [|apply (I4 _ _ _ Hin' Hf2)].
      rewrite N.eqb_refl, (proj2 (kind_eqb_eq k k) eq_refl) in Eq. discriminate.
  - lia.
  - intros w Hw'. destruct (I6 w Hw') as [A|A]; [left; exact A|].
    right. eapply legal_incl; [exact A | apply incl_tl, incl_refl].
Qed.

Lemma inv_write : forall T n0 W0 fr s a n e,
  inv T n0 W0 fr s -> In e (exts s) -> start e <= a -> a + n <= ext_end e ->
  (T (owner e) (kind_of e) = true \/ n0 <= start e) ->
  inv T n0 W0 fr (write s a n).
Proof.
  intros T n0 W0 fr s a n e [I1 I2 I3 I4 I5 I6] Hin Ha Hb HT.
  constructor; rewrite ?write_exts, ?write_al; auto.
  - rewrite Forall_forall in I1. specialize (I1 e Hin). apply write_fsize; lia.
  - intros w Hw. destruct (write_log _ _ _ _ Hw) as [A| ->]; [auto|]. right. exists e. auto.
Qed.

Lemma inv_nil : forall T n0 W0 fr s, inv T n0 W0 fr s -> inv T n0 W0 [] s.
Proof. intros T n0 W0 fr s []. constructor; auto. intros o k e []. Qed.

Lemma inv_found : forall T n0 W0 fr s o k e,
  inv T n0 W0 fr s -> T o k || memb o k fr = true -> find_ext (exts s) o k = Some e ->
  In e (exts s) /\ (T (owner e) (kind_of e) = true \/ n0 <= start e).
Proof.
  intros T n0 W0 fr s o k e I HT E. destruct (find_ext_spec _ _ _ _ E) as (Hin & Ho & Hk). split; [exact Hin|].
  rewrite Ho, Hk. apply orb_true_iff in HT. destruct HT as [HT|HT]; [left; exact HT | right].
  apply (i_fresh _ _ _ _ _ I o k e); [apply memb_In, HT | exact E].
Qed.

(* Fixed-size kinds keep their size whatever happens; everything else needs the absence of overflow, which
   by exec_grows the states before the last one inherit from it. *)
Lemma exec_inv : forall c T n0 W0 cmds fr s s' b,
  cmds_ok c T fr cmds = true -> exec s cmds = (s', b) ->
  lens_ok c (exts s) -> (ovf s = false -> inv T n0 W0 fr s) ->
  lens_ok c (exts s') /\ (ovf s' = false -> inv T n0 W0 [] s').
Proof.
  induction cmds as [|x r IH]; intros fr s s' b HC He Hl Hi; cbn [exec] in He.
  - inversion He; subst. split; [exact Hl | intros H; eapply inv_nil, Hi, H].
  - destruct (exec_cmd s x) as [s1|] eqn:E; [|inversion He; subst; split; [exact Hl | intros H; eapply inv_nil, Hi, H]].
    enough (exists fr', cmds_ok c T fr' r = true /\ lens_ok c (exts s1) /\ (ovf s1 = false -> inv T n0 W0 fr' s1))
      as (fr' & A1 & A2 & A3) by (apply (IH _ _ _ _ A1 He A2 A3)).
    pose proof (proj2 (exec_cmd_grows _ _ _ E)) as Hov.
    destruct x as [o k n|o k n|o k off n|o k|o k hsz|a n|o parts]; cbn [cmds_ok] in HC; try discriminate;
      cbn [exec_cmd] in E; rewrite ?andb_true_iff in HC.
    + destruct HC as [HS HC]. destruct (alloc_ext s o k n) as [[e s2]|] eqn:E2; inversion E; subst s2.
      exists ((o, k) :: fr). split; [exact HC|]. split.
      * apply (lens_ok_alloc _ _ _ _ _ _ _ Hl E2), alloc_sized_spec, HS.
      * intros H1. apply (inv_alloc _ _ _ _ _ _ _ _ _ _ E2 H1 Hi), incl_refl.
    + destruct HC as [HS HC]. destruct (alloc_ext s o k n) as [[e s2]|] eqn:E2; inversion E; subst s1.
      exists ((o, k) :: fr). split; [exact HC|]. rewrite write_exts, write_ovf. split.
      * apply (lens_ok_alloc _ _ _ _ _ _ _ Hl E2), alloc_sized_spec, HS.
      * intros H1. pose proof (inv_alloc _ _ _ _ _ _ _ _ _ _ E2 H1 Hi _ (incl_refl _)) as I2.
        destruct (alloc_ext_spec _ _ _ _ _ _ E2) as (He' & Hx & _).
        apply inv_write with (e := e); [exact I2 | rewrite Hx; left; reflexivity | lia | subst e; unfold ext_end; cbn; lia |].
        right. subst e. cbn. apply (i_next _ _ _ _ _ (Hi (proj1 (alloc_ext_next _ _ _ _ _ _ E2 H1)))).
    + destruct HC as [[HT Hs] HC]. destruct (find_ext (exts s) o k) as [e|] eqn:E2; inversion E; subst s1.
      exists fr. split; [exact HC|]. rewrite write_exts, write_ovf. split; [exact Hl|]. intros H1.
      destruct (inv_found _ _ _ _ _ _ _ _ (Hi H1) HT E2) as [Hin HT'].
      destruct (find_ext_spec _ _ _ _ E2) as (_ & _ & Hk).
      (* the extent has the fixed size of its kind, and the check bounds the write by that size *)
      unfold write_sized in Hs. destruct (sized c k) as [L|] eqn:EL; [|discriminate]. apply N.leb_le in Hs.
      unfold lens_ok in Hl. rewrite Forall_forall in Hl. rewrite <- Hk in EL. pose proof (Hl e Hin L EL) as HL.
      apply inv_write with (e := e); auto; unfold ext_end; lia.
    + destruct HC as [HT HC]. destruct (find_ext (exts s) o k) as [e|] eqn:E2; inversion E; subst s1.
      exists fr. split; [exact HC|]. rewrite write_exts, write_ovf. split; [exact Hl|]. intros H1.
      destruct (inv_found _ _ _ _ _ _ _ _ (Hi H1) HT E2) as [Hin HT'].
      apply inv_write with (e := e); auto; unfold ext_end; lia.
    + exists fr. split; [exact HC|]. destruct (find_ext (exts s) o k) as [e|]; [|discriminate].
      destruct (next (al s) <? start e + hsz).
      * destruct (alloc_ext s o KSpill (start e + hsz - next (al s))) as [[e1 s2]|] eqn:E2; inversion E; subst s2. split.
        -- apply (lens_ok_alloc _ _ _ _ _ _ _ Hl E2). discriminate.
        -- intros H1. apply (inv_alloc _ _ _ _ _ _ _ _ _ _ E2 H1 Hi), incl_tl, incl_refl.
      * inversion E; subst s1. auto.
Qed.
