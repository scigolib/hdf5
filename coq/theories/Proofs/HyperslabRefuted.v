(* C09: (1) the boolean validity predicate the tie evaluates reflects `valid`;
   (2) witnesses that the code BEFORE the repairs violated the property (one per defect class
       of D9), computed by vm_compute on the model of the original code;
   (3) non-vacuity examples for the theorems about the repaired code. *)
From HV Require Import Base.Prelude Model.Hyperslab Proofs.HyperslabBase Proofs.HyperslabValidate
  Proofs.HyperslabDispatch Proofs.HyperslabIter.

Lemma forall2b_spec {A B} (f : A -> B -> bool) (P : A -> B -> Prop) :
  (forall a b, f a b = true <-> P a b) -> forall l m, forall2b f l m = true <-> Forall2 P l m.
Proof.
  intros H. induction l as [|x l IH]; intros [|y m]; cbn [forall2b].
  - split; [constructor|reflexivity].
  - split; [discriminate|intros V; inversion V].
  - split; [discriminate|intros V; inversion V].
  - rewrite andb_true_iff, H, IH. split; [intros []; constructor; assumption|intros V; inversion V; auto].
Qed.

Lemma axis_validb_spec a d : axis_validb a d = true <-> axis_valid a d.
Proof.
  unfold axis_validb, axis_valid. rewrite !andb_true_iff, !N.ltb_lt, N.leb_le. tauto.
Qed.

Lemma validb_spec h dims : validb h dims = true <-> valid h dims.
Proof.
  unfold validb, valid, lens_okb, lens_ok, axes_valid.
  rewrite !andb_true_iff, !Nat.eqb_eq, (forall2b_spec _ _ axis_validb_spec). tauto.
Qed.

Lemma slice_validb_spec start count dims : slice_validb start count dims = true <-> slice_valid start count dims.
Proof.
  unfold slice_validb, slice_valid. rewrite !andb_true_iff, !Nat.eqb_eq.
  rewrite (forall2b_spec _ (fun sc d => fst sc + snd sc <= d)) by (intros; apply N.leb_le). tauto.
Qed.

Definition H1 (s c : list N) (st b : option (list N)) := mkSel s c st b.

(* D9/overflow: start + (count-1)*stride wraps around uint64 and the selection is accepted *)
Lemma validate_orig_refuted :
  exists h dims, u64_sel h (length dims) /\ Forall u64 dims /\ validate_orig h dims = Ok /\ ~ valid h dims.
Proof.
  exists (H1 [18446744073709551615] [2] None None), [10].
  split; [|split; [|split]].
  - unfold u64_sel, u64; cbn; repeat split; repeat constructor; vm_compute; discriminate.
  - repeat constructor. vm_compute. discriminate.
  - vm_compute. reflexivity.
  - intros V. apply validb_spec in V. vm_compute in V. discriminate.
Qed.

Lemma slice_validate_orig_refuted :
  exists start count dims, Forall u64 start /\ Forall u64 count /\ Forall u64 dims /\
    slice_validate_orig start count dims = Ok /\ ~ slice_valid start count dims.
Proof.
  exists [9], [18446744073709551615], [10].
  split; [repeat constructor; vm_compute; discriminate|].
  split; [repeat constructor; vm_compute; discriminate|].
  split; [repeat constructor; vm_compute; discriminate|].
  split; [vm_compute; reflexivity|].
  intros V. apply slice_validb_spec in V. vm_compute in V. discriminate.
Qed.

Definition orig_wrong (lay : layout) (full dims : list N) (h : hsel) : Prop :=
  layout_ok lay full dims /\ valid h dims /\ validate_orig h dims = Ok /\
  read_hyperslab_orig lay full dims h <> Some (select full dims (axes_of h (length dims))).

Ltac orig_witness :=
  unfold orig_wrong; split; [|split; [|split]];
  [ split; [vm_compute; reflexivity|cbn; repeat split; repeat constructor]
  | apply validb_spec; vm_compute; reflexivity
  | vm_compute; reflexivity
  | vm_compute; discriminate ].

(* D9/1-D fast path: stride and block ignored *)
Lemma orig_1d_refuted : orig_wrong Contiguous (nrange 10) [10] (H1 [0] [3] (Some [2]) None).
Proof. orig_witness. Qed.

(* D9/N-D "contiguous" fast path: only the last dimension inspected *)
Lemma orig_nd_contiguous_refuted :
  orig_wrong Contiguous (nrange 20) [4; 5] (H1 [0; 0] [2; 5] (Some [2; 1]) None).
Proof. orig_witness. Qed.

(* D9/bounding box read as if it were contiguous (rank >= 3) *)
Lemma orig_bbox_refuted :
  orig_wrong Contiguous (nrange 60) [3; 4; 5] (H1 [1; 1; 1] [2; 2; 2] None None).
Proof. orig_witness. Qed.

(* D9/chunked: elements emitted chunk by chunk *)
Lemma orig_chunk_major_refuted :
  orig_wrong (Chunked [2; 3]) (nrange 24) [4; 6] (H1 [0; 0] [4; 6] None None).
Proof. orig_witness. Qed.

(* D9/chunked: early return loses elements when blocks overlap (stride < block) *)
Lemma orig_chunk_overlap_refuted :
  orig_wrong (Chunked [2]) (nrange 6) [6] (H1 [0] [2] (Some [1]) (Some [3])).
Proof. orig_witness. Qed.

(* a strided, blocked 3-D selection over a chunked dataset with partial edge chunks is valid,
   accepted, and read correctly; its result is not trivial *)
Definition ex_h := H1 [1; 0; 1] [2; 2; 2] (Some [1; 2; 2]) (Some [1; 1; 2]).
Definition ex_dims := [3; 4; 5].

Lemma nonvacuous_chunked :
  valid ex_h ex_dims /\ validate ex_h ex_dims = Ok /\
  read_hyperslab (Chunked [2; 3; 2]) (nrange 60) ex_dims ex_h
  = Some [21; 22; 23; 24; 31; 32; 33; 34; 41; 42; 43; 44; 51; 52; 53; 54].
Proof. split; [apply validb_spec; vm_compute; reflexivity|split; vm_compute; reflexivity]. Qed.

Lemma nonvacuous_paths :
  (* single read *)      is_contiguous_selection (axes_of (H1 [1; 0] [2; 5] None None) 2) [4; 5] = true /\
  (* 2-D element-wise *) is_contiguous_selection (axes_of (H1 [1; 1] [2; 2] None None) 2) [4; 5] = false /\
  (* selection run *)    is_contiguous_selection (axes_of ex_h 3) ex_dims = false /\
  read_hyperslab Contiguous (nrange 20) [4; 5] (H1 [1; 0] [2; 5] None None) = Some (nseq 5 10) /\
  read_hyperslab Contiguous (nrange 20) [4; 5] (H1 [1; 1] [2; 2] None None) = Some [6; 7; 11; 12] /\
  read_hyperslab Contiguous (nrange 60) ex_dims ex_h
  = Some [21; 22; 23; 24; 31; 32; 33; 34; 41; 42; 43; 44; 51; 52; 53; 54] /\
  read_hyperslab Compact (nrange 60) ex_dims ex_h
  = Some [21; 22; 23; 24; 31; 32; 33; 34; 41; 42; 43; 44; 51; 52; 53; 54].
Proof. repeat split; vm_compute; reflexivity. Qed.

Lemma nonvacuous_rejects :
  validate (H1 [18446744073709551615] [2] None None) [10] = Err /\
  validate (H1 [1] [1] None (Some [18446744073709551615])) [10] = Err /\
  validate (H1 [0] [4] (Some [3]) None) [10] = Ok /\
  validate (H1 [0] [4] (Some [3]) (Some [2])) [10] = Err /\
  slice_validate [9] [18446744073709551615] [10] = Err /\
  slice_validate [10] [0] [10] = Ok.
Proof. repeat split; vm_compute; reflexivity. Qed.

Lemma nonvacuous_iterator :
  chunk_iterator (nrange 24) [4; 6] [2; 4]
  = [([0; 0], Some [0; 1; 2; 3; 6; 7; 8; 9]); ([0; 1], Some [4; 5; 10; 11]);
     ([1; 0], Some [12; 13; 14; 15; 18; 19; 20; 21]); ([1; 1], Some [16; 17; 22; 23])].
Proof. vm_compute. reflexivity. Qed.
