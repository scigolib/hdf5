(* C07 - LZF decompressor (internal/core/filterpipeline.go lzfDecompress, model Model/Filters.v lzf_dec):
   no declared output size is passed to it; the output grows only by what the input encodes.
   OUTPUT SIZE BOUND for ALL inputs made of bytes:   len(output) <= 88 * len(input).
     literal run       ctrl < 32      : ctrl + 2 input bytes give ctrl + 1 <= 32 output bytes
     short back ref.   2 input bytes  : ctrl/32 + 2 <= 9 output bytes
     long back ref.    3 input bytes  : b1 + 9 <= 264 output bytes  = 88 per input byte
   The constant is reached by every long back reference (examples and the family [lzf_blowup] at the end).
   Base.Outcome / Base.Bytes are NOT imported here (their [Ok]/[Err]/[Panic] would clash with Filters.outcome);
   the byte hypothesis is spelled [forallb (fun b => b <? 256) i = true], which is the unfolding of
   [bytes_ok i = true] (convertible), or [Forall (fun b => b < 256) i]. *)
From HV Require Import Base.Prelude Model.Filters Proofs.FiltersLzf.

Local Open Scope nat_scope.

Definition is_bytes (l : list N) : Prop := Forall (fun b => (b < 256)%N) l.

Lemma is_bytes_forallb (l : list N) : forallb (fun b => (b <? 256)%N) l = true <-> is_bytes l.
Proof.
  unfold is_bytes. rewrite forallb_forall, Forall_forall.
  split; intros H x Hx; specialize (H x Hx); lia.
Qed.

Lemma is_bytes_skipn (l : list N) n : is_bytes l -> is_bytes (skipn n l).
Proof.
  unfold is_bytes. rewrite !Forall_forall. intros H x Hx. apply H.
  rewrite <- (firstn_skipn n l). apply in_or_app. now right.
Qed.

Lemma copy_back_length : forall n s (out : bytes), length (copy_back n s out) = length out + n.
Proof.
  induction n as [|n IH]; intros s out; cbn [copy_back]; [lia|].
  rewrite IH, app_length. cbn [length]. lia.
Qed.

Lemma lzf_dec_out_len : forall f (i o r : bytes),
  is_bytes i -> lzf_dec f i o = Ok r -> length r <= length o + 88 * length i.
Proof.
  induction f as [|f IH]; intros i o r Hb H.
  - destruct i as [|c t]; cbn [lzf_dec] in H; [|discriminate].
    injection H as <-. lia.
  - destruct i as [|c t]; cbn [lzf_dec] in H; [injection H as <-; lia|].
    inversion Hb as [|? ? Hc Ht]; subst. cbn [length].
    destruct (c <? 32)%N eqn:Ec.
    + (* literal run *)
      destruct (length t <? N.to_nat c + 1) eqn:El; [discriminate|].
      apply Nat.ltb_ge in El.
      apply IH in H; [|now apply is_bytes_skipn].
      rewrite app_length, firstn_length, skipn_length in H. lia.
    + destruct t as [|b1 t2]; [discriminate|].
      inversion Ht as [|? ? Hb1 Ht2]; subst. cbn [length].
      destruct (c / 32 =? 7)%N eqn:E7.
      * (* long back reference: 3 input bytes, at most 255 + 9 output bytes *)
        destruct t2 as [|lo t3]; [discriminate|].
        inversion Ht2 as [|? ? Hlo Ht3]; subst. cbn [length].
        destruct (length o <? _) eqn:Eo; [discriminate|].
        apply IH in H; [|exact Ht3].
        rewrite copy_back_length in H. lia.
      * (* short back reference: 2 input bytes, at most 9 output bytes *)
        destruct (length o <? _) eqn:Eo; [discriminate|].
        apply IH in H; [|exact Ht2].
        rewrite copy_back_length in H. lia.
Qed.

(* the hypothesis is [bytes_ok i = true] of Base/Bytes.v, unfolded *)
Theorem lzf_decompress_out_len : forall (i r : bytes),
  forallb (fun b => (b <? 256)%N) i = true -> lzf_decompress i = Ok r -> length r <= 88 * length i.
Proof.
  intros i r Hb H. apply is_bytes_forallb in Hb. unfold lzf_decompress in H. destruct i as [|c t].
  - injection H as <-. cbn [length]. lia.
  - apply lzf_dec_out_len in H; [|exact Hb]. cbn [length] in *. lia.
Qed.

(* the same in N, the unit of the allocation bounds of C07 *)
Corollary lzf_decompress_out_len_N : forall (i r : bytes),
  forallb (fun b => (b <? 256)%N) i = true -> lzf_decompress i = Ok r ->
  (N.of_nat (length r) <= 88 * N.of_nat (length i))%N.
Proof. intros i r Hb H. pose proof (lzf_decompress_out_len i r Hb H). lia. Qed.

(* no run-time failure and no fuel exhaustion on any input (re-export of FiltersLzf.lzf_decompress_total) *)
Theorem lzf_decompress_no_panic_no_fuel : forall i : bytes,
  lzf_decompress i <> OutOfFuel /\ lzf_decompress i <> Panic.
Proof. exact lzf_decompress_total. Qed.

Lemma lzf_dec_backrefs : forall k f (o : bytes),
  1 <= length o -> 3 * k <= f ->
  exists r, lzf_dec f (concat (repeat [224; 255; 0]%N k)) o = Ok r /\ length r = length o + 264 * k.
Proof.
  induction k as [|k IH]; intros f o Ho Hf.
  - cbn [repeat concat]. exists o. split; [destruct f; reflexivity|lia].
  - destruct f as [|f]; [lia|].
    cbn [repeat concat app lzf_dec].
    change (224 <? 32)%N with false. change (224 / 32 =? 7)%N with true. cbv iota.
    change (N.to_nat (224 mod 32 * 256 + 0) + 1) with 1.
    replace (length o <? 1) with false by (symmetry; apply Nat.ltb_ge; lia).
    destruct (IH f (copy_back (N.to_nat 255 + 9) (length o - 1) o)) as (r & Hr & Hl).
    + rewrite copy_back_length. lia.
    + lia.
    + exists r. split; [exact Hr|]. rewrite Hl, copy_back_length.
      change (N.to_nat 255 + 9) with 264. lia.
Qed.

Theorem lzf_blowup : forall k,
  exists r, lzf_decompress ([0; 65] ++ concat (repeat [224; 255; 0] k))%N = Ok r /\
            length r = 1 + 264 * k /\
            length ([0; 65] ++ concat (repeat [224; 255; 0] k))%N = 2 + 3 * k.
Proof.
  intros k. unfold lzf_decompress. cbn [app length lzf_dec].
  change (0 <? 32)%N with true. cbv iota.
  assert (Hlen : length (concat (repeat [224; 255; 0]%N k)) = 3 * k).
  { induction k as [|k IH]; cbn [repeat concat]; [reflexivity|]. rewrite app_length, IH. cbn [length]. lia. }
  change (N.to_nat 0 + 1) with 1.
  replace (length (65%N :: concat (repeat [224; 255; 0]%N k)) <? 1) with false
    by (symmetry; apply Nat.ltb_ge; cbn [length]; lia).
  cbn [skipn firstn app].
  destruct (lzf_dec_backrefs k (S (length (concat (repeat [224; 255; 0]%N k)))) [65%N]) as (r & Hr & Hl).
  - cbn [length]. lia.
  - lia.
  - exists r. split; [exact Hr|]. split; [rewrite Hl; cbn [length]; lia|lia].
Qed.

(* one literal byte, then one long back reference of maximal length: 3 input bytes give 264 output bytes *)
Example lzf_blowup_1 :
  match lzf_decompress [0; 65; 224; 255; 0]%N with Ok r => length r | _ => 0 end = 1 + 264.
Proof. vm_compute. reflexivity. Qed.

Example lzf_blowup_10 :
  match lzf_decompress ([0; 65] ++ concat (repeat [224; 255; 0] 10))%N with Ok r => length r | _ => 0 end = 1 + 264 * 10.
Proof. destruct (lzf_blowup 10) as (r & -> & Hl & _). exact Hl. Qed.
