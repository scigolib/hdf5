(* C02 at byte level, dense storage: image_v2_dense is a file with one dataset (Proofs/FileImageGenOpen.v) whose header carries the
   Attribute Info message and behind which the four dense structures sit.  The DENSE stage: on the image, Dataset.Attributes
   (api_attributes) walks Attribute Info -> B-tree v2 header -> leaf records -> fractal heap header -> heap objects and returns
   exactly the written attributes, in the order of the leaf records (dense_order: ascending name hash); Dataset.Read,
   ReadSuperblock and hdf5.Open's loader (which runs the same attribute parse on the dataset's header and drops the result)
   return what they return without attributes. *)
From HV Require Import Base.Prelude Base.Outcome Base.Bytes Base.Crc32 Model.IOProg Proofs.IOProg Model.IOProgReader Model.IOProgOpen.
From HV Require Import Model.CodecSuper Model.CodecOhdr Model.CodecMsg Model.CodecType Model.CodecLink Model.GroupWire Model.CodecAttr.
From HV Require Import Proofs.CodecSuper Proofs.CodecOhdr Proofs.CodecMsg Proofs.CodecType Proofs.CodecAttr Proofs.Lookup3.
From HV Require Import Model.FileImage Model.FileImageAttr Model.FileImageDense Proofs.FileImage Proofs.FileImageOhdr Proofs.FileImageData
  Proofs.FileImageMain Proofs.FileImageAttrOhdr Proofs.FileImageGenOpen Proofs.FileImageAttr Proofs.FileImageDenseRead.
From Coq Require Import Sorting.Permutation Sorting.Sorted.

Definition rec_of_pair (p : dattr * bytes) : MB.rec := dense_rec (fst p) (snd p).

Lemma ins_hash_recs : forall l x, map rec_of_pair (ins_hash l x) = MB.insert_sorted (map rec_of_pair l) (rec_of_pair x).
Proof.
  induction l as [|y t IH]; intros x; rewrite PB.insert_sorted_rec; [reflexivity|].
  cbn [map ins_hash]. change (fst (rec_of_pair x)) with (pair_hash x). change (fst (rec_of_pair y)) with (pair_hash y).
  destruct (pair_hash x <=? pair_hash y); [reflexivity|]. cbn [map]. now rewrite IH.
Qed.
Lemma fold_ins_hash_recs : forall ps acc,
  map rec_of_pair (fold_left ins_hash ps acc) = fold_left MB.insert_sorted (map rec_of_pair ps) (map rec_of_pair acc).
Proof.
  induction ps as [|p ps IH]; intros acc; [reflexivity|]. cbn [fold_left map]. rewrite IH, ins_hash_recs. reflexivity.
Qed.
Lemma recs_of_pairs attrs : dense_recs attrs = map rec_of_pair (dense_pairs attrs).
Proof. unfold dense_recs, dense_pairs. rewrite fold_ins_hash_recs. reflexivity. Qed.

Lemma ins_hash_perm l x : Permutation (ins_hash l x) (x :: l).
Proof.
  induction l as [|y t IH]; cbn [ins_hash]; [reflexivity|].
  destruct (pair_hash x <=? pair_hash y); [reflexivity|].
  etransitivity; [apply perm_skip; exact IH|apply perm_swap].
Qed.
Lemma fold_ins_hash_perm : forall ps acc, Permutation (fold_left ins_hash ps acc) (acc ++ ps).
Proof.
  induction ps as [|p ps IH]; intros acc; cbn [fold_left]; [now rewrite app_nil_r|].
  etransitivity; [apply IH|]. etransitivity; [apply Permutation_app_tail; apply ins_hash_perm|].
  cbn [app]. apply Permutation_middle.
Qed.
Lemma dense_pairs_perm attrs : Permutation (dense_pairs attrs) (combine attrs (heap_ids 0 (map dattr_bytes attrs))).
Proof. exact (fold_ins_hash_perm _ []). Qed.

Lemma length_heap_ids : forall l off, length (heap_ids off l) = length l.
Proof. induction l as [|m r IH]; intros off; cbn [heap_ids length]; [reflexivity|]. now rewrite IH. Qed.
Lemma map_fst_combine_ids attrs off : map fst (combine attrs (heap_ids off (map dattr_bytes attrs))) = attrs.
Proof.
  revert off. induction attrs as [|a r IH]; intros off; cbn [map combine heap_ids fst]; [reflexivity|]. now rewrite IH.
Qed.
Lemma dense_order_perm attrs : Permutation (dense_order attrs) attrs.
Proof.
  unfold dense_order. rewrite <- (map_fst_combine_ids attrs 0) at 2. apply Permutation_map. apply dense_pairs_perm.
Qed.
Lemma dense_pairs_length attrs : length (dense_pairs attrs) = length attrs.
Proof.
  rewrite (Permutation_length (dense_pairs_perm attrs)), combine_length, length_heap_ids, map_length. apply Nat.min_id.
Qed.

Lemma dense_order_sorted attrs : StronglySorted N.le (dattr_hashes (dense_order attrs)).
Proof.
  assert (E : dattr_hashes (dense_order attrs) = PB.hashes (dense_recs attrs)).
  { rewrite recs_of_pairs. unfold dattr_hashes, dense_order, PB.hashes. rewrite !map_map. reflexivity. }
  rewrite E. unfold dense_recs.
  set (rs := map _ _). generalize rs. clear.
  assert (G : forall (rs acc : list MB.rec), PB.sorted_h acc -> PB.sorted_h (fold_left MB.insert_sorted rs acc)).
  { induction rs as [|r rs IH]; intros acc H; cbn [fold_left]; [exact H|]. apply IH. now apply PB.insert_sorted_sorted. }
  intros rs. apply G. constructor.
Qed.

Lemma pairs_split : forall l (pre : bytes) a id, In (a, id) (combine l (heap_ids (blen pre) (map dattr_bytes l))) ->
  exists x y, pre ++ concat (map dattr_bytes l) = x ++ dattr_bytes a ++ y /\ id = MF.encode_id 3 (blen x) (blen (dattr_bytes a)).
Proof.
  induction l as [|a0 r IH]; intros pre a id H; cbn [map heap_ids combine In concat] in *; [contradiction|].
  destruct H as [H|H].
  - injection H as <- <-. exists pre, (concat (map dattr_bytes r)). split; reflexivity.
  - replace (blen pre + blen (dattr_bytes a0)) with (blen (pre ++ dattr_bytes a0)) in H by (rewrite blen_app; blia).
    destruct (IH _ _ _ H) as (x & y & E & Ei). exists x, y. split; [|exact Ei]. rewrite <- E, <- app_assoc. reflexivity.
Qed.

Section Image.
Variable name : bytes.
Variables class size cbf : N.
Variable dims : list N.
Variable data : bytes.
Variable attrs : list dattr.
Hypothesis Hname : link_name_ok name = true.
Hypothesis Hdt : basic_dtype class size cbf = true.
Hypothesis Hdims : dims_ok dims = true.
Hypothesis Hlen : blen data = total_elems dims * size.
Hypothesis Hbound : blen data < 4294967296.
(* every attribute message is one the encoder accepts and the decoder inverts (Proofs/CodecAttr.v) *)
Hypothesis Hwf : Forall (fun a => wf_attribute (dattr_msg a) = true) attrs.
(* the header with the Attribute Info message fits its chunk; the messages fit the direct block; the records fit the leaf *)
Hypothesis Hdense : dense_fits class size cbf dims data = true.
Hypothesis Hheap : heap_fits attrs = true.
Hypothesis Hleaf : leaf_fits attrs = true.

Local Notation f := (image_v2_dense name class size cbf dims data attrs).
Local Notation da := (dset_addr data).
Local Notation dso := (dset_ohdr class size cbf dims).
Local Notation dho := (dense_ohdr class size cbf dims data).
Local Notation dsbd := (dset_block_dense class size cbf dims data attrs).
Local Notation dmsgs := (msgs_at_v2 (oh_msgs dho) (da + 7)).
Local Notation FH := (FH_ADDR data).
Local Notation DB := (DB_ADDR data).
Local Notation LEAF := (LEAF_ADDR data).
Local Notation BTH := (BTH_ADDR data).
Local Notation fbt := (final_bt2 data attrs).
Local Notation fhp := (final_fheap data attrs).
Local Notation fdb := (final_dblock data attrs).
Local Notation dense_blocks := [MF.encode_header fhp; MF.encode_dblock fdb; leaf_block data attrs; MB.encode_header 8 fbt].
Local Notation inst L :=
  (L (eof_dense data) name data dho (skipn (length (enc_ohdr_v2 dho)) (compact_block class size cbf dims attrs)) dense_blocks)
  (only parsing).
Local Notation instL L := (L (eof_dense data) name data dsbd dense_blocks) (only parsing).

Lemma compact_count_inv : forall l ms c, chunk_size_v2 ms <= 255 ->
  exists j, compact_count ms c l = (c + j)%nat /\ chunk_size_v2 (ms ++ map amsg (firstn j l)) <= 255.
Proof using. clear.
  induction l as [|a r IH]; intros ms c H; cbn [compact_count].
  - exists 0%nat. split; [blia|]. cbn [firstn map]. now rewrite app_nil_r.
  - destruct ((c <? MAX_COMPACT)%nat && (chunk_size_v2 (ms ++ [amsg a]) <=? 255)) eqn:E.
    + apply andb_true_iff in E as [_ E]. apply N.leb_le in E.
      destruct (IH (ms ++ [amsg a]) (S c) E) as (j & Ej & Hj). exists (S j). split; [blia|].
      cbn [firstn map]. rewrite <- app_assoc in Hj. exact Hj.
    + exists 0%nat. split; [blia|]. cbn [firstn map]. now rewrite app_nil_r.
Qed.
Lemma compact_chunk_bound : chunk_size_v2 (oh_msgs (compact_ohdr class size cbf dims attrs)) <= 255.
Proof using Hdt Hdims Hlen Hbound. clear - Hdt Hdims Hlen Hbound.
  unfold compact_ohdr, n_compact. cbn [oh_msgs].
  assert (Hb : chunk_size_v2 (base_msgs class size cbf dims) <= 255).
  { pose proof (dso_chunk_bound class size cbf dims data Hdt Hdims Hlen Hbound). unfold base_msgs. blia. }
  destruct (compact_count_inv attrs _ 0%nat Hb) as (j & Ej & Hj). rewrite Ej. exact Hj.
Qed.
Lemma compact_block_len : blen (compact_block class size cbf dims attrs) = OHDR_RESERVE.
Proof using Hdt Hdims Hlen Hbound. exact (reserve_block_len _ compact_chunk_bound). Qed.

Lemma ainfo_bytes : enc_attrinfo SBP (dense_info data) = [0; 0] ++ le 8 FH ++ le 8 BTH.
Proof using. clear. reflexivity. Qed.
Lemma dho_chunk : chunk_size_v2 (oh_msgs dho) = chunk_size_v2 (oh_msgs dso) + 22.
Proof using. clear.
  unfold dense_ohdr, base_msgs, dset_ohdr. cbn [oh_msgs chunk_size_v2 fold_right hm_data app]. rewrite ainfo_bytes.
  rewrite !blen_app, !blen_le. change (blen [0; 0]) with 2. blia.
Qed.
Lemma dho_chunk_bound : chunk_size_v2 (oh_msgs dho) <= 255.
Proof using Hdense. clear - Hdense. unfold dense_fits in Hdense. now apply N.leb_le in Hdense. Qed.
Lemma dho_ok : ohdr_ok2 dho.
Proof using Hdt Hdense. clear - Hdt Hdense.
  apply dset_ohdr_ok2; [| |exact dho_chunk_bound].
  - exact (dt_msg_ge2 class size cbf Hdt).
  - repeat constructor; discriminate.
Qed.
Lemma dsbd_len : blen dsbd = OHDR_RESERVE.
Proof using Hdt Hdims Hlen Hbound Hdense. clear - Hdt Hdims Hlen Hbound Hdense.
  unfold dset_block_dense. rewrite blen_app. unfold blen at 2. rewrite skipn_length.
  pose proof compact_block_len as L. unfold blen in L.
  pose proof (ohdr_v2_blen dho) as L2. unfold blen in L2.
  pose proof dho_chunk_bound. unfold size_ohdr_v2, OHDR_RESERVE in *. unfold blen. blia.
Qed.

Lemma objs_bound : objs_total attrs <= 65517.
Proof using Hheap. clear - Hheap. unfold heap_fits in Hheap. apply andb_true_iff in Hheap as [H _]. apply N.leb_le in H. exact H. Qed.
Lemma nattrs_bound : N.of_nat (length attrs) <= 371.
Proof using Hleaf. clear - Hleaf. unfold leaf_fits in Hleaf. apply N.leb_le in Hleaf. exact Hleaf. Qed.

Lemma wf_in a : In a attrs -> wf_attribute (dattr_msg a) = true.
Proof using Hwf. clear - Hwf. intros H. rewrite Forall_forall in Hwf. now apply Hwf. Qed.
Lemma msg_len_ge a : In a attrs -> 11 <= blen (dattr_bytes a).
Proof using Hwf. clear - Hwf. intros H. pose proof (wf_in a H) as W. destruct a as [[[aname adt] adims] adata].
  exact (am_len_ge aname adt adims adata W).
Qed.

Lemma pair_good p : In p (dense_pairs attrs) ->
  In (fst p) attrs /\
  exists x y, concat (objs attrs) = x ++ dattr_bytes (fst p) ++ y /\ snd p = MF.encode_id 3 (blen x) (blen (dattr_bytes (fst p))).
Proof using. clear.
  intros H. apply (Permutation_in _ (dense_pairs_perm attrs)) in H. destruct p as [a id]. cbn [fst snd]. split.
  - exact (in_combine_l _ _ _ _ H).
  - change 0 with (blen (@nil N)) in H. destruct (pairs_split attrs [] a id H) as (x & y & E & Ei). exists x, y. split; [exact E|exact Ei].
Qed.

Lemma encode_id_len off n : length (MF.encode_id 3 off n) = 8%nat.
Proof using. clear. unfold MF.encode_id. change (N.to_nat 3) with 3%nat. cbn [length]. rewrite !app_length, !length_le. reflexivity. Qed.

Lemma recs_wf : Forall PB.rec_wf (final_recs attrs).
Proof using. clear.
  unfold final_recs. rewrite recs_of_pairs. apply Forall_forall. intros r Hr. apply in_map_iff in Hr as (p & <- & Hp).
  destruct (pair_good p Hp) as (_ & x & y & _ & Ei). split.
  - cbn [rec_of_pair dense_rec fst]. apply jenkins_lt.
  - cbn [rec_of_pair dense_rec snd]. rewrite Ei, firstn_length, encode_id_len. reflexivity.
Qed.
Lemma recs_len : length (final_recs attrs) = length attrs.
Proof using. clear. unfold final_recs. rewrite recs_of_pairs, map_length. apply dense_pairs_length. Qed.

Lemma fh_block_len : blen (MF.encode_header fhp) = 146.
Proof using. clear. exact (PF.len_encode_header fhp). Qed.
Lemma db_block_len : blen (MF.encode_dblock fdb) = 65536.
Proof using Hheap. clear - Hheap.
  apply (PF.len_encode_dblock fdb); cbn [final_dblock MF.db_size MF.db_objs]; unfold HEAP_BLOCK; [blia|].
  pose proof objs_bound. unfold objs_total in *. change (MF.len (concat (objs attrs))) with (blen (concat (objs attrs))). blia.
Qed.
Lemma leaf_enc_len : blen (MB.encode_leaf fbt) = 10 + N.of_nat (length attrs) * 11.
Proof using. clear.
  rewrite blen_encode_leaf by (cbn [final_bt2 MB.leaf_recs]; exact recs_wf).
  cbn [final_bt2 MB.leaf_recs]. rewrite recs_len. blia.
Qed.
Lemma leaf_block_len : blen (leaf_block data attrs) = 4096.
Proof using Hleaf. clear - Hleaf.
  unfold leaf_block. rewrite blen_app, blen_zeros. pose proof leaf_enc_len. pose proof nattrs_bound. unfold BT2_NODE. blia.
Qed.
Lemma bth_block_len : blen (MB.encode_header 8 fbt) = 38.
Proof using. clear.
  assert (E : length (MB.encode_header 8 fbt) = MB.hdr_size 8) by (apply PB.encode_header_length; unfold PB.osz_ok; blia).
  unfold blen. bnorm. rewrite E. reflexivity.
Qed.

Lemma PD_dense : placed f FH (MF.encode_header fhp) /\ placed f DB (MF.encode_dblock fdb) /\
                 placed f LEAF (leaf_block data attrs) /\ placed f BTH (MB.encode_header 8 fbt).
Proof using Hname Hdt Hdims Hlen Hbound Hdense Hheap Hleaf. clear - Hname Hdt Hdims Hlen Hbound Hdense Hheap Hleaf.
  pose proof (instL V2_rest Hname) as R0. rewrite dsbd_len in R0. cbn [concat] in R0.
  pose proof (placed_tail _ _ _ _ R0) as R1. rewrite fh_block_len in R1.
  pose proof (placed_tail _ _ _ _ R1) as R2. rewrite db_block_len in R2.
  pose proof (placed_tail _ _ _ _ R2) as R3. rewrite leaf_block_len in R3.
  exact (conj (placed_head _ _ _ _ R0) (conj (placed_head _ _ _ _ R1) (conj (placed_head _ _ _ _ R2) (placed_head _ _ _ _ R3)))).
Qed.

Lemma image_dense_len : blen f = eof_dense data.
Proof using Hname Hdt Hdims Hlen Hbound Hdense Hheap Hleaf. clear - Hname Hdt Hdims Hlen Hbound Hdense Hheap Hleaf.
  transitivity (da + blen dsbd + blen (concat dense_blocks)); [exact (instL v2_len Hname)|].
  cbn [concat]. rewrite !blen_app, dsbd_len, fh_block_len, db_block_len, leaf_block_len, bth_block_len.
  unfold eof_dense, BTH_ADDR, LEAF_ADDR, DB_ADDR, FH_ADDR, eof_addr, MF.HDR_SIZE, HEAP_BLOCK, BT2_NODE. change (blen []) with 0. blia.
Qed.

Lemma addr_bounds : 2457 <= FH /\ BTH + 38 < 4295040000.
Proof using Hbound. clear - Hbound.
  unfold BTH_ADDR, LEAF_ADDR, DB_ADDR, FH_ADDR, eof_addr, dset_addr, OHDR_RESERVE, MF.HDR_SIZE, HEAP_BLOCK, BT2_NODE.
  change DATA_ADDR with 2195. blia.
Qed.
Lemma addr_order : FH < DB /\ DB < LEAF /\ LEAF < BTH.
Proof using. clear. unfold BTH_ADDR, LEAF_ADDR, DB_ADDR, MF.HDR_SIZE, HEAP_BLOCK, BT2_NODE. blia. Qed.

(* ParseAttributeInfoMessage on the writer's Attribute Info message *)
Lemma ainfo_decoded : IOProgReader.dec_attrinfo SB' (enc_attrinfo SBP (dense_info data)) = Ok (FH, BTH).
Proof using Hbound. clear - Hbound.
  rewrite ainfo_bytes. pose proof addr_bounds as (B1 & B2).
  unfold IOProgReader.dec_attrinfo. cbn [SB' spp_offsize].
  assert (L : blen ([0; 0] ++ le 8 FH ++ le 8 BTH) = 18) by (rewrite !blen_app, !blen_le; reflexivity).
  rewrite L. change (18 <? 2) with false. cbv iota.
  change (index ([0; 0] ++ le 8 FH ++ le 8 BTH) 1) with (@Ok N 0). cbn [obind].
  change (N.testbit 0 0) with false. change (N.testbit 0 1) with false. cbn [andb]. cbv iota.
  change (18 <? 2 + 8) with false. cbv iota.
  match goal with |- context [slice ?b ?x ?y] => replace (slice b x y) with (Ok (le 8 FH))
    by (symmetry; apply (slice_app' [0; 0] (le 8 FH) (le 8 BTH)); reflexivity) end.
  cbn [obind].
  change (18 <? 2 + 8 + 8) with false. cbv iota.
  match goal with |- context [slice ?b ?x ?y] => replace (slice b x y) with (Ok (le 8 BTH))
    by (symmetry; apply (slice_app_end ([0; 0] ++ le 8 FH) (le 8 BTH)); reflexivity) end.
  cbn [obind]. pose proof addr_order. rewrite !read_addr_le8 by blia. reflexivity.
Qed.

(* ParseAttributesFromMessages on the four messages: no compact attribute, dense storage at (FH, BTH) *)
Lemma attrs_dense : p_attrs SB' dmsgs = bind (p_dense SB' FH BTH) (fun d => Ret ([] ++ d)).
Proof using Hbound. clear - Hbound.
  unfold p_attrs. cbn [oh_msgs dense_ohdr base_msgs dset_ohdr app msgs_at_v2 compact_attrs first_ainfo hmp_type hmp_data hm_type hm_data N.eqb Pos.eqb bind].
  rewrite ainfo_decoded. pose proof addr_bounds as (B1 & B2). pose proof addr_order as B3.
  replace (FH =? 0) with false by (symmetry; apply N.eqb_neq; blia).
  replace (FH =? UNDEF) with false by (symmetry; apply N.eqb_neq; unfold UNDEF; blia).
  reflexivity.
Qed.

Lemma bt2hdr_stage : run0 f (p_bt2hdr SB' BTH) = Ok (LEAF, N.of_nat (length attrs)).
Proof using Hname Hdt Hdims Hlen Hbound Hdense Hheap Hleaf.
  unfold p_bt2hdr. replace BTH with (BTH + 0) at 1 by blia.
  rewrite (run0_short_placed _ f BTH (MB.encode_header 8 fbt) 0 38 _ (proj2 (proj2 (proj2 PD_dense)))) by (rewrite bth_block_len; blia).
  rewrite (rd_all _ 38) by (symmetry; exact bth_block_len).
  pose proof addr_bounds as (B1 & B2). pose proof nattrs_bound.
  rewrite dec_bt2hdr_enc; cbn [final_bt2 MB.header MB.h_root MB.h_nroot]; [reflexivity | | blia].
  unfold BTH_ADDR in B2. blia.
Qed.

Lemma bt2leaf_stage : run0 f (p_bt2leaf LEAF (N.of_nat (length attrs))) = Ok (map snd (final_recs attrs)).
Proof using Hname Hdt Hdims Hlen Hbound Hdense Hheap Hleaf.
  unfold p_bt2leaf. replace LEAF with (LEAF + 0) at 1 by blia.
  pose proof leaf_enc_len as Ll. pose proof nattrs_bound as Hn.
  rewrite (run0_short_placed _ f LEAF (leaf_block data attrs) 0 _ _ (proj1 (proj2 (proj2 PD_dense)))) by (rewrite leaf_block_len; blia).
  unfold leaf_block at 1. rewrite rd_head by (rewrite Ll; blia).
  pose proof (dec_bt2leaf_enc fbt) as D. cbn [final_bt2 MB.leaf_recs] in D. rewrite recs_len in D.
  cbn [lift]. rewrite (D recs_wf). reflexivity.
Qed.

Lemma fheaphdr_stage : run0 f (p_fheaphdr SB' FH) = Ok (DB, 2, 3).
Proof using Hname Hdt Hdims Hlen Hbound Hdense Hheap Hleaf.
  unfold p_fheaphdr. replace FH with (FH + 0) at 1 by blia.
  rewrite (run0_short_placed _ f FH (MF.encode_header fhp) 0 144 _ (proj1 PD_dense)) by (rewrite fh_block_len; blia).
  destruct (rd_fheap_header fhp) as (tail & Lt & E). rewrite E.
  pose proof addr_bounds as (B1 & B2).
  cbn [lift]. rewrite dec_fheaphdr_enc; [reflexivity | reflexivity | | exact Lt].
  cbn [final_fheap MF.h_root]. unfold BTH_ADDR, LEAF_ADDR in B2. blia.
Qed.


Lemma dense_objs_stage : forall ps, (forall p, In p ps -> In p (dense_pairs attrs)) ->
  run0 f (p_dense_objs SB' (map (fun p => firstn 7 (snd p)) ps) DB 2 3) = Ok (map (fun p => listed (fst p)) ps).
Proof using Hname Hdt Hdims Hlen Hbound Hwf Hdense Hheap Hleaf.
  induction ps as [|p ps IH]; intros Hin; [reflexivity|].
  cbn [map]. cbn beta. cbn [p_dense_objs].
  destruct (pair_good p (Hin p (or_introl eq_refl))) as (Ha & x & y & E & Ei).
  pose proof objs_bound as Ht. unfold objs_total in Ht.
  assert (Lo : blen (concat (objs attrs)) = blen x + blen (dattr_bytes (fst p)) + blen y) by (rewrite E, !blen_app; blia).
  pose proof (msg_len_ge _ Ha) as Lm.
  bnorm. rewrite Ei. rewrite parse_heap_id_enc by blia. cbn [lift bind fst snd].
  rewrite run0_bind.
  pose proof addr_bounds as (B1 & B2).
  rewrite (heap_object_read f DB fdb) with (y := y).
  - cbn [lift].
    destruct (fst p) as [[[aname adt] adims] adata] eqn:Ep.
    pose proof (wf_in _ Ha) as W. cbn [dattr_msg] in W.
    unfold dattr_bytes, dattr_msg. cbn [SB' spp_bigendian].
    rewrite (attribute_roundtrip _ W). cbn [lift bind]. rewrite run0_bind, IH by (intros q Hq; apply Hin; now right).
    cbn [map]. rewrite attr_of_proj. reflexivity.
  - cbn [final_dblock MF.db_size]. unfold HEAP_BLOCK. blia.
  - cbn [final_dblock MF.db_size MF.db_objs]. unfold HEAP_BLOCK. blia.
  - reflexivity.
  - exact (proj1 (proj2 PD_dense)).
  - cbn [final_dblock MF.db_size]. unfold MAXI64, HEAP_BLOCK, BTH_ADDR, LEAF_ADDR in *. blia.
  - exact E.
  - blia.
Qed.

Theorem dense_stage : run0 f (p_dense SB' FH BTH) = Ok (map listed (dense_order attrs)).
Proof using Hname Hdt Hdims Hlen Hbound Hwf Hdense Hheap Hleaf.
  unfold p_dense. pose proof addr_bounds as (B1 & B2).
  replace (FH =? 0) with false by (symmetry; apply N.eqb_neq; blia).
  replace (BTH =? 0) with false by (symmetry; apply N.eqb_neq; unfold BTH_ADDR, LEAF_ADDR, DB_ADDR; blia).
  cbn [orb]. rewrite run0_bind, bt2hdr_stage. cbn [fst snd]. rewrite run0_bind, bt2leaf_stage.
  unfold final_recs. rewrite recs_of_pairs, map_map.
  change (fun x : dattr * bytes => snd (rec_of_pair x)) with (fun p : dattr * bytes => firstn 7 (snd p)).
  unfold dense_order. rewrite map_map.
  destruct (dense_pairs attrs) as [|p0 ps] eqn:Eps; [reflexivity|].
  cbn [map]. rewrite run0_bind, fheaphdr_stage. cbn [fst snd].
  change (firstn 7 (snd p0) :: map (fun p => firstn 7 (snd p)) ps) with (map (fun p : dattr * bytes => firstn 7 (snd p)) (p0 :: ps)).
  change (listed (fst p0) :: map (fun x => listed (fst x)) ps) with (map (fun p : dattr * bytes => listed (fst p)) (p0 :: ps)).
  apply dense_objs_stage. intros p Hp. rewrite Eps. exact Hp.
Qed.

(* the attribute parse of the dataset's header, as every reader of the header runs it *)
Lemma attrs_run : run0 f (p_attrs SB' dmsgs) = Ok (map listed (dense_order attrs)).
Proof using Hname Hdt Hdims Hlen Hbound Hwf Hdense Hheap Hleaf. rewrite attrs_dense, run0_bind, dense_stage. reflexivity. Qed.

Theorem dataset_attributes_dense fuel : (4 < fuel)%nat ->
  run0 f (api_attributes SB' fuel da) = Ok (map listed (dense_order attrs)).
Proof using Hname Hdt Hdims Hlen Hbound Hwf Hdense Hheap Hleaf.
  intros Hf. exact (inst v2_api_attributes Hname dho_ok (da_bound data Hbound) fuel _ Hf attrs_run).
Qed.

Theorem dataset_read_dense fuel : 0 < blen data -> (4 < fuel)%nat ->
  run0 f (api_read_raw SB' fuel da) = Ok (RawBytes data).
Proof using Hname Hdt Hdims Hlen Hbound Hwf Hdense Hheap Hleaf.
  intros Hpos Hf. exact (inst v2_read_basic Hname dho_ok (da_bound data Hbound) class size cbf dims fuel _
                      Hdt Hdims Hlen Hpos Hbound eq_refl eq_refl eq_refl Hf attrs_run).
Qed.

Theorem dataset_type_shape_dense fuel : (4 < fuel)%nat ->
  exists h, run0 f (p_ohdr SB' fuel da) = Ok h /\ decoded_type_shape h = Ok (class, size, cbf, dims).
Proof using Hname Hdt Hdims Hbound Hdense.
  intros Hf. eexists. split; [exact (inst v2_dset_header Hname dho_ok (da_bound data Hbound) fuel Hf)|].
  now apply type_shape_decoded.
Qed.

Lemma eof_dense_u64 : eof_dense data < 18446744073709551616.
Proof using Hbound. clear - Hbound. pose proof addr_bounds as (_ & B2). unfold eof_dense. blia. Qed.

Theorem superblock_stage_dense : run0 f p_superblock = Ok SB'.
Proof using Hname Hbound. exact (inst v2_superblock Hname eof_dense_u64). Qed.

Theorem open_image_dense n hfuel : (4 < hfuel)%nat ->
  run0 f (p_open true (blen f) (S (S (S n))) hfuel) = Ok (Grp [47] 2168 [Dset name da]).
Proof using Hname Hdt Hdims Hlen Hbound Hwf Hdense Hheap Hleaf.
  intros Hhf. exact (inst v2_open Hname eof_dense_u64 dho_ok (da_bound data Hbound)
                      _ attrs_run eq_refl hfuel Hhf n).
Qed.
End Image.
