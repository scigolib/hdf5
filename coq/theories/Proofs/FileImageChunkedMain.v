(* C01 end to end, chunked: the statement with the mathematical products, the decoded type/shape, a witness. *)
From HV Require Import Base.Prelude Model.Chunk Base.Outcome Base.Bytes Model.RobustTerm Model.ChunkIndex.
From HV Require Import Model.IOProg Proofs.IOProg Model.IOProgReader.
From HV Require Import Model.CodecSuper Model.CodecOhdr Model.CodecMsg Model.CodecType.
From HV Require Import Proofs.CodecMsg Proofs.CodecType.
From HV Require Import Model.FileImage Proofs.FileImage Proofs.FileImageOhdr Proofs.FileImageData Proofs.FileImageProd Proofs.FileImageMain
  Model.FileImageChunked Proofs.ChunkRefine Proofs.FileImageChunked Proofs.FileImageChunkedRead.

Local Open Scope N_scope.

Lemma product_prodN l : product l = prodN l.
Proof. unfold product. rewrite fold_mul_prodN. blia. Qed.

Lemma file_roundtrip_chunked_stmt : forall name class size cbf dims cdims data hfuel,
  link_name_ok name = true -> basic_dtype class size cbf = true -> dims_ok_chunked dims = true -> cdims_ok dims cdims = true ->
  blen data = product dims * size -> blen data < 4294967296 -> product cdims * size <= 1073741824 ->
  total_chunks (num_chunks dims cdims) <= 65535 -> (3 < hfuel)%nat ->
  let f := image_v2_chunked name class size cbf dims cdims data in
  (exists cs, run0 f (api_read_raw SB' hfuel CHDR_ADDR) = Ok (RawChunks cs) /\ assemble_chunks dims cdims size cs = COk data) /\
  (exists h, run0 f (p_ohdr SB' hfuel CHDR_ADDR) = Ok h /\ decoded_type_shape h = Ok (class, size, cbf, dims)) /\
  blen f = c_eof size dims cdims data.
Proof.
  intros name class size cbf dims cdims data hfuel Hname Hdt Hdims Hcd Hlen Hbound Hchunk Hcap Hf f.
  rewrite product_prodN in Hlen, Hchunk. change CHDR_ADDR with 2195.
  split; [|split].
  - exact (dataset_read_chunked name class size cbf dims cdims data Hname Hdt Hdims Hcd Hlen Hbound Hchunk Hcap hfuel Hf).
  - eexists. split; [exact (c_dset_header name class size cbf dims cdims data Hname Hdt Hdims Hcd Hlen Hbound Hchunk Hcap hfuel Hf)|].
    now apply type_shape_decoded; [| apply (Hdims' dims Hdims) | |].
  - apply image_c_len; [exact Hname|].
    exact (c_dso_bound class size cbf dims cdims data Hdt Hdims Hcd Hlen Hbound Hchunk Hcap).
Qed.

(* the hypotheses are satisfiable: "/d" = uint8 [1,2,3] in chunks of 2 (two chunks, the second one partial) *)
Example file_roundtrip_chunked_witness :
  link_name_ok [100] = true /\ basic_dtype DT_FIXED 1 0 = true /\ dims_ok_chunked [3] = true /\ cdims_ok [3] [2] = true /\
  blen [1; 2; 3] = product [3] * 1 /\ product [2] * 1 <= 1073741824 /\ total_chunks (num_chunks [3] [2]) <= 65535 /\
  blen (image_v2_chunked [100] DT_FIXED 1 0 [3] [2] [1; 2; 3]) = 2549.
Proof. repeat split; try (vm_compute; congruence). Qed.
