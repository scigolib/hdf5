(* Per-operation layer: the command list every API call compiles to passes the static checks
   (sizes within the reservation, owners within the targets), for every bookkeeping state.  In order: the
   bookkeeping invariant objs_ok; the size lemmas (hdr_write_spec, ws_hdr, ws_leaf); the predicate good with
   fail_targets and may_leave_bytes; good for linking (seq_link_good), chunked and variable-length writes,
   attributes (transition_good, attr_set_good, attr_del_good); compile_good by cases on the operation. *)
From HV Require Import Base.Prelude Model.Store Proofs.Store.

Local Open Scope N_scope.

Section WithPatches.
(* the two error-path patches may be present or not; everything below holds in all four cases *)
Variables bp ba : bool.
Notation cfgb := (gcfg bp ba).

Definition obj_ok (ob : obj) : Prop :=
  o_poff ob + 8 <= max_hdr /\ hdr_chunk (o_msgs ob) <= max_chunk /\ o_nrec ob <= bt2_maxrec.
Definition objs_ok (l : list obj) : Prop := Forall obj_ok l.

Lemma get_obj_ok : forall l x ob, objs_ok l -> get_obj l x = Some ob -> obj_ok ob /\ o_id ob = x.
Proof.
  induction l as [|a r IH]; intros x ob Hl H; [discriminate|]. cbn [get_obj] in H. inversion Hl; subst.
  destruct (o_id a =? x) eqn:E; [|apply IH; assumption].
  inversion H; subst. apply N.eqb_eq in E. auto.
Qed.

Lemma set_obj_ok : forall l nb, objs_ok l -> obj_ok nb -> objs_ok (set_obj l nb).
Proof.
  induction l as [|a r IH]; intros nb Hl Hn; [constructor|]. cbn [set_obj].
  inversion Hl; subst. destruct (o_id a =? o_id nb); constructor; auto. apply IH; auto.
Qed.

Lemma objs_ok_app : forall l nb, objs_ok l -> obj_ok nb -> objs_ok (l ++ [nb]).
Proof. intros. apply Forall_app. split; [assumption | constructor; [assumption | constructor]]. Qed.

Lemma new_obj_ok : forall x k m poff rank,
  poff + 8 <= max_hdr -> hdr_chunk m <= max_chunk -> obj_ok (new_obj x k m poff rank).
Proof. intros. repeat split; auto. apply N.le_0_l. Qed.

(* lia over the size constants; bt2_maxrec = (4096 - 10) / 11 is a division, handed to lia as its value *)
Ltac arith :=
  unfold max_hdr, max_chunk, hdr_prefix, attrinfo_len in *;
  assert (bt2_maxrec = 371) by reflexivity; lia.

(* an in-place header write never exceeds the reserved 7 + 255 bytes: writeToV2 refuses a chunk above 255 *)
Lemma hdr_size_le_reserved : forall m, hdr_chunk m <= max_chunk -> hdr_size m <= max_hdr.
Proof. intros m H. unfold hdr_size. arith. Qed.

Lemma hdr_write_spec : forall x k m w, hdr_write x k m = Some w -> w = CWrite x k 0 (hdr_size m) /\ hdr_chunk m <= max_chunk.
Proof.
  intros x k m w H. unfold hdr_write in H. destruct (max_chunk <? hdr_chunk m) eqn:E; [discriminate|].
  inversion H; subst. apply N.ltb_ge in E. auto.
Qed.

Lemma hdr_write_within_reservation : forall x k m w,
  hdr_write x k m = Some w -> w = CWrite x k 0 (hdr_size m) /\ hdr_size m <= max_hdr.
Proof. intros x k m w H. destruct (hdr_write_spec _ _ _ _ H) as [A B]. split; [exact A | apply hdr_size_le_reserved, B]. Qed.

Lemma hdr_write_none : forall x k m, hdr_write x k m = None -> max_chunk < hdr_chunk m.
Proof. intros x k m H. unfold hdr_write in H. destruct (max_chunk <? hdr_chunk m) eqn:E; [|discriminate]. apply N.ltb_lt; exact E. Qed.

Lemma ws_hdr : forall k m, is_hdr k = true -> hdr_chunk m <= max_chunk -> write_sized cfgb k (0 + hdr_size m) = true.
Proof.
  intros k m Hk H. pose proof (hdr_size_le_reserved m H) as H'.
  destruct k; try discriminate; unfold write_sized, sized, cfgb; cbn [c_reserve_hdr c_reserve_link];
    apply N.leb_le; lia.
Qed.

Lemma is_hdr_kind : forall ob, is_hdr (hdr_kind ob) = true.
Proof. intros ob. unfold hdr_kind. destruct (o_kind ob); reflexivity. Qed.

Lemma ws_patch : forall p, p + 8 <= max_hdr -> write_sized cfgb KHeader (p + 8) = true.
Proof. intros p H. cbn. apply N.leb_le. exact H. Qed.

Lemma ws_leaf : forall n, n <= bt2_maxrec -> write_sized cfgb KBt2Leaf (0 + leaf_size n) = true.
Proof.
  intros n H. cbn. apply N.leb_le. unfold leaf_size, bt2_node. arith.
Qed.

Lemma hdr_chunk_app : forall a b, hdr_chunk (a ++ b) = hdr_chunk a + hdr_chunk b.
Proof. unfold hdr_chunk. induction a as [|p r IH]; intros b; cbn [app fold_right]; [lia|]. rewrite IH. lia. Qed.

Lemma count_le_chunk : forall t m, 4 * count_type t m <= hdr_chunk m.
Proof.
  intros t m. unfold count_type, hdr_chunk. induction m as [|p r IH]; cbn [filter fold_right List.length]; [cbn; lia|].
  destruct (fst p =? t); cbn [List.length]; lia.
Qed.

Lemma drop_type_chunk : forall t m, hdr_chunk (drop_type t m) <= hdr_chunk m.
Proof.
  intros t m. unfold drop_type, hdr_chunk. induction m as [|p r IH]; cbn [filter fold_right]; [lia|].
  destruct (negb (fst p =? t)); cbn [fold_right]; lia.
Qed.

Definition fail_targets (o : op) (w : oid) (k : kind) : bool :=
  match o with
  | OpHardLink _ _ _ t => (w =? t) && is_hdr k
  | OpWriteVL _ _ _ => (w =? 0) && is_gcol k     (* the roll-over flush of the current collection comes first *)
  | _ => false
  end.

(* calls whose failure can leave bytes behind (orphan extents, or the reference-count message) *)
Definition may_leave_bytes (o : op) : bool :=
  match o with
  | OpMkGroup _ _ _ | OpMkChunked _ _ _ _ _ _ _ | OpMkLink _ _ _ _ | OpHardLink _ _ _ _ => negb bp
  | OpMkContig _ _ _ _ _ _ => true       (* header too large for one chunk: detected after the data allocation *)
  | OpAttrSet _ None _ _ => negb ba
  | OpWrite _ _ => true                  (* zero-size chunk: Allocate fails after earlier chunks were written *)
  | OpWriteVL _ _ _ => true              (* the same, after the elements went to the global heap *)
  | OpMkDense _ _ _ _ _ => true          (* CreateDenseGroup links after writing everything, without a pre-check *)
  | _ => false
  end.

(* What every compiled call satisfies: its commands pass the check against T; the bookkeeping update keeps
   objs_ok; when the call fails, the commands pass the check against Tf, there are none unless lv (the call
   may leave bytes behind), and without commands the update is the identity. *)
Definition good (l : list obj) (T Tf : oid -> kind -> bool) (lv : bool) (r : compiled) : Prop :=
  cmds_ok cfgb T [] (fst (fst r)) = true /\ objs_ok (snd r l) /\
  (snd (fst r) = false -> cmds_ok cfgb Tf [] (fst (fst r)) = true) /\
  (snd (fst r) = false -> lv = false -> fst (fst r) = []) /\
  (snd (fst r) = false -> fst (fst r) = [] -> forall l', snd r l' = l').

Lemma good_reject : forall l T Tf lv, objs_ok l -> good l T Tf lv reject.
Proof. intros. unfold good, reject. cbn. auto. Qed.
(* the branches of compile that reject are closed by auto *)
Local Hint Resolve good_reject : core.

Lemma good_cmds : forall l T Tf lv cmds ok upd,
  cmds_ok cfgb T [] cmds = true -> objs_ok (upd l) ->
  (ok = false -> cmds_ok cfgb Tf [] cmds = true /\ lv = true /\ cmds <> []) ->
  good l T Tf lv (cmds, ok, upd).
Proof.
  intros l T Tf lv cmds ok upd HC Hu Hf. unfold good. cbn [fst snd]. repeat split; auto.
  - intros F. apply (Hf F).
  - intros F Hlv. destruct (Hf F) as (_ & E & _). congruence.
  - intros F Hn. destruct (Hf F) as (_ & _ & E). contradiction.
Qed.

Lemma good_ok : forall l T Tf lv cmds upd,
  cmds_ok cfgb T [] cmds = true -> objs_ok (upd l) -> good l T Tf lv (cmds, true, upd).
Proof. intros. apply good_cmds; auto. discriminate. Qed.

Lemma link_spec : forall s p nl dup, objs_ok (objs s) ->
  let r := link_to_parent s p nl dup in
  (snd (fst r) = false -> fst (fst r) = []) /\ (forall l, objs_ok l -> objs_ok (snd r l)) /\
  (forall T fr, T p KHeap = true -> T p KSnod = true -> cmds_ok cfgb T fr (fst (fst r)) = true).
Proof.
  intros s p nl dup Ho. unfold link_to_parent.
  (* every refusing branch returns reject, of which the three clauses hold trivially *)
  destruct (negb (session s =? 0)); [cbn; auto|].
  destruct (get_obj (objs s) p) as [po|] eqn:Eg; [|cbn; auto].
  destruct (o_kind po); try solve [cbn; auto].
  destruct dup; [cbn; auto|].
  destruct (heap_data <? o_hused po + (nl + 1)); [cbn; auto|].
  destruct (snod_cap <=? o_nent po); [cbn; auto|].
  cbn [fst snd]. split; [discriminate|]. split.
  - intros l Hl. apply set_obj_ok; [exact Hl|]. apply (get_obj_ok _ _ _ Ho Eg).
  - intros T fr H1 H2. cbn [cmds_ok]. rewrite H1, H2. reflexivity.
Qed.

(* checkLinkable: with the pre-check in, a creation that gets as far as its first command links successfully *)
Lemma link_prechecked : forall s p nl dup,
  conf s = cfgb -> link_refused s p nl dup = false -> negb bp = false ->
  snd (fst (link_to_parent s p nl dup)) = true.
Proof.
  intros s p nl dup Hcf Hr Hb. unfold link_refused in Hr. rewrite Hcf in Hr. cbn [c_precheck gcfg] in Hr.
  destruct bp; [|discriminate]. destruct (snd (fst (link_to_parent s p nl dup))); [reflexivity | discriminate].
Qed.

Definition ff (_ : oid) (_ : kind) : bool := false.

(* A creation: commands on the new object only, then the link into the parent p; the targets are the new object,
   and the parent's heap and symbol node.  When the link fails the commands before it stay. *)
Lemma seq_link_good : forall s p nl dup c pre nb lv,
  objs_ok (objs s) -> obj_ok nb -> cmds_ok cfgb ff [] (c :: pre) = true ->
  (lv = false -> snd (fst (link_to_parent s p nl dup)) = true) ->
  good (objs s) (fun w k => (w =? opidx s + 1) || ((w =? p) && is_heap_snod k)) ff lv
       (seq_link (c :: pre) (link_to_parent s p nl dup) nb).
Proof.
  intros s p nl dup c pre nb lv Ho Hn Hp Hlv.
  destruct (link_spec s p nl dup Ho) as (A & B & C).
  destruct (link_to_parent s p nl dup) as [[lc lok] upd]. cbn [seq_link fst snd] in *.
  apply good_cmds.
  - apply cmds_ok_app; [apply (cmds_ok_weaken _ ff) with (fr := []); [discriminate | apply incl_refl | exact Hp]|].
    apply C; rewrite N.eqb_refl; apply orb_true_r.
  - apply objs_ok_app; auto.
  - intros F. rewrite (A F), app_nil_r. split; [exact Hp|]. split; [|discriminate].
    destruct lv; [reflexivity|]. rewrite Hlv in F by reflexivity. discriminate.
Qed.

(* evaluates cmds_ok on an explicit command list, up to the size checks of its header and leaf writes *)
Ltac fresh_cmds :=
  cbn [cmds_ok memb existsb fst snd kind_eqb app]; rewrite ?N.eqb_refl; cbn [andb orb];
  rewrite ?ws_hdr, ?ws_leaf by (assumption || reflexivity); rewrite ?orb_true_r; reflexivity.

Lemma chunk_cmds_ok : forall T y sizes fr, cmds_ok cfgb T fr (fst (chunk_cmds y sizes)) = true.
Proof.
  intros T y. induction sizes as [|n r IH]; intros fr; cbn [chunk_cmds]; [reflexivity|].
  destruct (n =? 0); [reflexivity|]. specialize (IH ((y, KChunk) :: fr)).
  destruct (chunk_cmds y r) as [c ok']. exact IH.
Qed.

(* every command of the global heap writer: a collection is allocated with the size it records, and flushed as a
   whole buffer of that recorded size *)
Lemma vl_walk_ok : forall T lens g fr, (forall sz, T 0 (KGCol sz) = true) ->
  cmds_ok cfgb T fr (fst (vl_walk g lens)) = true.
Proof.
  intros T. induction lens as [|l r IH]; intros g fr HT; [reflexivity|].
  cbn [vl_walk].
  destruct (match g with None => true | Some (_, free) => free <? GHeap.obj_total l end).
  - match goal with |- context [vl_walk (Some ?q) r] => pose proof (IH (Some q)) as IH'; destruct (vl_walk (Some q) r) as [c g'] end.
    cbn [fst] in *. apply cmds_ok_app.
    + destruct g as [[sz fr0]|]; [|reflexivity]. cbn [cmds_ok]. rewrite HT. cbn [orb andb].
      unfold write_sized. cbn [sized]. rewrite N.add_0_l, N.leb_refl. reflexivity.
    + cbn [cmds_ok]. unfold alloc_sized. cbn [sized]. rewrite N.eqb_refl. cbn [andb]. apply IH'. exact HT.
  - apply IH. exact HT.
Qed.

Lemma vl_walk_none : forall lens g', vl_walk None lens = ([], g') -> g' = None.
Proof.
  intros [|l r] g' H; cbn [vl_walk] in H; [inversion H; reflexivity|].
  match type of H with context [vl_walk (Some ?q) r] => destruct (vl_walk (Some q) r) end. discriminate.
Qed.

Lemma hdr_write_ok : forall T fr x k m w,
  hdr_write x k m = Some w -> is_hdr k = true -> T x k = true ->
  cmds_ok cfgb T fr [w] = true /\ hdr_chunk m <= max_chunk.
Proof.
  intros T fr x k m w Ew Hk HT. destruct (hdr_write_spec _ _ _ _ Ew) as [-> Hc]. split; [|exact Hc].
  cbn [cmds_ok]. rewrite HT, (ws_hdr k m Hk Hc). reflexivity.
Qed.

Lemma chunked_write_good : forall l y ob sizes T Tf,
  objs_ok l -> obj_ok ob -> T y KHeader = true ->
  good l T Tf true (chunked_write y ob sizes).
Proof.
  intros l y ob sizes T Tf Hl Hob HT. unfold chunked_write.
  destruct (max_chunk_entries <? N.of_nat (List.length sizes)); [auto|].
  pose proof (fun T => chunk_cmds_ok T y sizes []) as Hcc.
  destruct (chunk_cmds y sizes) as [cc ok]. cbn [fst] in Hcc. destruct ok.
  - apply good_ok; [|exact Hl]. apply cmds_ok_app; [apply Hcc|].
    cbn [cmds_ok]. rewrite HT. destruct Hob as (PA & _). rewrite (ws_patch _ PA). reflexivity.
  - unfold good. cbn [fst snd]. repeat split; auto. discriminate.
Qed.

Lemma with_msgs_ok : forall ob m n, obj_ok ob -> hdr_chunk m <= max_chunk -> n <= bt2_maxrec -> obj_ok (with_msgs ob m n).
Proof. intros ob m n (A & B & C) Hm Hn. unfold obj_ok, with_msgs; cbn. auto. Qed.

Lemma transition_good : forall l ob hfit again T,
  objs_ok l -> obj_ok ob -> (forall k, T (o_id ob) k = true) ->
  good l T ff (negb ba) (transition cfgb ob hfit again).
Proof.
  intros l ob hfit again T Hl Hob HT. unfold transition.
  destruct (negb hfit); [auto|].
  set (x := o_id ob). set (k := hdr_kind ob). set (m := o_msgs ob).
  set (nattr := count_type M_ATTR m). set (rest := drop_type M_ATTR m).
  set (tmp := rest ++ [(M_ATTRINFO, attrinfo_len)]).
  cbn [c_attrinfo gcfg].
  assert (Htmp : hdr_chunk tmp = hdr_chunk rest + (4 + attrinfo_len))
    by (unfold tmp; rewrite hdr_chunk_app; unfold hdr_chunk at 2; cbn [fold_right snd]; lia).
  destruct (ba && (max_hdr <? hdr_size tmp)) eqn:Eai; [auto|].
  (* with the early check in, a header that passed it has room for the attribute info message *)
  assert (Hearly : negb ba = false -> hdr_chunk tmp <= max_chunk).
  { intros Hb. destruct ba; [|discriminate]. cbn in Eai. apply N.ltb_ge in Eai. unfold hdr_size in Eai. arith. }
  assert (Hn : nattr + 1 <= bt2_maxrec).
  { pose proof (count_le_chunk M_ATTR m). destruct Hob as (_ & B & _). fold m in B. subst nattr. arith. }
  set (pre := [CAdvance x k (hdr_size tmp); CAlloc x KFHeapHdr fh_hdr_size; CAlloc x KFHeapBlk fh_blk_size;
               CWrite x KFHeapHdr 0 fh_hdr_size; CWrite x KFHeapBlk 0 fh_blk_size; CAlloc x KBt2Leaf bt2_node;
               CWrite x KBt2Leaf 0 (leaf_size (nattr + 1)); CAllocWrite x KBt2Hdr bt2_hdr_size]).
  assert (Hpre : forall T', cmds_ok cfgb T' [] pre = true) by (intros T'; unfold pre; fresh_cmds).
  assert (Hfail : forall upd, objs_ok (upd l) -> max_chunk < hdr_chunk tmp -> good l T ff (negb ba) (pre, false, upd)).
  { intros upd Hu Hlt. apply good_cmds; auto. intros _. split; [apply Hpre|]. split; [|discriminate].
    destruct (negb ba); [reflexivity|]. specialize (Hearly eq_refl). lia. }
  destruct (max_chunk <? hdr_chunk rest + (4 + attrinfo_len)) eqn:E1.
  { apply Hfail; [exact Hl|]. apply N.ltb_lt in E1. lia. }
  destruct (hdr_write x k tmp) as [w|] eqn:Ew; [|apply Hfail; [exact Hl | apply (hdr_write_none _ _ _ Ew)]].
  destruct (hdr_write_ok T [] _ _ _ _ Ew (is_hdr_kind ob) (HT k)) as [Hw Hc].
  apply good_ok.
  - apply cmds_ok_app; [apply Hpre|]. destruct again; [apply (cmds_ok_app _ _ [w] [w])|]; exact Hw.
  - apply set_obj_ok; auto. apply with_msgs_ok; auto.
Qed.

Lemma dense_writes_ok : forall T x n fr, (forall k, T x k = true) -> n <= bt2_maxrec ->
  cmds_ok cfgb T fr (dense_writes x n) = true.
Proof.
  intros T x n fr HT Hn. unfold dense_writes. cbn [cmds_ok]. rewrite !HT. cbn [orb andb].
  rewrite (ws_leaf _ Hn). reflexivity.
Qed.

Lemma replace_chunk_ok : forall x k i alen m w, hdr_write x k (replace_nth_type M_ATTR i alen m) = Some w -> True.
Proof. auto. Qed.

Lemma rewrite_good : forall l ob m w T Tf lv,
  objs_ok l -> obj_ok ob -> T (o_id ob) (hdr_kind ob) = true ->
  hdr_write (o_id ob) (hdr_kind ob) m = Some w ->
  good l T Tf lv ([w], true, fun l => set_obj l (with_msgs ob m 0)).
Proof.
  intros l ob m w T Tf lv Hl Hob HT Ew.
  destruct (hdr_write_ok T [] _ _ _ _ Ew (is_hdr_kind ob) HT) as [Hw Hc].
  apply good_ok; [exact Hw|]. apply set_obj_ok; auto. apply with_msgs_ok; auto. apply N.le_0_l.
Qed.

Lemma attr_set_good : forall l ob idx alen hfit T,
  objs_ok l -> obj_ok ob -> (forall k, T (o_id ob) k = true) ->
  good l T ff (match idx with None => negb ba | Some _ => false end) (attr_set cfgb ob idx alen hfit).
Proof.
  intros l ob idx alen hfit T Hl Hob HT. unfold attr_set.
  pose proof Hob as (PA & PB & PC).
  destruct (has_type M_ATTRINFO (o_msgs ob)).
  { destruct idx as [i|].
    - destruct hfit; [|auto]. apply good_ok; auto. apply dense_writes_ok; auto.
    - destruct (negb hfit); [auto|].
      destruct (bt2_maxrec <=? o_nrec ob) eqn:E; [auto|].
      apply N.leb_gt in E. apply good_ok.
      + apply dense_writes_ok; auto. lia.
      + apply set_obj_ok; auto. apply with_msgs_ok; auto. lia. }
  destruct (count_type M_ATTR (o_msgs ob) <? max_compact).
  - destruct idx as [i|].
    + destruct (hdr_write (o_id ob) (hdr_kind ob) (replace_nth_type M_ATTR i alen (o_msgs ob))) as [w|] eqn:Ew;
        [apply rewrite_good; auto | auto].
    + destruct (max_chunk <? hdr_chunk (o_msgs ob) + (4 + alen)); [apply transition_good; auto|].
      destruct (hdr_write (o_id ob) (hdr_kind ob) (o_msgs ob ++ [(M_ATTR, alen)])) as [w|] eqn:Ew;
        [apply rewrite_good; auto | auto].
  - destruct idx as [i|]; [auto | apply transition_good; auto].
Qed.

Lemma attr_del_good : forall l ob idx T,
  objs_ok l -> obj_ok ob -> (forall k, T (o_id ob) k = true) ->
  good l T ff false (attr_del ob idx).
Proof.
  intros l ob idx T Hl Hob HT. unfold attr_del. pose proof Hob as (PA & PB & PC).
  destruct idx as [i|]; [|auto].
  destruct (has_type M_ATTRINFO (o_msgs ob)).
  - destruct (o_nrec ob =? 0); [auto|]. apply good_ok.
    + apply dense_writes_ok; auto. lia.
    + apply set_obj_ok; auto. apply with_msgs_ok; auto. lia.
  - destruct (hdr_write (o_id ob) (hdr_kind ob) (remove_nth_type M_ATTR i (o_msgs ob))) as [w|] eqn:Ew;
      [apply rewrite_good; auto | auto].
Qed.

Lemma set_msgs_ok : forall l x m, objs_ok l -> hdr_chunk m <= max_chunk -> objs_ok (set_msgs l x m).
Proof.
  intros l x m Hl Hm. unfold set_msgs. destruct (get_obj l x) as [cur|] eqn:E; [|exact Hl].
  destruct (get_obj_ok _ _ _ Hl E) as [Hc _]. apply set_obj_ok; auto. apply with_msgs_ok; auto. apply Hc.
Qed.

Lemma compile_good : forall s o, objs_ok (objs s) -> conf s = cfgb ->
  good (objs s) (targets s o) (fail_targets o) (may_leave_bytes o) (compile s o).
Proof.
  intros s o Ho Hcf. unfold compile. rewrite Hcf.
  destruct (closed s) eqn:Ecl; [auto|].
  destruct o as [p nl dup|p nl dup ldt rank dsize|p nl dup ldt rank hasmax lpipe|p nl dup mlen|y sizes|y|y idx alen hfit|y idx|p nl dup tgt
                |p nl dup nlinks fit|y lens sizes| | |];
    try solve [auto].
  - (* OpMkGroup *)
    destruct (negb (parent_known s p)); [auto|].
    destruct (link_refused s p nl dup) eqn:Elr; [auto|].
    destruct (hdr_write (opidx s + 1) KHeader [(M_SYMTAB, 16)]) as [w|] eqn:Ew; [|auto].
    destruct (hdr_write_spec _ _ _ _ Ew) as [-> Hc].
    apply seq_link_good; [exact Ho | apply new_obj_ok; [arith | exact Hc] | fresh_cmds | apply link_prechecked; auto].
  - (* OpMkContig *)
    destruct (dsize =? 0); [auto|].
    destruct (link_refused s p nl dup) eqn:Elr; [auto|].
    destruct (hdr_write (opidx s + 1) KHeader _) as [w|] eqn:Ew.
    + destruct (hdr_write_spec _ _ _ _ Ew) as [-> Hc].
      apply seq_link_good; [exact Ho | apply new_obj_ok; [arith | exact Hc] | fresh_cmds | discriminate].
    + apply good_cmds; auto. intros _. repeat split; discriminate.
  - (* OpMkChunked *)
    set (lds := 8 + 8 * rank + (if hasmax then 8 * rank else 0)).
    set (pipe := if lpipe =? 0 then [] else [(M_PIPELINE, lpipe)]).
    destruct (hdr_write (opidx s + 1) KHeader _) as [w|] eqn:Ew; [|auto].
    destruct (hdr_write_spec _ _ _ _ Ew) as [-> Hc].
    destruct (link_refused s p nl dup) eqn:Elr; [auto|].
    apply seq_link_good; [exact Ho | apply new_obj_ok; [|exact Hc] | fresh_cmds | apply link_prechecked; auto].
    (* the address patch of a chunked write lies inside the header: the layout message is the third one *)
    rewrite hdr_chunk_app in Hc. unfold hdr_chunk in Hc at 1. cbn [fold_right snd] in Hc. arith.
  - (* OpMkLink *)
    destruct (negb (parent_known s p)); [auto|].
    destruct (hdr_write (opidx s + 1) KLinkHdr [(M_LINK, mlen)]) as [w|] eqn:Ew; [|auto].
    destruct (hdr_write_spec _ _ _ _ Ew) as [-> Hc].
    destruct (link_refused s p nl dup) eqn:Elr; [auto|].
    apply seq_link_good; [exact Ho | apply new_obj_ok; [arith | exact Hc] | fresh_cmds | apply link_prechecked; auto].
  - (* OpWrite *)
    destruct (get_obj (objs s) y) as [ob|] eqn:Eg; [|auto].
    destruct (get_obj_ok _ _ _ Ho Eg) as [Hob Hid].
    destruct (o_kind ob); try solve [auto].
    + apply good_ok; [|exact Ho]. cbn [targets cmds_ok]. rewrite N.eqb_refl. reflexivity.
    + destruct (negb (session s =? 0)); [auto|].
      destruct sizes as [|n0 sz]; [auto|].
      apply chunked_write_good; auto. cbn [targets]. apply N.eqb_refl.
  - (* OpResize *)
    destruct (get_obj (objs s) y) as [ob|] eqn:Eg; [|auto].
    destruct (o_kind ob); try solve [auto].
    destruct (negb (session s =? 0)); [auto|].
    destruct (hdr_write y KHeader (o_msgs ob)) as [w|] eqn:Ew; [|auto].
    apply good_ok; [|exact Ho]. apply (hdr_write_ok _ _ _ _ _ _ Ew eq_refl). cbn [targets]. apply N.eqb_refl.
  - (* OpAttrSet *)
    destruct (get_obj (objs s) y) as [ob|] eqn:Eg; [|auto].
    destruct (get_obj_ok _ _ _ Ho Eg) as [Hob Hid].
    assert (HT : forall k, targets s (OpAttrSet y idx alen hfit) (o_id ob) k = true)
      by (intros k; cbn [targets]; rewrite Hid; apply N.eqb_refl).
    destruct (o_kind ob); try solve [auto]; apply attr_set_good; auto.
  - (* OpAttrDel *)
    destruct (get_obj (objs s) y) as [ob|] eqn:Eg; [|auto].
    destruct (get_obj_ok _ _ _ Ho Eg) as [Hob Hid].
    assert (HT : forall k, targets s (OpAttrDel y idx) (o_id ob) k = true)
      by (intros k; cbn [targets]; rewrite Hid; apply N.eqb_refl).
    destruct (o_kind ob); try solve [auto]; apply attr_del_good; auto.
  - (* OpHardLink *)
    destruct (negb (parent_known s p)); [auto|].
    destruct (negb (session s =? 0)); [auto|].
    destruct (get_obj (objs s) tgt) as [tb|] eqn:Eg; [|auto].
    destruct (link_refused s p nl dup) eqn:Elr; [auto|].
    match goal with |- context [match ?X with Some m' => _ | None => reject end] => destruct X as [m'|] end;
      [|auto].
    destruct (hdr_write tgt (hdr_kind tb) m') as [w|] eqn:Ew; [|auto].
    assert (Hw : forall T fr, T tgt (hdr_kind tb) = true -> cmds_ok cfgb T fr [w] = true /\ hdr_chunk m' <= max_chunk)
      by (intros T fr; apply (hdr_write_ok T fr _ _ _ _ Ew (is_hdr_kind tb))).
    assert (HT : targets s (OpHardLink p nl dup tgt) tgt (hdr_kind tb) = true /\
                 fail_targets (OpHardLink p nl dup tgt) tgt (hdr_kind tb) = true)
      by (cbn [targets fail_targets]; rewrite N.eqb_refl, (is_hdr_kind tb); auto).
    destruct HT as [HT HTf]. destruct (Hw _ [] HT) as [Hw1 Hc]. destruct (Hw _ [] HTf) as [Hw2 _].
    pose proof (link_prechecked s p nl dup Hcf Elr) as Hpre.
    destruct (link_spec s p nl dup Ho) as (_ & B & C).
    destruct (link_to_parent s p nl dup) as [[lc lok] upd]. cbn [fst snd] in *. destruct lok.
    + apply good_ok; [|apply set_msgs_ok; [apply B, Ho | exact Hc]].
      apply cmds_ok_app; [exact Hw1|]. apply C; cbn [targets]; rewrite N.eqb_refl; cbn; apply orb_true_r.
    + (* the roll-back writes the target's header again *)
      apply good_cmds; [apply (cmds_ok_app _ _ [w] [w]); exact Hw1 | apply set_msgs_ok; auto |].
      intros _. split; [apply (cmds_ok_app _ _ [w] [w]); exact Hw2|]. split; [|discriminate].
      cbn [may_leave_bytes]. destruct (negb bp); [reflexivity|]. discriminate (Hpre eq_refl).
  - (* OpMkDense *)
    destruct ((nlinks =? 0) || negb (session s =? 0) || negb fit || (bt2_maxrec <? nlinks)) eqn:Ec; [auto|].
    apply orb_false_iff in Ec. destruct Ec as [_ Emax]. apply N.ltb_ge in Emax.
    destruct (hdr_write (opidx s + 1) KHeader dense_msgs) as [w|] eqn:Ew; [|auto].
    destruct (hdr_write_spec _ _ _ _ Ew) as [-> Hc].
    destruct (negb (parent_known s p)).
    + apply good_cmds; [fresh_cmds | exact Ho |]. intros _. split; [fresh_cmds|]. split; [reflexivity | discriminate].
    + apply seq_link_good; [exact Ho | apply new_obj_ok; [arith | exact Hc] | fresh_cmds | discriminate].
  - (* OpWriteVL *)
    cbn [may_leave_bytes]. unfold vl_compile. rewrite Ecl.
    destruct (get_obj (objs s) y) as [ob|] eqn:Eg; [|auto].
    destruct (get_obj_ok _ _ _ Ho Eg) as [Hob _].
    pose proof (fun T => vl_walk_ok T lens (gh s) []) as Hhc.
    destruct (vl_walk (gh s) lens) as [hc g']. cbn [fst] in Hhc.
    assert (HT1 : forall sz, targets s (OpWriteVL y lens sizes) 0 (KGCol sz) = true)
      by (intros sz; cbn [targets is_gcol]; rewrite N.eqb_refl; apply orb_true_r).
    assert (HT2 : forall sz, fail_targets (OpWriteVL y lens sizes) 0 (KGCol sz) = true) by (intros sz; reflexivity).
    destruct (o_kind ob); cbn [fst]; try solve [auto].
    + apply good_ok; [|exact Ho].
      apply cmds_ok_app; [apply Hhc; exact HT1|]. cbn [cmds_ok targets]. rewrite N.eqb_refl. reflexivity.
    + destruct (negb (session s =? 0)); [auto|].
      destruct sizes as [|n0 sz]; [auto|].
      pose proof (chunked_write_good (objs s) y ob (n0 :: sz) (targets s (OpWriteVL y lens (n0 :: sz)))
                    (fail_targets (OpWriteVL y lens (n0 :: sz))) Ho Hob) as G.
      destruct (chunked_write y ob (n0 :: sz)) as [[cc ok] upd]. unfold good in *; cbn [fst snd] in *.
      destruct G as (G1 & G2 & G3 & G4 & G5); [cbn [targets]; rewrite N.eqb_refl; reflexivity|].
      repeat split; auto.
      * apply cmds_ok_app; [apply Hhc; exact HT1 | exact G1].
      * intros F. apply cmds_ok_app; [apply Hhc; exact HT2 | apply G3; exact F].
      * discriminate.
      * intros F Hnil. apply app_eq_nil in Hnil. destruct Hnil as [_ Hnil]. apply G5; auto.
Qed.

End WithPatches.
