(* C13, object-header level: the statements of Props/C13Header.v that rest on the invariant [stored] (those that hold of
   any handle and file - resize_refused_unchanged, resize_accept_sound, resize_rejected - are in Proofs/Resize.v), and
   examples showing that their hypotheses are satisfiable (rank 3, an unlimited maximum, attribute and layout messages
   around the dataspace). *)
From HV Require Import Base.Prelude Base.Outcome Base.Bytes Model.CodecMsg Model.CodecOhdr Model.Resize.
From HV Require Import Proofs.CodecMsg Proofs.CodecOhdr Proofs.ResizeBase Proofs.Resize.

(* accepted iff within the declared maximum *)
Lemma resize_accepts_iff be h file addr flags before after pre suf new :
  stored file addr flags before after (rh_dims h) (rh_maxdims h) pre suf ->
  handle_ok h = true -> u64_ok new = true ->
  (snd (resize be h file addr new) = ROk <-> resize_ok (rh_dims h) (rh_maxdims h) new = true).
Proof.
  intros S Hh Hu. split.
  - destruct (resize be h file addr new) as [[h' file'] r] eqn:E. cbn [snd]. intros ->.
    apply (resize_accept_sound be h file addr new h' file' E).
  - intros Hok.
    destruct (resize_accepted be h file addr flags before after _ _ pre suf new S Hh eq_refl eq_refl Hu Hok) as (c & E).
    rewrite E. reflexivity.
Qed.

(* same length, and only the extents of the dataspace message change *)
Lemma resize_same_length be h file addr flags before after pre suf new h' file' :
  stored file addr flags before after (rh_dims h) (rh_maxdims h) pre suf ->
  handle_ok h = true -> u64_ok new = true ->
  resize be h file addr new = (h', file', ROk) ->
  exists A B,
    file = A ++ enc_dims8 (rh_dims h) ++ B /\ file' = A ++ enc_dims8 new ++ B /\
    blen A = addr + 19 + chunk_size_v2 before /\
    length (enc_dims8 new) = length (enc_dims8 (rh_dims h)) /\
    length file' = length file /\
    forall i, (i < length A \/ length A + length (enc_dims8 new) <= i)%nat -> nth_error file' i = nth_error file i.
Proof.
  intros S Hh Hu E.
  destruct (resize_accept_sound be h file addr new h' file' E) as (Hok & _ & _).
  destruct (resize_accepted be h file addr flags before after _ _ pre suf new S Hh eq_refl eq_refl Hu Hok) as (c & E').
  rewrite E in E'.
  assert (Ef : file' = pre ++ enc_ohdr_v2 (hdr_of flags before new (rh_maxdims h) after) ++ suf) by congruence.
  subst file'. clear E'.
  apply resize_ok_inv in Hok as (Hln & _ & _).
  destruct S as [Hfile Haddr Hwf Hds Hno Hsuf Hsmall].
  assert (Hb : blen new = blen (rh_dims h)) by (unfold blen; rewrite Hln; reflexivity).
  assert (HL : length (enc_dims8 new) = length (enc_dims8 (rh_dims h))).
  { apply blen_eq_length. rewrite !blen_enc_dims8, Hb. reflexivity. }
  exists (pre ++ frame_front flags before (blen (rh_dims h)) (rh_maxdims h) after),
         (frame_back (rh_maxdims h) after ++ suf).
  split; [|split; [|split; [|split; [|split]]]].
  - rewrite Hfile, hdr_frame, <- !app_assoc. reflexivity.
  - rewrite hdr_frame, Hb, <- !app_assoc. reflexivity.
  - rewrite blen_app, blen_frame_front, Haddr. blia.
  - exact HL.
  - rewrite Hfile, !hdr_frame, Hb, !app_length, HL. reflexivity.
  - intros i Hi. rewrite Hfile, !hdr_frame, Hb, <- !app_assoc.
    rewrite (app_assoc pre). rewrite (app_assoc pre (frame_front _ _ _ _ _) (enc_dims8 (rh_dims h) ++ _)).
    apply nth_error_frame; [exact HL|exact Hi].
Qed.

(* the rewritten header decodes to the same message list with the new dataspace message *)
Lemma resize_decodes be h file addr flags before after pre suf new h' file' :
  stored file addr flags before after (rh_dims h) (rh_maxdims h) pre suf ->
  handle_ok h = true -> u64_ok new = true ->
  resize be h file addr new = (h', file', ROk) ->
  dec_ohdr be file addr = Ok (proj_ohdr_v2 be (hdr_of flags before (rh_dims h) (rh_maxdims h) after) addr) /\
  dec_ohdr be file' addr = Ok (proj_ohdr_v2 be (hdr_of flags before new (rh_maxdims h) after) addr) /\
  stored_shape be file' addr = Ok (new, Some (rh_maxdims h)) /\
  rh_dims h' = new /\ rh_maxdims h' = rh_maxdims h /\
  stored file' addr flags before after (rh_dims h') (rh_maxdims h') pre suf /\ handle_ok h' = true.
Proof.
  intros S Hh Hu E.
  destruct (resize_accept_sound be h file addr new h' file' E) as (Hok & Hd' & Hm').
  destruct (resize_accepted be h file addr flags before after _ _ pre suf new S Hh eq_refl eq_refl Hu Hok) as (c & E').
  rewrite E in E'.
  assert (Ef : file' = pre ++ enc_ohdr_v2 (hdr_of flags before new (rh_maxdims h) after) ++ suf) by congruence.
  assert (Eh : h' = resized_handle h new c) by congruence.
  subst file'.
  pose proof (resize_ok_inv _ _ _ Hok) as (Hln & _ & _).
  pose proof (stored_same _ _ _ _ _ _ _ _ _ new S Hln Hu) as S'.
  assert (Hne : rh_maxdims h <> []).
  { apply handle_ok_inv in Hh as (_ & Hnz & Hlm & _). destruct (rh_maxdims h); [cbn [length] in Hlm; lia|discriminate]. }
  split; [exact (stored_dec be _ _ _ _ _ _ _ _ _ S)|].
  split; [exact (stored_dec be _ _ _ _ _ _ _ _ _ S')|].
  split; [exact (stored_shape_of be _ _ _ _ _ _ _ _ _ S' Hne)|].
  split; [exact Hd'|]. split; [exact Hm'|].
  split; [rewrite Hd', Hm'; exact S'|].
  subst h'. apply handle_ok_resized; auto.
Qed.

Lemma last_accepted_length maxd news : forall dims, length (last_accepted dims maxd news) = length dims.
Proof.
  induction news as [|new r IH]; intros dims; [reflexivity|].
  rewrite last_accepted_cons. destruct (resize_ok dims maxd new) eqn:E; [|apply IH].
  rewrite IH. apply resize_ok_inv in E as (E & _). exact E.
Qed.

(* any list of requests through one handle: the results are those of the specification, the file keeps its
   length, and a reader finds the last accepted shape with the maxima unchanged *)
Lemma resizes_last_accepted be h file addr flags before after pre suf news :
  stored file addr flags before after (rh_dims h) (rh_maxdims h) pre suf ->
  handle_ok h = true -> Forall (fun new => u64_ok new = true) news ->
  exists h' file',
    resizes be h file addr news = (h', file', expected_results (rh_dims h) (rh_maxdims h) news) /\
    rh_dims h' = last_accepted (rh_dims h) (rh_maxdims h) news /\ rh_maxdims h' = rh_maxdims h /\
    stored_shape be file' addr = Ok (last_accepted (rh_dims h) (rh_maxdims h) news, Some (rh_maxdims h)) /\
    length file' = length file /\
    stored file' addr flags before after (rh_dims h') (rh_maxdims h') pre suf /\ handle_ok h' = true.
Proof.
  intros S Hh Hu.
  destruct (resizes_spec be news h file addr flags before after _ _ pre suf S Hh eq_refl eq_refl Hu)
    as (h' & file' & E & S' & Hh' & Hd' & Hm').
  exists h', file'.
  assert (Hne : rh_maxdims h <> []).
  { apply handle_ok_inv in Hh as (_ & Hnz & Hlm & _). destruct (rh_maxdims h); [cbn [length] in Hlm; lia|discriminate]. }
  split; [exact E|]. split; [exact Hd'|]. split; [exact Hm'|].
  split; [exact (stored_shape_of be _ _ _ _ _ _ _ _ _ S' Hne)|].
  split; [|split; [rewrite Hd', Hm'; exact S'|exact Hh']].
  destruct S as [Hfile _ _ _ _ _ _]. destruct S' as [Hfile' _ _ _ _ _ _].
  rewrite Hfile, Hfile', !app_length. f_equal. f_equal.
  apply blen_eq_length. rewrite !ohdr_v2_blen. apply size_same. apply last_accepted_length.
Qed.

(* a rank 3 dataset, first dimension unlimited, as the library wrote it (superblock version 2, int32 elements, chunks
   2x3x2, one compact int32 attribute "a"): the messages below are those of the header image ex_go_image, which is
   the output of the c13unit harness for CreateDataset + WriteAttribute.  The header is the END of the file (suf = []):
   nothing has been allocated after it yet. *)
Definition ex_before : list hmsg := [ {| hm_type := 3; hm_data := unhex "100800000400000000200000" |} ].
Definition ex_after : list hmsg :=
  [ {| hm_type := 8; hm_data := unhex "0302030000000000000000020000000300000002000000" |};
    {| hm_type := 12; hm_data := unhex "030002000c0010000061001008000004000000002000000101000000000000010000000000000007000000" |} ].
Definition ex_dims : list N := [4; 6; 2].
Definition ex_maxd : list N := [UNLIMITED; 6; 10].
Definition ex_pre : bytes := zeros 48.
Definition ex_suf : bytes := [].
Definition ex_go_image : bytes := unhex
  "4f484452020096030c0000100800000400000000200000013800000103010000000000040000000000000006000000000000000200000000000000ffffffffffffffff06000000000000000a000000000000000817000003020300000000000000000200000003000000020000000c2b0000030002000c0010000061001008000004000000002000000101000000000000010000000000000007000000".
Definition ex_file : bytes := ex_pre ++ enc_ohdr_v2 (hdr_of 0 ex_before ex_dims ex_maxd ex_after) ++ ex_suf.
Definition ex_handle : rhandle := new_handle ex_dims ex_maxd [2; 3; 2] 4.

Example ex_image_is_go's : enc_ohdr_v2 (hdr_of 0 ex_before ex_dims ex_maxd ex_after) = ex_go_image.
Proof. vm_compute. reflexivity. Qed.

Example ex_stored : stored ex_file 48 0 ex_before ex_after (rh_dims ex_handle) (rh_maxdims ex_handle) ex_pre ex_suf.
Proof. constructor; try reflexivity; vm_compute; congruence. Qed.

Example ex_handle_ok : handle_ok ex_handle = true.
Proof. reflexivity. Qed.

(* grow the unlimited dimension far beyond anything, refuse 7 > 6, shrink to the minimum with the third extent at its
   maximum, refuse a zero extent, refuse another rank, accept max + 0, refuse max + 1 *)
Definition ex_requests : list (list N) :=
  [ [18446744073709551615; 6; 2]; [8; 7; 2]; [1; 1; 10]; [0; 1; 1]; [1; 1]; [5; 6; 10]; [5; 6; 11] ].

Example ex_run :
  let '(h', file', rs) := resizes false ex_handle ex_file 48 ex_requests in
  rs = [ROk; RErr; ROk; RErr; RErr; ROk; RErr] /\ rh_dims h' = [5; 6; 10] /\
  stored_shape false file' 48 = Ok ([5; 6; 10], Some ex_maxd) /\ length file' = length ex_file.
Proof. vm_compute. repeat split; reflexivity. Qed.

Example ex_expected : expected_results ex_dims ex_maxd ex_requests = [ROk; RErr; ROk; RErr; RErr; ROk; RErr]
                      /\ last_accepted ex_dims ex_maxd ex_requests = [5; 6; 10].
Proof. vm_compute. split; reflexivity. Qed.

(* a handle obtained from OpenDataset (isChunked false) cannot resize: nothing is read or written *)
Definition ex_reopened : rhandle :=
  {| rh_chunked := false; rh_dims := ex_dims; rh_maxdims := []; rh_chunkdims := [];
     rh_esize := 4; rh_datasize := 192; rh_numchunks := []; rh_cache := None |}.
Example ex_reopened_handle_refuses : forall file addr new,
  resize false ex_reopened file addr new = (ex_reopened, file, RErr).
Proof. intros. reflexivity. Qed.
