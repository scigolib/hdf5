(* Non-vacuity: concrete histories (hash = lookup3, parameter values of the source tree and a variant with a
   roomy header so that the 8-attribute threshold itself is reached) that satisfy the hypotheses of the
   C02 theorems and drive the model through compact storage, both kinds of transition, dense updates of
   equal and different size, deletions and refusals. *)
From HV Require Import Base.Prelude Base.Bytes Model.Attr Model.AttrTie Spec.Lookup3 Proofs.Attr.

(* decidable form of NoHashCollision for a concrete list of names; every name is hashed once *)
Definition no_collision_b (f : bytes -> N) (ns : list bytes) : bool :=
  let hs := map (fun a => (f a, a)) ns in
  forallb (fun x => forallb (fun y => negb (fst x =? fst y) || bytes_eqb (snd x) (snd y)) hs) hs.

Lemma no_collision_b_sound : forall f ns, no_collision_b f ns = true -> NoHashCollision f ns.
Proof.
  intros f ns H a b Ha Hb E. unfold no_collision_b in H. rewrite forallb_forall in H.
  specialize (H (f a, a) (in_map _ _ _ Ha)). rewrite forallb_forall in H. specialize (H (f b, b) (in_map _ _ _ Hb)).
  cbn [fst snd] in H. rewrite E, N.eqb_refl in H. apply bytes_eqb_eq. exact H.
Qed.

Definition run_tags (f : bytes -> N) (P : params) (st : state) (h : list op) : list N := snd (run_tagged f P st h).
Definition nm (s : string) : bytes := ascii_bytes s.
Definition i32 (x : N) : option value := Some (mkValue 0 4 8 [1] (le 4 x)).
Definition f64s (k : nat) : option value := Some (mkValue 1 8 0 [N.of_nat k] (repeat 7 (8 * k))).
Definition str (k : nat) : option value := Some (mkValue 3 (N.of_nat k + 1) 0 [1] (repeat 65 k ++ [0])).

(* [go_params]: the header fills up long before 8 attributes *)
Definition ex1 : list op :=
  [ OWrite (nm "a") (i32 1); OWrite (nm "b") (i32 2); OWrite (nm "c") (i32 3);
    OWrite (nm "b") (i32 20);                       (* compact replace *)
    OWrite (nm "c") (f64s 12);                      (* compact replace that does not fit: refused *)
    ODelete (nm "a"); ODelete (nm "a");             (* compact delete, then absent *)
    OWrite (nm "d") (i32 4); OWrite (nm "e") (i32 5);
    OWrite (nm "f") (i32 6);                        (* header full => transition to dense with 4 + 1 attributes *)
    OWrite (nm "g") (i32 7); OWrite (nm "h") (i32 8); OWrite (nm "i") (i32 9); OWrite (nm "j") (i32 10);   (* 9 attributes *)
    OWrite (nm "e") (i32 50);                       (* dense, same size *)
    OWrite (nm "e") (str 40);                       (* dense, other size *)
    ODelete (nm "b"); ODelete (nm "b");             (* dense delete, then absent *)
    OWrite (nm "k") None;                           (* value the API rejects *)
    OWrite [] (i32 1);                              (* empty name *)
    ODelete (nm "i"); ODelete (nm "j"); OWrite (nm "b") (str 3) ].

Lemma ex1_no_collision : NoHashCollision lk3 (names ex1).
Proof. apply no_collision_b_sound. vm_compute. reflexivity. Qed.

Lemma ex1_volume : volume ex1 <= p_hcap (go_params 58).
Proof. vm_compute. discriminate. Qed.

Example ex1_run :
  let '(st, rs) := run lk3 (go_params 58) init ex1 in
  map res_code rs = [0;0;0; 0; 1; 0;1; 0;0; 0; 0;0;0;0; 0; 0; 0;1; 1; 1; 0;0;0] /\
  form_code st = 1 /\
  run_tags lk3 (go_params 58) init ex1 = [5;5;5; 3; 4; 11;12; 5;5; 6; 9;9;9;9; 7; 8; 13;14; 1; 9; 13;13;9] /\
  match read_attrs st with
  | Some l => map aname l = map nm ["d"; "e"; "c"; "b"; "f"; "g"; "h"]%string   (* index order = hash order *)
  | None => False
  end.
Proof. vm_compute. repeat split; reflexivity. Qed.

(* the refinement theorem applies to it (its hypotheses are satisfiable) and yields the expected map; the answers
   are those [ex1_run] lists, so the history is not run again *)
Lemma res_code_inj : forall rs rs', map res_code rs = map res_code rs' -> rs = rs'.
Proof.
  induction rs as [|[] rs IH]; intros [|[] rs'] H; try discriminate; [reflexivity| |]; f_equal; apply IH; inversion H; reflexivity.
Qed.

Example ex1_refines :
  exists st rs l, run lk3 (go_params 58) init ex1 = (st, rs) /\ read_attrs st = Some l /\
    attr_get l (nm "e") = str 40 /\ attr_get l (nm "a") = None /\ attr_get l (nm "b") = str 3 /\
    sp_get (run_spec [] ex1 rs) (nm "e") = str 40.
Proof.
  pose proof ex1_run as X. destruct (run lk3 (go_params 58) init ex1) as [st rs] eqn:R. destruct X as [Hrs _].
  destruct (refines_map_volume lk3 (go_params 58) ex1 st rs) as [l [RD [ND [T RO]]]];
    [vm_compute; discriminate | exact ex1_no_collision | exact ex1_volume | exact R |].
  exists st, rs, l. split; [reflexivity|]. split; [exact RD|]. rewrite !T.
  rewrite (res_code_inj rs [ROk;ROk;ROk; ROk; RErr; ROk;RErr; ROk;ROk; ROk; ROk;ROk;ROk;ROk; ROk; ROk; ROk;RErr; RErr; RErr; ROk;ROk;ROk] Hrs).
  vm_compute. repeat split; reflexivity.
Qed.

(* a roomy header (limit 4000 instead of 255): the MaxCompactAttributes threshold decides *)
Definition roomy : params := mkParams 58 4000 8 18 371 65536 65517 true.
Definition ex2 : list op :=
  [ OWrite (nm "a0") (i32 0); OWrite (nm "a1") (i32 1); OWrite (nm "a2") (i32 2); OWrite (nm "a3") (i32 3);
    OWrite (nm "a4") (i32 4); OWrite (nm "a5") (i32 5); OWrite (nm "a6") (i32 6);
    OWrite (nm "a7") (i32 7);                       (* 8th attribute: still compact *)
    OWrite (nm "a3") (i32 33);                      (* overwrite with exactly 8 compact attributes: REFUSED
                                                       (the transition re-adds "a3": "attribute already exists") *)
    ODelete (nm "a7"); OWrite (nm "a3") (f64s 5);   (* back to 7: compact replace of other size works *)
    OWrite (nm "a7") (i32 7);
    OWrite (nm "a8") (i32 8);                       (* 9th attribute: transition to dense *)
    ODelete (nm "a0"); ODelete (nm "a1"); ODelete (nm "a2");   (* 6 left: stays dense *)
    OWrite (nm "a3") (i32 3); OWrite (nm "a0") (str 10); ODelete (nm "zz") ].

Lemma ex2_no_collision : NoHashCollision lk3 (names ex2).
Proof. apply no_collision_b_sound. vm_compute. reflexivity. Qed.

Example ex2_run :
  let '(st, rs) := run lk3 roomy init ex2 in
  map res_code rs = [0;0;0;0;0;0;0;0; 1; 0;0; 0; 0; 0;0;0; 0;0;1] /\
  form_code st = 1 /\
  run_tags lk3 roomy init ex2 = [5;5;5;5;5;5;5;5; 2; 11;3; 5; 2; 13;13;13; 8;9;14] /\
  match read_attrs st with Some l => List.length l = 7%nat | None => False end.
Proof. vm_compute. repeat split; reflexivity. Qed.

(* the two parameter settings keep the attributes in different storage forms at different times and give the
   same map whenever they give the same answers (C02_storage_irrelevant is not vacuous) *)
Definition ex3 : list op :=
  [ OWrite (nm "a") (i32 1); OWrite (nm "b") (i32 2); OWrite (nm "c") (i32 3); OWrite (nm "d") (i32 4);
    OWrite (nm "e") (i32 5); OWrite (nm "b") (str 9); ODelete (nm "c"); OWrite (nm "f") (f64s 3) ].

Example ex3_forms :
  let '(st1, rs1) := run lk3 (go_params 58) init ex3 in
  let '(st2, rs2) := run lk3 roomy init ex3 in
  rs1 = rs2 /\ form_code st1 = 1 /\ form_code st2 = 0 /\
  match read_attrs st1, read_attrs st2 with
  | Some l1, Some l2 => same_set l1 l2 = true /\ negb (list_eqb attr_eqb l1 l2) = true
  | _, _ => False
  end.
Proof. vm_compute. repeat split; reflexivity. Qed.

(* heap overflow: before 5ec600b ONE WriteAttribute of a 65499-character string returned success and left the
   model's domain (state Broken); on the Go side the attribute was lost (notes/c02-findings.md, F1).
   From 5ec600b on the call is refused and nothing changes *)
Definition strN (k : N) : option value := str (N.to_nat k).
Example overflow_single_write :
  run lk3 (go_params_before_5ec600b 58) init [OWrite (nm "s") (strN 65499)] = (Broken, [ROk]) /\
  run lk3 (go_params 58) init [OWrite (nm "s") (strN 65499)] = (Compact [], [RErr]).
Proof. split; vm_compute; reflexivity. Qed.
