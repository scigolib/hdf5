(* C09: the recursive extraction (compact layout, selection-run path) and the 2-D element-wise
   path return the selection in row-major order. General in the rank. *)
From HV Require Import Base.Prelude Base.Bytes Model.Hyperslab Proofs.HyperslabBase.

Definition axis_cbx (a : axis) : list (N * N * N) :=
  flat_map (fun c => map (fun b => (c, b, a_start a + c * a_stride a + b)) (nrange (a_block a)))
           (nrange (a_count a)).

Lemma axis_loop_cbx {S} a (body : N -> N -> N -> S -> S) st :
  axis_loop a body st
  = fold_left (fun st t => body (fst (fst t)) (snd (fst t)) (snd t) st) (axis_cbx a) st.
Proof.
  unfold axis_loop, axis_cbx. rewrite fold_left_flat_map.
  apply fold_left_ext_in. intros st0 c _. rewrite fold_left_map. reflexivity.
Qed.

Lemma axis_cbx_idx a : map snd (axis_cbx a) = axis_idx a.
Proof.
  unfold axis_cbx, axis_idx. rewrite map_flat_map. apply flat_map_ext_in. intros c _.
  rewrite map_map. reflexivity.
Qed.

Lemma axis_loop_idx {S} a (g : N -> S -> S) st :
  axis_loop a (fun _ _ x st => g x st) st = fold_left (fun st x => g x st) (axis_idx a) st.
Proof. rewrite axis_loop_cbx, <- axis_cbx_idx, fold_left_map. reflexivity. Qed.

Lemma ext_rec_spec raw dims : forall s rdims pre st, axes_valid s rdims ->
  ext_rec raw dims s rdims pre st
  = fold_left (fun st x => ext_leaf raw dims (pre ++ x) st) (sel_coords s) st.
Proof.
  induction s as [|a s IH]; intros rdims pre st V; inversion V as [|? y ? l' H1 H2]; subst.
  - cbn [ext_rec sel_coords fold_left]. rewrite app_nil_r. reflexivity.
  - cbn [ext_rec sel_coords].
    rewrite (axis_loop_idx a (fun x st0 => if y <=? x then st0 else ext_rec raw dims s l' (pre ++ [x]) st0)).
    rewrite fold_left_flat_map. apply fold_left_ext_in. intros st0 x Hx.
    destruct (axis_idx_bound a y x H1 Hx) as (_ & _ & Hlt).
    destruct (N.leb_spec y x); [lia|].
    rewrite IH by assumption. rewrite fold_left_map.
    apply fold_left_ext_in. intros st1 z _. rewrite <- app_assoc. reflexivity.
Qed.

Lemma ext_leaf_fold raw dims (L : list (list N)) st :
  (forall x, In x L -> length x = length dims /\ lin dims x < lenN raw) ->
  fold_left (fun st x => ext_leaf raw dims x st) L st
  = fold_left write (map (fun x => nthN raw (lin dims x)) L) st.
Proof.
  intros H. rewrite fold_left_map. apply fold_left_ext_in. intros st0 x Hx.
  destruct (H x Hx) as (Hl & Hb). unfold ext_leaf, write. rewrite calc_lin_spec by assumption.
  destruct (N.ltb_spec (lenN raw) (lin dims x + 1)); [lia|reflexivity].
Qed.

Theorem extract_from_raw_correct full dims s :
  axes_valid s dims -> s <> [] -> lenN full = prodN dims ->
  extract_from_raw full dims s = select full dims s.
Proof.
  intros V Hne Hlen. unfold extract_from_raw.
  pose proof (axes_valid_block _ _ V) as Hb. pose proof (out_elems_pos _ _ V Hne).
  destruct (N.eqb_spec (out_elems s) 0); [lia|].
  rewrite ext_rec_spec by assumption. cbn [app].
  rewrite ext_leaf_fold.
  - unfold select. apply write_all. rewrite map_length, out_elems_length by assumption. lia.
  - intros x Hx. pose proof (sel_coords_inb _ _ _ V Hx) as Hin. split.
    + rewrite (sel_coords_each_length _ _ Hx). apply axes_valid_length; assumption.
    + rewrite Hlen. apply lin_bound; assumption.
Qed.

Theorem read_contiguous_2d_correct full d0 d1 a0 a1 :
  axes_valid [a0; a1] [d0; d1] ->
  read_contiguous_2d full d0 d1 a0 a1 = select full [d0; d1] [a0; a1].
Proof.
  intros V. inversion V as [|? ? ? ? V0 V']; subst. inversion V' as [|? ? ? ? V1 V'']; subst. clear V' V''.
  unfold read_contiguous_2d.
  pose proof (axes_valid_block _ _ V) as Hb.
  assert (Hne : [a0; a1] <> []) by discriminate.
  rewrite <- (write_all (select full [d0; d1] [a0; a1]) (out_elems [a0; a1]))
    by (unfold select; rewrite map_length, out_elems_length by assumption; lia).
  f_equal.
  rewrite (axis_loop_idx a0 (fun row st => if d0 <=? row then st else
     axis_loop a1 (fun _ _ col st0 => if d1 <=? col then st0 else
        (upd (fst st0) (snd st0) (nthN full (row * d1 + col)), snd st0 + 1)) st)).
  unfold select. cbn [sel_coords]. rewrite fold_left_map, fold_left_flat_map.
  apply fold_left_ext_in. intros st0 i Hi.
  destruct (axis_idx_bound a0 d0 i V0 Hi) as (_ & _ & Hlt).
  destruct (N.leb_spec d0 i); [lia|].
  rewrite (axis_loop_idx a1 (fun col st1 => if d1 <=? col then st1 else
        (upd (fst st1) (snd st1) (nthN full (i * d1 + col)), snd st1 + 1))).
  rewrite fold_left_map, fold_left_flat_map.
  apply fold_left_ext_in. intros st1 j Hj.
  destruct (axis_idx_bound a1 d1 j V1 Hj) as (_ & _ & Hlt1).
  destruct (N.leb_spec d1 j); [lia|].
  cbn [map fold_left lin prodN]. unfold write. do 2 f_equal. f_equal. lia.
Qed.

Lemma axis_idx_zero a : axis_idx a = map (N.add (a_start a)) (axis_idx (mkAxis 0 (a_count a) (a_stride a) (a_block a))).
Proof.
  unfold axis_idx. cbn [a_start a_count a_stride a_block]. rewrite map_flat_map.
  apply flat_map_ext_in. intros c _. rewrite map_map. apply map_ext. intros b. lia.
Qed.

Lemma sel_coords_zero s :
  sel_coords s = map (vadd (map a_start s)) (sel_coords (zero_start s)).
Proof.
  induction s as [|a s IH]; cbn [sel_coords zero_start map vadd]; [reflexivity|].
  rewrite axis_idx_zero, flat_map_map, map_flat_map. apply flat_map_ext_in. intros i _.
  rewrite IH. fold (zero_start s). rewrite !map_map. reflexivity.
Qed.

Lemma axis_valid_zero a d : axis_valid a d -> axis_valid (mkAxis 0 (a_count a) (a_stride a) (a_block a)) d.
Proof. unfold axis_valid. cbn [a_start a_count a_stride a_block]. lia. Qed.

Lemma zero_start_valid s dims : axes_valid s dims -> axes_valid (zero_start s) dims.
Proof. induction 1; cbn [zero_start map]; constructor; auto using axis_valid_zero. Qed.

Lemma zero_start_le_last : forall s dims x, axes_valid s dims -> In x (sel_coords (zero_start s)) ->
  Forall2 N.le x (last_rel s).
Proof.
  induction s as [|a s IH]; intros dims x V H; inversion V as [|? y ? l' H1 H2]; subst; cbn [zero_start map last_rel] in *.
  - destruct H as [<-|[]]. constructor.
  - apply in_sel_coords_cons in H. destruct H as (i & z & -> & Hi & Hz).
    constructor; [|eapply IH; eassumption].
    destruct (axis_idx_bound _ _ _ (axis_valid_zero _ _ H1) Hi) as (_ & Hle & _).
    cbn [a_start a_count a_stride a_block] in Hle. lia.
Qed.

Lemma start_plus_last_inb : forall s dims, axes_valid s dims ->
  Forall2 N.lt (vadd (map a_start s) (last_rel s)) dims.
Proof.
  induction 1 as [|a d s dims H _ IH]; cbn [map last_rel vadd]; constructor; [|assumption].
  destruct H as (A1 & A2 & A3 & A4). set (m := (a_count a - 1) * a_stride a) in *. lia.
Qed.

Lemma last_rel_length s : length (last_rel s) = length s.
Proof. apply map_length. Qed.

Lemma run_fits s dims : axes_valid s dims ->
  lin dims (map a_start s) + (lin dims (last_rel s) + 1) <= prodN dims.
Proof.
  intros V. pose proof (axes_valid_length _ _ V) as Ls.
  pose proof (lin_bound _ _ (start_plus_last_inb _ _ V)) as B.
  rewrite lin_vadd in B by (rewrite ?map_length, ?last_rel_length; assumption). lia.
Qed.

Lemma out_elems_zero_start s : out_elems (zero_start s) = out_elems s.
Proof.
  destruct s as [|a s]; [reflexivity|]. unfold out_elems, zero_start. cbn [map].
  change (mkAxis 0 (a_count a) (a_stride a) (a_block a) :: map ?f s) with (map f (a :: s)).
  rewrite fold_left_map. reflexivity.
Qed.

Theorem selection_run_correct full dims s :
  axes_valid s dims -> s <> [] -> lenN full = prodN dims ->
  fst (ext_rec (read_at full (calc_lin (map a_start s) dims) (calc_lin (last_rel s) dims + 1))
               dims (zero_start s) dims [] (zeros (out_elems s), 0))
  = select full dims s.
Proof.
  intros V Hne Hlen.
  pose proof (axes_valid_length _ _ V) as Ls.
  pose proof (run_fits _ _ V) as Hfit. rewrite <- Hlen in Hfit.
  rewrite !calc_lin_spec by (rewrite ?map_length, ?last_rel_length; assumption).
  set (off := lin dims (map a_start s)) in *. set (rl := lin dims (last_rel s)) in *.
  (* relative to the start corner every selected coordinate lies in the run *)
  assert (IN : forall x, In x (sel_coords (zero_start s)) -> length x = length dims /\ lin dims x < rl + 1).
  { intros x Hx.
    assert (Lx : length x = length dims).
    { rewrite (sel_coords_each_length _ _ Hx). unfold zero_start. rewrite map_length. assumption. }
    pose proof (lin_le_mono dims _ _ (zero_start_le_last _ _ _ V Hx) Lx). subst rl. split; [assumption|lia]. }
  rewrite ext_rec_spec by (apply zero_start_valid; assumption). cbn [app].
  rewrite ext_leaf_fold.
  - unfold select. rewrite (sel_coords_zero s), map_map.
    rewrite (map_ext_in (fun x => nthN (read_at full off (rl + 1)) (lin dims x))
                        (fun x => nthN full (lin dims (vadd (map a_start s) x)))).
    + apply write_all. rewrite map_length, <- (map_length (vadd (map a_start s))), <- sel_coords_zero.
      rewrite out_elems_length by (try assumption; eapply axes_valid_block; eassumption). lia.
    + intros x Hx. destruct (IN x Hx) as (Lx & Hlt).
      rewrite nthN_read_at, lin_vadd by (rewrite ?map_length; assumption || lia). reflexivity.
  - intros x Hx. destruct (IN x Hx) as (Lx & Hlt). split; [assumption|].
    unfold lenN. rewrite read_at_length by assumption. lia.
Qed.
