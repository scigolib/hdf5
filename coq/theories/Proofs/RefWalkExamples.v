(* C06 - the hypotheses of Props/C06Walk.v are satisfiable: the STRICT whole-file walk accepts a file written by the reference
   library (testdata/hdf5_official/h5clear_sec2_v3.h5, 195 bytes: superblock version 3, a new-style root group without links), and
   the tolerant walk returns the identical result with no deviation tag. *)
From HV Require Import Base.Prelude Base.Outcome Base.Bytes Spec.Parse Spec.Walk Proofs.WalkTol.

Definition ref_h5clear_sec2_v3 : bytes := concat (map unhex [
  "894844460d0a1a0a030808050000000000000000ffffffffffffffffc3000000000000003000000000000000278cb9934f4844520220f51ec058f51e"%string;
  "c058f51ec058f51ec05878021200000000ffffffffffffffffffffffffffffffff0a0200010000005800000000000000000000000000000000000000"%string;
  "000000000000000000000000000000000000000000000000000000000000000000000000000000000000000000000000000000000000000000000000"%string;
  "0000000000000000000000c6c11138"%string]).

Lemma ref_walk_strict :
  exists r, walk wstrict default_fuel ref_h5clear_sec2_v3 = Ok r /\
            (map os_path (wr_tree r), map os_kind (wr_tree r), wr_tags r, wr_version r) = ([[47]], [1], [], 3).
Proof. eexists. split; vm_compute; reflexivity. Qed.

Example strict_accepts_reference_file :
  match walk wstrict default_fuel ref_h5clear_sec2_v3 with
  | Ok r => (map os_path (wr_tree r), map os_kind (wr_tree r), wr_tags r, wr_version r) = ([[47]], [1], [], 3)
  | _ => False
  end.
Proof. destruct ref_walk_strict as (r & -> & E). exact E. Qed.

(* what the strict walk accepts, every tolerance accepts with the same result (WalkTol.walk_strict_any_tolerance) *)
Example tolerant_same_result :
  walk wtolerant default_fuel ref_h5clear_sec2_v3 = walk wstrict default_fuel ref_h5clear_sec2_v3.
Proof. destruct ref_walk_strict as (r & E & _). rewrite E. exact (walk_strict_any_tolerance _ _ _ _ E). Qed.

(* a file the strict walk rejects with a reason: the same bytes with the superblock checksum damaged *)
Example strict_rejects_with_reason :
  walk_code wstrict default_fuel (firstn 44 ref_h5clear_sec2_v3 ++ [0] ++ skipn 45 ref_h5clear_sec2_v3) = 10.
Proof. vm_compute. reflexivity. Qed.
