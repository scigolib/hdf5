(* C06, reader against specification: the datatype message (0x0003).  For every byte string (bytes < 256) which the strict
   specification decoder accepts, whatever ParseDatatypeMessage (Model/CodecType.v dec_datatype, tied to the Go code by
   C11/C07) returns has the same class, version and size, and - classes 0 (fixed point), 1 (floating point) and 3 (string) -
   a class bit field from which the specification's byte order, padding bits, sign, mantissa normalisation, sign location,
   string padding and character set are read off (datatype_agree); for a class nibble of 0, 1 or 3 it does return a value
   (datatype_reader_spec). *)
From HV Require Import Base.Prelude Base.Outcome Base.Bytes Spec.Parse Spec.FormatMsg Model.CodecMsg Model.CodecType
  Proofs.RobustNoPanicBase Proofs.RobustNoPanicOhdr Proofs.ReaderSpecBase.

Definition dtype_ver (t : dtype) : N :=
  match t with
  | DFixed v _ _ _ _ _ _ _ | DFloat v _ _ _ _ _ _ _ _ _ _ _ _ | DTime v _ _ _ | DString v _ _ _
  | DBitfield v _ _ _ _ _ _ | DOpaque v _ _ | DCompound v _ _ | DReference v _ _ | DEnum v _ _ _
  | DVlen v _ _ _ _ _ | DArray v _ _ _ => v
  end.

(* the reader hands back the 24-bit class bit field; the specification's fields are its bits *)
Definition dt_agree (t : dtype) (v : datatype) : Prop :=
  dt_class v = dtype_class t /\ dt_size v = dtype_size t /\ dt_version v = dtype_ver t /\
  let c := dt_cbf v in
  match t with
  | DFixed _ _ order lopad hipad signed _ _ =>
      bit c 0 = order /\ bit c 1 = lopad /\ bit c 2 = hipad /\ N.testbit c 3 = signed
  | DFloat _ _ order pads norm sign _ _ _ _ _ _ _ =>
      bit c 0 + 2 * bit c 6 = order /\ bits_of c 1 3 = pads /\ bits_of c 4 2 = norm /\ bits_of c 8 8 = sign
  | DString _ _ pad cset => bits_of c 0 4 = pad /\ bits_of c 4 4 = cset
  | _ => True
  end.

Definition dt_class_nibble (bs : bytes) : N := match bs with cv :: _ => N.land cv 15 | [] => 16 end.

Lemma nth_error_skipn (l : list N) n x : nth_error l n = Some x -> skipn n l = x :: skipn (S n) l.
Proof.
  revert l. induction n as [|n IH]; intros [|y l] H; cbn [nth_error] in H; try discriminate.
  - injection H as <-. reflexivity.
  - cbn [skipn]. rewrite (IH l H). reflexivity.
Qed.

Lemma rd_le_cons (bs : list N) p k x y :
  index bs p = Ok x -> rd_le bs (p + 1) k = Ok y -> rd_le bs p (k + 1) = Ok (x + 256 * y).
Proof.
  intros I R. pose proof (proj1 (rd_le_inv _ _ _ _ R)) as B.
  unfold index in I. bnorm. destruct (nth_error bs (N.to_nat p)) as [x'|] eqn:NE; cbv beta iota in I; [|discriminate]. injection I as ->.
  apply nth_error_skipn in NE.
  unfold rd_le, slice in *.
  replace ((p + 1 <=? p + 1 + k) && (p + 1 + k <=? blen bs)) with true in R
    by (symmetry; apply andb_true_iff; split; apply N.leb_le; blia).
  replace ((p <=? p + (k + 1)) && (p + (k + 1) <=? blen bs)) with true
    by (symmetry; apply andb_true_iff; split; apply N.leb_le; blia).
  cbn [obind] in *. injection R as <-. f_equal.
  replace (N.to_nat (p + (k + 1) - p)) with (S (N.to_nat k)) by blia.
  replace (N.to_nat (p + 1 + k - (p + 1))) with (N.to_nat k) by blia.
  replace (N.to_nat (p + 1)) with (S (N.to_nat p)) by blia.
  bnorm. rewrite NE. cbn [firstn unle]. reflexivity.
Qed.

Lemma index_byte (bs : list N) p x : bytes_ok bs = true -> index bs p = Ok x -> x < 256.
Proof.
  unfold index, bytes_ok. intros Hb H. bnorm. destruct (nth_error bs (N.to_nat p)) as [y|] eqn:NE; cbv beta iota in H; [|discriminate].
  injection H as <-. apply nth_error_In in NE. rewrite forallb_forall in Hb. apply N.ltb_lt. now apply Hb.
Qed.

Lemma head_class cv b : N.land (cv + 256 * b) 15 = N.land cv 15.
Proof. change 15 with (N.ones 4). rewrite !N.land_ones. change (2 ^ 4) with 16. blia. Qed.
Lemma head_version cv b : cv < 256 -> N.land (N.shiftr (cv + 256 * b) 4) 15 = N.shiftr cv 4.
Proof.
  intros H. change 15 with (N.ones 4). rewrite N.land_ones, !N.shiftr_div_pow2. change (2 ^ 4) with 16. blia.
Qed.
Lemma head_cbf cv b : cv < 256 -> b < 16777216 -> N.land (N.shiftr (cv + 256 * b) 8) 16777215 = b.
Proof.
  intros H1 H2. change 16777215 with (N.ones 24). rewrite N.land_ones, N.shiftr_div_pow2.
  change (2 ^ 8) with 256. change (2 ^ 24) with 16777216. blia.
Qed.

Lemma dec_dt_fields (fuel : nat) (bs : list N) cv b size v :
  bytes_ok bs = true ->
  index bs 0 = Ok cv -> rd_le bs 1 3 = Ok b -> rd_le bs 4 4 = Ok size ->
  dec_dt fuel bs = Ok v ->
  dt_class v = N.land cv 15 /\ dt_version v = N.shiftr cv 4 /\ dt_size v = size /\ dt_cbf v = b.
Proof.
  intros Hb I0 R1 R4.
  pose proof (index_byte _ _ _ Hb I0) as Hcv.
  pose proof (rd_le_lt _ _ _ _ Hb R1) as Hbits. change (256 ^ 3) with 16777216 in Hbits.
  pose proof (rd_le_cons bs 0 3 cv b I0 R1) as R0. change (3 + 1) with 4 in R0.
  destruct fuel as [|fuel]; [discriminate|]. cbn [dec_dt].
  destruct (blen bs <? 8); [discriminate|].
  rewrite R0. cbn [obind]. rewrite R4. cbn [obind].
  match goal with |- obind ?o _ = _ -> _ => destruct o as [pl| |] end; cbn [obind]; try discriminate.
  match goal with |- obind ?o _ = _ -> _ => destruct o as [pp| |] end; cbn [obind]; try discriminate.
  intros H. injection H as <-. cbn [dt_class dt_version dt_size dt_cbf].
  rewrite head_class, head_version, head_cbf by assumption. repeat split.
Qed.

(* classes 0, 1 and 3 have a property length that does not depend on the properties: the reader cannot fail *)
Lemma dec_dt_ok013 (fuel : nat) (bs : list N) cv b :
  8 <= blen bs -> index bs 0 = Ok cv -> rd_le bs 1 3 = Ok b ->
  N.land cv 15 = 0 \/ N.land cv 15 = 1 \/ N.land cv 15 = 3 ->
  exists v, dec_dt (S fuel) bs = Ok v.
Proof.
  intros B I0 R1 Hc.
  pose proof (rd_le_cons bs 0 3 cv b I0 R1) as R0. change (3 + 1) with 4 in R0.
  destruct (rd_le_ok bs 4 4 B) as (size & R4).
  cbn [dec_dt]. rewrite (ltb_false (blen bs) 8) by exact B.
  rewrite R0. cbn [obind]. rewrite R4. cbn [obind]. rewrite head_class.
  assert (S : forall n, exists p, slice bs 8 (8 + (if blen bs <? 8 + n then blen bs - 8 else n)) = Ok p).
  { intros n. destruct (blen bs <? 8 + n) eqn:L; [|apply N.ltb_ge in L]; rewrite slice_eq by blia; eauto. }
  unfold DT_FIXED, DT_FLOAT, DT_BITFIELD, DT_TIME, DT_COMPOUND.
  destruct Hc as [Hc | [Hc | Hc]]; rewrite Hc; cbn [N.eqb Pos.eqb obind];
    [destruct (S 4) as (p & ->) | destruct (S 12) as (p & ->) | destruct (S (blen bs - 8)) as (p & ->)]; cbn [obind]; eauto.
Qed.

(* walk through a successful strict decoder run, remembering every decision *)
Ltac walke H :=
  repeat first
    [ discriminate H
    | progress cbn [obind dev strict] in H
    | match type of H with
      | obind ?o _ = _ => destruct o eqn:?
      | context [match ?x with _ => _ end] => destruct x eqn:?
      end ].

Lemma p_dtype_fields (pad_ok : bool) (fuel : nat) (bs : bytes) t tg r :
  p_dtype strict pad_ok (S fuel) bs = Ok (t, tg, r) ->
  exists cv bits size,
    index bs 0 = Ok cv /\ rd_le bs 1 3 = Ok bits /\ rd_le bs 4 4 = Ok size /\
    forall v, dt_class v = N.land cv 15 -> dt_version v = N.shiftr cv 4 -> dt_size v = size -> dt_cbf v = bits ->
              dt_agree t v.
Proof.
  intros H. cbn [p_dtype] in H. change (p_byte bs) with (p_byte (at_pos bs 0)) in H.
  assert (P0 : 0 <= blen bs) by blia.
  s_byte H cv B1 I0. change (0 + 1) with 1 in *.
  s_u H bits B2 R1. change (N.of_nat 3) with 3 in *. change (1 + 3) with 4 in *.
  s_u H size B3 R4. change (N.of_nat 4) with 4 in *.
  s_guard H GV. s_guard H GS.
  exists cv, bits, size. split; [exact I0|]. split; [exact R1|]. split; [exact R4|].
  clear I0 R1 R4 B1 B2 B3 P0. intros v C V Z F. unfold dt_agree. rewrite C, V, Z, F. clear v C V Z F.
  (* in each of the three classes the decoder builds its value from the very bit ranges dt_agree names, so once the run is
     walked to its result every equation holds by computation *)
  destruct (N.land cv 15 =? 0) eqn:C0; [|destruct (N.land cv 15 =? 1) eqn:C1; [|destruct (N.land cv 15 =? 3) eqn:C3]].
  - (* fixed point: bit 0 byte order, bits 1 and 2 padding, bit 3 sign *)
    apply N.eqb_eq in C0. rewrite C0 in *. cbn [N.eqb Pos.eqb] in H. walke H; injection H as <- <- <-; repeat split.
  - (* floating point: bits 0 and 6 byte order, 1-3 padding, 4-5 mantissa normalisation, 8-15 sign location *)
    apply N.eqb_eq in C1. rewrite C1 in *. cbn [N.eqb Pos.eqb] in H. walke H; injection H as <- <- <-; repeat split.
  - (* string: bits 0-3 padding type, 4-7 character set *)
    apply N.eqb_eq in C3. rewrite C3 in *. cbn [N.eqb Pos.eqb] in H. walke H; injection H as <- <- <-; repeat split.
  - (* the other eight classes: class, size and version only *)
    walke H; injection H as <- <- <-; cbn [dtype_class dtype_ver dtype_size]; repeat split; blia.
Qed.

Lemma datatype_agree (pad_ok : bool) (bs : bytes) (t : dtype) (tg : list tag) :
  bytes_ok bs = true ->
  spec_dec_datatype strict pad_ok bs = Ok (t, tg) ->
  (forall v, dec_datatype bs = Ok v -> dt_agree t v) /\
  (dt_class_nibble bs = 0 \/ dt_class_nibble bs = 1 \/ dt_class_nibble bs = 3 -> exists v, dec_datatype bs = Ok v).
Proof.
  intros Hb H. unfold spec_dec_datatype in H.
  destruct (p_dtype strict pad_ok (S (length bs)) bs) as [[[t' tg'] r]| |] eqn:E; cbn [obind] in H; try discriminate.
  assert (t' = t) by (destruct (p_end pad_ok r); cbn [obind] in H; try discriminate; now injection H).
  subst t'. clear H.
  destruct (p_dtype_fields _ _ _ _ _ _ E) as (cv & bits & size & I0 & R1 & R4 & AG).
  split.
  - intros v D. destruct (dec_dt_fields _ _ _ _ _ _ Hb I0 R1 R4 D) as (F1 & F2 & F3 & F4). auto.
  - replace (dt_class_nibble bs) with (N.land cv 15) by (destruct bs; [discriminate I0|]; cbn in I0; now injection I0 as ->).
    unfold dec_datatype. exact (dec_dt_ok013 (length bs) _ _ _ (proj1 (rd_le_inv _ _ _ _ R4)) I0 R1).
Qed.

Lemma datatype_reader_spec (pad_ok : bool) (bs : bytes) (t : dtype) (tg : list tag) :
  bytes_ok bs = true ->
  dt_class_nibble bs = 0 \/ dt_class_nibble bs = 1 \/ dt_class_nibble bs = 3 ->
  spec_dec_datatype strict pad_ok bs = Ok (t, tg) ->
  exists v, dec_datatype bs = Ok v /\ dt_agree t v.
Proof.
  intros Hb Hc H. destruct (datatype_agree _ _ _ _ Hb H) as (AG & EX).
  destruct (EX Hc) as (v & D). exists v. split; [exact D|]. apply AG, D.
Qed.

Example datatype_reader_spec_example :
  exists t, spec_dec_datatype strict false [16; 8; 0; 0; 4; 0; 0; 0; 0; 0; 32; 0] = Ok (t, []).
Proof. eexists. vm_compute. reflexivity. Qed.
