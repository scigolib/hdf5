(* C08 - Fletcher-32: round trip and detection of every single-byte alteration of a stored chunk.
   Key fact: the low half of the checksum is congruent mod 65535 to the position-weighted byte sum
   (weight 256 at even positions, 1 at odd ones); one changed byte moves that sum by a non-zero
   amount of magnitude below 65535. *)
From HV Require Import Base.Prelude Model.Filters Proofs.FiltersShuffle.
From HV Require Base.Bytes.

(* position-weighted sum = sum of big-endian 16-bit words, an odd last byte being a high byte *)
Fixpoint wsum (d : bytes) : N :=
  match d with
  | a :: b :: r => a * 256 + b + wsum r
  | [a] => a * 256
  | [] => 0
  end.

Lemma list_ind2 {A} (P : list A -> Prop) :
  P [] -> (forall a, P [a]) -> (forall a b r, P r -> P (a :: b :: r)) -> forall l, P l.
Proof.
  intros H0 H1 H2.
  assert (H : forall l, P l /\ forall a, P (a :: l)).
  { induction l as [|x l [IH1 IH2]]; split; auto. }
  intro l. apply H.
Qed.

Lemma fold16_eq s : fold16 s = s mod 65536 + s / 65536.
Proof.
  unfold fold16. change 65535 with (N.ones 16). rewrite N.land_ones, N.shiftr_div_pow2.
  reflexivity.
Qed.

Lemma fold16_mod s : fold16 s mod 65535 = s mod 65535.
Proof. rewrite fold16_eq. lia. Qed.

Lemma fold16_bound s : s < 4294967296 -> fold16 s <= 131070.
Proof. rewrite fold16_eq. lia. Qed.

Lemma fold16_small s : s <= 131070 -> fold16 s <= 65535.
Proof. rewrite fold16_eq. lia. Qed.

(* inner loop: no uint32 wrap on sum1 as long as s1 + 65535*blk fits *)
Lemma fl_block_spec blk : forall d s1 s2,
  bytes_ok d -> s1 + 65535 * N.of_nat blk < 4294967296 ->
  let '(d', s1', _) := fl_block blk d s1 s2 in
  s1' + wsum d' = s1 + wsum d /\ bytes_ok d' /\ (length d' <= length d)%nat /\
  s1' <= s1 + 65535 * N.of_nat blk /\
  (blk <> O -> (2 <= length d)%nat -> (length d' + 2 <= length d)%nat).
Proof.
  induction blk as [|k IH]; intros d s1 s2 Hd Hb; cbn [fl_block].
  - repeat split; auto; lia.
  - destruct d as [|a [|b r]].
    + repeat split; auto; cbn [length]; lia.
    + repeat split; auto; cbn [length]; lia.
    + inversion Hd as [|? ? Ha Hd1]; subst. inversion Hd1 as [|? ? Hb' Hr]; subst.
      assert (Hw : wrap32 (s1 + (a * 256 + b)) = s1 + (a * 256 + b)) by (unfold wrap32; lia).
      rewrite Hw.
      specialize (IH r (s1 + (a * 256 + b)) (wrap32 (s2 + (s1 + (a * 256 + b)))) Hr).
      destruct (fl_block k r _ _) as [[d' s1'] s2'].
      destruct IH as (E & O & L & B & _); [lia|].
      cbn [wsum length]. repeat split; auto; lia.
Qed.

Lemma fl_outer_spec fuel : forall d s1 s2,
  bytes_ok d -> s1 <= 131070 -> (length d <= fuel)%nat ->
  let '(d', s1', _) := fl_outer fuel d s1 s2 in
  (s1' + wsum d') mod 65535 = (s1 + wsum d) mod 65535 /\ bytes_ok d' /\ s1' <= 131070 /\ (length d' < 2)%nat.
Proof.
  induction fuel as [|f IH]; intros d s1 s2 Hd Hs Hf; cbn [fl_outer].
  - destruct d; cbn [length] in *; [|lia]. repeat split; auto.
  - destruct d as [|a [|b r]].
    + repeat split; auto.
    + repeat split; auto.
    + set (d := a :: b :: r) in *.
      pose proof (fl_block_spec 360 d s1 s2 Hd) as Hblk.
      destruct (fl_block 360 d s1 s2) as [[d' s1'] s2'].
      destruct Hblk as (E & O & L & B & P); [lia|].
      assert (Hlen : (2 <= length d)%nat) by (subst d; cbn [length]; lia).
      specialize (P ltac:(lia) Hlen).
      specialize (IH d' (fold16 s1') (fold16 s2') O).
      destruct (fl_outer f d' (fold16 s1') (fold16 s2')) as [[d'' s1''] s2''].
      destruct IH as (E2 & O2 & B2 & L2).
      * apply fold16_bound. lia.
      * lia.
      * repeat split; auto.
        rewrite E2. rewrite <- E.
        rewrite <- (N.add_mod_idemp_l (fold16 s1')), fold16_mod, N.add_mod_idemp_l by lia. reflexivity.
Qed.

Lemma lor_shift_low s2 s1 : s1 < 65536 -> wrap32 (N.lor (N.shiftl s2 16) s1) mod 65536 = s1.
Proof.
  intro H. unfold wrap32.
  replace (N.lor (N.shiftl s2 16) s1 mod 4294967296 mod 65536) with (N.lor (N.shiftl s2 16) s1 mod 65536) by lia.
  change 65536 with (2 ^ 16). rewrite <- !N.land_ones, N.land_lor_distr_l.
  rewrite !N.land_ones, N.shiftl_mul_pow2, N.mod_mul by (cbv; discriminate).
  rewrite N.lor_0_l. apply N.mod_small. exact H.
Qed.

Lemma fletcher32_lt x : fletcher32 x < 4294967296.
Proof.
  unfold fletcher32. destruct (fl_outer _ _ _ _) as [[[|a d] s1] s2]; apply N.mod_lt; discriminate.
Qed.

Theorem fletcher_low_congr x :
  bytes_ok x -> (fletcher32 x mod 65536) mod 65535 = wsum x mod 65535.
Proof.
  intro Hx. unfold fletcher32.
  pose proof (fl_outer_spec (length x) x 0 0 Hx ltac:(lia) ltac:(lia)) as H.
  destruct (fl_outer (length x) x 0 0) as [[d s1] s2].
  destruct H as (E & O & B & L).
  destruct d as [|a [|b r]]; [| |cbn [length] in L; lia].
  - rewrite lor_shift_low by (pose proof (fold16_small s1 B); lia).
    rewrite fold16_mod. cbn [wsum] in E. rewrite N.add_0_l in E. rewrite <- E. f_equal. lia.
  - inversion O as [|? ? Ha _]; subst.
    assert (Hw : wrap32 (s1 + a * 256) = s1 + a * 256) by (unfold wrap32; lia).
    rewrite Hw.
    rewrite lor_shift_low.
    2:{ pose proof (fold16_bound (s1 + a * 256) ltac:(lia)) as B1.
        pose proof (fold16_small _ B1). lia. }
    rewrite !fold16_mod. cbn [wsum] in E. rewrite N.add_0_l in E. rewrite <- E. reflexivity.
Qed.

Definition weight (i : nat) : N := if Nat.even i then 256 else 1.

Lemma wsum_upd : forall (x : bytes) (i : nat) (b : byte), (i < length x)%nat ->
  wsum (upd i b x) + weight i * nth i x 0 = wsum x + weight i * b.
Proof.
  induction x as [|a|a c r IH] using list_ind2; intros i b Hi; cbn [length] in Hi; [lia| |].
  - destruct i; [|lia]. cbn [upd nth wsum]. unfold weight. cbn [Nat.even]. lia.
  - destruct i as [|[|i]].
    + cbn [upd nth wsum]. unfold weight. cbn [Nat.even]. lia.
    + cbn [upd nth wsum]. unfold weight. cbn [Nat.even]. lia.
    + cbn [upd nth wsum]. specialize (IH i b ltac:(lia)).
      replace (weight (S (S i))) with (weight i) by (unfold weight; reflexivity). lia.
Qed.

Lemma bytes_ok_nth x i : bytes_ok x -> nth i x 0 < 256.
Proof.
  intro Hx. revert i. induction Hx as [|a r Ha Hr IH]; intros [|i]; cbn [nth]; auto; lia.
Qed.

Theorem fletcher_changes (x : bytes) (i : nat) (b : byte) :
  bytes_ok x -> b < 256 -> (i < length x)%nat -> b <> nth i x 0 ->
  fletcher32 (upd i b x) <> fletcher32 x.
Proof.
  intros Hx Hb Hi Hne Heq.
  pose proof (fletcher_low_congr x Hx) as C1.
  pose proof (fletcher_low_congr (upd i b x) (bytes_ok_upd x i b Hx Hb)) as C2.
  rewrite Heq in C2. rewrite C1 in C2.
  pose proof (wsum_upd x i b Hi) as W.
  pose proof (bytes_ok_nth x i Hx) as Ho.
  unfold weight in W.
  revert C2 W Ho Hne Hb. generalize (wsum x) (wsum (upd i b x)) (nth i x 0). clear.
  intros A A' o C W Ho Hne Hb. destruct (Nat.even i); lia.
Qed.

Lemma bytes_ok_le n v : bytes_ok (le n v).
Proof. revert v. induction n; intro v; cbn [le]; constructor; [lia|apply IHn]. Qed.

Lemma unle_le4_fletcher x : unle (le 4 (fletcher32 x)) = fletcher32 x.
Proof. apply (Bytes.unle_le_small 4), fletcher32_lt. Qed.

Lemma unle_upd4 (t : bytes) (k : nat) (b : byte) :
  length t = 4%nat -> bytes_ok t -> b < 256 -> (k < 4)%nat -> b <> nth k t 0 -> unle (upd k b t) <> unle t.
Proof.
  intros Hl Ht Hb Hk Hne.
  destruct t as [|c0 [|c1 [|c2 [|c3 [|? ?]]]]]; cbn [length] in Hl; try lia.
  inversion Ht as [|? ? H0 Ht1]; subst. inversion Ht1 as [|? ? H1 Ht2]; subst.
  inversion Ht2 as [|? ? H2 Ht3]; subst. inversion Ht3 as [|? ? H3 _]; subst.
  destruct k as [|[|[|[|k]]]]; try lia; cbn [upd unle nth] in *; lia.
Qed.

Lemma fletcher_verify_app y t :
  length t = 4%nat -> fletcher_verify (y ++ t) = if unle t =? fletcher32 y then Ok y else Err.
Proof.
  intro Ht. unfold fletcher_verify. rewrite app_length, Ht.
  replace (length y + 4 <? 4)%nat with false by (symmetry; apply Nat.ltb_ge; lia).
  replace (length y + 4 - 4)%nat with (length y) by lia.
  now rewrite Bytes.firstn_length_app, Bytes.skipn_length_app.
Qed.

Theorem fletcher_roundtrip x : fletcher_verify (fletcher_apply x) = Ok x.
Proof.
  unfold fletcher_apply. rewrite fletcher_verify_app by reflexivity.
  now rewrite unle_le4_fletcher, N.eqb_refl.
Qed.

Theorem fletcher_detects_single_byte (x : bytes) (i : nat) (b : byte) :
  bytes_ok x -> b < 256 -> (i < length (fletcher_apply x))%nat -> b <> nth i (fletcher_apply x) 0 ->
  fletcher_verify (upd i b (fletcher_apply x)) = Err.
Proof.
  intros Hx Hb Hi Hne. unfold fletcher_apply in *.
  rewrite app_length in Hi. change (length (le 4 (fletcher32 x))) with 4%nat in Hi.
  destruct (Nat.lt_ge_cases i (length x)) as [Hlt|Hge].
  - rewrite upd_app_l by exact Hlt.
    rewrite fletcher_verify_app by reflexivity.
    rewrite unle_le4_fletcher.
    rewrite app_nth1 in Hne by exact Hlt.
    pose proof (fletcher_changes x i b Hx Hb Hlt Hne) as Hc.
    destruct (N.eqb_spec (fletcher32 x) (fletcher32 (upd i b x))); [congruence|reflexivity].
  - rewrite upd_app_r by exact Hge.
    rewrite fletcher_verify_app by (now rewrite length_upd).
    rewrite app_nth2 in Hne by lia.
    pose proof (unle_upd4 (le 4 (fletcher32 x)) (i - length x) b eq_refl (bytes_ok_le 4 _) Hb ltac:(lia) Hne) as Hc.
    rewrite unle_le4_fletcher in Hc.
    destruct (N.eqb_spec (unle (upd (i - length x) b (le 4 (fletcher32 x)))) (fletcher32 x)); [congruence|reflexivity].
Qed.
