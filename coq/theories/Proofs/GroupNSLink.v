(* C03: after a successful CreateHardLink both names resolve (through the writer's own
   resolveObjectAddress) to the same object header. *)
From HV Require Import Base.Prelude Base.Bytes Model.GroupNS Proofs.GroupNSBase Proofs.GroupNSHeap Proofs.GroupNSPath Proofs.GroupNSInv.

Lemma find_app : forall A (f : A -> bool) a b, find f (a ++ b) = match find f a with Some x => Some x | None => find f b end.
Proof. induction a as [|x a IH]; intro b; cbn [app find]; [reflexivity|]. destruct (f x); auto. Qed.
Lemma find_ext_in : forall A (f g : A -> bool) l, (forall x, In x l -> f x = g x) -> find f l = find g l.
Proof.
  induction l as [|x l IH]; intro H; [reflexivity|]. cbn [find]. rewrite (H x (or_introl eq_refl)).
  destruct (g x); [reflexivity|]. apply IH. intros y Hy. apply H. right. assumption.
Qed.
Lemma names_decode_snoc : forall seg' ents e ns nm, gwf seg' (ents ++ [e]) (ns ++ [nm]) ->
  map (name_of seg') ents = map Some ns /\ name_of seg' e = Some nm.
Proof.
  intros seg' ents e ns nm H. pose proof (names_decode _ _ _ H) as D. rewrite !map_app in D.
  apply app_inj_tail_iff in D. exact D.
Qed.

Lemma find_last : forall seg' ents e ns nm, gwf seg' (ents ++ [e]) (ns ++ [nm]) ->
  find (entry_has_name seg' nm) (ents ++ [e]) = Some e.
Proof.
  intros seg' ents e ns nm H. destruct (names_decode_snoc _ _ _ _ _ H) as [D1 D2].
  assert (Hnin : ~ In nm ns).
  { destruct H as (_ & _ & _ & _ & Hnd). apply NoDup_remove_2 in Hnd. rewrite app_nil_r in Hnd. exact Hnd. }
  rewrite find_app. destruct (find (entry_has_name seg' nm) ents) as [x|] eqn:F.
  - exfalso. apply find_some in F. apply Hnin.
    assert (X : existsb (entry_has_name seg' nm) ents = true) by (apply existsb_exists; exists x; exact F).
    rewrite has_name_iff, D1, in_map_iff in X. destruct X as (y & [= ->] & Iy). exact Iy.
  - cbn [find]. unfold entry_has_name. rewrite D2, bytes_eqb_refl. reflexivity.
Qed.

Lemma old_names_kept : forall seg seg' ents e ns nm, gwf seg ents ns -> gwf seg' (ents ++ [e]) (ns ++ [nm]) ->
  forall x, In x ents -> name_of seg' x = name_of seg x.
Proof.
  intros seg seg' ents e ns nm H H'. destruct (names_decode_snoc _ _ _ _ _ H') as [D1 _].
  rewrite <- (names_decode _ _ _ H) in D1. apply map_ext_in_iff. exact D1.
Qed.

Theorem hardlink_same_object : forall c w p q w', Inv1 c w -> hname_ok (snd (parse_path p)) ->
  step c w (HardLink p q) = (w', Ok) ->
  exists t, resolve_object_address w' p = Some t /\ resolve_object_address w' q = Some t.
Proof.
  intros c w p q w' I Hnm H. unfold step in H.
  destruct (step_body_shape c w (HardLink p q)) as [(e & E)|(wpre & child & post & LP & E)]; rewrite E in H; [discriminate|].
  inversion LP as [| | |? ? t o o1 o2 Vp Vq Rq Ho]; subst wpre child post. clear LP E.
  unfold op_parent, op_link_name in H. cbn [op_path_eff] in H.
  destruct (parse_path p) as [parent nm] eqn:PP. cbn [fst snd] in *.
  set (w1 := with_obj w t o1) in *.
  destruct (link_to_parent c w1 parent nm t) as [w2 [|e]] eqn:LT; [|discriminate]. injection H as <-.
  exists t.
  assert (I1 : InvB c (clock w) w1) by (apply invb_add_object; [exact I | exact (obj_below _ _ _ _ _ I Ho)]).
  destruct (parent_group w1 parent) as [g|] eqn:PG; [|unfold link_to_parent in LT; destruct (strict_names c && negb (heap_name_ok nm)); [discriminate|]; rewrite PG in LT; discriminate].
  destruct (parent_group_structs _ _ _ _ _ I1 PG) as [[seg Hh] [ents Hs]].
  destruct (i_wf _ _ _ I1 g seg ents Hh Hs) as (ns & Hwf & _).
  destruct (ltp_spec c w1 parent nm t g seg ents ns PG Hh Hs Hwf Hnm)
    as [(_ & E)|[(_ & _ & E)|[(_ & _ & _ & E)|(_ & _ & _ & seg' & E & Hwf' & _)]]]; rewrite E in LT; try discriminate.
  cbv zeta in E, Hwf'. inversion LT; subst w2. clear LT E.
  set (enew := {| e_off := blen (enc ns); e_obj := t |}) in *.
  assert (Vs : forall x, validate_link_path x = true -> is_slash_only x = false /\ starts_with_slash x = true).
  { intros x V. unfold validate_link_path in V. apply andb_true_iff in V. destruct V as [V _]. apply andb_true_iff in V.
    destruct V as [V1 V2]. apply negb_true_iff in V2. auto. }
  assert (PGk : forall x, parent_group (tick (linked w1 g seg' (ents ++ [enew]))) x = parent_group w1 x) by reflexivity.
  split.
  - unfold resolve_object_address. destruct (Vs p Vp) as [A B]. rewrite A, B. cbn [negb]. rewrite PP, PGk, PG.
    cbn [snods heaps tick linked set_snods set_heaps]. rewrite !alookup_aset_eq.
    rewrite (find_last seg' ents enew ns nm Hwf'). reflexivity.
  - unfold resolve_object_address in *. destruct (Vs q Vq) as [A B]. rewrite A, B in *. cbn [negb] in *.
    destruct (parse_path q) as [qparent qn]. rewrite PGk.
    assert (PQ : parent_group w1 qparent = parent_group w qparent) by reflexivity. rewrite PQ.
    destruct (parent_group w qparent) as [gq|]; [|discriminate].
    cbn [snods heaps tick linked set_snods set_heaps]. rewrite !alookup_aset.
    destruct (g =? gq) eqn:Eg.
    + apply N.eqb_eq in Eg. subst gq.
      assert (X1 : alookup g (snods w) = Some ents) by exact Hs. assert (X2 : alookup g (heaps w) = Some seg) by exact Hh.
      rewrite X1, X2 in Rq. rewrite find_app.
      rewrite (find_ext_in _ (entry_has_name seg' qn) (entry_has_name seg qn) ents).
      * destruct (find (entry_has_name seg qn) ents); [assumption | discriminate].
      * intros x Hx. unfold entry_has_name. rewrite (old_names_kept seg seg' ents enew ns nm Hwf Hwf' x Hx). reflexivity.
    + exact Rq.
Qed.

Lemma hardlink_same_object_reach : forall c h p q w', names_ok c h = true -> heap_name_ok (snd (parse_path p)) = true ->
  step c (reach c h) (HardLink p q) = (w', Ok) ->
  exists t, resolve_object_address w' p = Some t /\ resolve_object_address w' q = Some t.
Proof.
  intros c h p q w' H Hn S. eapply hardlink_same_object; try eassumption; [apply reach_inv; assumption | apply heap_name_ok_iff; assumption].
Qed.
