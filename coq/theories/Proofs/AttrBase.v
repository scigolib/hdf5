(* Lemmas about the list primitives of Model/Attr.v: byte-string equality, look-up by name in attribute
   lists, the loops that act on the first match (compact replace/remove, index update/delete, heap
   association lists) through one loop [splice_first], the encoder, InsertObject, the specification map. *)
From HV Require Import Base.Prelude Base.Bytes Model.Attr.
From Coq Require Import Permutation.

Lemma bytes_eqb_spec : forall a b, reflect (a = b) (bytes_eqb a b).
Proof. intros a b. apply iff_reflect. symmetry. apply bytes_eqb_eq. Qed.

Lemma bytes_eqb_sym : forall a b, bytes_eqb a b = bytes_eqb b a.
Proof. exact Bytes.bytes_eqb_sym. Qed.

Ltac beq a b := destruct (bytes_eqb_spec a b) as [?|?]; try subst; try congruence.

Lemma bytes_dec : forall a b : bytes, {a = b} + {a <> b}.
Proof. intros a b. destruct (bytes_eqb_spec a b); [left|right]; assumption. Qed.

Lemma existsb_bytes_in : forall n l, existsb (bytes_eqb n) l = true <-> In n l.
Proof.
  intros n l. rewrite existsb_exists. split.
  - intros [x [Hx E]]. apply bytes_eqb_eq in E. subst. assumption.
  - intro H. exists n. split; [assumption | apply bytes_eqb_refl].
Qed.

Lemma attr_get_none_iff : forall l n, attr_get l n = None <-> ~ In n (map aname l).
Proof.
  induction l as [|x l IH]; intro n; cbn [attr_get map In].
  - tauto.
  - beq (aname x) n.
    + split; [discriminate | intro H; exfalso; apply H; left; reflexivity].
    + rewrite IH. tauto.
Qed.

Lemma attr_get_some_in : forall l n v, attr_get l n = Some v -> In (mkAttr n v) l.
Proof.
  induction l as [|x l IH]; intros n v; cbn [attr_get In]; [discriminate|].
  beq (aname x) n.
  - intro H. inversion H. left. destruct x; reflexivity.
  - intro H. right. apply IH. assumption.
Qed.

Lemma attr_get_in : forall l n v, NoDup (map aname l) -> In (mkAttr n v) l -> attr_get l n = Some v.
Proof.
  induction l as [|x l IH]; intros n v ND HI; cbn [attr_get]; [destruct HI|].
  cbn [map] in ND. inversion ND as [|? ? Hx ND']; subst.
  destruct HI as [->|HI].
  - cbn [aname aval]. rewrite bytes_eqb_refl. reflexivity.
  - beq (aname x) n.
    + exfalso. apply Hx. change (aname x) with (aname (mkAttr (aname x) v)). apply in_map. assumption.
    + apply IH; assumption.
Qed.

Lemma attr_get_app : forall l1 l2 n,
  attr_get (l1 ++ l2) n = match attr_get l1 n with Some v => Some v | None => attr_get l2 n end.
Proof.
  induction l1 as [|x l1 IH]; intros l2 n; cbn [app attr_get]; [reflexivity|].
  destruct (bytes_eqb (aname x) n); [reflexivity | apply IH].
Qed.

Lemma attr_get_insert : forall l1 l2 a m, ~ In (aname a) (map aname (l1 ++ l2)) ->
  attr_get (l1 ++ a :: l2) m = if bytes_eqb (aname a) m then Some (aval a) else attr_get (l1 ++ l2) m.
Proof.
  intros l1 l2 a m H. rewrite !attr_get_app. cbn [attr_get].
  beq (aname a) m.
  assert (E : attr_get l1 (aname a) = None).
  { apply attr_get_none_iff. intro HI. apply H. rewrite map_app. apply in_or_app. left; assumption. }
  rewrite E. reflexivity.
Qed.

Lemma NoDup_names_middle : forall l1 a l2, NoDup (map aname (l1 ++ a :: l2)) ->
  ~ In (aname a) (map aname (l1 ++ l2)) /\ NoDup (map aname (l1 ++ l2)).
Proof.
  intros l1 a l2 H. rewrite map_app in H. cbn [map] in H.
  split.
  - apply NoDup_remove_2 in H. rewrite map_app. assumption.
  - apply NoDup_remove_1 in H. rewrite map_app. assumption.
Qed.

Lemma attr_get_replace_middle : forall l1 a a' l2 m, NoDup (map aname (l1 ++ a :: l2)) -> aname a' = aname a ->
  attr_get (l1 ++ a' :: l2) m = if bytes_eqb (aname a) m then Some (aval a') else attr_get (l1 ++ a :: l2) m.
Proof.
  intros l1 a a' l2 m ND E. destruct (NoDup_names_middle _ _ _ ND) as [H _].
  rewrite (attr_get_insert l1 l2 a') by (rewrite E; assumption).
  rewrite (attr_get_insert l1 l2 a) by assumption. rewrite E.
  destruct (bytes_eqb (aname a) m); reflexivity.
Qed.

Lemma attr_get_remove_middle : forall l1 a l2 m, NoDup (map aname (l1 ++ a :: l2)) ->
  attr_get (l1 ++ l2) m = if bytes_eqb (aname a) m then None else attr_get (l1 ++ a :: l2) m.
Proof.
  intros l1 a l2 m ND. destruct (NoDup_names_middle _ _ _ ND) as [H _].
  rewrite (attr_get_insert l1 l2 a) by assumption.
  beq (aname a) m. apply attr_get_none_iff. assumption.
Qed.

Lemma NoDup_names_replace_middle : forall l1 a a' l2, NoDup (map aname (l1 ++ a :: l2)) -> aname a' = aname a ->
  NoDup (map aname (l1 ++ a' :: l2)).
Proof. intros l1 a a' l2 H E. rewrite map_app in *. cbn [map] in *. rewrite E. assumption. Qed.

Lemma NoDup_names_insert : forall l1 a l2, NoDup (map aname (l1 ++ l2)) -> ~ In (aname a) (map aname (l1 ++ l2)) ->
  NoDup (map aname (l1 ++ a :: l2)).
Proof.
  intros l1 a l2 ND H. rewrite map_app in *. cbn [map]. apply NoDup_Add with (a := aname a) (l := map aname l1 ++ map aname l2).
  - apply Add_app.
  - split; assumption.
Qed.

(* replace_name / remove_name, idx_update / idx_delete and assoc_set / assoc_del of Model/Attr.v are one loop: the
   first element whose key is [k] is replaced by the elements [r x]; None when no element has that key *)
Section FirstMatch.
Context {A K : Type} (eqb : K -> K -> bool) (key : A -> K).
Hypothesis eqb_eq : forall a b, eqb a b = true <-> a = b.

Fixpoint splice_first (k : K) (r : A -> list A) (l : list A) : option (list A) :=
  match l with
  | [] => None
  | x :: t => if eqb (key x) k then Some (r x ++ t)
              else match splice_first k r t with Some t' => Some (x :: t') | None => None end
  end.

Lemma splice_first_spec : forall k r l,
  match splice_first k r l with
  | Some l' => exists pre x post, l = pre ++ x :: post /\ key x = k /\ ~ In k (map key pre) /\ l' = pre ++ r x ++ post
  | None => ~ In k (map key l)
  end.
Proof.
  intros k r. induction l as [|y l IH]; cbn [splice_first map In]; [tauto|].
  destruct (eqb (key y) k) eqn:E.
  - apply eqb_eq in E. exists [], y, l. cbn. tauto.
  - assert (NE : key y <> k) by (intro H; apply eqb_eq in H; congruence).
    destruct (splice_first k r l) as [t'|]; [|tauto].
    destruct IH as (pre & x & post & -> & Ek & NI & ->). exists (y :: pre), x, post. cbn [app map In]. tauto.
Qed.

Lemma splice_first_app : forall k r pre x post, key x = k -> ~ In k (map key pre) ->
  splice_first k r (pre ++ x :: post) = Some (pre ++ r x ++ post).
Proof.
  intros k r pre x post Ek. induction pre as [|y pre IH]; cbn [app splice_first map In]; intro NI.
  - rewrite (proj2 (eqb_eq _ _) Ek). reflexivity.
  - destruct (eqb (key y) k) eqn:E; [apply eqb_eq in E; tauto|]. rewrite IH by tauto. reflexivity.
Qed.

End FirstMatch.

Lemma replace_name_splice : forall n a l, replace_name n a l = splice_first bytes_eqb aname n (fun _ => [a]) l.
Proof. intros n a. induction l as [|x l IH]; cbn [replace_name splice_first]; [|rewrite IH]; reflexivity. Qed.
Lemma remove_name_splice : forall n l, remove_name n l = splice_first bytes_eqb aname n (fun _ => []) l.
Proof. intros n. induction l as [|x l IH]; cbn [remove_name splice_first]; [|rewrite IH]; reflexivity. Qed.
Lemma idx_update_splice : forall h id ix, idx_update h id ix = splice_first N.eqb fst h (fun rc => [(fst rc, id)]) ix.
Proof. intros h id. induction ix as [|[h' id'] ix IH]; cbn [idx_update splice_first fst]; [|rewrite IH]; reflexivity. Qed.
Lemma idx_delete_splice : forall h ix, idx_delete h ix = splice_first N.eqb fst h (fun _ => []) ix.
Proof. intros h. induction ix as [|[h' id'] ix IH]; cbn [idx_delete splice_first fst]; [|rewrite IH]; reflexivity. Qed.

Lemma replace_name_spec : forall n a l,
  match replace_name n a l with
  | Some l' => exists l1 x l2, l = l1 ++ x :: l2 /\ aname x = n /\ ~ In n (map aname l1) /\ l' = l1 ++ a :: l2
  | None => ~ In n (map aname l)
  end.
Proof. intros n a l. rewrite replace_name_splice. exact (splice_first_spec bytes_eqb aname bytes_eqb_eq n _ l). Qed.

Lemma remove_name_spec : forall n l,
  match remove_name n l with
  | Some l' => exists l1 x l2, l = l1 ++ x :: l2 /\ aname x = n /\ ~ In n (map aname l1) /\ l' = l1 ++ l2
  | None => ~ In n (map aname l)
  end.
Proof. intros n l. rewrite remove_name_splice. exact (splice_first_spec bytes_eqb aname bytes_eqb_eq n _ l). Qed.

Lemma idx_search_spec : forall h ix,
  match idx_search h ix with
  | Some id => exists ix1 ix2, ix = ix1 ++ (h, id) :: ix2 /\ ~ In h (map fst ix1)
  | None => ~ In h (map fst ix)
  end.
Proof.
  intros h. induction ix as [|[h' id'] ix IH]; cbn [idx_search map fst In]; [tauto|].
  destruct (N.eqb_spec h' h) as [->|NE]; [exists [], ix; cbn; tauto|].
  destruct (idx_search h ix) as [id|]; [|tauto].
  destruct IH as (ix1 & ix2 & -> & NI). exists ((h', id') :: ix1), ix2. cbn [app map fst In]. tauto.
Qed.

Lemma idx_update_spec : forall h id ix,
  match idx_update h id ix with
  | Some ix' => exists ix1 rc ix2, ix = ix1 ++ rc :: ix2 /\ fst rc = h /\ ~ In h (map fst ix1) /\ ix' = ix1 ++ (fst rc, id) :: ix2
  | None => ~ In h (map fst ix)
  end.
Proof. intros h id ix. rewrite idx_update_splice. exact (splice_first_spec N.eqb fst N.eqb_eq h _ ix). Qed.

Lemma idx_delete_spec : forall h ix,
  match idx_delete h ix with
  | Some ix' => exists ix1 rc ix2, ix = ix1 ++ rc :: ix2 /\ fst rc = h /\ ~ In h (map fst ix1) /\ ix' = ix1 ++ ix2
  | None => ~ In h (map fst ix)
  end.
Proof. intros h ix. rewrite idx_delete_splice. exact (splice_first_spec N.eqb fst N.eqb_eq h _ ix). Qed.

Lemma idx_update_split : forall h id id2 ix1 ix2, ~ In h (map fst ix1) ->
  idx_update h id2 (ix1 ++ (h, id) :: ix2) = Some (ix1 ++ (h, id2) :: ix2).
Proof. intros h id id2 ix1 ix2 H. rewrite idx_update_splice. exact (splice_first_app N.eqb fst N.eqb_eq h _ ix1 (h, id) ix2 eq_refl H). Qed.

Lemma idx_delete_split : forall h id ix1 ix2, ~ In h (map fst ix1) ->
  idx_delete h (ix1 ++ (h, id) :: ix2) = Some (ix1 ++ ix2).
Proof. intros h id ix1 ix2 H. rewrite idx_delete_splice. exact (splice_first_app N.eqb fst N.eqb_eq h _ ix1 (h, id) ix2 eq_refl H). Qed.

Lemma assoc_get_in_keys : forall A (l : list (N * A)) k x, assoc_get k l = Some x -> In k (map fst l).
Proof.
  induction l as [|[k' y] l IH]; intros k x; cbn [assoc_get map fst In]; [discriminate|].
  destruct (N.eqb_spec k' k); [left; assumption | intro H; right; eapply IH; eassumption].
Qed.

Lemma assoc_get_app_some : forall A (l1 l2 : list (N * A)) k x, assoc_get k l1 = Some x -> assoc_get k (l1 ++ l2) = Some x.
Proof.
  induction l1 as [|[k' y] l1 IH]; intros l2 k x; cbn [assoc_get app]; [discriminate|].
  destruct (k' =? k); [tauto | apply IH].
Qed.

Lemma assoc_get_app_fresh : forall A (l : list (N * A)) k x, ~ In k (map fst l) -> assoc_get k (l ++ [(k, x)]) = Some x.
Proof.
  induction l as [|[k' y] l IH]; intros k x H; cbn [assoc_get app map fst In] in *.
  - rewrite N.eqb_refl. reflexivity.
  - destruct (N.eqb_spec k' k); [exfalso; tauto | apply IH; tauto].
Qed.

Lemma assoc_set_spec : forall A (l l' : list (N * A)) k x, assoc_set k x l = Some l' ->
  map fst l' = map fst l /\ forall k2, assoc_get k2 l' = if k2 =? k then Some x else assoc_get k2 l.
Proof.
  induction l as [|[k' y] l IH]; intros l' k x; cbn [assoc_set]; [discriminate|].
  destruct (N.eqb_spec k' k) as [->|NE].
  - intro H. inversion H; subst. split; [reflexivity|]. intro k2. cbn [assoc_get].
    rewrite (N.eqb_sym k2 k). destruct (k =? k2); reflexivity.
  - destruct (assoc_set k x l) as [r|] eqn:E; [|discriminate]. intro H. inversion H; subst.
    destruct (IH r k x E) as [M G]. split; [cbn [map fst]; congruence|].
    intro k2. cbn [assoc_get]. destruct (N.eqb_spec k' k2) as [->|NE2].
    + destruct (N.eqb_spec k2 k); [congruence | reflexivity].
    + apply G.
Qed.

Lemma assoc_set_split : forall A k (x : A) l,
  match assoc_set k x l with
  | Some l' => exists l1 kv l2, l = l1 ++ kv :: l2 /\ fst kv = k /\ ~ In k (map fst l1) /\ l' = l1 ++ (fst kv, x) :: l2
  | None => ~ In k (map fst l)
  end.
Proof.
  intros A k x l. replace (assoc_set k x l) with (splice_first N.eqb fst k (fun kv => [(fst kv, x)]) l).
  - exact (splice_first_spec N.eqb fst N.eqb_eq k _ l).
  - induction l as [|[k' y] l IH]; cbn [assoc_set splice_first fst]; [|rewrite IH]; reflexivity.
Qed.

Lemma assoc_set_some : forall A (l : list (N * A)) k x y, assoc_get k l = Some y -> exists l', assoc_set k x l = Some l'.
Proof.
  intros A l k x y H. pose proof (assoc_set_split A k x l) as S. destruct (assoc_set k x l); [eauto|].
  apply assoc_get_in_keys in H. contradiction.
Qed.

Lemma assoc_del_spec : forall A (l l' : list (N * A)) k, assoc_del k l = Some l' ->
  (forall k2, k2 <> k -> assoc_get k2 l' = assoc_get k2 l) /\
  (forall k2, In k2 (map fst l') -> In k2 (map fst l)) /\
  (NoDup (map fst l) -> NoDup (map fst l')).
Proof.
  induction l as [|[k' y] l IH]; intros l' k; cbn [assoc_del]; [discriminate|].
  destruct (N.eqb_spec k' k) as [->|NE].
  - intro H. inversion H; subst. repeat split.
    + intros k2 NE. cbn [assoc_get]. destruct (N.eqb_spec k k2); [congruence | reflexivity].
    + intros k2 HI. cbn [map fst In]. right; assumption.
    + cbn [map fst]. intro ND. inversion ND; assumption.
  - destruct (assoc_del k l) as [r|] eqn:E; [|discriminate]. intro H. inversion H; subst.
    destruct (IH r k E) as [G [S ND]]. repeat split.
    + intros k2 NE2. cbn [assoc_get]. destruct (k' =? k2); [reflexivity | apply G; assumption].
    + intros k2. cbn [map fst In]. intros [H1|H1]; [left; assumption | right; apply S; assumption].
    + cbn [map fst]. intro N1. inversion N1 as [|? ? Hx N2]; subst. constructor; [intro HI; apply Hx, S, HI | apply ND, N2].
Qed.

Lemma assoc_del_split : forall A k (l : list (N * A)),
  match assoc_del k l with
  | Some l' => exists l1 kv l2, l = l1 ++ kv :: l2 /\ fst kv = k /\ ~ In k (map fst l1) /\ l' = l1 ++ l2
  | None => ~ In k (map fst l)
  end.
Proof.
  intros A k l. replace (assoc_del k l) with (splice_first N.eqb fst k (fun _ => []) l).
  - exact (splice_first_spec N.eqb fst N.eqb_eq k _ l).
  - induction l as [|[k' y] l IH]; cbn [assoc_del splice_first fst]; [|rewrite IH]; reflexivity.
Qed.

Lemma assoc_del_some : forall A (l : list (N * A)) k y, assoc_get k l = Some y -> exists l', assoc_del k l = Some l'.
Proof.
  intros A l k y H. pose proof (assoc_del_split A k l) as S. destruct (assoc_del k l); [eauto|].
  apply assoc_get_in_keys in H. contradiction.
Qed.

Lemma msg_size_enc : forall a sz, encode_attr a = EncOk sz -> msg_size a = sz.
Proof. intros a sz H. unfold msg_size. rewrite H. reflexivity. Qed.

Lemma enc_ok_name : forall x s, encode_attr x = EncOk s -> aname x <> [] /\ blen (aname x) < 65535.
Proof.
  intros x s H. unfold encode_attr in H. destruct (aname x) as [|b t] eqn:E; [discriminate|].
  split; [discriminate|]. destruct (N.leb_spec 65535 (blen (b :: t))); [discriminate | assumption].
Qed.

Lemma enc_ok_pos : forall a sz, encode_attr a = EncOk sz -> 0 < sz.
Proof.
  intros a sz H. unfold encode_attr in H. destruct (aname a); [discriminate|]. destruct (65535 <=? _); [discriminate|].
  destruct (dt_len (aval a)); [|discriminate]. destruct (ds_len (aval a)); inversion H. lia.
Qed.

Lemma heap_insert_cases : forall P hp a,
  match heap_insert P hp a with
  | HOk hp' id => hobjs hp' = hobjs hp ++ [(hfree hp, a)] /\ hfree hp' = hfree hp + msg_size a /\
                  id = (wrap16 (hfree hp), msg_size a mod 16777216) /\
                  msg_size a <> 0 /\ msg_size a <= p_maxobj P /\ hfree hp' <= p_hcap P
  | HErr => msg_size a = 0 \/ p_maxobj P < msg_size a
  | HFull => p_hcap P < hfree hp + msg_size a
  end.
Proof.
  intros P hp a. unfold heap_insert. destruct (N.eqb_spec (msg_size a) 0); [left; assumption|].
  destruct (N.ltb_spec (p_maxobj P) (msg_size a)); [right; assumption|].
  destruct (N.leb_spec (hfree hp + msg_size a) (p_hcap P)); [|assumption]. cbn [hobjs hfree]. repeat split; assumption.
Qed.

Lemma sp_del_cons : forall k v m n,
  sp_del ((k, v) :: m) n = if bytes_eqb k n then sp_del m n else (k, v) :: sp_del m n.
Proof. intros. unfold sp_del. cbn [filter fst]. destruct (bytes_eqb k n); reflexivity. Qed.

Lemma sp_get_del : forall m n k, sp_get (sp_del m n) k = if bytes_eqb n k then None else sp_get m k.
Proof.
  induction m as [|[k' v] m IH]; intros n k.
  - cbn. destruct (bytes_eqb n k); reflexivity.
  - rewrite sp_del_cons. cbn [sp_get]. destruct (bytes_eqb_spec k' n) as [E|NE].
    + rewrite IH. subst k'. destruct (bytes_eqb n k); reflexivity.
    + cbn [sp_get]. rewrite IH. destruct (bytes_eqb_spec k' k) as [E2|NE2]; [|reflexivity].
      subst k'. rewrite (proj2 (bytes_eqb_neq n k)) by congruence. reflexivity.
Qed.

Lemma sp_get_set : forall m n v k, sp_get (sp_set m n v) k = if bytes_eqb n k then Some v else sp_get m k.
Proof.
  intros m n v k. unfold sp_set. cbn [sp_get]. beq n k. rewrite sp_get_del. rewrite (proj2 (bytes_eqb_neq n k)) by assumption. reflexivity.
Qed.

Definition keys (m : smap) : list bytes := map fst m.

Lemma sp_del_keys_incl : forall m n x, In x (keys (sp_del m n)) -> In x (keys m).
Proof.
  intros m n x HI. unfold keys, sp_del in *. apply in_map_iff in HI. destruct HI as [[a b] [E HI]].
  apply filter_In in HI. destruct HI as [HI _]. cbn in E; subst. apply in_map_iff. exists (x, b). tauto.
Qed.

Lemma sp_del_keys_nodup : forall m n, NoDup (keys m) -> NoDup (keys (sp_del m n)) /\ ~ In n (keys (sp_del m n)).
Proof.
  induction m as [|[k v] m IH]; intros n ND.
  - cbn. split; [constructor | tauto].
  - cbn [keys map fst] in ND. inversion ND as [|? ? Hk ND']; subst. destruct (IH n ND') as [A B].
    rewrite sp_del_cons. destruct (bytes_eqb_spec k n) as [E|NE].
    + split; assumption.
    + cbn [keys map fst]. split.
      * constructor; [intro HI; apply Hk; eapply sp_del_keys_incl; exact HI | exact A].
      * cbn [In]. intros [E|HI]; [congruence | tauto].
Qed.

Lemma sp_set_keys_nodup : forall m n v, NoDup (keys m) -> NoDup (keys (sp_set m n v)).
Proof.
  intros m n v ND. unfold sp_set. cbn [keys map fst]. destruct (sp_del_keys_nodup m n ND). constructor; assumption.
Qed.

Lemma sp_get_in : forall m n v, NoDup (keys m) -> (sp_get m n = Some v <-> In (n, v) m).
Proof.
  induction m as [|[k w] m IH]; intros n v ND; cbn [sp_get In].
  - split; [discriminate | tauto].
  - cbn [keys map fst] in ND. inversion ND as [|? ? Hk ND']; subst. beq k n.
    + split.
      * intro H. inversion H. left; reflexivity.
      * intros [H|H]; [inversion H; reflexivity|]. exfalso. apply Hk. unfold keys. apply in_map_iff. exists (n, v). tauto.
    + rewrite (IH n v ND'). split; [tauto|]. intros [H|H]; [inversion H; congruence | assumption].
Qed.
