(* C06 - monotonicity of tolerance.  [tle t1 t2]: every deviation t1 tolerates, t2 tolerates; then what a specification decoder accepts
   under t1 it accepts under t2 with the identical result ([ole]), and so do the parts of the walker that see the tolerance through
   [stol] alone.  For the whole walker the statement is from [wstrict]: between two arbitrary tolerances the descent stops at
   dense_attrs and dense_links, where the larger tolerance may accept a reading the smaller one had to pass over.
   C05 - the converse for cross-structure tags: a walk that refuses some of the tags another walk reported stops at the first of
   them ([cut], [walk_code_refused]); Proofs/WalkDenseExamples.v reads the necessity of four deviations off one walk. *)
From HV Require Import Base.Prelude Base.Outcome Base.Bytes Base.Crc32 Spec.Lookup3 Spec.Parse Spec.Format Spec.FormatMsg Spec.FormatNode
  Spec.FormatRef Model.Wellformed Spec.Walk Proofs.Walk.

Definition tle (t1 t2 : tolerance) : Prop := forall t, t1 t = true -> t2 t = true.
Definition ole {A} (o1 o2 : outcome A) : Prop := forall r, o1 = Ok r -> o2 = Ok r.

Lemma ole_refl {A} (o : outcome A) : ole o o.
Proof. intros r H; exact H. Qed.
Lemma ole_bind {A B} (m1 m2 : outcome A) (k1 k2 : A -> outcome B) :
  ole m1 m2 -> (forall a, ole (k1 a) (k2 a)) -> ole (obind m1 k1) (obind m2 k2).
Proof.
  intros Hm Hk r H. destruct m1 as [a| |]; cbn [obind] in H; try discriminate.
  rewrite (Hm a eq_refl). cbn [obind]. apply Hk. exact H.
Qed.
Lemma ole_err {A} (o : outcome A) : ole Err o.
Proof. intros r H; discriminate. Qed.

Section Dec.
Variables t1 t2 : tolerance.
Hypothesis T : tle t1 t2.

Lemma ole_dev t : ole (dev t1 t) (dev t2 t).
Proof. intros r H. unfold dev in *. destruct (t1 t) eqn:E; try discriminate. rewrite (T t E). exact H. Qed.
Lemma ole_devif c t : ole (devif c t1 t) (devif c t2 t).
Proof. unfold devif. destruct c; [apply ole_dev | apply ole_refl]. Qed.
Lemma ole_check_sum t cov st : ole (check_sum t1 t cov st) (check_sum t2 t cov st).
Proof. unfold check_sum. destruct (st =? spec_checksum cov); [apply ole_refl|]. destruct (st =? crc32 cov); [apply ole_dev | apply ole_refl]. Qed.

Create HintDb oledb.
Hint Resolve ole_dev ole_devif ole_check_sum ole_err : oledb.

(* descent through a decoder for [ole]: bind and case by case, leaves from oledb *)
Ltac on :=
  repeat (cbv beta zeta;
          match goal with
          | |- ole ?x ?x => apply ole_refl
          | |- ole (obind _ _) (obind _ _) => apply ole_bind; [|intros ?]
          | |- ole (match ?x with _ => _ end) (match ?x with _ => _ end) => destruct x
          | |- ole _ _ => solve [auto with oledb]
          end).

Lemma ole_superblock bs : ole (spec_dec_superblock t1 bs) (spec_dec_superblock t2 bs).
Proof. unfold spec_dec_superblock. on. Qed.
Lemma ole_chunk_checksum cov r : ole (chunk_checksum t1 cov r) (chunk_checksum t2 cov r).
Proof. unfold chunk_checksum. on. Qed.
Hint Resolve ole_chunk_checksum : oledb.
Lemma ole_ohdr2 bs : ole (spec_dec_ohdr2 t1 bs) (spec_dec_ohdr2 t2 bs).
Proof. unfold spec_dec_ohdr2. on. Qed.
Lemma ole_ochk co bs : ole (spec_dec_ochk t1 co bs) (spec_dec_ochk t2 co bs).
Proof. unfold spec_dec_ochk. on. Qed.
Lemma ole_snod o k bs : ole (spec_dec_snod t1 o k bs) (spec_dec_snod t2 o k bs).
Proof. unfold spec_dec_snod. on. Qed.
Lemma ole_btree1 o l nt nd k bs : ole (spec_dec_btree1 t1 o l nt nd k bs) (spec_dec_btree1 t2 o l nt nd k bs).
Proof. unfold spec_dec_btree1. on. Qed.
Lemma ole_fhdb o ha os ho fl bs : ole (spec_dec_fhdb t1 o ha os ho fl bs) (spec_dec_fhdb t2 o ha os ho fl bs).
Proof. unfold spec_dec_fhdb. on. Qed.
Lemma ole_fheap_hdr o l bs : ole (spec_dec_fheap_hdr t1 o l bs) (spec_dec_fheap_hdr t2 o l bs).
Proof. unfold spec_dec_fheap_hdr. on. Qed.
Lemma ole_bt2hdr o l bs : ole (spec_dec_bt2hdr t1 o l bs) (spec_dec_bt2hdr t2 o l bs).
Proof. unfold spec_dec_bt2hdr. on. Qed.
Lemma ole_bt2leaf bt n rs bs : ole (spec_dec_bt2leaf t1 bt n rs bs) (spec_dec_bt2leaf t2 bt n rs bs).
Proof. unfold spec_dec_bt2leaf. on. Qed.
Lemma ole_refcount p bs : ole (spec_dec_refcount t1 p bs) (spec_dec_refcount t2 p bs).
Proof. unfold spec_dec_refcount. on. Qed.
Lemma ole_link o p bs : ole (spec_dec_link t1 o p bs) (spec_dec_link t2 o p bs).
Proof. unfold spec_dec_link. on. Qed.
Lemma ole_pipeline p bs : ole (spec_dec_pipeline t1 p bs) (spec_dec_pipeline t2 p bs).
Proof. unfold spec_dec_pipeline. on. Qed.

(* the member loop of a compound datatype inside [p_dtype], over the decoder [rec] of a member's datatype *)
Definition dt_members (rec : bytes -> outcome (dtype * list tag * bytes)) (ver size : N) :=
  fix members (ow : nat) (k : nat) (r : bytes) : outcome (list (bytes * N * dtype) * list tag * bytes) :=
    match k with
    | O => Ok ([], [], r)
    | S k' =>
        '(nm, r) <- p_cstr r;;
        _ <- guard (negb (length nm =? 0)%nat);;
        '(_, r) <- (if ver <? 3 then p_zeros (N.to_nat (up8 (blen nm + 1) - (blen nm + 1))) r else Ok (tt, r));;
        '(off, r) <- p_u ow r;;
        '(_, r) <- (if ver =? 1 then
                      '(nd, r) <- p_byte r;; _ <- guard (nd <=? 4);;
                      '(_, r) <- p_zeros 3 r;; '(_, r) <- p_take 4 r;; '(_, r) <- p_zeros 4 r;;
                      '(_, r) <- p_take 16 r;; Ok (tt, r)
                    else Ok (tt, r));;
        '(t, tg1, r) <- rec r;;
        _ <- guard (off + dtype_size t <=? size);;
        '(rest, tg2, r) <- members ow k' r;;
        Ok ((nm, off, t) :: rest, tg1 ++ tg2, r)
    end.
Lemma ole_dt_members rec1 rec2 ver size ow k : (forall r, ole (rec1 r) (rec2 r)) ->
  forall r, ole (dt_members rec1 ver size ow k r) (dt_members rec2 ver size ow k r).
Proof. intros Hr. induction k as [|k IHk]; intros r; cbn [dt_members]; on. Qed.
Hint Extern 3 (ole _ _) => apply ole_dt_members : oledb.

Lemma ole_p_dtype p fuel : forall bs, ole (p_dtype t1 p fuel bs) (p_dtype t2 p fuel bs).
Proof.
  induction fuel as [|n IH]; intros bs; cbn [p_dtype]. apply ole_refl. on.
Qed.
Hint Resolve ole_p_dtype : oledb.
Lemma ole_datatype p bs : ole (spec_dec_datatype t1 p bs) (spec_dec_datatype t2 p bs).
Proof. unfold spec_dec_datatype. on. Qed.
Hint Resolve ole_datatype : oledb.
Lemma ole_attribute l p bs : ole (spec_dec_attribute t1 l p bs) (spec_dec_attribute t2 l p bs).
Proof. unfold spec_dec_attribute. on. Qed.
Lemma ole_attribute_sh l p sh1 sh2 bs : (forall tb, ole (sh1 tb) (sh2 tb)) ->
  ole (spec_dec_attribute_sh t1 l p sh1 bs) (spec_dec_attribute_sh t2 l p sh2 bs).
Proof. intros Hs. unfold spec_dec_attribute_sh. on. Qed.
End Dec.

Lemma ole_omapM {A B} (g1 g2 : A -> outcome B) l : (forall x, ole (g1 x) (g2 x)) -> ole (omapM g1 l) (omapM g2 l).
Proof.
  intros Hg. induction l as [|x l IH]; cbn [omapM]. apply ole_refl.
  apply ole_bind; auto. intros y. apply ole_bind; auto. intros ys. apply ole_refl.
Qed.

Lemma tle_strict tol : tle (stol wstrict) (stol tol).
Proof. intros t H. discriminate. Qed.

Create HintDb tolo.
#[export] Hint Resolve tle_strict ole_superblock ole_ohdr2 ole_ochk ole_snod ole_btree1 ole_fhdb ole_fheap_hdr ole_bt2hdr ole_bt2leaf
  ole_refcount ole_link ole_pipeline ole_datatype ole_attribute : tolo.

Lemma mle_case {A B} (o1 o2 : outcome A) (k1 k2 : A -> W B) (d1 d2 : W B) :
  ole o1 o2 -> (forall a, mle (k1 a) (k2 a)) -> (forall m, mle d1 m) ->
  mle (match o1 with Ok a => k1 a | _ => d1 end) (match o2 with Ok a => k2 a | _ => d2 end).
Proof. intros H Hk Hd. destruct o1 as [a| |]; [rewrite (H a eq_refl); apply Hk | apply Hd | apply Hd]. Qed.
Lemma mle_wlc {A} k (o1 o2 : outcome A) : ole o1 o2 -> mle (wlc k o1) (wlc k o2).
Proof. intros H st r E. unfold wlc in *. destruct o1 as [a| |]; try discriminate. rewrite (H a eq_refl). exact E. Qed.

Create HintDb tolw.
(* descent through a walker body for [mle] between two tolerances: decoder answers compared by [ole] (tolo), leaves from tolw *)
Ltac tn :=
  repeat (cbv beta iota zeta;
          match goal with
          | |- mle ?x ?y => constr_eq x y; apply mle_refl
          | |- mle (wfail _) _ => apply mle_err
          | |- mle (wbind _ _) (wbind _ _) => apply mle_bind; [|intros ?]
          | |- mle (wmapM _ _) (wmapM _ _) => apply mle_wmapM; intros ?
          | |- mle (wforM _ _) (wforM _ _) => apply mle_wforM; intros ?
          | |- mle (wlc _ ?o1) (wlc _ ?o2) => apply mle_wlc; first [constr_eq o1 o2; apply ole_refl | solve [auto 3 with tolo]]
          | |- mle (match ?x with _ => _ end) (match ?y with _ => _ end) => constr_eq x y; destruct x
          | |- mle (match _ with _ => _ end) (match _ with _ => _ end) =>
              apply mle_case; [solve [auto 3 with tolo] | intros ? | intros ?]
          | |- mle _ _ => solve [auto 3 with tolw]
          end).

Section Stol.
Variable f : bytes.
Variable flen : N.
Variables tol1 tol2 : wtolerance.
Hypothesis T : tle (stol tol1) (stol tol2).
Variable c : wctx.

Lemma smle_cont2 co n : forall ms, mle (cont2 f flen tol1 c co n ms) (cont2 f flen tol2 c co n ms).
Proof. induction n; intros ms; cbn [cont2]. apply mle_err. unfold cont2_body. tn. Qed.
Hint Resolve smle_cont2 : tolw.
Lemma smle_ohdr_walk n addr : mle (ohdr_walk f flen tol1 c n addr) (ohdr_walk f flen tol2 c n addr).
Proof. unfold ohdr_walk. tn. Qed.

Lemma ole_committed_dtype a : ole (committed_dtype f flen tol1 c a) (committed_dtype f flen tol2 c a).
Proof.
  unfold committed_dtype. intros r H.
  destruct (ohdr_walk f flen tol1 c resolve_fuel a st0) as [[[[ver rc] ms] st]|k] eqn:E; try discriminate.
  rewrite (smle_ohdr_walk resolve_fuel a st0 _ E).
  destruct (msgs_of 3 ms) as [|m ?]; try discriminate.
  destruct (N.testbit (ms_flags m) 1); try discriminate.
  exact (ole_datatype _ _ T _ _ r H).
Qed.
Lemma ole_shared_dtype pad b : ole (shared_dtype f flen tol1 c pad b) (shared_dtype f flen tol2 c pad b).
Proof. unfold shared_dtype. apply ole_bind; [apply ole_refl | intros a; apply ole_committed_dtype]. Qed.
Lemma ole_dec_attribute pad d : ole (dec_attribute f flen tol1 c pad d) (dec_attribute f flen tol2 c pad d).
Proof.
  unfold dec_attribute.
  repeat match goal with
         | |- ole (match ?x with _ => _ end) (match ?x with _ => _ end) => destruct x
         end;
  first [ apply ole_attribute; exact T
        | apply ole_attribute_sh; intros tb; apply ole_shared_dtype ].
Qed.
(* the datatype message, possibly shared: the two tolerances resolve it alike, whatever relation [R] of the two walks is at stake *)
Lemma dtype_case {B} (R : W B -> W B -> Prop) pad ms (k1 k2 : outcome (dtype * list tag) -> W B) d1 d2 :
  (forall o1 o2, ole o1 o2 -> R (k1 o1) (k2 o2)) -> R d1 d2 ->
  R (match dtype_of_msgs f flen tol1 c pad ms with Some o => k1 o | None => d1 end)
    (match dtype_of_msgs f flen tol2 c pad ms with Some o => k2 o | None => d2 end).
Proof.
  intros Hk Hd. unfold dtype_of_msgs. destruct (msgs_of 3 ms) as [|m ?]; [exact Hd|]. apply Hk.
  destruct (N.testbit (ms_flags m) 1); [apply ole_shared_dtype | apply ole_datatype; exact T].
Qed.
Lemma ole_dense_mode h blocks recs lib : ole (dense_mode f flen tol1 c h blocks recs lib) (dense_mode f flen tol2 c h blocks recs lib).
Proof.
  unfold dense_mode. apply ole_omapM. intros x. apply ole_bind; [apply ole_refl|intros obj].
  apply ole_bind; [apply ole_dec_attribute | intros a; apply ole_refl].
Qed.
Lemma ole_link_mode h blocks recs lib priv : ole (link_mode f flen tol1 c h blocks recs lib priv) (link_mode f flen tol2 c h blocks recs lib priv).
Proof.
  unfold link_mode. apply ole_omapM. intros x. apply ole_bind; [apply ole_refl|intros obj].
  apply ole_bind; [|intros a; apply ole_refl]. destruct priv; [apply ole_refl | apply ole_link; exact T].
Qed.
End Stol.
#[export] Hint Resolve tle_strict smle_cont2 smle_ohdr_walk : tolw.
#[export] Hint Resolve ole_dec_attribute ole_shared_dtype ole_dense_mode ole_link_mode : tolo.

Section Tol.
Variable f : bytes.
Variable flen : N.
Variable tol : wtolerance.

Lemma tmle_sdev t : mle (sdev wstrict t) (sdev tol t).
Proof. apply mle_err. Qed.
Lemma tmle_xdev x : mle (xdev wstrict x) (xdev tol x).
Proof. apply mle_err. Qed.
Lemma tmle_xdevif b x : mle (xdevif wstrict b x) (xdevif tol b x).
Proof. unfold xdevif. destruct b; [apply tmle_xdev | apply mle_refl]. Qed.
Hint Resolve tmle_sdev tmle_xdev tmle_xdevif : tolw.

Lemma tmle_superblock : mle (walk_superblock f flen wstrict) (walk_superblock f flen tol).
Proof. unfold walk_superblock. tn. Qed.

Variable c : wctx.

Lemma tmle_cont2 co n : forall ms, mle (cont2 f flen wstrict c co n ms) (cont2 f flen tol c co n ms).
Proof. intros ms. apply smle_cont2, tle_strict. Qed.
Lemma tmle_snod_walk seg addr : mle (snod_walk f flen wstrict c seg addr) (snod_walk f flen tol c seg addr).
Proof. unfold snod_walk. tn. Qed.
Lemma tmle_btree1_node nt nd K kind addr top level :
  mle (btree1_node f flen wstrict c nt nd K kind addr top level) (btree1_node f flen tol c nt nd K kind addr top level).
Proof. unfold btree1_node. tn. Qed.
Hint Resolve tmle_snod_walk tmle_btree1_node : tolw.

Lemma tmle_gbtree seg n : forall a t l, mle (gbtree f flen wstrict c seg n a t l) (gbtree f flen tol c seg n a t l).
Proof. induction n; intros a t l; cbn [gbtree]. apply mle_err. unfold gbtree_body. tn. Qed.
Lemma tmle_cbtree nd n : forall a t l, mle (cbtree f flen wstrict c nd n a t l) (cbtree f flen tol c nd n a t l).
Proof. induction n; intros a t l; cbn [cbtree]. apply mle_err. unfold cbtree_body. tn. Qed.
Hint Resolve tmle_gbtree tmle_cbtree : tolw.
Lemma tmle_dblock h ha os a ho sz : mle (dblock f flen wstrict c h ha os a ho sz) (dblock f flen tol c h ha os a ho sz).
Proof. unfold dblock. tn. Qed.
Hint Resolve tmle_dblock : tolw.
Lemma tmle_fheap_walk addr : mle (fheap_walk f flen wstrict c addr) (fheap_walk f flen tol c addr).
Proof. unfold fheap_walk. tn. Qed.
Lemma tmle_btree2_walk addr : mle (btree2_walk f flen wstrict c addr) (btree2_walk f flen tol c addr).
Proof. unfold btree2_walk. tn. Qed.
Hint Resolve tmle_fheap_walk tmle_btree2_walk : tolw.

(* under wstrict every alternative reading of heap offsets and stored links fails at its [xdev]: nothing to compare *)
Lemma tmle_dense_attrs d : mle (dense_attrs f flen wstrict c d) (dense_attrs f flen tol c d).
Proof.
  unfold dense_attrs. tn.
  all: repeat match goal with |- mle (match ?o with _ => _ end) _ => destruct o end.
  all: intros st r E; discriminate.
Qed.
Lemma tmle_dense_links pad d : mle (dense_links f flen wstrict c pad d) (dense_links f flen tol c pad d).
Proof.
  unfold dense_links. tn.
  all: repeat match goal with |- mle (match ?o with _ => _ end) _ => destruct o end.
  all: intros st r E; discriminate.
Qed.
Hint Resolve tmle_dense_attrs tmle_dense_links : tolw.

Lemma tmle_dataset_data cb1 cb2 lay esz dims total fl : (forall nd a t l, mle (cb1 nd a t l) (cb2 nd a t l)) ->
  mle (dataset_data flen wstrict c cb1 lay esz dims total fl) (dataset_data flen tol c cb2 lay esz dims total fl).
Proof. intros Hc. unfold dataset_data. tn. Qed.

Lemma tmle_walk_obj n : forall a p, mle (walk_obj f flen wstrict c n a p) (walk_obj f flen tol c n a p).
Proof.
  induction n; intros a p; cbn [walk_obj]. apply mle_err. unfold obj_body. tn.
  all: try (apply tmle_dataset_data; intros; apply tmle_cbtree).
  all: try (apply dtype_case; [apply tle_strict | intros o1 o2 Ho | ]; tn).
  all: apply tmle_dataset_data; intros; apply tmle_cbtree.
Qed.

Lemma tmle_finish sb : mle (finish flen wstrict sb) (finish flen tol sb).
Proof. unfold finish. tn. Qed.
End Tol.

Lemma tmle_walk_all f flen tol n : mle (walk_all f flen wstrict n) (walk_all f flen tol n).
Proof.
  unfold walk_all. tn; auto using tmle_superblock, tmle_walk_obj, tmle_finish.
Qed.

Lemma walk_strict_any_tolerance : forall tol fuel f r, walk wstrict fuel f = Ok r -> walk tol fuel f = Ok r.
Proof. intros tol fuel f. apply mle_walk, tmle_walk_all. Qed.

Lemma walk_result_unique : forall tol fuel1 fuel2 f r1 r2,
  walk wstrict fuel1 f = Ok r1 -> walk tol fuel2 f = Ok r2 -> r1 = r2.
Proof.
  intros tol fuel1 fuel2 f r1 r2 H1 H2.
  pose proof (walk_strict_any_tolerance tol _ _ _ H1) as H1'.
  assert (A : walk tol (Nat.max fuel1 fuel2) f = Ok r1) by (eapply walk_fuel_mono; [|exact H1']; lia).
  assert (B : walk tol (Nat.max fuel1 fuel2) f = Ok r2) by (eapply walk_fuel_mono; [|exact H2]; lia).
  rewrite A in B. inversion B. reflexivity.
Qed.

Lemma walk_strict_tolerant_same_summary : forall fuel f r,
  walk wstrict fuel f = Ok r -> exists r', walk wtolerant fuel f = Ok r' /\ wr_tree r' = wr_tree r /\ wr_tags r' = wr_tags r.
Proof. intros fuel f r H. exists r. split; [exact (walk_strict_any_tolerance wtolerant fuel f r H) | split; reflexivity]. Qed.

(* Lowering the tolerance on cross-structure tags only.
   [tol1] and [tol2] agree on the tags of the specification decoders, so every decoder answers alike; the two walks then differ
   only at [xdev]: from a state whose reported cross-structure tags [tol2] admits, the walk under [tol2] either ends like the
   walk under [tol1], again in such a state, or stops at the first tag [tol2] refuses, with that tag's code as the reason. *)
Section Cut.
Variable f : bytes.
Variable flen : N.
Variables tol1 tol2 : wtolerance.
Hypothesis HS : forall t, tol1 (WS t) = tol2 (WS t).

Definition admits (st : wstate) : Prop := forall x, In (WX x) (ws_tags st) -> tol2 (WX x) = true.
Definition cut {A} (m1 m2 : W A) : Prop := forall st r, m1 st = WOk r -> admits st ->
  (m2 st = WOk r /\ admits (snd r)) \/ exists x, tol2 (WX x) = false /\ m2 st = WErr (200 + xtag_code x).

Lemma stol_le : tle (stol tol1) (stol tol2).
Proof. intros t. unfold stol. rewrite HS. auto. Qed.
Lemma stol_ge : tle (stol tol2) (stol tol1).
Proof. intros t. unfold stol. rewrite HS. auto. Qed.

Lemma cut_fail {A} k (m : W A) : cut (wfail k) m.
Proof. intros st r H. discriminate. Qed.
Lemma cut_bind {A B} (m1 m2 : W A) (k1 k2 : A -> W B) :
  cut m1 m2 -> (forall a, cut (k1 a) (k2 a)) -> cut (wbind m1 k1) (wbind m2 k2).
Proof.
  intros Hm Hk st r H J. unfold wbind in *. destruct (m1 st) as [[a st1]|] eqn:E; try discriminate.
  destruct (Hm _ _ E J) as [[E2 J1]|(x & Hx & E2)]; rewrite E2.
  - exact (Hk a st1 r H J1).
  - right. exists x. auto.
Qed.
Lemma cut_quiet {A} (m : W A) : (forall st r, m st = WOk r -> ws_tags (snd r) = ws_tags st) -> cut m m.
Proof. intros Q st r H J. left. split; [exact H|]. unfold admits. rewrite (Q _ _ H). exact J. Qed.
Lemma cut_read {A} (v : wstate -> A) : cut (fun st => WOk (v st, st)) (fun st => WOk (v st, st)).
Proof. apply cut_quiet. intros st r H. inversion H. reflexivity. Qed.
Lemma cut_ret {A} (a : A) : cut (wret a) (wret a).
Proof. apply (cut_read (fun _ => a)). Qed.
Lemma cut_wget {A} (g : wrest -> A) : cut (wget g) (wget g).
Proof. apply (cut_read (fun st => g (rest_of st))). Qed.
Lemma cut_wexts : cut wexts wexts.
Proof. apply (cut_read ws_ext). Qed.
Lemma cut_wmapM {A B} (g1 g2 : A -> W B) l : (forall x, cut (g1 x) (g2 x)) -> cut (wmapM g1 l) (wmapM g2 l).
Proof.
  intros Hg. induction l as [|x l IH]; cbn [wmapM]. apply cut_ret.
  apply cut_bind; auto. intros y. apply cut_bind; auto. intros ys. apply cut_ret.
Qed.
Lemma cut_wforM {A} (g1 g2 : A -> W unit) l : (forall x, cut (g1 x) (g2 x)) -> cut (wforM g1 l) (wforM g2 l).
Proof.
  intros Hg. induction l as [|x l IH]; cbn [wforM]. apply cut_ret. apply cut_bind; auto.
Qed.
Lemma cut_wguardc k b : cut (wguardc k b) (wguardc k b).
Proof. destruct b; [apply cut_ret | apply cut_fail]. Qed.
Lemma cut_add_ext s e k : cut (add_ext flen s e k) (add_ext flen s e k).
Proof. apply cut_quiet. intros st r H. unfold add_ext in H. destruct (_ && _); inversion H. reflexivity. Qed.
Lemma cut_wupd g : (forall r, r_tags (g r) = r_tags r) -> cut (wupd g) (wupd g).
Proof. intros Hg. apply cut_quiet. intros st r H. inversion H. exact (Hg (rest_of st)). Qed.
(* the one way tags enter the state *)
Lemma cut_add_wtags l : (forall x, In (WX x) l -> tol2 (WX x) = true) -> cut (add_wtags l) (add_wtags l).
Proof.
  intros Hl st r H J. left. split; [exact H|]. inversion H. intros x Hx. cbn in Hx.
  apply in_app_or in Hx. destruct Hx; auto.
Qed.
Lemma cut_add_stags l : cut (add_stags l) (add_stags l).
Proof. apply cut_add_wtags. intros x Hx. apply in_map_iff in Hx. destruct Hx as (t & Ht & _). discriminate. Qed.
Lemma cut_wlc {A} k (o1 o2 : outcome A) : ole o1 o2 -> cut (wlc k o1) (wlc k o2).
Proof.
  intros Ho st r H J. left. split; [exact (mle_wlc k _ _ Ho st r H)|].
  unfold wlc in H. destruct o1; inversion H. exact J.
Qed.
Lemma cut_sdev t : cut (sdev tol1 t) (sdev tol2 t).
Proof. unfold sdev. rewrite HS. destruct (tol2 (WS t)); [apply (cut_add_stags [t]) | apply cut_fail]. Qed.
Lemma cut_xdev x : cut (xdev tol1 x) (xdev tol2 x).
Proof.
  unfold xdev. destruct (tol1 (WX x)); [|apply cut_fail]. destruct (tol2 (WX x)) eqn:E2.
  - apply cut_add_wtags. intros y [Hy|[]]. inversion Hy; subst. exact E2.
  - intros st r H J. right. exists x. auto.
Qed.
Lemma cut_xdevif b x : cut (xdevif tol1 b x) (xdevif tol2 b x).
Proof. unfold xdevif. destruct b; [apply cut_xdev | apply cut_ret]. Qed.
Lemma cut_case {A B} (o1 o2 : outcome A) (k1 k2 : A -> W B) (d1 d2 : W B) :
  ole o1 o2 -> ole o2 o1 -> (forall a, cut (k1 a) (k2 a)) -> cut d1 d2 ->
  cut (match o1 with Ok a => k1 a | _ => d1 end) (match o2 with Ok a => k2 a | _ => d2 end).
Proof.
  intros H12 H21 Hk Hd. destruct o1 as [a| |].
  - rewrite (H12 a eq_refl). apply Hk.
  - destruct o2 as [b| |]; [discriminate (H21 b eq_refl) | exact Hd | exact Hd].
  - destruct o2 as [b| |]; [discriminate (H21 b eq_refl) | exact Hd | exact Hd].
Qed.

Create HintDb cutdb.
Hint Resolve stol_le stol_ge : tolo.
Hint Resolve cut_ret cut_wget cut_wexts cut_wguardc cut_add_ext cut_add_stags cut_sdev cut_xdev cut_xdevif : cutdb.

(* the same descent for [cut]: decoder answers compared by [ole] both ways (tolo), leaves from cutdb *)
Ltac cn :=
  repeat (cbv beta iota zeta;
          match goal with
          | |- cut (wfail _) _ => apply cut_fail
          | |- cut (wbind _ _) (wbind _ _) => apply cut_bind; [|intros ?]
          | |- cut (wmapM _ _) (wmapM _ _) => apply cut_wmapM; intros ?
          | |- cut (wforM _ _) (wforM _ _) => apply cut_wforM; intros ?
          | |- cut (wlc _ ?o1) (wlc _ ?o2) => apply cut_wlc; first [constr_eq o1 o2; apply ole_refl | solve [auto 3 with tolo]]
          | |- cut (match ?x with _ => _ end) (match ?y with _ => _ end) => constr_eq x y; destruct x
          | |- cut (match ?o1 with _ => _ end) (match ?o2 with _ => _ end) =>
              apply cut_case; [solve [auto 3 with tolo] | solve [auto 3 with tolo] | intros ? | ]
          | |- cut ?m ?m => apply cut_wupd; reflexivity
          | |- cut _ _ => solve [auto 3 with cutdb]
          end).

Lemma cut_superblock : cut (walk_superblock f flen tol1) (walk_superblock f flen tol2).
Proof. unfold walk_superblock. cn. Qed.

Section Ctx.
Variable c : wctx.

Lemma cut_cont1 n : forall ms, cut (cont1 f flen c n ms) (cont1 f flen c n ms).
Proof. induction n; intros ms; cbn [cont1]. apply cut_fail. unfold cont1_body. cn. Qed.
Lemma cut_cont2 co n : forall ms, cut (cont2 f flen tol1 c co n ms) (cont2 f flen tol2 c co n ms).
Proof. induction n; intros ms; cbn [cont2]. apply cut_fail. unfold cont2_body. cn. Qed.
Hint Resolve cut_cont1 cut_cont2 : cutdb.
Lemma cut_ohdr_walk n addr : cut (ohdr_walk f flen tol1 c n addr) (ohdr_walk f flen tol2 c n addr).
Proof. unfold ohdr_walk. cn. Qed.
Lemma cut_local_heap addr : cut (local_heap f flen c addr) (local_heap f flen c addr).
Proof. unfold local_heap. cn. Qed.
Lemma cut_snod_walk seg addr : cut (snod_walk f flen tol1 c seg addr) (snod_walk f flen tol2 c seg addr).
Proof. unfold snod_walk. cn. Qed.
Lemma cut_btree1_node nt nd K kind addr top level :
  cut (btree1_node f flen tol1 c nt nd K kind addr top level) (btree1_node f flen tol2 c nt nd K kind addr top level).
Proof. unfold btree1_node. cn. Qed.
Hint Resolve cut_ohdr_walk cut_local_heap cut_snod_walk cut_btree1_node : cutdb.
Lemma cut_gbtree seg n : forall a t l, cut (gbtree f flen tol1 c seg n a t l) (gbtree f flen tol2 c seg n a t l).
Proof. induction n; intros a t l; cbn [gbtree]. apply cut_fail. unfold gbtree_body. cn. Qed.
Lemma cut_cbtree nd n : forall a t l, cut (cbtree f flen tol1 c nd n a t l) (cbtree f flen tol2 c nd n a t l).
Proof. induction n; intros a t l; cbn [cbtree]. apply cut_fail. unfold cbtree_body. cn. Qed.
Lemma cut_dblock h ha os a ho sz : cut (dblock f flen tol1 c h ha os a ho sz) (dblock f flen tol2 c h ha os a ho sz).
Proof. unfold dblock. cn. Qed.
Hint Resolve cut_gbtree cut_cbtree cut_dblock : cutdb.
Lemma cut_fheap_walk addr : cut (fheap_walk f flen tol1 c addr) (fheap_walk f flen tol2 c addr).
Proof. unfold fheap_walk. cn. Qed.
Lemma cut_btree2_walk addr : cut (btree2_walk f flen tol1 c addr) (btree2_walk f flen tol2 c addr).
Proof. unfold btree2_walk. cn. Qed.
Hint Resolve cut_fheap_walk cut_btree2_walk : cutdb.
Lemma cut_dense_attrs d : cut (dense_attrs f flen tol1 c d) (dense_attrs f flen tol2 c d).
Proof. unfold dense_attrs. cn. Qed.
Lemma cut_dense_links pad d : cut (dense_links f flen tol1 c pad d) (dense_links f flen tol2 c pad d).
Proof. unfold dense_links. cn. Qed.
Hint Resolve cut_dense_attrs cut_dense_links : cutdb.
Lemma cut_dataset_data cb1 cb2 lay esz dims total fl : (forall nd a t l, cut (cb1 nd a t l) (cb2 nd a t l)) ->
  cut (dataset_data flen tol1 c cb1 lay esz dims total fl) (dataset_data flen tol2 c cb2 lay esz dims total fl).
Proof. intros Hc. unfold dataset_data. cn. Qed.
Lemma cut_walk_obj n : forall a p, cut (walk_obj f flen tol1 c n a p) (walk_obj f flen tol2 c n a p).
Proof.
  induction n; intros a p; cbn [walk_obj]. apply cut_fail. unfold obj_body. cn.
  all: try (apply dtype_case; [apply stol_le | intros o1 o2 Ho | ]; cn).
  all: apply cut_dataset_data; intros; apply cut_cbtree.
Qed.
Lemma cut_finish sb : cut (finish flen tol1 sb) (finish flen tol2 sb).
Proof. unfold finish. cn. Qed.
End Ctx.

Lemma cut_walk_all n : cut (walk_all f flen tol1 n) (walk_all f flen tol2 n).
Proof.
  unfold walk_all. cn; auto using cut_superblock, cut_ohdr_walk, cut_walk_obj, cut_finish.
Qed.
End Cut.

Lemma walk_code_refused : forall tol1 tol2 fuel f sb st x0, (forall t, tol1 (WS t) = tol2 (WS t)) ->
  walk_all f (blen f) tol1 fuel st0 = WOk (sb, st) -> In (WX x0) (ws_tags st) -> tol2 (WX x0) = false ->
  exists x, tol2 (WX x) = false /\ walk_code tol2 fuel f = 200 + xtag_code x.
Proof.
  intros tol1 tol2 fuel f sb st x0 HS H Hin Hx0. unfold walk_code.
  destruct (cut_walk_all f (blen f) tol1 tol2 HS fuel st0 _ H) as [[_ J]|(x & Hx & E)].
  - intros x [].
  - rewrite (J x0 Hin) in Hx0. discriminate.
  - exists x. rewrite E. auto.
Qed.
