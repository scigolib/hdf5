(* The writer's loop over linear chunk indices enumerates the product of the per-dimension ranges,
   in row-major order; plus the selection lemma used by the induction on the rank. *)
From HV Require Import Base.Prelude Base.Bytes Model.Chunk Proofs.ChunkLists.
From Coq Require Import Permutation.

Local Open Scope N_scope.

Definition posl (l : list N) : Prop := Forall (fun x => 0 < x) l.

(* all coordinates c with c_i < nc_i, row-major *)
Fixpoint coords_of (nc : list N) : list (list N) :=
  match nc with
  | [] => [[]]
  | n :: r => flat_map (fun c0 => map (cons c0) (coords_of r)) (rangeN n)
  end.

Lemma prodN_app a b : prodN (a ++ b) = prodN a * prodN b.
Proof.
  induction a; cbn [app prodN fold_right].
  - fold (prodN b). lia.
  - fold (prodN (a0 ++ b)) (prodN a0). rewrite IHa. lia.
Qed.
Lemma prodN_cons a r : prodN (a :: r) = a * prodN r.
Proof. reflexivity. Qed.
Lemma prodN_rev l : prodN (rev l) = prodN l.
Proof.
  induction l; cbn [rev]; auto. rewrite prodN_app, IHl, !prodN_cons. cbn [prodN fold_right]. lia.
Qed.
Lemma prodN_pos l : posl l -> 0 < prodN l.
Proof. induction 1; cbn [prodN fold_right]; [lia|]. fold (prodN l). nia. Qed.

Lemma coord_rev_app l n0 : posl l -> forall rem,
  coord_rev (l ++ [n0]) rem = coord_rev l rem ++ [(rem / prodN l) mod n0].
Proof.
  induction 1 as [|n l Hn Hl IH]; intros rem; cbn [app coord_rev].
  - cbn [prodN fold_right]. rewrite N.div_1_r. reflexivity.
  - rewrite IH. rewrite prodN_cons.
    pose proof (prodN_pos l Hl).
    rewrite N.div_div by lia. reflexivity.
Qed.

Lemma coord_rev_period l : posl l -> forall a b, coord_rev l (a * prodN l + b) = coord_rev l b.
Proof.
  induction 1 as [|n l Hn Hl IH]; intros a b; cbn [coord_rev]; auto.
  rewrite prodN_cons. f_equal.
  - replace (a * (n * prodN l) + b) with (b + a * prodN l * n) by lia.
    apply N.mod_add. lia.
  - replace (a * (n * prodN l) + b) with (a * prodN l * n + b) by lia.
    rewrite N.div_add_l by lia. apply IH.
Qed.

Lemma posl_rev l : posl l -> posl (rev l).
Proof. intros. apply Forall_rev. auto. Qed.

Lemma chunk_coord_cons n0 tl idx : posl tl ->
  chunk_coord (n0 :: tl) idx = ((idx / prodN tl) mod n0) :: chunk_coord tl idx.
Proof.
  intros H. unfold chunk_coord. cbn [rev].
  rewrite coord_rev_app by (apply posl_rev; auto).
  rewrite rev_app_distr. cbn [rev app]. rewrite prodN_rev. reflexivity.
Qed.

Lemma chunk_coord_period tl a b : posl tl -> chunk_coord tl (a * prodN tl + b) = chunk_coord tl b.
Proof.
  intros H. unfold chunk_coord. f_equal.
  rewrite <- (prodN_rev tl). apply coord_rev_period. apply posl_rev; auto.
Qed.

Lemma rangeN_mul n P :
  rangeN (n * P) = flat_map (fun c0 => map (fun r => c0 * P + r) (rangeN P)) (rangeN n).
Proof.
  induction n using rangeN_ind.
  - rewrite N.mul_0_l, rangeN_0. reflexivity.
  - replace ((n + 1) * P) with (n * P + P) by lia.
    rewrite rangeN_add, IHn, rangeN_succ, flat_map_app. cbn [flat_map]. rewrite app_nil_r. reflexivity.
Qed.

(* GetChunkCoordinate over 0 .. total-1 = the row-major enumeration *)
Lemma chunk_coords_enum nc : posl nc -> map (chunk_coord nc) (rangeN (prodN nc)) = coords_of nc.
Proof.
  induction 1 as [|n0 tl Hn Htl IH].
  - reflexivity.
  - rewrite prodN_cons, rangeN_mul, map_flat_map. cbn [coords_of].
    apply flat_map_ext_in. intros c0 Hc0. apply in_rangeN in Hc0.
    rewrite <- IH, !map_map. apply map_ext_in. intros r Hr. apply in_rangeN in Hr.
    rewrite chunk_coord_cons by auto. rewrite chunk_coord_period by auto.
    f_equal. rewrite N.div_add_l by lia. rewrite N.div_small by lia.
    rewrite N.add_0_r. apply N.mod_small. lia.
Qed.

Lemma in_coords_length nc : forall c, In c (coords_of nc) -> length c = length nc.
Proof.
  induction nc as [|n r IH]; intros c H; cbn [coords_of] in H.
  - destruct H as [<-|[]]. reflexivity.
  - apply in_flat_map in H. destruct H as (c0 & _ & H). apply in_map_iff in H.
    destruct H as (c' & <- & H). cbn [length]. f_equal. auto.
Qed.

Definition hd_is (q : N) (c : list N) : bool := match c with c0 :: _ => c0 =? q | [] => false end.

Lemma filter_flat_map {A B} (p : B -> bool) (g : A -> list B) l :
  filter p (flat_map g l) = flat_map (fun x => filter p (g x)) l.
Proof. now rewrite !flat_map_concat_map, <- concat_filter_map, map_map. Qed.

Lemma filter_hd_cons q c0 (X : list (list N)) :
  filter (hd_is q) (map (cons c0) X) = if c0 =? q then map (cons c0) X else [].
Proof.
  induction X; cbn [map filter hd_is].
  - destruct (c0 =? q); reflexivity.
  - destruct (c0 =? q) eqn:E; auto. f_equal. auto.
Qed.

Lemma flat_map_none {A B} (f : A -> list B) l : (forall x, In x l -> f x = []) -> flat_map f l = [].
Proof.
  induction l; intros H; cbn [flat_map]; auto.
  rewrite H, IHl; auto with datatypes.
Qed.

Lemma flat_map_select {B} (h : N -> list B) q n : q < n ->
  flat_map (fun c0 => if c0 =? q then h c0 else []) (rangeN n) = h q.
Proof.
  induction n using rangeN_ind; intros Hq; [lia|].
  rewrite rangeN_succ, flat_map_app. cbn [flat_map]. rewrite app_nil_r.
  destruct (N.eq_dec q n) as [->|Hne].
  - rewrite N.eqb_refl. rewrite flat_map_none; auto.
    intros x Hx. apply in_rangeN in Hx. replace (x =? n) with false by lia. reflexivity.
  - replace (n =? q) with false by lia. rewrite app_nil_r. apply IHn. lia.
Qed.

Lemma select_row n0 r q : q < n0 ->
  map (@tl N) (filter (hd_is q) (coords_of (n0 :: r))) = coords_of r.
Proof.
  intros Hq. cbn [coords_of]. rewrite filter_flat_map.
  rewrite (flat_map_ext_in _ (fun c0 => if c0 =? q then map (cons c0) (coords_of r) else [])).
  2:{ intros. apply filter_hd_cons. }
  rewrite (flat_map_select (fun c0 => map (cons c0) (coords_of r)) q n0 Hq).
  rewrite map_map. cbn [tl]. apply map_id.
Qed.

Lemma Permutation_filter' {A} (p : A -> bool) l l' : Permutation l l' -> Permutation (filter p l) (filter p l').
Proof.
  induction 1; cbn [filter].
  - constructor.
  - destruct (p x); auto.
  - destruct (p x), (p y); auto. constructor.
  - eapply Permutation_trans; eauto.
Qed.

Lemma select_row_perm L n0 r q : q < n0 -> Permutation L (coords_of (n0 :: r)) ->
  Permutation (map (@tl N) (filter (hd_is q) L)) (coords_of r).
Proof.
  intros Hq HP. rewrite <- (select_row n0 r q Hq).
  apply Permutation_map. apply Permutation_filter'. exact HP.
Qed.

Lemma num_chunks_pos dims : forall cdims, posl dims -> posl cdims -> posl (num_chunks dims cdims).
Proof.
  induction dims as [|d ds IH]; intros cdims Hd Hc; destruct cdims as [|cd cs];
    unfold num_chunks; cbn [zipWith]; try constructor.
  - inversion Hd; inversion Hc; subst.
    apply N.div_str_pos. lia.
  - inversion Hd; inversion Hc; subst. apply IH; auto.
Qed.

Lemma num_chunks_cons d ds cd cs : num_chunks (d :: ds) (cd :: cs) = (d + cd - 1) / cd :: num_chunks ds cs.
Proof. reflexivity. Qed.

Lemma length_num_chunks dims : forall cdims, length cdims = length dims -> length (num_chunks dims cdims) = length dims.
Proof. intros. now apply length_zipWith. Qed.
Lemma length_chunk_key cdims : forall c, length c = length cdims -> length (chunk_key cdims c) = length cdims.
Proof. intros c H. unfold chunk_key. now rewrite length_zipWith. Qed.
Lemma length_scaled_of_key cdims key : length key = length cdims -> length (scaled_of_key cdims key) = length cdims.
Proof. intros H. unfold scaled_of_key. now rewrite length_zipWith. Qed.

Lemma all_pos_posl l : all_pos l = true <-> posl l.
Proof. unfold all_pos, posl. rewrite forallb_forall, Forall_forall. now setoid_rewrite N.ltb_lt. Qed.

Lemma all_chunk_coords_enum dims cdims : posl dims -> posl cdims ->
  all_chunk_coords dims cdims = coords_of (num_chunks dims cdims).
Proof.
  intros. unfold all_chunk_coords, total_chunks. apply chunk_coords_enum. apply num_chunks_pos; auto.
Qed.

Lemma scaled_key_id cdims : forall c, posl cdims -> length c = length cdims ->
  scaled_of_key cdims (chunk_key cdims c) = c.
Proof.
  induction cdims as [|cd cs IH]; intros [|c0 c'] Hp Hl; try discriminate; auto.
  inversion Hp; subst. unfold scaled_of_key, chunk_key in *. cbn [zipWith]. cbn [length] in Hl.
  rewrite N.div_mul by lia. f_equal. apply IH; auto.
Qed.
