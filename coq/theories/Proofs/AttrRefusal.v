(* When WriteAttribute is refused: every error answer of the model on a reachable state is explained by one
   of a short list of capacity conditions (and, by Proofs/Attr.err_unchanged, changes nothing). *)
From HV Require Import Base.Prelude Base.Bytes Model.Attr Proofs.AttrBase Proofs.AttrDense Proofs.AttrStep Proofs.Attr.

(* dense storage: [l] = attributes currently stored *)
Inductive dense_refusal (P : params) (st : state) (l : list attr) (a : attr) : Prop :=
| DR_encode : encode_attr a = EncErr -> dense_refusal P st l a
    (* empty name, or a datatype / dataspace EncodeAttributeMessage rejects *)
| DR_too_large : p_maxobj P < msg_size a -> dense_refusal P st l a
    (* "object size exceeds maximum managed size" (65536) *)
| DR_index_full : ~ In (aname a) (map aname l) -> p_idxcap P <= N.of_nat (List.length l) -> dense_refusal P st l a
    (* new name and the single B-tree leaf already holds 371 records *)
| DR_heap_full : p_ovf_err P = true -> (forall ix hp, st = Dense ix hp -> p_hcap P < hfree hp + msg_size a) ->
    dense_refusal P st l a.
    (* only with the overflow repair: the value does not fit into what is left of the direct block *)

Definition needs_transition (P : params) (attrs : list attr) (a : attr) : Prop :=
  p_maxc P <= N.of_nat (List.length attrs) \/
  (~ In (aname a) (map aname attrs) /\ p_limit P < hdr_size P attrs + (4 + msg_size a)).

Inductive compact_refusal (P : params) (attrs : list attr) (a : attr) : Prop :=
| CR_encode : encode_attr a = EncErr -> compact_refusal P attrs a
| CR_replace_too_big : forall attrs', N.of_nat (List.length attrs) < p_maxc P ->
    replace_name (aname a) a attrs = Some attrs' -> p_limit P < hdr_size P attrs' -> compact_refusal P attrs a
    (* replacing the value in place would push the header beyond 255 bytes *)
| CR_overwrite_at_threshold : p_maxc P <= N.of_nat (List.length attrs) -> In (aname a) (map aname attrs) ->
    compact_refusal P attrs a
    (* MaxCompactAttributes compact attributes and the name is one of them: the transition re-adds it and
       DenseAttributeWriter.AddAttribute answers "already exists" *)
| CR_too_large : needs_transition P attrs a -> p_maxobj P < msg_size a -> compact_refusal P attrs a
| CR_index_small : needs_transition P attrs a -> p_idxcap P <= N.of_nat (List.length attrs) -> compact_refusal P attrs a
| CR_info_no_room : needs_transition P attrs a -> p_limit P < p_base P + (4 + p_info P) -> compact_refusal P attrs a
    (* the Attribute Info message does not fit next to the object's own messages *)
| CR_heap_full : needs_transition P attrs a -> p_ovf_err P = true -> p_hcap P < msgs_total attrs + msg_size a ->
    compact_refusal P attrs a.

Section Refusal.
Variable name_hash : bytes -> N.
Variable P : params.

Theorem write_refusals_dense : forall ix hp l n v st' r,
  Rep name_hash P (Dense ix hp) l ->
  (forall m, In m (map aname l) -> name_hash m = name_hash n -> m = n) ->
  write_attr name_hash P (Dense ix hp) n (Some v) = (st', r) -> r = RErr ->
  dense_refusal P (Dense ix hp) l (mkAttr n v).
Proof.
  intros ix hp l n v st' r R Inj H ER. subst r. cbn [write_attr] in H. unfold write_dense in H.
  destruct (encode_attr (mkAttr n v)) as [sz|] eqn:EN; [|apply DR_encode; exact EN].
  pose proof (msg_size_enc _ _ EN) as MS. pose proof (enc_ok_pos _ _ EN) as POS.
  cbn [aname] in H. cbn [Rep] in R. destruct R as [F [N1 [N2 W]]]. pose proof (Forall2_length _ _ _ F) as LEN.
  pose proof (search_split name_hash hp ix l n F Inj) as SS.
  destruct (idx_search (name_hash n) ix) as [id|] eqn:SE.
  - destruct SS as [ix1 [ix2 [l1 [l2 [a [E1 [E2 [E3 [F1 [F2 [G NI]]]]]]]]]]]. rewrite G in H.
    destruct (sz =? snd id).
    + destruct (heap_overwrite_ok P hp id (mkAttr n v) a W G) as [hp' [OV _]]. rewrite OV in H. discriminate.
    + destruct (heap_delete_ok P hp id a W G) as [hp1 [DL [_ [FE _]]]]. rewrite DL in H.
      pose proof (heap_insert_cases P hp1 (mkAttr n v)) as HI.
      destruct (heap_insert P hp1 (mkAttr n v)) as [hp2 id2| |].
      * subst ix. rewrite (idx_update_split (name_hash n) id id2 ix1 ix2 NI) in H. discriminate.
      * destruct HI as [Z|L]; [lia | apply DR_too_large; exact L].
      * destruct (p_ovf_err P) eqn:OV; [|discriminate]. apply DR_heap_full; [exact OV|].
        intros ix0 hp0 E0. inversion E0; subst hp0. lia.
  - pose proof (heap_insert_cases P hp (mkAttr n v)) as HI.
    destruct (heap_insert P hp (mkAttr n v)) as [hp2 id2| |].
    + unfold idx_insert in H. cbn [fst] in H. rewrite SE in H.
      destruct (N.leb_spec (p_idxcap P) (N.of_nat (List.length ix))) as [FULL|]; [|discriminate].
      apply DR_index_full; [exact SS | rewrite <- LEN; exact FULL].
    + destruct HI as [Z|L]; [lia | apply DR_too_large; exact L].
    + destruct (p_ovf_err P) eqn:OV; [|discriminate]. apply DR_heap_full; [exact OV|].
      intros ix0 hp0 E0. inversion E0; subst hp0. exact HI.
Qed.

Lemma idx_insert_sorted_keys : forall rc ix k, In k (map fst (idx_insert_sorted rc ix)) <-> k = fst rc \/ In k (map fst ix).
Proof.
  intros rc ix k. destruct (idx_insert_sorted_split rc ix) as [ix1 [ix2 [E1 E2]]]. rewrite E2, E1.
  rewrite !map_app. cbn [map]. rewrite !in_app_iff. cbn [In]. intuition congruence.
Qed.

Lemma idx_insert_sorted_length : forall rc ix, List.length (idx_insert_sorted rc ix) = S (List.length ix).
Proof.
  intros rc ix. destruct (idx_insert_sorted_split rc ix) as [ix1 [ix2 [E1 E2]]]. rewrite E2, E1.
  rewrite !app_length. cbn [List.length]. lia.
Qed.

Definition hashes (l : list attr) : list N := map (fun y => name_hash (aname y)) l.

Lemma daw_err_cases : forall todo seen ix hp,
  daw_add_all name_hash P seen ix hp todo = TErr ->
  exists pre x post, todo = pre ++ x :: post /\
    (aname x = [] \/ In (aname x) (seen ++ map aname pre) \/ encode_attr x = EncErr \/ p_maxobj P < msg_size x
     \/ In (name_hash (aname x)) (map fst ix ++ hashes pre)
     \/ p_idxcap P <= N.of_nat (List.length ix + List.length pre)).
Proof.
  induction todo as [|a r IH]; intros seen ix hp H; cbn [daw_add_all] in H; [discriminate|].
  destruct (aname a) as [|b t] eqn:EN.
  { exists [], a, r. split; [reflexivity|]. left. exact EN. }
  rewrite <- EN in *.
  destruct (existsb (bytes_eqb (aname a)) seen) eqn:EX.
  { exists [], a, r. split; [reflexivity|]. right; left. cbn [map]. rewrite app_nil_r. apply existsb_bytes_in. exact EX. }
  destruct (encode_attr a) as [sz|] eqn:EA.
  2:{ exists [], a, r. split; [reflexivity|]. right; right; left. exact EA. }
  pose proof (msg_size_enc _ _ EA) as MS. pose proof (enc_ok_pos _ _ EA) as POS.
  pose proof (heap_insert_cases P hp a) as HI. destruct (heap_insert P hp a) as [hp1 id| |]; [| |discriminate].
  2:{ exists [], a, r. split; [reflexivity|]. destruct HI as [Z|L]; [lia|]. do 3 right. left. exact L. }
  destruct (idx_insert P (name_hash (aname a), id) ix) as [ix1|] eqn:II.
  - unfold idx_insert in II. cbn [fst] in II. destruct (idx_search (name_hash (aname a)) ix); [discriminate|].
    destruct (p_idxcap P <=? N.of_nat (List.length ix)); [discriminate|]. inversion II; subst ix1; clear II.
    destruct (IH _ _ _ H) as [pre [x [post [E C]]]]. exists (a :: pre), x, post. split; [cbn [app]; congruence|].
    destruct C as [C|[C|[C|[C|[C|C]]]]].
    + left. exact C.
    + right; left. cbn [map]. apply in_app_or in C. apply in_or_app. cbn [In] in *. destruct C as [[C|C]|C]; tauto.
    + right; right; left. exact C.
    + do 3 right. left. exact C.
    + do 4 right. left. apply in_app_or in C. apply in_or_app. unfold hashes. cbn [map In]. destruct C as [C|C]; [|tauto].
      apply idx_insert_sorted_keys in C. cbn [fst] in C. destruct C as [C|C]; [right; left; congruence | left; exact C].
    + do 5 right. rewrite idx_insert_sorted_length in C. cbn [List.length]. lia.
  - exists [], a, r. split; [reflexivity|]. unfold idx_insert in II. cbn [fst] in II.
    pose proof (idx_search_spec (name_hash (aname a)) ix) as SE. destruct (idx_search (name_hash (aname a)) ix).
    + do 4 right. left. apply in_or_app. left. destruct SE as (ix1 & ix2 & -> & _).
      rewrite map_app. apply in_or_app. right. left. reflexivity.
    + destruct (N.leb_spec (p_idxcap P) (N.of_nat (List.length ix))); [|discriminate]. do 5 right. cbn [List.length]. lia.
Qed.

Lemma attrs_size_in : forall l x, In x l -> 4 + msg_size x <= attrs_size l.
Proof.
  induction l as [|y l IH]; intros x HI; [destruct HI|]. cbn [attrs_size]. destruct HI as [->|HI]; [lia|].
  specialize (IH x HI). lia.
Qed.

Lemma split_last : forall (pre post : list attr) x l a, pre ++ x :: post = l ++ [a] ->
  (post = [] /\ pre = l /\ x = a) \/ (exists post', post = post' ++ [a] /\ l = pre ++ x :: post').
Proof.
  intros pre post x l a E. destruct post as [|p post0].
  - left. apply app_inj_tail in E. tauto.
  - right. destruct (@exists_last _ (p :: post0) ltac:(discriminate)) as [q [z Ez]]. rewrite Ez in E.
    assert (E' : (pre ++ x :: q) ++ [z] = l ++ [a]) by (rewrite <- app_assoc; exact E).
    apply app_inj_tail in E'. destruct E' as [E1 E2]. subst z. exists q. split; [exact Ez | symmetry; exact E1].
Qed.

Lemma hashes_in : forall l k, In k (hashes l) -> exists y, In y l /\ name_hash (aname y) = k.
Proof. intros l k H. unfold hashes in H. apply in_map_iff in H. destruct H as [y [E HI]]. exists y. tauto. Qed.

Lemma transition_refusal : forall attrs n v st',
  EncAll attrs -> NoDup (map aname attrs) -> NoHashCollision name_hash (n :: map aname attrs) ->
  hdr_size P attrs <= p_limit P -> p_limit P <= p_maxobj P ->
  needs_transition P attrs (mkAttr n v) ->
  transition name_hash P attrs (mkAttr n v) = (st', RErr) ->
  compact_refusal P attrs (mkAttr n v).
Proof.
  intros attrs n v st' EA ND NC FIT LM NT H. unfold transition in H.
  assert (DUP : In n (map aname attrs) -> compact_refusal P attrs (mkAttr n v)).
  { intro HI. destruct NT as [TH|[NI _]]; [apply CR_overwrite_at_threshold; assumption | contradiction]. }
  destruct (daw_add_all name_hash P [] [] heap_empty (attrs ++ [mkAttr n v])) as [ix hp| |] eqn:D.
  - destruct (N.ltb_spec (p_limit P) (p_base P + (4 + p_info P))); [|discriminate]. apply CR_info_no_room; assumption.
  - destruct (daw_err_cases _ _ _ _ D) as [pre [x [post [E C]]]]. cbn [app map List.length] in C.
    destruct (split_last _ _ _ _ _ (eq_sym E)) as [[-> [-> ->]]|[post' [-> ->]]].
    + (* the new attribute is the one that failed *)
      cbn [aname] in C. destruct C as [C|[C|[C|[C|[C|C]]]]].
      * apply CR_encode. unfold encode_attr. cbn [aname]. rewrite C. reflexivity.
      * apply DUP. exact C.
      * apply CR_encode. exact C.
      * apply CR_too_large; assumption.
      * apply DUP. apply hashes_in in C. destruct C as [y [HI Ey]].
        assert (aname y = n).
        { apply NC; [right; apply in_map; exact HI | left; reflexivity | exact Ey]. }
        subst n. apply in_map. exact HI.
      * apply CR_index_small; [exact NT | exact C].
    + (* one of the existing compact attributes failed: only the index capacity can be the reason *)
      assert (HIx : In x (pre ++ x :: post')) by (apply in_or_app; right; left; reflexivity).
      destruct (EA x HIx) as [sx Ex]. destruct (enc_ok_name x sx Ex) as [NE _].
      destruct (NoDup_names_middle _ _ _ ND) as [NIx _].
      destruct C as [C|[C|[C|[C|[C|C]]]]].
      * contradiction.
      * exfalso. apply NIx. rewrite map_app. apply in_or_app. left. exact C.
      * congruence.
      * exfalso. pose proof (attrs_size_in _ _ HIx) as S. unfold hdr_size in FIT. lia.
      * exfalso. apply hashes_in in C. destruct C as [y [HI Ey]].
        assert (Exy : aname y = aname x).
        { apply NC; [right; apply in_map; apply in_or_app; left; exact HI | right; apply in_map; exact HIx | exact Ey]. }
        apply NIx. rewrite map_app. apply in_or_app. left. rewrite <- Exy. apply in_map. exact HI.
      * apply CR_index_small; [exact NT|]. rewrite app_length. cbn [List.length]. lia.
  - pose proof (daw_hfree name_hash P (attrs ++ [mkAttr n v]) [] [] heap_empty) as C.
    rewrite D, msgs_total_app in C. cbn [msgs_total heap_empty hfree] in C.
    destruct (p_ovf_err P) eqn:OV.
    + apply CR_heap_full; [exact NT | exact OV | lia].
    + destruct (N.ltb_spec (p_limit P) (p_base P + (4 + p_info P))); [|discriminate]. apply CR_info_no_room; assumption.
Qed.

Theorem write_refusals_compact : forall attrs n v st' r,
  EncAll attrs -> NoDup (map aname attrs) ->
  NoHashCollision name_hash (n :: map aname attrs) ->
  hdr_size P attrs <= p_limit P -> p_limit P <= p_maxobj P ->
  write_attr name_hash P (Compact attrs) n (Some v) = (st', r) -> r = RErr ->
  compact_refusal P attrs (mkAttr n v).
Proof.
  intros attrs n v st' r EA ND NC FIT LM H ER. subst r. cbn [write_attr] in H.
  destruct (N.ltb_spec (N.of_nat (List.length attrs)) (p_maxc P)) as [LT|GE].
  - unfold write_compact in H. destruct (encode_attr (mkAttr n v)) as [sz|] eqn:EN; [|apply CR_encode; exact EN].
    pose proof (msg_size_enc _ _ EN) as MS. cbn [aname] in H.
    destruct (replace_name n (mkAttr n v) attrs) as [attrs'|] eqn:RN.
    + destruct (N.ltb_spec (p_limit P) (hdr_size P attrs')); [|discriminate].
      eapply CR_replace_too_big; [exact LT | cbn [aname]; exact RN | assumption].
    + pose proof (replace_name_spec n (mkAttr n v) attrs) as RS. rewrite RN in RS.
      destruct (N.ltb_spec (p_limit P) (hdr_size P attrs + (4 + sz))); [|discriminate].
      eapply transition_refusal; try eassumption. right. split; [exact RS | rewrite MS; assumption].
  - eapply transition_refusal; try eassumption. left. exact GE.
Qed.

End Refusal.
