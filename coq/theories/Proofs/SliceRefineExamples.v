(* C09 at file level, worked examples (documentation of behaviour; every Example is closed by computation).

   ONE file: the image that the writer produces for /d (name [100]), int32 (FileImage.dtype_of_code 2: class 0, size 4,
   class bit field 8), dims [4; 6], elements 0..23 little-endian.  On it the I/O program of ReadHyperslab / ReadSlice
   (Model/IOProgSlice.v: which bytes are read) is run, its result is turned into values by SliceRefine.slice_value, and
   that is compared with the selection of the full read (Model/Hyperslab.v, Hs.select over SliceRefine.evals).
   The three contiguous paths appear: per-element reads (SlElems, rank 2), one exact run (SlRun), the run from the first to
   the last selected element (SlSpan, rank 3: the same 24 elements with dims [2; 3; 4]).  Rejections: leaving the dataset,
   uint64 wrap-around of start + count, wrong rank, and an element size other than 4 / 8. *)
From HV Require Import Base.Prelude Base.Outcome Base.Bytes Model.IOProg Model.IOProgReader Model.IOProgSlice Model.FileImage Model.SliceRefine.
From HV Require Import Model.CodecOhdr Proofs.IOProg Proofs.FileImage.

(* elements 0..23, four bytes each, little-endian *)
Definition ex_data : bytes := flat_map (fun i => [i; 0; 0; 0]) (Hs.nrange 24).
Definition ex_img : bytes := image_v2 [100] 0 4 8 [4; 6] ex_data.
Definition ex_img3 : bytes := image_v2 [100] 0 4 8 [2; 3; 4] ex_data.

Example ex_image_size : (blen ex_img, dset_addr ex_data) = (2553, 2291).
Proof. vm_compute. reflexivity. Qed.
Example ex_full_read : evals 4 ex_data = Hs.nrange 24.
Proof. vm_compute. reflexivity. Qed.

(* Both entry points start with ReadObjectHeader (checksum included); on ex_img it is evaluated here, once: datatype,
   dataspace and contiguous-layout message of /d.  Every example below starts from this header. *)
Definition ex_hdr : ohdr' :=
  {| ohp_version := 2; ohp_flags := 0; ohp_refcount := 1; ohp_name := [];
     ohp_msgs := [ {| hmp_type := 3; hmp_offset := 2298; hmp_data := [16; 8; 0; 0; 4; 0; 0; 0; 0; 32; 0; 0] |};
                   {| hmp_type := 1; hmp_offset := 2314;
                      hmp_data := [1; 2; 0; 0; 0; 0; 0; 0; 4; 0; 0; 0; 0; 0; 0; 0; 6; 0; 0; 0; 0; 0; 0; 0] |};
                   {| hmp_type := 8; hmp_offset := 2342;
                      hmp_data := [3; 1; 147; 8; 0; 0; 0; 0; 0; 0; 96; 0; 0; 0; 0; 0; 0; 0] |} ] |}.

Lemma ex_img_header : run0 ex_img (p_ohdr SBI 64 (dset_addr ex_data)) = Ok ex_hdr.
Proof. vm_compute. reflexivity. Qed.

(* api_read_hyperslab, api_read_slice and api_read_raw all unfold to this shape *)
Lemma ex_img_open {A} (g : ohdr' -> prog A) :
  run0 ex_img (bind (p_ohdr SBI 64 (dset_addr ex_data)) g) = run0 ex_img (g ex_hdr).
Proof. exact (run0_bind_ok _ _ _ _ _ _ ex_img_header). Qed.

(* rank 2, stride and block: one ReadAt per element *)
Definition ex_sel_2d : selection :=
  {| s_start := [0; 1]; s_count := [2; 2]; s_stride := Some [2; 3]; s_block := Some [2; 2] |}.
Definition ex_sd_2d : slicedata :=
  SlElems [[1; 0; 0; 0]; [2; 0; 0; 0]; [4; 0; 0; 0]; [5; 0; 0; 0]; [7; 0; 0; 0]; [8; 0; 0; 0]; [10; 0; 0; 0]; [11; 0; 0; 0];
           [13; 0; 0; 0]; [14; 0; 0; 0]; [16; 0; 0; 0]; [17; 0; 0; 0]; [19; 0; 0; 0]; [20; 0; 0; 0]; [22; 0; 0; 0]; [23; 0; 0; 0]].

Example ex_hyperslab_2d :
  run0 ex_img (api_read_hyperslab SBI 64 (dset_addr ex_data) ex_sel_2d) = Ok ex_sd_2d
  /\ slice_value 4 [4; 6] [] (Hs.axes_of (hsel_of ex_sel_2d) 2) ex_sd_2d
     = [1; 2; 4; 5; 7; 8; 10; 11; 13; 14; 16; 17; 19; 20; 22; 23]
  /\ Hs.select (evals 4 ex_data) [4; 6] (Hs.axes_of (hsel_of ex_sel_2d) 2)
     = [1; 2; 4; 5; 7; 8; 10; 11; 13; 14; 16; 17; 19; 20; 22; 23]
  /\ Hs.read_hyperslab Hs.Contiguous (evals 4 ex_data) [4; 6] (hsel_of ex_sel_2d)
     = Some [1; 2; 4; 5; 7; 8; 10; 11; 13; 14; 16; 17; 19; 20; 22; 23].
Proof.
  unfold api_read_hyperslab, api_read_slice, api_slice_with. rewrite ex_img_open.
  vm_compute. repeat split; reflexivity.
Qed.

(* two complete rows: one read of exactly the selection *)
Definition ex_sel_run : selection := {| s_start := [1; 0]; s_count := [2; 6]; s_stride := None; s_block := None |}.
Definition ex_sd_run : slicedata :=
  SlRun [6; 0; 0; 0; 7; 0; 0; 0; 8; 0; 0; 0; 9; 0; 0; 0; 10; 0; 0; 0; 11; 0; 0; 0;
         12; 0; 0; 0; 13; 0; 0; 0; 14; 0; 0; 0; 15; 0; 0; 0; 16; 0; 0; 0; 17; 0; 0; 0].

Example ex_hyperslab_run :
  run0 ex_img (api_read_hyperslab SBI 64 (dset_addr ex_data) ex_sel_run) = Ok ex_sd_run
  /\ slice_value 4 [4; 6] [] (Hs.axes_of (hsel_of ex_sel_run) 2) ex_sd_run = [6; 7; 8; 9; 10; 11; 12; 13; 14; 15; 16; 17]
  /\ Hs.select (evals 4 ex_data) [4; 6] (Hs.axes_of (hsel_of ex_sel_run) 2) = [6; 7; 8; 9; 10; 11; 12; 13; 14; 15; 16; 17].
Proof.
  unfold api_read_hyperslab, api_read_slice, api_slice_with. rewrite ex_img_open.
  vm_compute. repeat split; reflexivity.
Qed.

(* rank 3, strided: the run from the first (1) to the last
   (23) selected element is read, the selection is extracted from it *)
Definition ex_sel_span : selection :=
  {| s_start := [0; 0; 1]; s_count := [2; 2; 2]; s_stride := Some [1; 2; 2]; s_block := None |}.
Definition ex_sd_span : slicedata :=
  SlSpan (flat_map (fun i => [i + 1; 0; 0; 0]) (Hs.nrange 23)).

Example ex_hyperslab_span :
  run0 ex_img3 (api_read_hyperslab SBI 64 (dset_addr ex_data) ex_sel_span) = Ok ex_sd_span
  /\ slice_value 4 [2; 3; 4] [] (Hs.axes_of (hsel_of ex_sel_span) 3) ex_sd_span = [1; 3; 9; 11; 13; 15; 21; 23]
  /\ Hs.select (evals 4 ex_data) [2; 3; 4] (Hs.axes_of (hsel_of ex_sel_span) 3) = [1; 3; 9; 11; 13; 15; 21; 23]
  /\ Hs.read_hyperslab Hs.Contiguous (evals 4 ex_data) [2; 3; 4] (hsel_of ex_sel_span) = Some [1; 3; 9; 11; 13; 15; 21; 23].
Proof. vm_compute. repeat split; reflexivity. Qed.

(* rows 3 and 4 of a dataset with 4 rows *)
Example ex_oob :
  run0 ex_img (api_read_hyperslab SBI 64 (dset_addr ex_data)
                 {| s_start := [3; 0]; s_count := [2; 6]; s_stride := None; s_block := None |}) = Err
  /\ run0 ex_img (api_read_slice SBI 64 (dset_addr ex_data) [3; 0] [2; 6]) = Err
  /\ Hs.read_hyperslab Hs.Contiguous (evals 4 ex_data) [4; 6] (Hs.mkSel [3; 0] [2; 6] None None) = None
  /\ Hs.read_slice Hs.Contiguous (evals 4 ex_data) [4; 6] [3; 0] [2; 6] = None.
Proof.
  unfold api_read_hyperslab, api_read_slice, api_slice_with. rewrite 2 ex_img_open.
  vm_compute. repeat split; reflexivity.
Qed.

(* start + count = 2^64 + 1 wraps to 1 in uint64 arithmetic: still rejected, by both entry points *)
Example ex_wrap :
  run0 ex_img (api_read_hyperslab SBI 64 (dset_addr ex_data)
                 {| s_start := [18446744073709551615; 0]; s_count := [2; 1]; s_stride := None; s_block := None |}) = Err
  /\ run0 ex_img (api_read_slice SBI 64 (dset_addr ex_data) [18446744073709551615; 0] [2; 1]) = Err
  /\ Hs.read_hyperslab Hs.Contiguous (evals 4 ex_data) [4; 6] (Hs.mkSel [18446744073709551615; 0] [2; 1] None None) = None
  /\ Hs.read_slice Hs.Contiguous (evals 4 ex_data) [4; 6] [18446744073709551615; 0] [2; 1] = None.
Proof.
  unfold api_read_hyperslab, api_read_slice, api_slice_with. rewrite 2 ex_img_open.
  vm_compute. repeat split; reflexivity.
Qed.

(* a rank-1 selection on the rank-2 dataset *)
Example ex_rank :
  run0 ex_img (api_read_hyperslab SBI 64 (dset_addr ex_data)
                 {| s_start := [1]; s_count := [2]; s_stride := None; s_block := None |}) = Err
  /\ run0 ex_img (api_read_slice SBI 64 (dset_addr ex_data) [1] [2]) = Err
  /\ Hs.read_hyperslab Hs.Contiguous (evals 4 ex_data) [4; 6] (Hs.mkSel [1] [2] None None) = None
  /\ Hs.read_slice Hs.Contiguous (evals 4 ex_data) [4; 6] [1] [2] = None.
Proof.
  unfold api_read_hyperslab, api_read_slice, api_slice_with. rewrite 2 ex_img_open.
  vm_compute. repeat split; reflexivity.
Qed.

(* ReadSlice: rows 1..2, columns 2..4 *)
Definition ex_sd_slice : slicedata :=
  SlElems [[8; 0; 0; 0]; [9; 0; 0; 0]; [10; 0; 0; 0]; [14; 0; 0; 0]; [15; 0; 0; 0]; [16; 0; 0; 0]].

Example ex_slice :
  run0 ex_img (api_read_slice SBI 64 (dset_addr ex_data) [1; 2] [2; 3]) = Ok ex_sd_slice
  /\ slice_value 4 [4; 6] [] (Hs.slice_axes [1; 2] [2; 3]) ex_sd_slice = [8; 9; 10; 14; 15; 16]
  /\ Hs.select (evals 4 ex_data) [4; 6] (Hs.slice_axes [1; 2] [2; 3]) = [8; 9; 10; 14; 15; 16]
  /\ Hs.read_slice Hs.Contiguous (evals 4 ex_data) [4; 6] [1; 2] [2; 3] = Some [8; 9; 10; 14; 15; 16].
Proof.
  unfold api_read_hyperslab, api_read_slice, api_slice_with. rewrite ex_img_open.
  vm_compute. repeat split; reflexivity.
Qed.

(* uint8 (code 4: class 0, size 1, bit field 0), same dims:
   the full read works, the partial reads refuse the element size (dataset_read_hyperslab.go:385) *)
Definition ex_data8 : bytes := Hs.nrange 24.
Definition ex_img8 : bytes := image_v2 [100] 0 1 0 [4; 6] ex_data8.

Definition ex_hdr8 : ohdr' :=
  {| ohp_version := 2; ohp_flags := 0; ohp_refcount := 1; ohp_name := [];
     ohp_msgs := [ {| hmp_type := 3; hmp_offset := 2226; hmp_data := [16; 0; 0; 0; 1; 0; 0; 0; 0; 8; 0; 0] |};
                   {| hmp_type := 1; hmp_offset := 2242;
                      hmp_data := [1; 2; 0; 0; 0; 0; 0; 0; 4; 0; 0; 0; 0; 0; 0; 0; 6; 0; 0; 0; 0; 0; 0; 0] |};
                   {| hmp_type := 8; hmp_offset := 2270;
                      hmp_data := [3; 1; 147; 8; 0; 0; 0; 0; 0; 0; 24; 0; 0; 0; 0; 0; 0; 0] |} ] |}.

Lemma ex_img8_header : run0 ex_img8 (p_ohdr SBI 64 (dset_addr ex_data8)) = Ok ex_hdr8.
Proof. vm_compute. reflexivity. Qed.
Lemma ex_img8_open {A} (g : ohdr' -> prog A) :
  run0 ex_img8 (bind (p_ohdr SBI 64 (dset_addr ex_data8)) g) = run0 ex_img8 (g ex_hdr8).
Proof. exact (run0_bind_ok _ _ _ _ _ _ ex_img8_header). Qed.

Example ex_small_type :
  run0 ex_img8 (api_read_hyperslab SBI 64 (dset_addr ex_data8) ex_sel_2d) = Err
  /\ run0 ex_img8 (api_read_hyperslab SBI 64 (dset_addr ex_data8) ex_sel_run) = Err
  /\ run0 ex_img8 (api_read_slice SBI 64 (dset_addr ex_data8) [1; 2] [2; 3]) = Err
  /\ run0 ex_img8 (api_read_raw SBI 64 (dset_addr ex_data8)) = Ok (RawBytes ex_data8).
Proof.
  unfold api_read_hyperslab, api_read_slice, api_slice_with, api_read_raw. rewrite 4 ex_img8_open.
  vm_compute. repeat split; reflexivity.
Qed.

(* the guard predicate of tools/props/c09.py refine_guard on the cases above *)
Example ex_refine_case_ok :
  forallb refine_case_ok
    [ (2, [4; 6], "000000000100000002000000030000000400000005000000060000000700000008000000090000000a0000000b0000000c0000000d0000000e0000000f0000001000000011000000120000001300000014000000150000001600000017000000"%string,
       ([0; 1], [2; 2], [2; 3], [2; 2]), false);
      (2, [2; 3; 4], "000000000100000002000000030000000400000005000000060000000700000008000000090000000a0000000b0000000c0000000d0000000e0000000f0000001000000011000000120000001300000014000000150000001600000017000000"%string,
       ([0; 0; 1], [2; 2; 2], [1; 2; 2], []), false);
      (2, [4; 6], "000000000100000002000000030000000400000005000000060000000700000008000000090000000a0000000b0000000c0000000d0000000e0000000f0000001000000011000000120000001300000014000000150000001600000017000000"%string,
       ([18446744073709551615; 0], [2; 1], [], []), true);
      (4, [4; 6], "000102030405060708090a0b0c0d0e0f1011121314151617"%string, ([1; 2], [2; 3], [], []), true) ] = true.
Proof. vm_compute. reflexivity. Qed.
