(* C09 at file level, contiguous layout, Part 2: for EVERY valid selection the I/O program of readHyperslabContiguous
   (Model/IOProgSlice.v p_slice_contig), run on a file in which the dataset's data block is placed, succeeds, and what Go
   computes from the bytes it read (Model/SliceRefine.v slice_value) is what C09's element-level model of the same function
   (Model/Hyperslab.v read_hyperslab_contiguous) returns on the element values of the data block. *)
From HV Require Import Base.Prelude Base.Outcome Base.Bytes Model.IOProg Proofs.IOProg Model.IOProgReader Model.IOProgSlice.
From HV Require Import Model.SliceRefine Proofs.FileImage Proofs.FileImageOhdr Proofs.SliceRefineBytes Proofs.SliceRefineContig.
From HV Require Import Proofs.SliceRefineArith.
From HV Require Proofs.HyperslabBase Proofs.HyperslabRaw Proofs.HyperslabContig Proofs.SliceRefineFit.
Module Fit := HV.Proofs.SliceRefineFit.

Section Contig.
Variable f : bytes.
Variables addr es : N.
Variable data : bytes.
Hypothesis Hpl : placed f addr data.
Hypothesis Hes : 0 < es.
Hypothesis Hmax : addr + blen data <= MAXI64.
Variable dims : list N.
Hypothesis Hlen : blen data = Hs.prodN dims * es.
Hypothesis HP : Hs.prodN dims < 4294967296.

Lemma elems_total : blen data / es = Hs.prodN dims.
Proof. rewrite Hlen. apply div_exact_mul. exact Hes. Qed.

Lemma path_2d d0 d1 a0 a1 : dims = [d0; d1] -> Hs.axes_valid [a0; a1] [d0; d1] ->
  exists l,
    run0 f (bind (p_elems (flat_map (fun row => map (fun col => wrap64 (addr + wrap64 (wrap64 (wrap64 (row * d1) + col) * es)))
                                                     (Hs.axis_idx a1)) (Hs.axis_idx a0)) es) (fun r => Ret (SlElems r)))
    = Ok (SlElems l) /\
    slice_value es dims [] [a0; a1] (SlElems l) = Hs.read_contiguous_2d (evals es data) d0 d1 a0 a1.
Proof.
  intros Ed V.
  assert (V0 : Hs.axis_valid a0 d0) by (inversion V; assumption).
  assert (V1 : Hs.axis_valid a1 d1) by (inversion V as [|? ? ? ? _ Vr]; inversion Vr; assumption).
  pose proof HP as HP'. rewrite Ed in HP'.
  assert (Hprod : Hs.prodN [d0; d1] = d0 * d1) by (cbn [Hs.prodN]; lia).
  set (idx := flat_map (fun row => map (fun col => row * d1 + col) (Hs.axis_idx a1)) (Hs.axis_idx a0)).
  assert (Hin : forall i, In i idx -> i < d0 * d1).
  { intros i Hi. apply in_flat_map in Hi. destruct Hi as (row & Hr & Hi). apply in_map_iff in Hi. destruct Hi as (col & <- & Hc).
    destruct (HB.axis_idx_bound _ _ _ V0 Hr) as (_ & _ & B0). destruct (HB.axis_idx_bound _ _ _ V1 Hc) as (_ & _ & B1). nia. }
  assert (Eoffs : flat_map (fun row => map (fun col => wrap64 (addr + wrap64 (wrap64 (wrap64 (row * d1) + col) * es)))
                                           (Hs.axis_idx a1)) (Hs.axis_idx a0)
                  = map (fun i => wrap64 (addr + wrap64 (i * es))) idx).
  { unfold idx. rewrite map_flat_map. apply flat_map_ext_in. intros row Hr. rewrite map_map. apply map_ext_in. intros col Hc.
    destruct (HB.axis_idx_bound _ _ _ V0 Hr) as (_ & _ & B0). destruct (HB.axis_idx_bound _ _ _ V1 Hc) as (_ & _ & B1).
    rewrite Hprod in HP'.
    rewrite (wrap64_small (row * d1)) by nia. rewrite (wrap64_small (row * d1 + col)) by nia. reflexivity. }
  exists (map (elem es data) idx). split.
  - rewrite Eoffs, run0_bind.
    rewrite (run_p_elems f addr es data Hpl Hes Hmax idx); [reflexivity|].
    intros i Hi. apply Hin in Hi. rewrite Hlen, Ed, Hprod. nia.
  - cbn [slice_value].
    assert (Ll : length idx = length (Hs.sel_coords [a0; a1])).
    { rewrite Fit.sel_coords_2d. unfold idx.
      rewrite !(HB.flat_map_length_const _ _ (length (Hs.axis_idx a1))); [reflexivity| |]; intros; now rewrite map_length. }
    rewrite (HB.out_elems_length [a0; a1]) by (try discriminate; exact (HB.axes_valid_block _ _ V)).
    rewrite !map_length, Ll, Nat2N.id, Nat.sub_diag. cbn [repeat]. rewrite app_nil_r.
    rewrite (HR.read_contiguous_2d_correct _ _ _ _ _ V), Fit.select_2d.
    rewrite map_map. unfold idx. rewrite map_flat_map. apply flat_map_ext_in. intros row Hr.
    rewrite map_map. apply map_ext_in. intros col Hc. symmetry. apply nthN_evals.
    rewrite elems_total, Ed, Hprod. apply Hin. unfold idx. apply in_flat_map. exists row. split; [exact Hr|]. apply in_map_iff. now exists col.
Qed.

End Contig.

Section Contig2.
Variable f : bytes.
Variables addr es : N.
Variable data : bytes.
Hypothesis Hpl : placed f addr data.
Hypothesis Hes : 0 < es.
Hypothesis Hmax : addr + blen data <= MAXI64.
Variable dims : list N.
Hypothesis Hlen : blen data = Hs.prodN dims * es.
Hypothesis HP : Hs.prodN dims < 4294967296.
Variable s : sel.
Hypothesis HL : sel_lens s (length dims).
Hypothesis HV : Hs.axes_valid (axes_of_sel s) dims.
Hypothesis Hne : dims <> [].

Theorem p_slice_contig_refines :
  exists sd, run0 f (p_slice_contig s dims es addr) = Ok sd /\
             slice_value es dims [] (axes_of_sel s) sd = Hs.read_hyperslab_contiguous (evals es data) dims (axes_of_sel s).
Proof.
  pose proof (axes_of_sel_length s _ HL) as Lax.
  assert (Axne : axes_of_sel s <> []). { intros E. rewrite E in Lax. destruct dims; [congruence|discriminate]. }
  pose proof (HB.out_elems_pos _ _ HV Axne) as Hn.
  pose proof (out_size_eq s dims HL HV HP Hne) as Eo.
  assert (Est : map Hs.a_start (axes_of_sel s) = start s).
  { destruct HL as (L1 & L2 & L3 & L4). apply Fit.map_a_start_zip4; congruence. }
  pose proof (Fit.starts_lt _ _ HV) as Hst. rewrite Est in Hst.
  assert (Lst : length (start s) = length dims) by apply HL.
  assert (HP64 : Hs.prodN dims < 18446744073709551616) by lia.
  assert (Eoff : lin_off (start s) dims = Hs.lin dims (start s)).
  { rewrite lin_off_eq by assumption. now apply HB.calc_lin_spec. }
  pose proof (Fit.last_lt _ _ HV) as Hlt.
  assert (Llr : length (Hs.last_rel (axes_of_sel s)) = length dims) by (rewrite HR.last_rel_length; exact Lax).
  assert (Erl : lin_off (Hs.last_rel (axes_of_sel s)) dims = Hs.lin dims (Hs.last_rel (axes_of_sel s))).
  { rewrite lin_off_eq by assumption. now apply HB.calc_lin_spec. }
  pose proof (Fit.span_fit _ _ HV) as Fsp. rewrite Est in Fsp.
  pose proof (last_rel_eq s dims HL HV HP) as Elr.
  pose proof (is_contig_eq s dims HL HV HP) as Eic.
  pose proof (fun C => Fit.contig_fit _ _ HV Axne C) as Fct. rewrite Est in Fct.
  pose proof (sel_idx_eq s dims 0 HL HV HP) as Ei0. pose proof (sel_idx_eq s dims 1 HL HV HP) as Ei1.
  unfold p_slice_contig, Hs.read_hyperslab_contiguous. cbv zeta. rewrite Eic, Eo, Eoff, Elr, Erl.
  remember (axes_of_sel s) as ax eqn:Eax. clear Eic Eo Eoff Elr Erl.
  set (off := Hs.lin dims (start s)) in *. set (n := Hs.out_elems ax) in *. set (rl := Hs.lin dims (Hs.last_rel ax)) in *.
  assert (Wrl : wrap64 (rl + 1) = rl + 1) by (apply wrap64_small; lia). rewrite Wrl.
  assert (Hspan : (off + (rl + 1)) * es <= blen data) by (rewrite Hlen; nia).
  assert (Nz : (n =? 0) = false) by (apply N.eqb_neq; lia).
  destruct (Hs.is_contiguous_selection ax dims) eqn:C.
  - (* one read of exactly the selected elements *)
    specialize (Fct eq_refl).
    assert (Hb : (off + n) * es <= blen data) by (rewrite Hlen; nia).
    unfold Hs.read_contiguous_optimized. fold n. rewrite Nz.
    exists (SlRun (rd data (off * es) (n * es))).
    destruct dims as [|d0 [|d1 dr]]; [congruence| |].
    + destruct ax as [|a0 [|a1 ar]]; try discriminate.
      cbn [map] in Est.
      assert (E1 : nthN (start s) 0 = off /\ Hs.a_start a0 = off).
      { subst off. rewrite <- Est. cbn [nthN nth Hs.lin Hs.prodN]. split; lia. }
      destruct E1 as [E1 E2]. rewrite E1, E2. split.
      * apply path_run; assumption.
      * apply (value_run addr es data Hes Hmax); [reflexivity|assumption].
    + cbv beta iota. rewrite HB.calc_lin_spec by (rewrite map_length; exact Lax). rewrite Est. fold off. split.
      * apply path_run; assumption.
      * apply (value_run addr es data Hes Hmax); [reflexivity|assumption].
  - unfold Hs.read_contiguous_row_by_row. fold n. rewrite Nz.
    assert (SPAN : exists sd,
      run0 f (bind (p_read_bytes_at (wrap64 (addr + wrap64 (off * es))) (wrap64 ((rl + 1) * es))) (fun b => Ret (SlSpan b))) = Ok sd /\
      slice_value es dims [] ax sd =
      fst (Hs.ext_rec (Hs.read_at (evals es data) (Hs.calc_lin (map Hs.a_start ax) dims) (Hs.calc_lin (Hs.last_rel ax) dims + 1))
                      dims (Hs.zero_start ax) dims [] (Hs.zeros n, 0))).
    { exists (SlSpan (rd data (off * es) ((rl + 1) * es))). split.
      - apply path_span; try assumption. lia.
      - rewrite !HB.calc_lin_spec by (rewrite ?map_length; assumption). rewrite Est. fold off rl.
        apply value_span; assumption. }
    destruct dims as [|d0 [|d1 [|d2 dr]]]; [congruence| | |].
    + destruct ax as [|a0 [|a1 ar]]; try discriminate. exact SPAN.
    + destruct ax as [|a0 [|a1 [|a2 ar]]]; try discriminate. clear SPAN.
      specialize (Ei0 ltac:(cbn [length]; lia)). specialize (Ei1 ltac:(cbn [length]; lia)). cbn [nth] in Ei0, Ei1.
      rewrite Ei0, Ei1.
      destruct (path_2d f addr es data Hpl Hes Hmax _ Hlen HP d0 d1 a0 a1 eq_refl HV) as (l & R & Vl). exists (SlElems l). split; assumption.
    + destruct ax as [|a0 [|a1 [|a2 ar]]]; try discriminate. exact SPAN.
Qed.
End Contig2.
