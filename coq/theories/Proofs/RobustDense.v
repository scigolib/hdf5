(* C07, dense attribute readers (Model/RobustDense.v): for ALL byte strings, addresses and header field values
     - no reader panics (every slice governed by a field is inside the bytes present),
     - every allocation request is <= |file| + 720895 (the leaf buffer is sized by a 16-bit record count BEFORE the read:
       6 + 65535 * 11 + 4 bytes at most; everything sized by a length field goes through ReadBytesAt),
     - the record count of a leaf that parses is bounded by the bytes present: 6 + 11 * records <= |file|. *)
From HV Require Import Base.Prelude Base.Outcome Base.Bytes Model.RobustAlloc Model.RobustGroup Model.CodecAttr Model.RobustDense.
From HV Require Import Proofs.RobustNoPanicBase Proofs.RobustNoPanic Proofs.RobustAlloc Proofs.RobustGroup.

Lemma bytes_ok_zeros k : bytes_ok (repeat 0 k) = true.
Proof. unfold bytes_ok. induction k; cbn [repeat forallb]; auto; rewrite IHk; reflexivity. Qed.

Lemma read_at_eof_cases file off size :
  read_at_eof file off size = Err \/
  exists buf n, read_at_eof file off size = Ok (buf, n) /\
    blen buf = size /\ n <= size /\ (n <> 0 -> off + n <= blen file) /\ (bytes_ok file = true -> bytes_ok buf = true).
Proof.
  unfold read_at_eof, MaxInt64. dif; [auto|]. right. dif.
  - eexists _, _. split; [reflexivity|]. unfold blen. rewrite repeat_length, N2Nat.id.
    repeat split; try lia. intros _. apply bytes_ok_zeros.
  - set (n := N.min size (blen file - off)).
    destruct (slice_ok file off (off + n)) as (s & Hs & Hl); [lia|unfold n; lia|]. rewrite Hs. cbn [obind].
    eexists _, _. split; [reflexivity|]. rewrite blen_app. unfold blen at 2. rewrite repeat_length, N2Nat.id.
    repeat split; try (unfold n in *; lia).
    intros Hb. rewrite bytes_ok_app, (slice_bytes_ok _ _ _ _ Hb Hs), bytes_ok_zeros. reflexivity.
Qed.

Lemma bt2_header_raw_spec file addr O :
  bytes_ok file = true ->
  fst (bt2_header_raw file addr O) <> Panic /\
  alloc_bounded 0 38 file (snd (bt2_header_raw file addr O)) /\
  forall root nroot total, fst (bt2_header_raw file addr O) = Ok (root, nroot, total) -> nroot <= 65535.
Proof.
  intros Hb. unfold bt2_header_raw.
  assert (B0 : alloc_bounded 0 38 file [38]) by (apply ab_one; lia).
  destruct (read_at_eof_cases file addr 38) as [->|(buf & n & -> & Hl & Hn & _ & Hbb)]; [err_leaf|]. specialize (Hbb Hb).
  dif; [err_leaf|]. dif; [err_leaf|].
  destruct (index_ok buf 4) as (x1 & ->); [lia|]. cbn [obind].
  destruct (index_ok buf 5) as (x2 & ->); [lia|]. cbn [obind].
  destruct (rd_le_ok buf 6 4) as (x3 & ->); [lia|]. cbn [obind].
  destruct (rd_le_ok buf 10 2) as (x4 & ->); [lia|]. cbn [obind].
  destruct (rd_le_ok buf 12 2) as (x5 & ->); [lia|]. cbn [obind].
  dif; [err_leaf|].
  destruct (slice_ok buf 16 (16 + O)) as (s & -> & _); [lia|lia|]. cbn [obind].
  destruct (read_address_ok s O) as (root & ->). cbn [obind].
  dif; [err_leaf|].
  destruct (rd_le_ok_lt buf (16 + O) 2 Hbb) as (nroot & -> & Hnr); [lia|]. cbn [obind]. change (256 ^ 2) with 65536 in Hnr.
  dif; [err_leaf|].
  destruct (rd_le_ok buf (16 + O + 2) 8) as (total & ->); [lia|]. cbn [obind].
  cbn [fst snd]. split; [discriminate|split; [auto|]]. intros r nr t [= <- <- <-]. lia.
Qed.

Definition id_ok (id : bytes) : Prop := blen id = 7 /\ bytes_ok id = true.

Lemma bt2_leaf_loop_spec n : forall buf offset, bytes_ok buf = true ->
  bt2_leaf_loop n buf offset <> Panic /\
  forall ids, bt2_leaf_loop n buf offset = Ok ids -> length ids = n /\ Forall id_ok ids.
Proof.
  induction n as [|n IH]; intros buf offset Hb; cbn [bt2_leaf_loop].
  - split; [discriminate|]. intros ids [= <-]. split; [reflexivity|constructor].
  - dif; [split; [discriminate|intros; discriminate]|].
    destruct (slice_ok buf (offset + 4) (offset + 11)) as (id & Hs & Hl); [lia|lia|]. rewrite Hs. cbn [obind].
    destruct (IH buf (offset + 11) Hb) as [I1 I2].
    destruct (bt2_leaf_loop n buf (offset + 11)) as [rest| |]; cbn [obind].
    + split; [discriminate|]. intros ids [= <-]. destruct (I2 rest eq_refl) as [J1 J2].
      split; [cbn [length]; lia|]. constructor; auto. split; [lia|eapply slice_bytes_ok; eauto].
    + split; [discriminate|intros; discriminate].
    + congruence.
Qed.

Lemma bt2_leaf_records_spec file addr nrec :
  bytes_ok file = true -> nrec <= 65535 ->
  fst (bt2_leaf_records file addr nrec) <> Panic /\
  alloc_bounded 0 720895 file (snd (bt2_leaf_records file addr nrec)) /\
  forall ids, fst (bt2_leaf_records file addr nrec) = Ok ids ->
    N.of_nat (length ids) = nrec /\ 6 + 11 * N.of_nat (length ids) <= blen file /\ Forall id_ok ids.
Proof.
  intros Hb Hn. unfold bt2_leaf_records.
  assert (B0 : alloc_bounded 0 720895 file [6 + nrec * 11 + 4]) by (apply ab_one; lia).
  destruct (read_at_eof_cases file addr (6 + nrec * 11 + 4)) as [->|(buf & n & -> & Hl & Hnn & Hfile & Hbb)]; [err_leaf|].
  specialize (Hbb Hb).
  dif; [err_leaf|]. dif; [err_leaf|].
  destruct (bt2_leaf_loop_spec (N.to_nat nrec) buf 6 Hbb) as [L1 L2].
  cbn [fst snd]. split; [auto|split].
  - apply ab_app; auto. apply ab_one; lia.
  - intros ids Hids. destruct (L2 ids Hids) as [J1 J2]. rewrite J1, N2Nat.id.
    split; [reflexivity|split; [|auto]]. assert (n <> 0) by lia. specialize (Hfile H). lia.
Qed.

Lemma fh_header_raw_spec file addr O L :
  bytes_ok file = true -> L <= 8 ->
  fst (fh_header_raw file addr O L) <> Panic /\
  alloc_bounded 0 144 file (snd (fh_header_raw file addr O L)) /\
  forall root hos hls, fst (fh_header_raw file addr O L) = Ok (root, hos, hls) -> hos <= 255.
Proof.
  intros Hb HL. unfold fh_header_raw.
  assert (B0 : alloc_bounded 0 144 file [144]) by (apply ab_one; lia).
  destruct (read_at_eof_cases file addr 144) as [->|(buf & n & -> & Hl & Hn & _ & _)]; [err_leaf|].
  dif; [err_leaf|]. dif; [err_leaf|].
  destruct (index_ok buf 4) as (x1 & ->); [lia|]. cbn [obind].
  destruct (rd_le_ok buf 5 2) as (x2 & ->); [lia|]. cbn [obind].
  destruct (rd_le_ok buf 7 2) as (x3 & ->); [lia|]. cbn [obind].
  destruct (index_ok buf 9) as (x4 & ->); [lia|]. cbn [obind].
  destruct (rd_le_ok buf 10 4) as (maxman & ->); [lia|]. cbn [obind].
  destruct (slice_ok buf (110 + 2 + L) (110 + 2 + L + L)) as (mdb & -> & _); [lia|lia|]. cbn [obind].
  cbv zeta. dif; [err_leaf|].
  destruct (rd_le_ok buf (110 + 2 + L + L) 2) as (mhs & ->); [lia|]. cbn [obind].
  dif; [err_leaf|].
  destruct (slice_ok buf 132 (132 + O)) as (s & -> & _); [lia|lia|]. cbn [obind].
  destruct (read_address_ok s O) as (root & ->). cbn [obind].
  cbn [fst snd]. split; [discriminate|split; [auto|]]. intros r h l [= <- <- <-]. unfold wrap8. lia.
Qed.

Lemma parse_heap_id_spec id hos hls : id_ok id ->
  parse_heap_id id hos hls <> Panic /\
  forall off len, parse_heap_id id hos hls = Ok (off, len) -> off < 18446744073709551616 /\ len < 18446744073709551616.
Proof.
  intros [Hl Hb]. unfold parse_heap_id.
  destruct (index_ok id 0) as (b0 & ->); [lia|]. cbn [obind].
  dif; [split; [discriminate|intros; discriminate]|].
  destruct (slice_ok id 1 (1 + N.min hos 6)) as (o & Ho & Hlo); [lia|lia|]. rewrite Ho. cbn [obind].
  destruct (slice_ok id (1 + N.min hos 6) (1 + N.min hos 6 + N.min hls (6 - N.min hos 6))) as (l & Hs & Hll); [lia|lia|].
  rewrite Hs. cbn [obind]. split; [discriminate|]. intros off len [= <- <-].
  pose proof (unle_bound o (slice_bytes_ok _ _ _ _ Hb Ho)) as U1.
  pose proof (unle_bound l (slice_bytes_ok _ _ _ _ Hb Hs)) as U2.
  assert (P1 : 256 ^ blen o <= 256 ^ 8) by (apply N.pow_le_mono_r; lia).
  assert (P2 : 256 ^ blen l <= 256 ^ 8) by (apply N.pow_le_mono_r; lia).
  change (256 ^ 8) with 18446744073709551616 in *. lia.
Qed.

Lemma read_heap_object_spec file blockAddr offset length O hos :
  O <= 8 -> hos <= 255 -> length < 18446744073709551616 ->
  fst (read_heap_object file blockAddr offset length O hos) <> Panic /\
  alloc_bounded 1 284 file (snd (read_heap_object file blockAddr offset length O hos)) /\
  forall obj, fst (read_heap_object file blockAddr offset length O hos) = Ok obj -> blen obj = length /\ length <= blen file.
Proof.
  intros HO Hh Hlen. unfold read_heap_object.
  assert (B0 : alloc_bounded 1 284 file [4 + 1 + O + hos + 16]) by (apply ab_one; lia).
  destruct (read_at_eof_cases file blockAddr (4 + 1 + O + hos + 16)) as [->|(hb & n & -> & Hl & Hn & _ & _)]; [err_leaf|].
  dif; [err_leaf|]. dif; [err_leaf|].
  destruct (slice_ok hb (5 + O) (5 + O + hos)) as (bo & -> & _); [lia|lia|].
  dif; [err_leaf|].
  set (oa := wrap64 (blockAddr + (5 + O + hos) + (offset - unle (firstn 8 bo)))).
  assert (Hoa : oa < 18446744073709551616) by (unfold oa, wrap64; lia).
  destruct (read_bytes_at_spec file oa length Hoa Hlen) as (R1 & R2 & R3).
  destruct (read_bytes_at file oa length) as [r l]. cbn [fst snd] in *.
  split; [auto|split].
  - apply ab_app; auto. apply (ab_weaken _ _ R2); lia.
  - intros obj Hobj. now apply R3.
Qed.

Lemma dense_loop_spec file root O hos hls : O <= 8 -> hos <= 255 ->
  forall ids, Forall id_ok ids ->
  fst (dense_loop file root O hos hls ids) <> Panic /\
  alloc_bounded 1 284 file (snd (dense_loop file root O hos hls ids)) /\
  forall t, fst (dense_loop file root O hos hls ids) = Ok t -> t = N.of_nat (length ids).
Proof.
  intros HO Hh. induction ids as [|id r IH]; intros F; cbn [dense_loop].
  - cbn [fst snd]. split; [discriminate|split; [apply ab_nil|]]. intros t [= <-]. reflexivity.
  - inversion F as [|? ? Hid Fr]; subst. destruct (IH Fr) as (I1 & I2 & I3).
    destruct (parse_heap_id_spec id hos hls Hid) as [P1 P2].
    destruct (parse_heap_id id hos hls) as [[off len]| |]; [|err_leaf; apply ab_nil|congruence].
    destruct (P2 off len eq_refl) as [_ Ulen].
    destruct (read_heap_object_spec file root off len O hos HO Hh Ulen) as (H1 & H2 & _).
    destruct (read_heap_object file root off len O hos) as [[obj| |] l]; cbn [fst snd] in *; [|err_leaf|congruence].
    pose proof (dec_attribute_np false obj) as Hd.
    destruct (dec_attribute false obj) as [a| |]; [|err_leaf|congruence].
    destruct (dense_loop file root O hos hls r) as [res l2]. cbn [fst snd] in *.
    split; [destruct res; congruence|split; [apply ab_app; auto|]].
    intros t Ht. destruct res as [t'| |]; try discriminate. injection Ht as <-.
    rewrite (I3 t' eq_refl). cbn [length]. lia.
Qed.

Lemma dense_read_spec file fhAddr btAddr O L :
  bytes_ok file = true -> O <= 8 -> L <= 8 ->
  fst (dense_read file fhAddr btAddr O L) <> Panic /\
  alloc_bounded 1 720895 file (snd (dense_read file fhAddr btAddr O L)) /\
  forall t, fst (dense_read file fhAddr btAddr O L) = Ok t -> 6 + 11 * t <= blen file.
Proof.
  intros Hb HO HL. unfold dense_read. dif; [err_leaf|].
  destruct (bt2_header_raw_spec file btAddr O Hb) as (A1 & A2 & A3). apply (ab_weaken 1 720895) in A2; [|lia..].
  destruct (bt2_header_raw file btAddr O) as [[[[root nroot] total]| |] l1]; cbn [fst snd] in *; [|err_leaf|congruence].
  specialize (A3 root nroot total eq_refl).
  destruct (bt2_leaf_records_spec file root nroot Hb A3) as (C1 & C2 & C3). apply (ab_weaken 1 720895) in C2; [|lia..].
  destruct (bt2_leaf_records file root nroot) as [[ids| |] l2]; cbn [fst snd] in *; [|err_leaf|congruence].
  destruct (C3 ids eq_refl) as (D1 & D2 & D3).
  destruct ids as [|id0 ids'].
  { cbn [fst snd length] in *. split; [discriminate|split; [apply ab_app; auto|]]. intros t [= <-]. lia. }
  destruct (fh_header_raw_spec file fhAddr O L Hb HL) as (E1 & E2 & E3). apply (ab_weaken 1 720895) in E2; [|lia..].
  destruct (fh_header_raw file fhAddr O L) as [[[[hroot hos] hls]| |] l3]; cbn [fst snd] in *; [|err_leaf|congruence].
  specialize (E3 hroot hos hls eq_refl).
  destruct (dense_loop_spec file hroot O hos hls HO E3 (id0 :: ids') D3) as (F1 & F2 & F3).
  apply (ab_weaken 1 720895) in F2; [|lia..].
  destruct (dense_loop file hroot O hos hls (id0 :: ids')) as [r l4]. cbn [fst snd] in *.
  split; [auto|split].
  - repeat apply ab_app; auto. apply ab_one. lia.
  - intros t Ht. rewrite (F3 t Ht). lia.
Qed.

(* hypotheses are satisfiable: an empty name index (zero records in the root) reads as no attributes *)
Example dense_empty_example :
  let file := repeat 0 8 ++ sigBTHD ++ [0; 8] ++ le 4 512 ++ le 2 11 ++ le 2 0 ++ [100; 40] ++ le 8 60 ++ le 2 0 ++ le 8 0 ++ le 4 0
              ++ repeat 0 14 ++ sigBTLF ++ [0; 8] ++ le 4 0 in
  bytes_ok file = true /\ dense_read file 1 8 8 8 = (Ok 0, [38; 10; 0]).
Proof. vm_compute. split; reflexivity. Qed.
