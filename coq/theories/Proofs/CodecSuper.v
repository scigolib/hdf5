(* C11, superblock (Model/CodecSuper.v): a file that starts with an encoded superblock of version 0 or 2/3 is read back
   whatever follows it (superblock_prefix_gen), for both values of the sizes switch; the whole-file round trip and the
   length follow. *)
From HV Require Import Base.Prelude Base.Outcome Base.Bytes Model.CodecSuper Proofs.CodecMsg.

Lemma u64_lt v : u64 v = true -> v < 256 ^ 8.
Proof. apply N.ltb_lt. Qed.

Lemma fa_read_value {file off v} (F : file_at file off (le 8 v)) o :
  o = off -> v < 256 ^ 8 -> read_value file o 8 false = Ok v.
Proof.
  intros -> Hv. unfold read_value. pose proof (fa_bound _ _ _ F) as B. rewrite blen_le in B.
  rewrite ltb_false by blia. change (valid_size 8) with true. cbv iota. now apply (fa_rd_le F).
Qed.

Lemma wf_superblock_inv x : wf_superblock x = true ->
  encok_superblock x = true /\ sp_base x < 256 ^ 8 /\ sp_root x < 256 ^ 8 /\ sp_superext x < 256 ^ 8 /\
  sp_rootbtree x < 256 ^ 8 /\ sp_rootheap x < 256 ^ 8 /\ sp_eof x < 256 ^ 8.
Proof.
  unfold wf_superblock. intros H. rewrite !andb_true_iff in H. repeat split; try apply u64_lt; tauto.
Qed.

Definition v0_head (base eof : N) : bytes :=
  signature ++ [0; 0; 0; 0; 0; 8; 8; 0] ++ le 2 4 ++ le 2 16 ++ le 4 0
  ++ le 8 base ++ le 8 UNDEF ++ le 8 eof ++ le 8 UNDEF ++ le 8 0.

Lemma blen_v0_head base eof : blen (v0_head base eof) = 64.
Proof. unfold v0_head, signature. rewrite !blen_app, !blen_le. reflexivity. Qed.

Lemma v0_head_reads base eof (X : list N) :
  let buf := v0_head base eof ++ X in
  slice buf 0 8 = Ok signature /\ index buf 8 = Ok 0 /\ index buf 13 = Ok 8 /\ index buf 14 = Ok 8.
Proof.
  intros buf. subst buf. unfold v0_head. rewrite <- !app_assoc. split; [|split; [|split]].
  - apply (slice_app' [] signature); reflexivity.
  - reflexivity.
  - reflexivity.
  - reflexivity.
Qed.

Lemma superblock_buf (E rest : list N) : blen E <= 128 ->
  exists T, firstn 128 (E ++ rest) ++ zeros (N.to_nat (128 - N.min (blen (E ++ rest)) 128)) = E ++ T.
Proof.
  intros H. rewrite firstn_app, (firstn_all2 E), <- app_assoc by (unfold blen in H; blia). eauto.
Qed.

(* the round trips hold for both variants of the superblock sizes switch: the writer emits 8-byte sizes, on which they agree *)
Lemma superblock_v0_prefix_gen rep x rest : wf_superblock x = true -> sp_version x = 0 ->
  dec_superblock_gen rep (enc_superblock x ++ rest) = Ok (proj_superblock x).
Proof.
  intros H Hv. apply wf_superblock_inv in H as (Hok & Hbase & Hroot & Hext & Hbt & Hhp & Heof).
  destruct x as [ver os ls base root ext bt hp eof]; cbn [sp_version sp_offsize sp_lensize sp_base sp_root
    sp_superext sp_rootbtree sp_rootheap sp_eof] in *. subst ver.
  unfold enc_superblock, proj_superblock. cbn [sp_version sp_offsize sp_lensize sp_base sp_root
    sp_superext sp_rootbtree sp_rootheap sp_eof]. change (0 =? 0) with true. cbv iota.
  match goal with |- dec_superblock_gen rep (?e ++ rest) = _ => set (E := e) end.
  assert (EE : E = v0_head base eof ++ le 8 root ++ (le 4 1 ++ le 4 0) ++ le 8 bt ++ le 8 hp)
    by (subst E; unfold v0_head; rewrite <- !app_assoc; reflexivity).
  assert (LE96 : blen E = 96) by (rewrite EE, !blen_app, blen_v0_head, !blen_le; reflexivity).
  unfold dec_superblock_gen. cbv zeta. bnorm. destruct (superblock_buf E rest) as (T & ->); [blia|].
  rewrite blen_app, LE96, !ltb_false by blia. cbv iota.
  rewrite EE, <- !app_assoc. clear EE LE96 E.
  (* the three addresses the reader takes lie at 64, 80 and 88 *)
  match goal with |- context [slice ?b 0 8] => pose proof (fa_whole b) as F end.
  apply fa_split in F as [_ F]. apply fa_split in F as [Fr F].
  apply fa_app_r, fa_app_r, fa_split in F as [Fb F]. apply fa_app_l in F.
  rewrite blen_v0_head, !blen_le in *.
  destruct (v0_head_reads base eof (le 8 root ++ le 4 1 ++ le 4 0 ++ le 8 bt ++ le 8 hp ++ T))
    as (R0 & R8 & R13 & R14). bnorm.
  rewrite R0. cbn [obind]. change (bytes_eqb signature signature) with true. cbn [negb].
  rewrite R8. cbn [obind]. change (0 =? 0) with true. cbn [orb negb]. rewrite R13, R14. cbn [obind].
  change (8 =? 0) with false. cbv iota. change (valid_size 8) with true. cbn [andb negb].
  rewrite (fa_read_value Fr), (fa_read_value Fb), (fa_read_value F) by (auto; destruct rep; reflexivity).
  reflexivity.
Qed.

Lemma v2_head_reads ver (X : list N) :
  let buf := signature ++ [ver; 8; 8; 0] ++ X in
  slice buf 0 8 = Ok signature /\ index buf 8 = Ok ver /\ index buf 9 = Ok 8 /\ index buf 10 = Ok 8.
Proof.
  intros buf. subst buf. split; [|split; [|split]].
  - apply (slice_app' [] signature); reflexivity.
  - reflexivity.
  - reflexivity.
  - reflexivity.
Qed.

Lemma superblock_v2_prefix_gen rep x rest : wf_superblock x = true -> sp_version x <> 0 ->
  dec_superblock_gen rep (enc_superblock x ++ rest) = Ok (proj_superblock x).
Proof.
  intros H Hv. apply wf_superblock_inv in H as (Hok & Hbase & Hroot & Hext & Hbt & Hhp & Heof).
  unfold encok_superblock in Hok. apply andb_true_iff in Hok as [Hok _]. apply andb_true_iff in Hok as [Hver _].
  destruct x as [ver os ls base root ext bt hp eof]; cbn [sp_version sp_offsize sp_lensize sp_base sp_root
    sp_superext sp_rootbtree sp_rootheap sp_eof] in *.
  apply N.eqb_neq in Hv. rewrite Hv in Hver. cbn [orb] in Hver.
  unfold enc_superblock, proj_superblock. cbn [sp_version sp_offsize sp_lensize sp_base sp_root
    sp_superext sp_rootbtree sp_rootheap sp_eof]. rewrite Hv. cbv iota.
  set (ext' := if ext =? 0 then UNDEF else ext).
  assert (Hext' : ext' < 256 ^ 8) by (subst ext'; destruct (ext =? 0); [reflexivity | exact Hext]).
  set (body := signature ++ [ver; 8; 8; 0] ++ le 8 base ++ le 8 ext' ++ le 8 eof ++ le 8 root).
  set (crc := le 4 (crc32_ieee body)).
  assert (LE48 : blen (body ++ crc) = 48)
    by (subst body crc; unfold signature; rewrite !blen_app, !blen_le; reflexivity).
  unfold dec_superblock_gen. cbv zeta. bnorm. destruct (superblock_buf (body ++ crc) rest) as (T & ->); [blia|].
  rewrite blen_app, LE48, !ltb_false by blia. cbv iota.
  clearbody crc. subst body. rewrite <- !app_assoc. clear LE48.
  (* base, extension and root addresses lie at 12, 20 and 36 *)
  match goal with |- context [slice ?b 0 8] => pose proof (fa_whole b) as F end.
  apply fa_app_r, fa_app_r, fa_split in F as [Fb F]. apply fa_split in F as [Fe F]. apply fa_app_r, fa_app_l in F.
  rewrite !blen_le in *. change (0 + blen signature + blen [ver; 8; 8; 0]) with 12 in *.
  destruct (v2_head_reads ver (le 8 base ++ le 8 ext' ++ le 8 eof ++ le 8 root ++ crc ++ T))
    as (R0 & R8 & R9 & R10). bnorm.
  rewrite R0. cbn [obind]. change (bytes_eqb signature signature) with true. cbn [negb].
  rewrite R8. cbn [obind]. rewrite Hv. cbn [orb]. rewrite Hver. cbn [negb andb]. rewrite R9, R10. cbn [obind].
  change (N.testbit 8 0) with false. change (valid_size 8) with true. change (spec_size 8) with true. cbv iota.
  (* the sizes switch makes no difference on 8-byte sizes *)
  destruct (rep && true).
  all: unfold obind; cbv beta iota; change (8 =? 0) with false; cbv iota; change (valid_size 8) with true;
    cbn [andb negb]; now rewrite (fa_read_value Fb), (fa_read_value Fe), (fa_read_value F) by (auto; blia).
Qed.

Lemma superblock_prefix_gen rep x rest : wf_superblock x = true ->
  dec_superblock_gen rep (enc_superblock x ++ rest) = Ok (proj_superblock x).
Proof.
  intros H. destruct (N.eq_dec (sp_version x) 0).
  - now apply superblock_v0_prefix_gen.
  - now apply superblock_v2_prefix_gen.
Qed.

Lemma superblock_roundtrip_gen rep x : wf_superblock x = true ->
  dec_superblock_gen rep (enc_superblock x) = Ok (proj_superblock x).
Proof. intros H. rewrite <- (app_nil_r (enc_superblock x)). now apply superblock_prefix_gen. Qed.

Lemma superblock_roundtrip x : wf_superblock x = true ->
  dec_superblock (enc_superblock x) = Ok (proj_superblock x).
Proof. apply superblock_roundtrip_gen. Qed.

Lemma superblock_blen x : blen (enc_superblock x) = size_superblock x.
Proof.
  unfold enc_superblock, size_superblock, signature. destruct (sp_version x =? 0);
    rewrite !blen_app, !blen_le; reflexivity.
Qed.
