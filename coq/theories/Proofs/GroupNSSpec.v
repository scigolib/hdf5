(* C03: facts about the specification tree alone.  One insertion (a new child under an existing
   group, possibly together with a fresh leaf / empty group) described by its effect on lookups;
   how path resolution and the preorder of group ids change; the invariant SInv of every tree
   produced by admissible histories (closed, ids below the clock, a group's id below the ids of
   its sub-groups, no group listed twice in preorder). *)
From HV Require Import Base.Prelude Base.Bytes Model.GroupNS Proofs.GroupNSBase Proofs.GroupNSHeap Proofs.GroupNSPath.

Definition nodes := list (N * snode).
Definition is_group (t : nodes) (g : N) : Prop := exists ch, alookup g t = Some (SG ch).
Definition is_leaf_node (nd : snode) : Prop := match nd with SG ch => ch = [] | _ => True end.

(* preorder of the group ids in the unfolding of id *)
Fixpoint gpre (fuel : nat) (t : nodes) (id : N) : list N :=
  match fuel with
  | O => []
  | S f => match alookup id t with
           | Some (SG ch) => id :: flat_map (fun nc => gpre f t (snd nc)) ch
           | _ => []
           end
  end.

Record SInv (t : stree) : Prop := {
  s_root : is_group (s_nodes t) 0;
  s_bound : forall id, alookup id (s_nodes t) <> None -> id < s_clock t;
  s_closed : forall g ch n c, alookup g (s_nodes t) = Some (SG ch) -> In (n, c) ch -> alookup c (s_nodes t) <> None;
  s_order : forall g ch n c ch', alookup g (s_nodes t) = Some (SG ch) -> In (n, c) ch ->
            alookup c (s_nodes t) = Some (SG ch') -> g < c;
  s_tree : forall f, NoDup (gpre f (s_nodes t) 0);
  s_pos : 0 < s_clock t
}.

Lemma sinv_empty : SInv s_empty.
Proof.
  constructor; cbn [s_empty s_nodes s_clock].
  - exists []. reflexivity.
  - intros id H. cbn [alookup] in H. destruct (0 =? id) eqn:E; [apply N.eqb_eq in E; lia | contradiction].
  - intros g ch n c H I. cbn [alookup] in H. destruct (0 =? g); [|discriminate]. inversion H; subst. contradiction.
  - intros g ch n c ch' H I. cbn [alookup] in H. destruct (0 =? g); [|discriminate]. inversion H; subst. contradiction.
  - intros [|f]; cbn [gpre alookup]; [constructor|]. rewrite N.eqb_refl. cbn [flat_map]. constructor; [intros [] | constructor].
  - lia.
Qed.

Lemma sinv_tick : forall t, SInv t -> SInv (s_tick t (s_nodes t)).
Proof.
  intros t [A B C D E F]. constructor; cbn [s_tick s_nodes s_clock]; try assumption.
  - intros id H. specialize (B id H). lia.
  - lia.
Qed.

(* t' = t with (n, child) appended to group g (whose children were ch), and optionally a fresh node *)
Definition upd (t t' : nodes) (g : N) (ch : list (name * N)) (n : name) (child : N) (fresh : option (N * snode)) : Prop :=
  forall k, alookup k t' =
    if g =? k then Some (SG (ch ++ [(n, child)]))
    else match fresh with
         | Some (id, nd) => if id =? k then Some nd else alookup k t
         | None => alookup k t
         end.

Lemma upd_aset : forall t g ch n child, upd t (aset g (SG (ch ++ [(n, child)])) t) g ch n child None.
Proof. intros t g ch n child k. rewrite alookup_aset. reflexivity. Qed.
Lemma upd_aset_fresh : forall t g ch n id nd, g <> id ->
  upd t (aset id nd (aset g (SG (ch ++ [(n, id)])) t)) g ch n id (Some (id, nd)).
Proof.
  intros t g ch n id nd H k. rewrite !alookup_aset. destruct (g =? k) eqn:E1, (id =? k) eqn:E2; try reflexivity.
  apply N.eqb_eq in E1, E2. congruence.
Qed.

Lemma upd_inv : forall t t' g ch n child fresh k nd, upd t t' g ch n child fresh -> alookup k t' = Some nd ->
  (k = g /\ nd = SG (ch ++ [(n, child)])) \/ (k <> g /\ fresh = Some (k, nd)) \/ (k <> g /\ alookup k t = Some nd).
Proof.
  intros t t' g ch n child fresh k nd U H. rewrite U in H.
  destruct (g =? k) eqn:E; [apply N.eqb_eq in E; left; split; congruence|]. apply N.eqb_neq in E.
  right. destruct fresh as [[id nd0]|]; [|right; auto].
  destruct (id =? k) eqn:E2; [apply N.eqb_eq in E2; left; split; congruence | right; auto].
Qed.

Lemma sresolve_app : forall t cs x n, sresolve t x (cs ++ [n]) =
  match sresolve t x cs with
  | Some g => match alookup g t with Some (SG ch) => clookup n ch | _ => None end
  | None => None
  end.
Proof.
  induction cs as [|m cs IH]; intros x n; cbn [app sresolve].
  - destruct (alookup x t) as [[ch| |]|]; try reflexivity. destruct (clookup n ch); reflexivity.
  - destruct (alookup x t) as [[ch| |]|]; try reflexivity. destruct (clookup m ch); [apply IH | reflexivity].
Qed.

Lemma sresolve_leaf : forall (t : nodes) x post y, (forall chc, alookup x t = Some (SG chc) -> chc = []) ->
  sresolve t x post = Some y -> post = [] /\ y = x.
Proof.
  intros t x post y Hleaf H. destruct post as [|m post]; [cbn in H; inversion H; auto|]. exfalso.
  cbn [sresolve] in H. destruct (alookup x t) as [[chc| |]|] eqn:L; try discriminate.
  rewrite (Hleaf chc eq_refl) in H. discriminate.
Qed.

Record UpdOk (t t' : nodes) (g : N) (ch : list (name * N)) (n : name) (child : N) (fresh : option (N * snode)) : Prop := {
  u_upd : upd t t' g ch n child fresh;
  u_g : alookup g t = Some (SG ch);
  u_n : clookup n ch = None;
  u_fresh : match fresh with
            | Some (id, nd) => id = child /\ alookup id t = None /\ is_leaf_node nd
            | None => alookup child t <> None
            end;
  u_closed : forall g0 ch0 n0 c0, alookup g0 t = Some (SG ch0) -> In (n0, c0) ch0 -> alookup c0 t <> None
}.

Section Upd.
  Variables (t t' : nodes) (g : N) (ch : list (name * N)) (n : name) (child : N) (fresh : option (N * snode)).
  Hypothesis HU : UpdOk t t' g ch n child fresh.

  Lemma upd_old : forall k, alookup k t <> None -> k <> g -> alookup k t' = alookup k t.
  Proof.
    pose proof HU as [U _ _ Hfresh _]. intros k Hk Hne. rewrite U. destruct (g =? k) eqn:E; [apply N.eqb_eq in E; congruence|].
    destruct fresh as [[id nd]|]; [|reflexivity]. destruct Hfresh as (_ & Hid & _).
    destruct (id =? k) eqn:E2; [apply N.eqb_eq in E2; subst; contradiction | reflexivity].
  Qed.
  Lemma upd_g : alookup g t' = Some (SG (ch ++ [(n, child)])).
  Proof. rewrite (u_upd _ _ _ _ _ _ _ HU), N.eqb_refl. reflexivity. Qed.
  Lemma upd_in_t' : forall k, alookup k t <> None -> alookup k t' <> None.
  Proof.
    intros k Hk. destruct (N.eq_dec k g) as [->|Hne]; [rewrite upd_g; discriminate|]. rewrite upd_old; assumption.
  Qed.
  Lemma upd_group_old : forall k, is_group t k -> is_group t' k.
  Proof.
    intros k [c0 Hk]. destruct (N.eq_dec k g) as [->|Hne]; [eexists; apply upd_g|].
    exists c0. rewrite upd_old; [assumption | congruence | assumption].
  Qed.

  Lemma sresolve_mono : forall cs x y, alookup x t <> None -> sresolve t x cs = Some y -> sresolve t' x cs = Some y.
  Proof.
    pose proof HU as [_ Hg _ _ Hclosed].
    induction cs as [|m cs IH]; intros x y Hx H; [assumption|]. cbn [sresolve] in *.
    destruct (alookup x t) as [[chx| |]|] eqn:Lx; try discriminate.
    destruct (clookup m chx) as [c1|] eqn:Lm; [|discriminate].
    assert (Hc1 : alookup c1 t <> None) by (eapply Hclosed; [eassumption | apply clookup_In; eassumption]).
    destruct (N.eq_dec x g) as [->|Hne].
    - rewrite upd_g. rewrite Hg in Lx. inversion Lx; subst. rewrite clookup_app, Lm. apply IH; assumption.
    - rewrite upd_old by (congruence || assumption). rewrite Lx, Lm. apply IH; assumption.
  Qed.

  Lemma sresolve_new : forall cs x y, alookup x t <> None -> sresolve t' x cs = Some y ->
    sresolve t x cs = Some y \/
    exists pre post, cs = pre ++ n :: post /\ sresolve t x pre = Some g /\ sresolve t' child post = Some y.
  Proof.
    pose proof HU as [_ Hg _ _ Hclosed].
    induction cs as [|m cs IH]; intros x y Hx H; [left; assumption|]. cbn [sresolve] in H.
    destruct (N.eq_dec x g) as [->|Hne].
    - rewrite upd_g in H. rewrite clookup_app in H. destruct (clookup m ch) as [c1|] eqn:Lm.
      + assert (Hc1 : alookup c1 t <> None) by (eapply Hclosed; [eassumption | apply clookup_In; eassumption]).
        destruct (IH c1 y Hc1 H) as [L|(pre & post & E1 & E2 & E3)].
        * left. cbn [sresolve]. rewrite Hg, Lm. assumption.
        * right. exists (m :: pre), post. split; [cbn; congruence|]. split; [cbn [sresolve]; rewrite Hg, Lm; assumption | assumption].
      + cbn [clookup] in H. destruct (bytes_eqb n m) eqn:E; [|discriminate]. apply bytes_eqb_eq in E. subst m.
        right. exists [], cs. split; [reflexivity|]. split; [reflexivity | assumption].
    - rewrite upd_old in H by assumption.
      destruct (alookup x t) as [[chx| |]|] eqn:Lx; try discriminate.
      destruct (clookup m chx) as [c1|] eqn:Lm; [|discriminate].
      assert (Hc1 : alookup c1 t <> None) by (eapply Hclosed; [eassumption | apply clookup_In; eassumption]).
      destruct (IH c1 y Hc1 H) as [L|(pre & post & E1 & E2 & E3)].
      + left. cbn [sresolve]. rewrite Lx, Lm. assumption.
      + right. exists (m :: pre), post. split; [cbn; congruence|]. split; [cbn [sresolve]; rewrite Lx, Lm; assumption | assumption].
  Qed.

  Lemma sresolve_edge : forall pcs, sresolve t 0 pcs = Some g -> alookup 0 t <> None -> sresolve t' 0 (pcs ++ [n]) = Some child.
  Proof.
    intros pcs H H0. rewrite sresolve_app, (sresolve_mono _ _ _ H0 H), upd_g, clookup_app, (u_n _ _ _ _ _ _ _ HU).
    cbn [clookup]. rewrite bytes_eqb_refl. reflexivity.
  Qed.

End Upd.

Definition cnt (y : N) (l : list N) : nat := count_occ N.eq_dec l y.

Lemma cnt_app : forall y a b, cnt y (a ++ b) = (cnt y a + cnt y b)%nat.
Proof. intros. unfold cnt. apply count_occ_app. Qed.
Lemma cnt_cons : forall y x l, cnt y (x :: l) = ((if N.eq_dec x y then 1 else 0) + cnt y l)%nat.
Proof. intros. unfold cnt. cbn [count_occ]. destruct (N.eq_dec x y); reflexivity. Qed.

Lemma cnt_flat_map_eq : forall A (F G : A -> list N) y l, (forall a, In a l -> cnt y (F a) = cnt y (G a)) ->
  cnt y (flat_map F l) = cnt y (flat_map G l).
Proof.
  induction l as [|a l IH]; intro H; [reflexivity|]. cbn [flat_map]. rewrite !cnt_app.
  rewrite (H a (or_introl eq_refl)), IH; [reflexivity|]. intros b Hb. apply H. right. assumption.
Qed.
Lemma cnt_flat_map_le : forall A (F G : A -> list N) y z l, (forall a, In a l -> (cnt y (F a) <= cnt z (G a))%nat) ->
  (cnt y (flat_map F l) <= cnt z (flat_map G l))%nat.
Proof.
  induction l as [|a l IH]; intro H; [cbn; lia|]. cbn [flat_map]. rewrite !cnt_app.
  pose proof (H a (or_introl eq_refl)). assert ((cnt y (flat_map F l) <= cnt z (flat_map G l))%nat) by (apply IH; intros b Hb; apply H; right; assumption).
  lia.
Qed.

Section UpdPre.
  Variables (t t' : nodes) (g : N) (ch : list (name * N)) (n : name) (child : N) (fresh : option (N * snode)).
  Hypothesis HU : UpdOk t t' g ch n child fresh.

  Lemma gpre_upd_leaf : (forall chc, alookup child t' <> Some (SG chc)) ->
    forall f x, alookup x t <> None -> gpre f t' x = gpre f t x.
  Proof.
    pose proof HU as [_ Hg _ _ Hclosed].
    intros Hleaf. induction f as [|f IH]; intros x Hx; [reflexivity|]. cbn [gpre].
    destruct (N.eq_dec x g) as [->|Hne].
    - rewrite (upd_g _ _ _ _ _ _ _ HU), Hg. f_equal. rewrite flat_map_app. cbn [flat_map snd]. rewrite app_nil_r.
      replace (gpre f t' child) with (@nil N).
      + rewrite app_nil_r. apply flat_map_ext_in. intros [n0 c0] I. cbn [snd]. apply IH. eapply Hclosed; eassumption.
      + destruct f; [reflexivity|]. cbn [gpre]. destruct (alookup child t') as [[chc| |]|] eqn:L; try reflexivity.
        exfalso. apply (Hleaf chc). reflexivity.
    - rewrite (upd_old _ _ _ _ _ _ _ HU x Hx Hne).
      destruct (alookup x t) as [[chx| |]|] eqn:Lx; try reflexivity. f_equal.
      apply flat_map_ext_in. intros [n0 c0] I. cbn [snd]. apply IH. eapply Hclosed; eassumption.
  Qed.

  Lemma gpre_upd_group : alookup child t' = Some (SG []) -> alookup child t = None ->
    forall f x, alookup x t <> None ->
      (forall y, y <> child -> cnt y (gpre f t' x) = cnt y (gpre f t x)) /\
      (cnt child (gpre f t' x) <= cnt g (gpre f t x))%nat.
  Proof.
    pose proof HU as [_ Hg _ _ Hclosed].
    intros Hc' Hc. induction f as [|f IH]; intros x Hx; [split; [reflexivity | cbn; lia]|].
    assert (Hxc : x <> child) by (intro; subst; contradiction).
    cbn [gpre]. destruct (N.eq_dec x g) as [->|Hne].
    - rewrite (upd_g _ _ _ _ _ _ _ HU), Hg. rewrite flat_map_app. cbn [flat_map snd]. rewrite app_nil_r.
      assert (Hkid : gpre f t' child = match f with O => [] | S _ => [child] end).
      { destruct f; [reflexivity|]. cbn [gpre]. rewrite Hc'. reflexivity. }
      split.
      + intros y Hy. rewrite !cnt_cons, !cnt_app. f_equal. rewrite Hkid.
        replace (cnt y (match f with O => [] | S _ => [child] end)) with 0%nat
          by (destruct f; [reflexivity | rewrite cnt_cons; destruct (N.eq_dec child y); [congruence | reflexivity]]).
        rewrite Nat.add_0_r. apply cnt_flat_map_eq. intros [n0 c0] I. cbn [snd].
        apply (proj1 (IH c0 (Hclosed _ _ _ _ Hg I))). assumption.
      + rewrite !cnt_cons, !cnt_app. destruct (N.eq_dec g child) as [X|_]; [congruence|]. destruct (N.eq_dec g g) as [_|X]; [|congruence].
        assert ((cnt child (flat_map (fun nc => gpre f t' (snd nc)) ch) <= cnt g (flat_map (fun nc => gpre f t (snd nc)) ch))%nat).
        { apply cnt_flat_map_le. intros [n0 c0] I. cbn [snd]. apply (proj2 (IH c0 (Hclosed _ _ _ _ Hg I))). }
        assert ((cnt child (gpre f t' child) <= 1)%nat).
        { rewrite Hkid. destruct f; [cbn; lia|]. rewrite cnt_cons. destruct (N.eq_dec child child); cbn; lia. }
        lia.
    - rewrite (upd_old _ _ _ _ _ _ _ HU x Hx Hne).
      destruct (alookup x t) as [[chx| |]|] eqn:Lx; try (split; [reflexivity | cbn; lia]). split.
      + intros y Hy. rewrite !cnt_cons. f_equal. apply cnt_flat_map_eq. intros [n0 c0] I. cbn [snd].
        apply (proj1 (IH c0 (Hclosed _ _ _ _ Lx I))). assumption.
      + rewrite !cnt_cons. destruct (N.eq_dec x child) as [X|_]; [congruence|].
        assert ((cnt child (flat_map (fun nc => gpre f t' (snd nc)) chx) <= cnt g (flat_map (fun nc => gpre f t (snd nc)) chx))%nat).
        { apply cnt_flat_map_le. intros [n0 c0] I. cbn [snd]. apply (proj2 (IH c0 (Hclosed _ _ _ _ Lx I))). }
        lia.
  Qed.
End UpdPre.

(* the insertions the specification makes: a fresh leaf at the clock, or an existing dataset *)
Definition spec_insert (t : stree) (child : N) (fresh : option (N * snode)) : Prop :=
  match fresh with
  | Some (id, nd) => id = child /\ id = s_clock t /\ is_leaf_node nd
  | None => alookup child (s_nodes t) = Some SD
  end.

Lemma sinv_updok : forall t nodes' g ch n child fresh,
  SInv t -> upd (s_nodes t) nodes' g ch n child fresh -> alookup g (s_nodes t) = Some (SG ch) ->
  clookup n ch = None ->
  spec_insert t child fresh ->
  UpdOk (s_nodes t) nodes' g ch n child fresh.
Proof.
  intros t nodes' g ch n child fresh I U Hg Hn Hf. constructor; try assumption; [|apply (s_closed _ I)].
  destruct fresh as [[id nd]|]; [|rewrite Hf; discriminate]. destruct Hf as (A & B & C). repeat split; try assumption.
  destruct (alookup id (s_nodes t)) eqn:L; [|reflexivity]. exfalso.
  assert (id < s_clock t) by (apply (s_bound _ I); rewrite L; discriminate). lia.
Qed.

Lemma sinv_new_child : forall t nodes' g ch n child fresh chc,
  SInv t -> upd (s_nodes t) nodes' g ch n child fresh -> alookup g (s_nodes t) = Some (SG ch) ->
  spec_insert t child fresh ->
  alookup child nodes' = Some (SG chc) -> chc = [] /\ fresh = Some (s_clock t, SG []).
Proof.
  intros t nodes' g ch n child fresh chc I U Hg Hf X.
  assert (Hgb : g < s_clock t) by (apply (s_bound _ I); rewrite Hg; discriminate).
  destruct (upd_inv _ _ _ _ _ _ _ _ _ U X) as [[-> _]|[[_ ->]|[_ X']]].
  - destruct fresh as [[id nd]|]; [destruct Hf as (A & B & _); lia | congruence].
  - destruct Hf as (_ & -> & C). cbn in C. subst chc. auto.
  - destruct fresh as [[id nd]|]; [|congruence]. destruct Hf as (-> & B & _).
    assert (child < s_clock t) by (apply (s_bound _ I); rewrite X'; discriminate). lia.
Qed.

Lemma sinv_upd : forall t nodes' g ch n child fresh,
  SInv t -> upd (s_nodes t) nodes' g ch n child fresh -> alookup g (s_nodes t) = Some (SG ch) ->
  clookup n ch = None ->
  spec_insert t child fresh ->
  SInv (s_tick t nodes').
Proof.
  intros t nodes' g ch n child fresh I U Hg Hn Hf.
  assert (Hgb : g < s_clock t) by (apply (s_bound _ I); rewrite Hg; discriminate).
  pose proof (sinv_updok _ _ _ _ _ _ _ I U Hg Hn Hf) as HU. pose proof (u_fresh _ _ _ _ _ _ _ HU) as Hfresh.
  pose proof (s_closed _ I) as Hclosed.
  pose proof (fun chc => sinv_new_child _ _ _ _ _ _ _ chc I U Hg Hf) as Hchild.
  constructor; cbn [s_tick s_nodes s_clock].
  - apply (upd_group_old _ _ _ _ _ _ _ HU). apply (s_root _ I).
  - intros id H. rewrite U in H. destruct (g =? id) eqn:E; [apply N.eqb_eq in E; subst; lia|].
    destruct fresh as [[id0 nd]|].
    + destruct (id0 =? id) eqn:E2; [apply N.eqb_eq in E2; destruct Hf as (_ & B & _); lia|]. specialize (s_bound _ I id H). lia.
    + specialize (s_bound _ I id H). lia.
  - intros g0 ch0 n0 c0 L In0. destruct (upd_inv _ _ _ _ _ _ _ _ _ U L) as [[-> [= ->]]|[[_ ->]|[_ L']]].
    + apply in_app_or in In0. destruct In0 as [In0|[[= <- <-]|[]]].
      * apply (upd_in_t' _ _ _ _ _ _ _ HU). eapply Hclosed; eassumption.
      * rewrite U. destruct (g =? child); [discriminate|].
        destruct fresh as [[id nd]|]; [destruct Hf as (A & _); subst; rewrite N.eqb_refl; discriminate | rewrite Hf; discriminate].
    + destruct Hf as (_ & _ & C). cbn in C. subst. contradiction.
    + apply (upd_in_t' _ _ _ _ _ _ _ HU). eapply Hclosed; eassumption.
  - intros g0 ch0 n0 c0 ch' L In0 Lc.
    (* an edge of the old tree: its target was there before, so it is g or an unchanged node *)
    assert (Old : forall k chk, alookup k (s_nodes t) = Some (SG chk) -> In (n0, c0) chk -> k < c0).
    { intros k chk Lk Ik. assert (Hc0 : alookup c0 (s_nodes t) <> None) by (eapply Hclosed; eassumption).
      destruct (N.eq_dec c0 g) as [->|Hne]; [eapply (s_order _ I); [exact Lk | exact Ik | exact Hg]|].
      rewrite (upd_old _ _ _ _ _ _ _ HU c0 Hc0 Hne) in Lc. eapply (s_order _ I); eassumption. }
    destruct (upd_inv _ _ _ _ _ _ _ _ _ U L) as [[-> [= ->]]|[[_ ->]|[_ L']]].
    + apply in_app_or in In0. destruct In0 as [In0|[[= <- <-]|[]]]; [exact (Old _ _ Hg In0)|].
      destruct (Hchild ch' Lc) as (_ & ->). destruct Hf as (A & _). lia.
    + destruct Hf as (_ & _ & C). cbn in C. subst. contradiction.
    + exact (Old _ _ L' In0).
  - intro f. assert (H0 : alookup 0 (s_nodes t) <> None) by (destruct (s_root _ I) as [c0 L]; rewrite L; discriminate).
    destruct (alookup child nodes') as [[chc| |]|] eqn:Lc.
    2-4: rewrite (gpre_upd_leaf _ _ _ _ _ _ _ HU); [apply (s_tree _ I) | intros chc X; congruence | assumption].
    destruct (Hchild chc eq_refl) as (-> & ->). destruct Hf as (A & _). destruct Hfresh as (_ & Hnone & _). rewrite A in Hnone.
    destruct (gpre_upd_group _ _ _ _ _ _ _ HU Lc Hnone f 0 H0) as [P1 P2].
    apply (NoDup_count_occ N.eq_dec). intro y. pose proof (proj1 (NoDup_count_occ N.eq_dec _) (s_tree _ I f)) as ND.
    destruct (N.eq_dec y child) as [->|Hy].
    + specialize (ND g). unfold cnt in *. lia.
    + specialize (ND y). specialize (P1 y Hy). unfold cnt in *. lia.
  - pose proof (s_pos _ I). lia.
Qed.

Lemma sresolve_in : forall t, (forall g0 ch0 n0 c0, alookup g0 t = Some (SG ch0) -> In (n0, c0) ch0 -> alookup c0 t <> None) ->
  forall cs x y, alookup x t <> None -> sresolve t x cs = Some y -> alookup y t <> None.
Proof.
  intros t Hc. induction cs as [|m cs IH]; intros x y Hx H; cbn [sresolve] in H; [inversion H; subst; assumption|].
  destruct (alookup x t) as [[chx| |]|] eqn:Lx; try discriminate. destruct (clookup m chx) as [c1|] eqn:Lm; [|discriminate].
  eapply IH; [|eassumption]. eapply Hc; [eassumption | apply clookup_In; eassumption].
Qed.

Lemma s_link_res : forall c t cs child,
  (exists g ch n, s_link c t cs child = (Some (aset g (SG (ch ++ [(n, child)])) t), Ok)) \/
  (exists e, s_link c t cs child = (None, Err e)).
Proof.
  intros c t cs child. unfold s_link. destruct (unsnoc cs) as [[pcs n]|]; [|right; eauto].
  destruct (sresolve t 0 pcs) as [g|]; [|right; eauto]. destruct (alookup g t) as [[ch| |]|]; try (right; eauto; fail).
  destruct (clookup n ch); [right; eauto|]. destruct (_ <? _); [right; eauto|].
  destruct (_ <=? _); [right; eauto | left; eauto 6].
Qed.

Definition op_node (o : op) : option snode :=
  match o with MkGroup _ => Some (SG []) | MkDataset _ => Some SD | SoftLink _ q => Some (SS q) | HardLink _ _ => None end.

Lemma spec_step_shape : forall c t o,
  (exists e, spec_step c t o = (s_tick t (s_nodes t), Err e)) \/
  (exists g ch n child,
     spec_step c t o =
     (s_tick t (match op_node o with Some nd => aset (s_clock t) nd | None => fun T => T end
                  (aset g (SG (ch ++ [(n, child)])) (s_nodes t))), Ok)).
Proof.
  intros c t o.
  assert (K : forall p nd, (exists e, s_create c t p nd = (s_tick t (s_nodes t), Err e)) \/
     (exists g ch n child,
        s_create c t p nd = (s_tick t (aset (s_clock t) nd (aset g (SG (ch ++ [(n, child)])) (s_nodes t))), Ok))).
  { intros p nd. unfold s_create. destruct (split_path p) as [cs|]; [|left; eauto].
    destruct (s_link_res c (s_nodes t) cs (s_clock t)) as [(g & ch & n & ->)|(e & ->)]; [right | left]; eauto 6. }
  destruct o as [p|p|p q|p q]; cbn [spec_step op_node]; try apply K.
  - destruct (split_path p) as [cs|]; [|left; eauto]. destruct (split_path q) as [qcs|]; [|left; eauto].
    destruct (sresolve (s_nodes t) 0 qcs) as [tgt|]; [|left; eauto].
    destruct (s_link_res c (s_nodes t) cs tgt) as [(g & ch & n & ->)|(e & ->)]; [right | left]; eauto 6.
  - destruct (negb (validate_soft_target q)); [left; eauto|]. destruct (split_path p) as [cs|]; [|left; eauto].
    destruct (unsnoc cs) as [[i n]|]; [|left; eauto]. destruct (_ <? _); [left; eauto | apply K].
Qed.

Lemma spec_err_unchanged : forall c t o t' e, spec_step c t o = (t', Err e) -> t' = s_tick t (s_nodes t).
Proof.
  intros c t o t' e H.
  destruct (spec_step_shape c t o) as [(e' & E)|(g & ch & n & child & E)]; rewrite E in H; [congruence | discriminate].
Qed.

Lemma spec_step_clock : forall c t o, s_clock (fst (spec_step c t o)) = s_clock t + 1.
Proof.
  intros c t o. destruct (spec_step_shape c t o) as [(e' & ->)|(g & ch & n & child & ->)]; reflexivity.
Qed.
