(* C11, attribute message version 3 (Model/CodecAttr.v): the 9-byte head, the length of an encoding, and the round trip
   through name, datatype, dataspace and data. *)
From HV Require Import Base.Prelude Base.Outcome Base.Bytes
  Model.CodecMsg Model.CodecType Model.CodecAttr Proofs.CodecMsg Proofs.CodecType.

Definition attr_hdr (ns dts dss : N) : bytes :=
  [3; 0] ++ le 2 ns ++ le 2 dts ++ le 2 dss ++ [0].

Lemma blen_attr_hdr ns dts dss : blen (attr_hdr ns dts dss) = 9.
Proof. unfold attr_hdr. rewrite !blen_app, !blen_le. reflexivity. Qed.

Lemma attr_hdr_reads ns dts dss T :
  ns < 65536 -> dts < 65536 -> dss < 65536 ->
  let D := attr_hdr ns dts dss ++ T in
  index D 0 = Ok 3 /\ rd_le D 2 2 = Ok ns /\ rd_le D 4 2 = Ok dts /\ rd_le D 6 2 = Ok dss.
Proof.
  intros H1 H2 H3 D. subst D. unfold attr_hdr. split; [|split; [|split]].
  - reflexivity.
  - rewrite <- !app_assoc. apply (rd_le_at [3; 0] 2 2); auto.
  - rewrite <- !app_assoc. rewrite (app_assoc [3; 0]). apply (rd_le_at ([3; 0] ++ le 2 ns) 2 2); auto.
  - rewrite <- !app_assoc. rewrite (app_assoc [3; 0]), (app_assoc ([3; 0] ++ le 2 ns)).
    apply (rd_le_at (([3; 0] ++ le 2 ns) ++ le 2 dts) 2 2); auto.
Qed.

Lemma enc_attribute_shape x :
  enc_attribute x =
  attr_hdr (wrap16 (blen (at_name x) + 1)) (wrap16 (blen (enc_datatype (at_dt x))))
           (wrap16 (blen (enc_dataspace (at_ds x))))
  ++ at_name x ++ [0] ++ enc_datatype (at_dt x) ++ enc_dataspace (at_ds x) ++ at_data x.
Proof. unfold enc_attribute, attr_hdr. rewrite <- !app_assoc. reflexivity. Qed.

Lemma size_dataspace_bound ds : wf_dataspace ds = true -> size_dataspace ds < 65536.
Proof.
  intros H. apply wf_dataspace_inv in H as (Hr & Hm & _ & _).
  unfold size_dataspace, blen. destruct Hm as [-> | E]; [cbn [length]|rewrite E]; blia.
Qed.

Lemma attribute_blen x : wf_attribute x = true -> blen (enc_attribute x) = size_attribute x.
Proof.
  unfold wf_attribute. intros H. rewrite !andb_true_iff in H. destruct H as ((((_ & Hdt) & _) & _) & _).
  rewrite enc_attribute_shape, !blen_app, blen_attr_hdr.
  rewrite (datatype_blen _ Hdt), dataspace_blen. unfold size_attribute. unfold blen; cbn [length]. blia.
Qed.

(* for both variants of the version 2 padding switch (the writer emits version 3, which neither pads) *)
Lemma attribute_roundtrip_gen rep x : wf_attribute x = true ->
  dec_attribute_gen rep false (enc_attribute x) = Ok (proj_attribute x).
Proof.
  intros Hwf. pose proof (attribute_blen x Hwf) as Hlen.
  unfold wf_attribute, encok_attribute in Hwf. autorewrite with bool_prop in Hwf.
  destruct Hwf as ((((((((Hne & _) & _) & _) & Hname) & Hdt) & Hdts) & Hds) & Hdata).
  pose proof (size_dataspace_bound _ Hds) as Hdss.
  destruct x as [name dt ds dat]; cbn [at_name at_dt at_ds at_data] in *.
  pose proof (datatype_blen dt Hdt) as Edt. pose proof (dataspace_blen ds) as Eds.
  unfold size_attribute in Hlen. cbn [at_name at_dt at_ds at_data] in Hlen.
  rewrite enc_attribute_shape in *. cbn [at_name at_dt at_ds at_data] in *. rewrite !wrap16_small in * by blia.
  set (ns := blen name + 1) in *. unfold dec_attribute_gen. rewrite Hlen.
  destruct (attr_hdr_reads ns (blen (enc_datatype dt)) (blen (enc_dataspace ds))
              (name ++ [0] ++ enc_datatype dt ++ enc_dataspace ds ++ dat)) as (R0 & R2 & R4 & R6); try blia.
  (* where name, datatype, dataspace and data lie *)
  match type of R0 with index ?d 0 = _ => pose proof (fa_whole d) as F;
    assert (R1 : index d 1 = Ok 0) by reflexivity end.
  apply fa_split in F as [_ F]. apply fa_split in F as [Fn F]. apply fa_app_r, fa_split in F as [Ft F].
  apply fa_split in F as [Fs Fd]. rewrite blen_attr_hdr in *. change (blen [0]) with 1 in *.
  bnorm. unfold rd16. rewrite ltb_false, R0, R1 by blia. cbn [obind].
  change (N.land 0 3 =? 0) with true. cbn [negb]. rewrite !andb_false_r, R2, R4, R6. cbn [obind].
  change (3 <=? 3) with true. change (3 <? 3) with false. change (3 <? 2) with false.
  replace (if rep then false else false) with false by (destruct rep; reflexivity). cbv iota.
  rewrite ltb_false, (proj2 (N.ltb_lt 0 ns)), (fa_slice Fn) by blia. cbn [obind].
  rewrite ltb_false, (fa_slice Ft) by blia. cbn [obind]. rewrite datatype_roundtrip by auto. cbn [obind].
  rewrite ltb_false, (fa_slice Fs) by blia. cbn [obind]. rewrite dataspace_roundtrip by auto. cbn [obind].
  unfold proj_attribute. cbn [at_name at_dt at_ds at_data].
  destruct dat as [|d0 dr]; [now rewrite ltb_false by (rewrite blen_nil in *; blia)|].
  rewrite blen_cons in *.
  now rewrite (proj2 (N.ltb_lt _ _)), ltb_false, (fa_slice_from_end Fd) by (rewrite ?blen_cons, ?Hlen; blia).
Qed.

Lemma attribute_roundtrip x : wf_attribute x = true ->
  dec_attribute false (enc_attribute x) = Ok (proj_attribute x).
Proof. apply attribute_roundtrip_gen. Qed.
