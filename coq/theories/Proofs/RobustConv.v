(* C07: the conversion loops of Model/RobustConv.v (convertToFloat64, convertToStrings, parseCompoundData) for every raw
   slice a Go process can hold (len is an int: < 2^63) and every numElements < 2^64: a closed form of each loop, from which
   no panic, no fuel exhaustion, the make() bound and "Ok = all numElements elements fit" are read.
   Loop invariant: i * size <= len(rawData) (the guard of iteration i-1), hence no uint64 operation of iteration i wraps and
   rawData[offset : offset+size] is in range whenever the guard lets it be reached. *)
From HV Require Import Base.Prelude Base.Outcome Base.Bytes Model.RobustAlloc Model.RobustConv Proofs.RobustNoPanicBase Proofs.RobustAlloc.

(* a Go slice length *)
Definition int63 (x : N) : Prop := x < 9223372036854775808.

Lemma elem_loop_ok_body (body : bytes -> outcome unit) (raw : bytes) es n :
  int63 (blen raw) -> es < 4294967296 -> u64 n ->
  (forall s, blen s = es -> body s = Ok tt) ->
  forall fuel i, i <= n -> i * es <= blen raw -> (N.to_nat (n - i) < fuel)%nat ->
  elem_loop body fuel raw es n i = Some (if n * es <=? blen raw then Ok n else Err).
Proof.
  unfold int63, u64. intros Hraw Hes Hn Hbody.
  induction fuel as [|fuel IH]; intros i Hi Hinv Hf; [lia|].
  cbn [elem_loop]. cbv zeta. destruct (i <? n) eqn:Ein.
  - rewrite (wrap64_small (i * es)), (wrap64_small (i * es + es)) by lia.
    assert (Hmono : (i + 1) * es <= n * es) by (apply N.mul_le_mono_r; lia).
    destruct (blen raw <? i * es + es) eqn:Eg.
    + replace (n * es <=? blen raw) with false by lia. reflexivity.
    + destruct (slice_ok raw (i * es) (i * es + es)) as (s & Hs & Hl); [lia|lia|].
      rewrite Hs, (Hbody s), (wrap64_small (i + 1)) by lia. apply IH; lia.
  - assert (i = n) by lia. subst i.
    replace (n * es <=? blen raw) with true by lia. reflexivity.
Qed.

Lemma elem_loop_err_body (body : bytes -> outcome unit) (raw : bytes) es n :
  int63 (blen raw) -> es < 4294967296 ->
  (forall s, blen s = es -> body s = Err) ->
  forall fuel, elem_loop body (S fuel) raw es n 0 = Some (if 0 <? n then Err else Ok n).
Proof.
  unfold int63. intros Hraw Hes Hbody fuel.
  cbn [elem_loop]. cbv zeta. destruct (0 <? n) eqn:Ein; [|reflexivity].
  change (0 * es) with 0. rewrite (wrap64_small 0), (wrap64_small (0 + es)) by lia. change (0 + es) with es.
  destruct (blen raw <? es) eqn:Eg; [reflexivity|].
  destruct (slice_ok raw 0 es) as (s & Hs & Hl); [lia|lia|].
  rewrite Hs. rewrite (Hbody s) by lia. reflexivity.
Qed.

Theorem conv_float64_closed (raw : bytes) es n :
  int63 (blen raw) -> u64 n ->
  conv_float64 raw es n =
    (Some (if blen raw <? n then Err
           else if negb ((es =? 8) || (es =? 4)) then Err
           else if n * es <=? blen raw then Ok n else Err),
     if blen raw <? n then [] else [8 * n]).
Proof.
  intros Hraw Hn. unfold conv_float64. cbv zeta.
  destruct (blen raw <? n) eqn:E1; [reflexivity|].
  destruct (negb ((es =? 8) || (es =? 4))) eqn:E2; [reflexivity|].
  unfold conv_fuel.
  assert (Hes : es < 4294967296) by lia.
  rewrite (elem_loop_ok_body no_body raw es n Hraw Hes Hn (fun s _ => eq_refl)) by lia.
  reflexivity.
Qed.

Theorem conv_float64_alloc (raw : bytes) es n : alloc_bounded 8 0 raw (snd (conv_float64 raw es n)).
Proof.
  unfold conv_float64. cbv zeta. destruct (blen raw <? n) eqn:E1; [apply ab_nil|].
  destruct (negb ((es =? 8) || (es =? 4))); cbn [snd]; (apply ab_one; lia).
Qed.

Theorem conv_float64_ok (raw : bytes) es n k :
  int63 (blen raw) -> u64 n ->
  fst (conv_float64 raw es n) = Some (Ok k) -> k = n /\ n * es <= blen raw /\ (es = 8 \/ es = 4).
Proof.
  intros Hraw Hn. rewrite conv_float64_closed by assumption. cbn [fst].
  repeat dif; try discriminate. intros [= <-]. repeat split; lia.
Qed.

(* agreement with the closed form that the tie compares with Go (RobustAlloc.convert_to_float64) *)
Theorem conv_float64_consistent (raw : bytes) es n :
  blen raw < 2305843009213693952 -> u64 n ->
  conv_float64 raw es n = (Some (fst (convert_to_float64 raw es n)), snd (convert_to_float64 raw es n)).
Proof.
  intros Hraw Hn. rewrite conv_float64_closed by (auto; unfold int63; lia).
  unfold convert_to_float64. cbv zeta.
  destruct (blen raw <? n) eqn:E1; [reflexivity|].
  destruct (negb ((es =? 8) || (es =? 4))) eqn:E2; [reflexivity|].
  assert (Hes : es = 8 \/ es = 4) by lia.
  unfold u64, wrap64 in *.
  destruct Hes; subst es.
  all: destruct (n * _ <=? blen raw) eqn:E3; destruct ((0 <? n) && (blen raw <? _)) eqn:E4;
    cbn [fst snd]; try reflexivity; exfalso; lia.
Qed.

Corollary conv_float64_consistent_fst (raw : bytes) es n :
  blen raw < 2305843009213693952 -> u64 n ->
  fst (conv_float64 raw es n) = Some (fst (convert_to_float64 raw es n)).
Proof. intros. rewrite conv_float64_consistent by assumption. reflexivity. Qed.
Corollary conv_float64_consistent_snd (raw : bytes) es n :
  blen raw < 2305843009213693952 -> u64 n ->
  snd (conv_float64 raw es n) = snd (convert_to_float64 raw es n).
Proof. intros. rewrite conv_float64_consistent by assumption. reflexivity. Qed.

(* The bound 2^61 is needed: with 2^61 + 1 bytes and as many float64 elements, (n-1)*8 = 2^64 wraps to 0 in the closed
   form, which answers Ok; the loop (Go) stops with "data truncated" at the first element that does not fit.
   Such a slice cannot exist in a process (2 EiB): this is a limit of the closed form, not a defect of the Go code. *)
Theorem convert_to_float64_closed_form_wraps (raw : bytes) :
  blen raw = 2305843009213693953 ->
  fst (conv_float64 raw 8 (blen raw)) = Some Err /\ fst (convert_to_float64 raw 8 (blen raw)) = Ok (blen raw).
Proof.
  intros H. split.
  - rewrite conv_float64_closed by (unfold int63, u64; lia). cbn [fst]. rewrite H.
    vm_compute. reflexivity.
  - unfold convert_to_float64. rewrite H. vm_compute. reflexivity.
Qed.
Lemma bytes_of_any_length (m : N) : exists raw : bytes, blen raw = m.
Proof. exists (repeat 0 (N.to_nat m)). unfold blen. rewrite repeat_length. apply N2Nat.id. Qed.
Corollary conv_float64_consistent_needs_bound :
  exists raw : bytes, int63 (blen raw) /\
    fst (conv_float64 raw 8 (blen raw)) <> Some (fst (convert_to_float64 raw 8 (blen raw))).
Proof.
  destruct (bytes_of_any_length 2305843009213693953) as (raw & H). exists raw.
  destruct (convert_to_float64_closed_form_wraps raw H) as [H1 H2].
  split; [unfold int63; lia|]. rewrite H1, H2. discriminate.
Qed.

Theorem conv_strings_closed (raw : bytes) ss n :
  int63 (blen raw) -> u64 n ->
  conv_strings raw ss n =
    (Some (if blen raw <? n then Err
           else if (ss =? 0) || (16777216 <? ss) then Err
           else if n * ss <=? blen raw then Ok n else Err),
     if blen raw <? n then [] else [16 * n]).
Proof.
  intros Hraw Hn. unfold conv_strings, validate_buffer_size, MaxStringSize. cbv zeta.
  destruct (blen raw <? n) eqn:E1; [reflexivity|].
  destruct (ss =? 0) eqn:E2; cbn [orb]; [reflexivity|].
  destruct (16777216 <? ss) eqn:E3; [reflexivity|].
  unfold conv_fuel.
  assert (Hss : ss < 4294967296) by lia.
  rewrite (elem_loop_ok_body no_body raw ss n Hraw Hss Hn (fun s _ => eq_refl)) by lia.
  reflexivity.
Qed.

Theorem conv_strings_alloc (raw : bytes) ss n : alloc_bounded 16 0 raw (snd (conv_strings raw ss n)).
Proof.
  unfold conv_strings. cbv zeta. destruct (blen raw <? n) eqn:E1; [apply ab_nil|].
  destruct (validate_buffer_size ss MaxStringSize); cbn [snd]; (apply ab_one; lia).
Qed.

Theorem conv_strings_ok (raw : bytes) ss n k :
  int63 (blen raw) -> u64 n ->
  fst (conv_strings raw ss n) = Some (Ok k) -> k = n /\ n * ss <= blen raw /\ 1 <= ss <= 16777216.
Proof.
  intros Hraw Hn. rewrite conv_strings_closed by assumption. cbn [fst].
  repeat dif; try discriminate. intros [= <-]. repeat split; lia.
Qed.

(* the member loop looks only at the length of the struct slice, which is structSize *)
Lemma member_loop_len ss (members : list N) (sd : bytes) :
  blen sd = ss ->
  member_loop ss members sd = if forallb (fun off => off <=? ss) members then Ok tt else Err.
Proof.
  intros Hl. induction members as [|off rest IH]; cbn [member_loop forallb]; [reflexivity|].
  destruct (ss <? off) eqn:E.
  - replace (off <=? ss) with false by lia. reflexivity.
  - unfold slice_from. replace (off <=? blen sd) with true by lia.
    replace (off <=? ss) with true by lia. cbn [andb]. exact IH.
Qed.

Lemma div_guard ss n m : ss <> 0 -> m / ss <? n = false -> n * ss <= m.
Proof.
  intros H0 H. assert (ss * (m / ss) <= m) by (apply N.mul_div_le; exact H0).
  assert (n * ss <= (m / ss) * ss) by (apply N.mul_le_mono_r; lia). lia.
Qed.
(* after the guard  numElements > len/structSize  the in-loop "data truncated at element i" test never fires *)
Theorem conv_compound_closed (raw : bytes) ss (members : list N) n :
  int63 (blen raw) -> ss < 4294967296 -> u64 n ->
  conv_compound raw ss members n =
    (Some (if ss =? 0 then Err
           else if blen raw / ss <? n then Err
           else if (n =? 0) || forallb (fun off => off <=? ss) members then Ok n else Err),
     if (ss =? 0) || (blen raw / ss <? n) then [] else [8 * n]).
Proof.
  intros Hraw Hss Hn. unfold conv_compound.
  destruct (ss =? 0) eqn:E1; cbn [orb]; [reflexivity|].
  destruct (blen raw / ss <? n) eqn:E2; [reflexivity|].
  assert (Hfit : n * ss <= blen raw) by (apply div_guard; [lia|exact E2]).
  unfold conv_fuel. f_equal.
  destruct (forallb (fun off => off <=? ss) members) eqn:Em.
  - assert (Hb : forall s, blen s = ss -> member_loop ss members s = Ok tt)
      by (intros s Hs; rewrite member_loop_len by exact Hs; rewrite Em; reflexivity).
    rewrite (elem_loop_ok_body (member_loop ss members) raw ss n Hraw Hss Hn Hb) by lia.
    replace (n * ss <=? blen raw) with true by lia. rewrite orb_true_r. reflexivity.
  - assert (Hb : forall s, blen s = ss -> member_loop ss members s = Err)
      by (intros s Hs; rewrite member_loop_len by exact Hs; rewrite Em; reflexivity).
    rewrite (elem_loop_err_body (member_loop ss members) raw ss n Hraw Hss Hb).
    rewrite orb_false_r. destruct (n =? 0) eqn:E3; destruct (0 <? n) eqn:E4; try reflexivity; exfalso; lia.
Qed.

Theorem conv_compound_alloc (raw : bytes) ss (members : list N) n :
  alloc_bounded 8 0 raw (snd (conv_compound raw ss members n)).
Proof.
  unfold conv_compound. destruct (ss =? 0) eqn:E1; [apply ab_nil|].
  destruct (blen raw / ss <? n) eqn:E2; [apply ab_nil|]. cbn [snd].
  assert (blen raw / ss <= blen raw) by (apply N.div_le_upper_bound; nia).
  apply ab_one; lia.
Qed.

Theorem conv_compound_ok (raw : bytes) ss (members : list N) n k :
  int63 (blen raw) -> ss < 4294967296 -> u64 n ->
  fst (conv_compound raw ss members n) = Some (Ok k) -> k = n /\ n * ss <= blen raw /\ ss <> 0.
Proof.
  intros Hraw Hss Hn. rewrite conv_compound_closed by assumption. cbn [fst].
  destruct (ss =? 0) eqn:E1; [discriminate|].
  destruct (blen raw / ss <? n) eqn:E2; [discriminate|].
  dif; [|discriminate]. intros [= <-]. pose proof (div_guard ss n (blen raw)). repeat split; lia.
Qed.

Example conv_float64_two : conv_float64 (repeat 0 16) 8 2 = (Some (Ok 2), [16]).
Proof. vm_compute. reflexivity. Qed.
Example conv_float64_truncated : conv_float64 (repeat 0 15) 8 2 = (Some Err, [16]).
Proof. vm_compute. reflexivity. Qed.
Example conv_float64_too_many : conv_float64 (repeat 0 15) 8 16 = (Some Err, []).
Proof. vm_compute. reflexivity. Qed.
Example conv_float32_four : conv_float64 (repeat 0 16) 4 4 = (Some (Ok 4), [32]).
Proof. vm_compute. reflexivity. Qed.
Example conv_float64_bad_type : conv_float64 (repeat 0 16) 2 2 = (Some Err, [16]).
Proof. vm_compute. reflexivity. Qed.
Example conv_strings_two : conv_strings [104; 105; 0; 104; 111; 0] 3 2 = (Some (Ok 2), [32]).
Proof. vm_compute. reflexivity. Qed.
Example conv_strings_truncated : conv_strings [104; 105; 0; 104; 111] 3 2 = (Some Err, [32]).
Proof. vm_compute. reflexivity. Qed.
Example conv_strings_zero_size : conv_strings [104; 105] 0 2 = (Some Err, [32]).
Proof. vm_compute. reflexivity. Qed.
Example conv_compound_two : conv_compound (repeat 0 8) 4 [0; 2] 2 = (Some (Ok 2), [16]).
Proof. vm_compute. reflexivity. Qed.
Example conv_compound_member_beyond : conv_compound (repeat 0 8) 4 [0; 5] 2 = (Some Err, [16]).
Proof. vm_compute. reflexivity. Qed.
Example conv_compound_truncated : conv_compound (repeat 0 7) 4 [0; 2] 2 = (Some Err, []).
Proof. vm_compute. reflexivity. Qed.
Example conv_fuel_is_tight : elem_loop no_body (N.to_nat 2) (repeat 0 16) 8 2 0 = None.
Proof. vm_compute. reflexivity. Qed.
