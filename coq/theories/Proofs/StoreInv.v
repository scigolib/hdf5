(* The invariant st_ok of the states of a history and what it gives for one more operation.  do_close_spec says what
   Close does; step_ok / run_ok: every step keeps st_ok, init_ok: CreateForWrite establishes it.  Then, for any state
   with st_ok: the writes of a step are legal and miss every extent outside the targets (step_writes_legal,
   step_frame); what a failing call can have written (step_fail_legal, step_fail_quiet, step_fail_objs); sessions
   of quiet steps leave a settled store as it is (quiet_step_settled, noop_session); reopen_preserves. *)
From HV Require Import Base.Prelude Model.Store Proofs.Store Proofs.StoreOps.

Local Open Scope N_scope.

Section WithPatches.
Variables bp ba : bool.
Notation cfgb := (gcfg bp ba).

Record st_ok (s : state) : Prop := {
  ok_conf : conf s = cfgb;
  ok_ext : ext_ok (st s);
  ok_lens : lens_ok cfgb (exts (st s));
  ok_objs : objs_ok (objs s);
  ok_fs : ovf (st s) = false -> fsize (st s) <= next (al (st s));
  ok_sb : ovf (st s) = false -> sb_size (sbv s) <= next (al (st s));
  ok_closed : closed s = true -> ovf (st s) = false -> next (al (st s)) <= fsize (st s);
  ok_super : In (mkExt 0 (sb_size (sbv s)) 0 KSuper) (exts (st s));
  ok_sbeof : closed s = true -> next (al (st s)) <= sbeof s
}.

Definition is_session_op (o : op) : bool := match o with OpClose | OpReopen => true | _ => false end.

Definition cleared (s : state) : state :=
  mkState (clear_log (st s)) (objs s) (opidx s) (closed s) (session s) (sbv s) (conf s) (sbeof s) (gh s).

Lemma compile_cleared : forall s o, compile (cleared s) o = compile s o.
Proof. reflexivity. Qed.

Lemma targets_cleared : forall s o, targets (cleared s) o = targets s o.
Proof. reflexivity. Qed.

Lemma step_api : forall s o, is_session_op o = false ->
  step s o =
  (let '(cmds, ok, upd) := compile s o in
   let '(st', done) := exec (clear_log (st s)) cmds in
   let applies := match o with OpHardLink _ _ _ _ => done | _ => ok && done end in
   let g' := match o with OpWriteVL y lens sizes => snd (vl_compile s y lens sizes) | _ => gh s end in
   (mkState st' (if applies then upd (objs s) else objs s) (opidx s + 1) (closed s) (session s) (sbv s) (conf s) (sbeof s) g',
    ok && done)).
Proof. intros s o H. destruct o; try discriminate; reflexivity. Qed.

Lemma compile_closed : forall s o, closed s = true -> compile s o = reject.
Proof. intros s o H. unfold compile. rewrite H. reflexivity. Qed.

Lemma compile_ok : forall s o, st_ok s ->
  good bp ba (objs s) (targets s o) (fail_targets o) (may_leave_bytes bp ba o) (compile s o).
Proof. intros s o Hs. apply compile_good; [apply (ok_objs _ Hs) | apply (ok_conf _ Hs)]. Qed.

Lemma step_api_inv : forall s o T,
  st_ok s -> is_session_op o = false ->
  cmds_ok cfgb T [] (fst (fst (compile s o))) = true ->
  grows (st s) (st (fst (step s o))) /\ lens_ok cfgb (exts (st (fst (step s o)))) /\
  (ovf (st (fst (step s o))) = false -> inv T (next (al (st s))) [] [] (st (fst (step s o)))).
Proof.
  intros s o T Hs Ho HC. rewrite (step_api s o Ho).
  destruct (compile s o) as [[cmds ok] upd]. cbn [fst] in HC.
  destruct (exec (clear_log (st s)) cmds) as [st' done] eqn:E. cbn [fst st].
  split; [exact (exec_grows _ _ _ _ E)|].
  apply (exec_inv _ _ _ _ _ _ _ _ _ HC E); [apply (ok_lens _ Hs)|].
  intros H. destruct (ok_ext _ Hs H). constructor; cbn [clear_log al exts fsize wlog]; auto.
  - lia.
  - intros o' k' e [].
  - apply (ok_fs _ Hs H).
Qed.

(* globalHeapWriter.Flush: at most one write, of the recorded size, at the start of the collection of that size *)
Lemma gflush_spec : forall g s, lens_ok cfgb (exts s) ->
  (g = None -> gflush g s = s) /\
  (gflush g s = s \/
   exists e sz, In e (exts s) /\ owner e = 0 /\ kind_of e = KGCol sz /\ len e = sz /\ gflush g s = write s (start e) sz).
Proof.
  intros g s Hl. unfold gflush. destruct g as [[sz fr]|]; [split; [discriminate|] | auto].
  destruct (find_ext (exts s) 0 (KGCol sz)) as [e|] eqn:E; [right | auto].
  destruct (find_ext_spec _ _ _ _ E) as (Hin & Ho & Hk). exists e, sz. repeat split; auto.
  unfold lens_ok in Hl. rewrite Forall_forall in Hl. apply (Hl e Hin sz). rewrite Hk. reflexivity.
Qed.

(* What Close does to a state (on the cleared copy used by step): only the file size F, the write log W and the
   stored end-of-file address SB change.  The writes are the superblock update and the flush of the current global
   heap collection; there is none when the writer is closed already, or the stored address is current and no
   collection waits. *)
Lemma do_close_spec : forall s, st_ok s -> exists F W SB,
  do_close (cleared s) = mkState (mkStore (al (st s)) (exts (st s)) F W (blocks (st s)) (ovf (st s)))
                                 (objs s) (opidx s) true (session s) (sbv s) (conf s) SB (gh s) /\
  (ovf (st s) = false -> F = next (al (st s))) /\ next (al (st s)) <= SB /\
  (forall w, In w W -> w = (0, sb_update_len) \/
      exists e sz, In e (exts (st s)) /\ owner e = 0 /\ kind_of e = KGCol sz /\ len e = sz /\ w = (start e, sz)) /\
  (closed s = true \/ next (al (st s)) <= sbeof s /\ gh s = None ->
   W = [] /\ SB = sbeof s /\ (next (al (st s)) <= fsize (st s) -> F = fsize (st s))).
Proof.
  intros s Hs. unfold do_close, cleared. cbn [closed]. destruct (closed s) eqn:Ecl.
  - exists (fsize (st s)), [], (sbeof s). split; [reflexivity|]. repeat split; auto.
    + intros H. pose proof (ok_closed _ Hs Ecl H). pose proof (ok_fs _ Hs H). lia.
    + apply (ok_sbeof _ Hs Ecl).
    + intros w [].
  - cbn [st objs conf sbv session sbeof gh opidx]. rewrite (ok_conf _ Hs). unfold close_store. cbn [c_extend_close gcfg].
    destruct (gflush_spec (gh s) (clear_log (st s)) (ok_lens _ Hs)) as [Gn G].
    set (st0 := gflush (gh s) (clear_log (st s))) in *.
    set (st1 := if sbeof s <? next (al (clear_log (st s))) then write st0 0 sb_update_len else st0).
    cbn [clear_log al exts] in G.
    (* the flushed collection and the superblock lie below the allocator *)
    assert (B0 : ovf (st s) = false -> fsize st0 <= next (al (st s))).
    { intros H. pose proof (ok_fs _ Hs H). destruct G as [->|(e & sz & Hin & _ & _ & HL & ->)]; [assumption|].
      destruct (ok_ext _ Hs H) as [HF _]. rewrite Forall_forall in HF. specialize (HF e Hin). unfold ext_end in HF.
      apply write_fsize; cbn [clear_log fsize]; lia. }
    assert (B1 : ovf (st s) = false -> fsize st1 <= next (al (st s))).
    { intros H. specialize (B0 H). pose proof (ok_sb _ Hs H). unfold st1. destruct (sbeof s <? _); [|assumption].
      apply write_fsize; [assumption|]. unfold sb_update_len, sb_size in *. destruct (sbv s =? 0); lia. }
    assert (W0 : forall w, In w (wlog st0) ->
      exists e sz, In e (exts (st s)) /\ owner e = 0 /\ kind_of e = KGCol sz /\ len e = sz /\ w = (start e, sz)).
    { destruct G as [->|(e & sz & Hin & Ho & Hk & HL & ->)]; intros w Hw; [destruct Hw|].
      destruct (write_log _ _ _ _ Hw) as [[]| ->]. exists e, sz. auto. }
    assert (E : mkStore (al st1) (exts st1) (N.max (fsize st1) (next (al st1))) (wlog st1) (blocks st1) (ovf st1) =
                mkStore (al (st s)) (exts (st s)) (N.max (fsize st1) (next (al (st s)))) (wlog st1) (blocks (st s)) (ovf (st s))).
    { unfold st1. destruct (sbeof s <? _); rewrite ?write_al, ?write_exts, ?write_blocks, ?write_ovf;
        destruct G as [->|(e & sz & _ & _ & _ & _ & ->)]; rewrite ?write_al, ?write_exts, ?write_blocks, ?write_ovf; reflexivity. }
    rewrite E. eexists _, _, _. split; [reflexivity|]. cbn [clear_log al]. split; [|split; [|split]].
    + intros H. specialize (B1 H). lia.
    + lia.
    + intros w Hw. unfold st1 in Hw. destruct (sbeof s <? _); [|right; exact (W0 w Hw)].
      destruct (write_log _ _ _ _ Hw) as [H| ->]; [right; exact (W0 w H) | left; reflexivity].
    + intros [Hc|[Hle Hg]]; [discriminate|]. unfold st1. cbn [clear_log al].
      rewrite (proj2 (N.ltb_ge _ _) Hle), (Gn Hg). cbn [clear_log wlog fsize]. repeat split; lia.
Qed.

Lemma step_session_store : forall s o, is_session_op o = true ->
  exts (st (fst (step s o))) = exts (st (do_close (cleared s))) /\
  wlog (st (fst (step s o))) = wlog (st (do_close (cleared s))) /\
  ovf (st (fst (step s o))) = ovf (st (do_close (cleared s))).
Proof. intros s o H. destruct o; try discriminate; cbn [step fst st reopen_store exts wlog ovf]; fold (cleared s); auto. Qed.

Theorem step_ok : forall s o, st_ok s -> st_ok (fst (step s o)).
Proof.
  intros s o Hs. destruct (is_session_op o) eqn:Eo.
  - destruct (do_close_spec s Hs) as (F & W & SB & E & Dfs & Dsb & _).
    destruct o; try discriminate; cbn [step fst]; fold (cleared s); rewrite E;
      constructor; cbn [conf st objs closed sbv sbeof reopen_store exts al next fsize ovf]; try discriminate;
      try (apply Hs).
    + (* Close, ok_fs *) intros H. rewrite (Dfs H). lia.
    + (* Close, ok_closed *) intros _ H. rewrite (Dfs H). lia.
    + (* Close, ok_sbeof *) intros _. exact Dsb.
    + (* Reopen, ok_ext: the new allocator starts at or above the file size, which Close made the old end of file *)
      intros H. destruct (ok_ext _ Hs H) as [HF HN]. split; [|exact HN].
      eapply Forall_impl; [|exact HF]. cbn. intros a Ha. rewrite (Dfs H). lia.
    + (* Reopen, ok_fs *) intros H. lia.
    + (* Reopen, ok_sb *) intros H. lia.
  - destruct (compile_ok s o Hs) as (HC & Hobj & _).
    destruct (step_api_inv s o _ Hs Eo HC) as (Hg & Hl & Hi).
    assert (Hfields : conf (fst (step s o)) = conf s /\ sbv (fst (step s o)) = sbv s /\ closed (fst (step s o)) = closed s /\
                      sbeof (fst (step s o)) = sbeof s /\ (closed s = true -> st (fst (step s o)) = clear_log (st s)) /\
                      objs_ok (objs (fst (step s o)))).
    { rewrite (step_api s o Eo). destruct (compile s o) as [[cmds ok] upd] eqn:Ec.
      destruct (exec (clear_log (st s)) cmds) as [st' done] eqn:Ee. cbn [fst snd conf sbv closed sbeof st objs] in *.
      repeat split.
      - (* a closed writer rejects every call: the store is unchanged *)
        intros Hcl. rewrite (compile_closed s o Hcl) in Ec. inversion Ec; subst. inversion Ee. reflexivity.
      - destruct (match o with OpHardLink _ _ _ _ => done | _ => ok && done end); [exact Hobj | apply (ok_objs _ Hs)]. }
    destruct Hfields as (F1 & F2 & F3 & F6 & F4 & F5).
    constructor; rewrite ?F1, ?F2, ?F3, ?F6.
    + (* ok_conf *) apply (ok_conf _ Hs).
    + (* ok_ext *) intros H. destruct (Hi H). split; assumption.
    + (* ok_lens *) exact Hl.
    + (* ok_objs *) exact F5.
    + (* ok_fs *) intros H. apply (i_fs _ _ _ _ _ (Hi H)).
    + (* ok_sb *) intros H. pose proof (i_next _ _ _ _ _ (Hi H)). pose proof (ok_sb _ Hs (proj2 Hg H)). lia.
    + (* ok_closed *) intros Hcl. rewrite (F4 Hcl). apply (ok_closed _ Hs Hcl).
    + (* ok_super *) apply (proj1 Hg), (ok_super _ Hs).
    + (* ok_sbeof *) intros Hcl. rewrite (F4 Hcl). apply (ok_sbeof _ Hs Hcl).
Qed.

Theorem run_ok : forall h s, st_ok s -> st_ok (run s h).
Proof. induction h as [|o r IH]; intros s Hs; [exact Hs|]. cbn [run fold_left]. apply IH. apply step_ok. exact Hs. Qed.

(* C05 (extent part): extents pairwise disjoint, below the allocator and, after Close, below the file size *)
Theorem st_ok_extents : forall s, st_ok s -> ovf (st s) = false ->
  NoOverlap (exts (st s)) /\
  Forall (fun e => ext_end e <= next (al (st s))) (exts (st s)) /\
  (closed s = true -> Forall (fun e => ext_end e <= fsize (st s)) (exts (st s))).
Proof.
  intros s Hs Hov. destruct (ok_ext _ Hs Hov) as [HF HN]. repeat split; auto.
  intros Hc. pose proof (ok_closed _ Hs Hc Hov). eapply Forall_impl; [|exact HF]. cbn. intros; lia.
Qed.

Definition lens_b (c : cfg) (l : list extent) : bool :=
  forallb (fun e => match sized c (kind_of e) with Some L => len e =? L | None => true end) l.
Lemma lens_b_sound : forall c l, lens_b c l = true -> lens_ok c l.
Proof.
  intros c l H. unfold lens_b in H. rewrite forallb_forall in H. unfold lens_ok. rewrite Forall_forall.
  intros e He L HL. specialize (H e He). rewrite HL in H. apply N.eqb_eq. exact H.
Qed.

(* the part of st_ok that is evaluated on the initial state *)
Definition init_b (s : state) : bool :=
  store_ok_b (st s) && lens_b cfgb (exts (st s)) &&
  (fsize (st s) <=? next (al (st s))) && (sb_size (sbv s) <=? next (al (st s))).

Lemma init_ok : forall sb, st_ok (init cfgb sb).
Proof.
  intros sb.
  (* two initial stores: the version matters only through sb =? 0, which computes for 0 and for N.pos p *)
  assert (B : init_b (init cfgb sb) = true) by (destruct sb; vm_compute; reflexivity).
  unfold init_b in B. rewrite !andb_true_iff, !N.leb_le in B. destruct B as [[[B1 B2] B3] B4].
  constructor; try discriminate; auto.
  - apply store_ok_b_sound, B1.
  - apply lens_b_sound, B2.
  - repeat constructor; discriminate.
  - (* the superblock extent is there before the first command runs *)
    cbn [init st sbv]. destruct (exec _ (init_cmds cfgb sb)) as [s1 b] eqn:E.
    apply (proj1 (exec_grows _ _ _ _ E)). left. reflexivity.
Qed.

Theorem step_writes_legal : forall s o, st_ok s -> ovf (st (fst (step s o))) = false ->
  forall w, In w (wlog (st (fst (step s o)))) ->
  legal (targets s o) (next (al (st s))) (exts (st (fst (step s o)))) w.
Proof.
  intros s o Hs Hov w Hw. destruct (is_session_op o) eqn:Eo.
  - destruct (step_session_store s o Eo) as (Ex & Ew & _).
    destruct (do_close_spec s Hs) as (F & W & SB & E & _ & _ & Dw & _).
    rewrite Ew in Hw. rewrite Ex. rewrite E in *. cbn [st exts wlog] in *.
    destruct (Dw w Hw) as [->|(e & sz & Hin & Ho & Hk & HL & ->)].
    + (* the superblock update of Close *)
      exists (mkExt 0 (sb_size (sbv s)) 0 KSuper). split; [apply (ok_super _ Hs)|].
      cbn. repeat split; try lia.
      * unfold ext_end, sb_update_len, sb_size. cbn. destruct (sbv s =? 0); lia.
      * left. destruct o; try discriminate; reflexivity.
    + (* the flush of the current global heap collection: exactly its extent *)
      exists e. split; [exact Hin|]. cbn [fst snd]. unfold ext_end. rewrite HL. repeat split; try lia.
      left. rewrite Ho, Hk. destruct o; try discriminate; reflexivity.
  - destruct (step_api_inv s o _ Hs Eo (proj1 (compile_ok s o Hs))) as (_ & _ & Hi).
    destruct (i_log _ _ _ _ _ (Hi Hov) w Hw) as [[]|H]. exact H.
Qed.

Lemma step_exts_incl : forall s o, st_ok s -> ovf (st (fst (step s o))) = false ->
  incl (exts (st s)) (exts (st (fst (step s o)))) /\ ovf (st s) = false.
Proof.
  intros s o Hs Hov. destruct (is_session_op o) eqn:Eo.
  - destruct (step_session_store s o Eo) as (Ex & _ & Eo').
    destruct (do_close_spec s Hs) as (F & W & SB & E & _).
    rewrite Ex, E. rewrite Eo', E in Hov. split; [apply incl_refl | exact Hov].
  - destruct (step_api_inv s o _ Hs Eo (proj1 (compile_ok s o Hs))) as ([Hi Ho] & _). auto.
Qed.

Theorem step_frame : forall s o, st_ok s -> ovf (st (fst (step s o))) = false ->
  forall e', In e' (exts (st s)) -> targets s o (owner e') (kind_of e') = false ->
  forall w, In w (wlog (st (fst (step s o)))) -> wmisses w e'.
Proof.
  intros s o Hs Hov e' Hin HT w Hw.
  destruct (step_exts_incl s o Hs Hov) as [Hi Hov0].
  destruct (ok_ext _ (step_ok s o Hs) Hov) as [_ HN].
  destruct (ok_ext _ Hs Hov0) as [HF _]. rewrite Forall_forall in HF.
  eapply legal_frame; eauto.
  apply step_writes_legal; auto.
Qed.

Theorem step_frame_other : forall s o y, st_ok s -> ovf (st (fst (step s o))) = false ->
  (forall k, targets s o y k = false) ->
  forall e', In e' (exts (st s)) -> owner e' = y ->
  In e' (exts (st (fst (step s o)))) /\ forall w, In w (wlog (st (fst (step s o)))) -> wmisses w e'.
Proof.
  intros s o y Hs Hov HT e' Hin Hy. split.
  - apply (step_exts_incl s o Hs Hov), Hin.
  - apply (step_frame s o Hs Hov e' Hin). rewrite Hy. apply HT.
Qed.

(* A write that starts inside an extent ends inside it.  For a global heap collection this is the lazy flush (at
   roll-over, at Close): one write of exactly the collection's extent, because the size recorded by createNewHeap is
   the size it allocated. *)
Theorem step_write_within : forall s o w, st_ok s -> ovf (st (fst (step s o))) = false ->
  In w (wlog (st (fst (step s o)))) ->
  forall e, In e (exts (st (fst (step s o)))) -> start e <= fst w -> fst w < ext_end e -> fst w + snd w <= ext_end e.
Proof.
  intros s o w Hs Hov Hw e Hin H1 H2.
  destruct (step_writes_legal s o Hs Hov w Hw) as (e0 & Hin0 & A & B & _).
  destruct (ok_ext _ (step_ok s o Hs) Hov) as [_ HN].
  destruct (NoOverlap_In _ _ _ HN Hin0 Hin) as [->|[D|D]]; unfold ext_end in *; lia.
Qed.

Definition op_fails (s : state) (o : op) : Prop := snd (fst (compile s o)) = false.

Theorem step_fail_legal : forall s o, st_ok s -> is_session_op o = false -> op_fails s o ->
  ovf (st (fst (step s o))) = false ->
  forall w, In w (wlog (st (fst (step s o)))) ->
  legal (fail_targets o) (next (al (st s))) (exts (st (fst (step s o)))) w.
Proof.
  intros s o Hs Eo Hf Hov w Hw. destruct (compile_ok s o Hs) as (_ & _ & HC & _).
  destruct (step_api_inv s o _ Hs Eo (HC Hf)) as (_ & _ & Hi).
  destruct (i_log _ _ _ _ _ (Hi Hov) w Hw) as [[]|H]. exact H.
Qed.

(* a failing call that is not a creation, a new attribute, a hard link or a chunked write
   performs no allocation and no write at all *)
Theorem step_fail_quiet : forall s o, st_ok s -> is_session_op o = false -> op_fails s o ->
  may_leave_bytes bp ba o = false ->
  st (fst (step s o)) = clear_log (st s) /\ objs (fst (step s o)) = objs s.
Proof.
  intros s o Hs Eo Hf Hm. destruct (compile_ok s o Hs) as (_ & _ & _ & G4 & G5).
  specialize (G4 Hf Hm). specialize (G5 Hf G4). unfold op_fails in Hf.
  rewrite (step_api s o Eo). destruct (compile s o) as [[cmds ok] upd]. cbn [fst snd] in *. subst. cbn.
  rewrite G5. destruct o; try discriminate; auto.
Qed.

(* a failed call never changes the bookkeeping, except the reference-count message of a failed hard link *)
Theorem step_fail_objs : forall s o, is_session_op o = false -> op_fails s o ->
  (forall p nl dup t, o <> OpHardLink p nl dup t) ->
  objs (fst (step s o)) = objs s.
Proof.
  intros s o Eo Hf Hn. rewrite (step_api s o Eo). unfold op_fails in Hf.
  destruct (compile s o) as [[cmds ok] upd]. cbn in Hf. subst ok.
  destruct (exec (clear_log (st s)) cmds) as [st' done]. cbn.
  destruct o; try reflexivity. exfalso. eapply Hn; reflexivity.
Qed.

Definition quiet_step (s : state) (o : op) : Prop :=
  match o with OpClose | OpReopen => True | _ => fst (fst (compile s o)) = [] end.

(* which calls are quiet: every call refused by validation, and every failing call that is not a creation,
   a new attribute, a hard link or a chunked write *)
Lemma fail_quiet_step : forall s o, st_ok s ->
  is_session_op o = false -> op_fails s o -> may_leave_bytes bp ba o = false -> quiet_step s o.
Proof.
  intros s o Hs Eo Hf Hm. destruct (compile_ok s o Hs) as (_ & _ & _ & G & _).
  destruct o; try discriminate; exact (G Hf Hm).
Qed.

Fixpoint all_quiet (s : state) (h : list op) : Prop :=
  match h with [] => True | o :: r => quiet_step s o /\ all_quiet (fst (step s o)) r end.

Fixpoint run_writes (s : state) (h : list op) : list (N * N) :=
  match h with [] => [] | o :: r => wlog (st (fst (step s o))) ++ run_writes (fst (step s o)) r end.

Definition settled (F : N) (E : list extent) (s : state) : Prop :=
  st_ok s /\ fsize (st s) = F /\ next (al (st s)) = F /\ exts (st s) = E /\ ovf (st s) = false /\ F <= sbeof s /\
  (closed s = true \/ gh s = None).      (* no global heap collection waits for the flush of the next Close *)

Lemma vl_compile_quiet : forall s y lens sizes, gh s = None ->
  fst (fst (compile s (OpWriteVL y lens sizes))) = [] -> snd (vl_compile s y lens sizes) = None.
Proof.
  intros s y lens sizes Hg H. unfold compile in H. unfold vl_compile in *.
  destruct (closed s); [exact Hg|].
  destruct (get_obj (objs s) y) as [ob|]; [|exact Hg].
  rewrite Hg in *. destruct (vl_walk None lens) as [hc g'] eqn:Ev.
  destruct (o_kind ob); try reflexivity.
  - cbn in H. apply app_eq_nil in H. destruct H as [_ H]. discriminate.
  - destruct (negb (session s =? 0)); [reflexivity|]. destruct sizes as [|n0 sz]; [reflexivity|].
    destruct (chunked_write y ob (n0 :: sz)) as [[cc ok] upd]. cbn in H |- *. apply app_eq_nil in H. destruct H as [H _]. subst hc.
    apply (vl_walk_none _ _ Ev).
Qed.

Lemma quiet_step_settled : forall F E s o, settled F E s -> quiet_step s o ->
  settled F E (fst (step s o)) /\ wlog (st (fst (step s o))) = [].
Proof.
  intros F E s o (Hs & H1 & H2 & H3 & H4 & H5 & H6) Hq.
  pose proof (step_ok s o Hs) as Hs'. unfold settled.
  destruct (is_session_op o) eqn:Eo.
  - destruct (do_close_spec s Hs) as (F' & W & SB & Ed & _ & _ & _ & Dq).
    destruct Dq as (-> & -> & DF); [destruct H6; [left; assumption | right; split; [lia | assumption]]|].
    rewrite DF in Ed by lia.
    destruct o; try discriminate; cbn [step fst] in *; fold (cleared s) in *; rewrite Ed in *;
      cbn [st sbeof reopen_store fsize al next exts ovf wlog gh closed];
      (split; [split; [exact Hs'|] | reflexivity]); repeat split; auto.
    pose proof (ok_sb _ Hs H4). lia.
  - cbn [quiet_step] in Hq. assert (Hq' : fst (fst (compile s o)) = []) by (destruct o; try discriminate; exact Hq).
    assert (Hg' : closed s = true \/
                  match o with OpWriteVL y lens sizes => snd (vl_compile s y lens sizes) | _ => gh s end = None).
    { destruct H6 as [Hc|Hg]; [left; exact Hc|]. right. destruct o; try exact Hg. apply vl_compile_quiet; auto. }
    rewrite (step_api s o Eo) in *. destruct (compile s o) as [[cmds ok] upd]. cbn [fst] in Hq'. subst cmds.
    cbn [exec fst st] in *. split; [split; [exact Hs'|] | reflexivity].
    cbn [st sbeof clear_log fsize al next exts ovf closed gh]. repeat split; auto.
Qed.

Lemma all_quiet_settled : forall h F E s, settled F E s -> all_quiet s h ->
  settled F E (run s h) /\ run_writes s h = [].
Proof.
  induction h as [|o r IH]; intros F E s Hs Hq; [split; [exact Hs | reflexivity]|].
  cbn [all_quiet] in Hq. destruct Hq as [Hq1 Hq2].
  destruct (quiet_step_settled F E s o Hs Hq1) as [Hs' Hw].
  cbn [run fold_left run_writes]. rewrite Hw. cbn [app]. apply IH; auto.
Qed.

Theorem noop_session : forall s h, st_ok s -> closed s = true -> ovf (st s) = false ->
  all_quiet s (OpReopen :: h ++ [OpClose]) ->
  let s' := run s (OpReopen :: h ++ [OpClose]) in
  fsize (st s') = fsize (st s) /\ exts (st s') = exts (st s) /\
  next (al (st s')) = next (al (st s)) /\ run_writes s (OpReopen :: h ++ [OpClose]) = [].
Proof.
  intros s h Hs Hc Ho Hq s'.
  pose proof (ok_fs _ Hs Ho) as A. pose proof (ok_closed _ Hs Hc Ho) as B. pose proof (ok_sbeof _ Hs Hc) as C.
  assert (Hst : settled (fsize (st s)) (exts (st s)) s) by (split; [exact Hs|]; repeat split; auto; lia).
  destruct (all_quiet_settled _ _ _ _ Hst Hq) as [(_ & H1 & H2 & H3 & _) Hw].
  fold s' in H1, H2, H3. repeat split; auto. lia.
Qed.

(* reopen after close: all extents stay valid and disjoint, and the allocator is at or above every one of them, so
   later allocations are disjoint from all of them *)
Theorem reopen_preserves : forall s, st_ok s ->
  let s1 := fst (step s OpReopen) in
  ovf (st s1) = false ->
  (NoOverlap (exts (st s1)) /\ Forall (fun e => ext_end e <= next (al (st s1))) (exts (st s1))) /\
  incl (exts (st s)) (exts (st s1)) /\
  forall o k n e s2, alloc_ext (st s1) o k n = Some (e, s2) -> ovf s2 = false ->
    forall e', In e' (exts (st s)) -> edisj e e'.
Proof.
  intros s Hs s1 Hov. destruct (ok_ext _ (step_ok s OpReopen Hs) Hov) as [HF HN]. fold s1 in HF, HN.
  destruct (step_exts_incl s OpReopen Hs Hov) as [Hi _]. fold s1 in Hi.
  split; [split; assumption|]. split; [exact Hi|].
  intros o k n e s2 Ha Hov2 e' Hin.
  destruct (alloc_ext_fresh _ _ _ _ _ _ (ok_ext _ (step_ok s OpReopen Hs)) Ha Hov2) as (_ & _ & Hd).
  rewrite Forall_forall in Hd. apply Hd, Hi, Hin.
Qed.

End WithPatches.
