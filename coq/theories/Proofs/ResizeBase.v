(* C13, object-header level: basic lemmas for Model/Resize.v (WriteAt in place, validation, message lists). *)
From HV Require Import Base.Prelude Base.Outcome Base.Bytes Model.CodecMsg Model.CodecOhdr Model.Resize.
From HV Require Import Proofs.CodecMsg Proofs.CodecOhdr.

Lemma write_at_mid (pre old new suf : list N) : length new = length old ->
  write_at (pre ++ old ++ suf) (blen pre) new = pre ++ new ++ suf.
Proof.
  intros HL. unfold write_at, blen. cbv zeta. rewrite !Nat2N.id. bnorm.
  replace (length pre + length new - length (pre ++ old ++ suf))%nat with 0%nat by (rewrite !app_length; lia).
  cbn [repeat]. rewrite app_nil_r.
  rewrite firstn_app, firstn_all, Nat.sub_diag. cbn [firstn]. rewrite app_nil_r.
  f_equal. f_equal.
  rewrite skipn_app. rewrite skipn_all2 by lia. cbn [app].
  replace (length pre + length new - length pre)%nat with (length old) by lia.
  rewrite skipn_app, skipn_all, Nat.sub_diag. reflexivity.
Qed.

Lemma check_max_spec new : forall maxd, length new = length maxd ->
  check_max new maxd = if within_max new maxd then ROk else RErr.
Proof.
  induction new as [|d r IH]; intros [|m mr] HL; cbn [length] in HL; try discriminate;
    cbn [check_max within_max]; auto.
  destruct (m =? UNLIMITED); cbn [negb andb orb].
  - apply IH; lia.
  - rewrite N.ltb_antisym. destruct (d <=? m); cbn [negb]; [apply IH; lia | reflexivity].
Qed.

(* without any assumption on the handle: a request that passes the loop is within the maxima *)
Lemma check_max_sound new : forall maxd, check_max new maxd = ROk -> within_max new maxd = true.
Proof.
  induction new as [|d r IH]; intros [|m mr] H; cbn [check_max within_max] in *; auto; try discriminate.
  destruct (m =? UNLIMITED); cbn [negb andb orb] in *.
  - apply IH; exact H.
  - rewrite N.ltb_antisym in H. destruct (d <=? m); cbn [negb] in *; [apply IH; exact H | discriminate].
Qed.

Lemma forallb_nz_pos l : forallb (fun d => negb (d =? 0)) l = forallb (fun d => 0 <? d) l.
Proof. induction l as [|d r IH]; [reflexivity|]. cbn [forallb]. rewrite IH. destruct d; reflexivity. Qed.

Lemma new_coordinator_spec new chunk :
  new_coordinator new chunk =
  if (length new =? length chunk)%nat && negb (length new =? 0)%nat && forallb (fun d => 0 <? d) new
     && forallb (fun d => negb (d =? 0)) chunk
  then Some (num_chunks new chunk) else None.
Proof.
  unfold new_coordinator. rewrite (forallb_nz_pos new).
  destruct (length new =? length chunk)%nat; cbn [negb andb]; [|reflexivity].
  destruct (length new =? 0)%nat; cbn [negb andb]; [reflexivity|].
  destruct (forallb (fun d => 0 <? d) new); cbn [negb andb]; [|reflexivity].
  destruct (forallb (fun d => negb (d =? 0)) chunk); reflexivity.
Qed.

Lemma handle_ok_inv h : handle_ok h = true ->
  rh_chunked h = true /\ length (rh_dims h) <> 0%nat /\ length (rh_maxdims h) = length (rh_dims h) /\
  length (rh_chunkdims h) = length (rh_dims h) /\ forallb (fun d => negb (d =? 0)) (rh_chunkdims h) = true.
Proof.
  unfold handle_ok. intros H.
  apply andb_true_iff in H as [H H5]. apply andb_true_iff in H as [H H4].
  apply andb_true_iff in H as [H H3]. apply andb_true_iff in H as [H1 H2].
  apply negb_true_iff, Nat.eqb_neq in H2. apply Nat.eqb_eq in H3, H4. auto.
Qed.

Lemma resize_ok_inv dims maxd new : resize_ok dims maxd new = true ->
  length new = length dims /\ forallb (fun d => 0 <? d) new = true /\ within_max new maxd = true.
Proof.
  unfold resize_ok. intros H. apply andb_true_iff in H as [H H3]. apply andb_true_iff in H as [H1 H2].
  apply Nat.eqb_eq in H1. auto.
Qed.

Lemma to_hmsg_msgs_at ms : forall a, map to_hmsg (msgs_at_v2 ms a) = ms.
Proof.
  induction ms as [|m r IH]; intros a; [reflexivity|].
  cbn [msgs_at_v2 map]. rewrite IH. unfold to_hmsg. cbn [hmp_type hmp_data]. destruct m; reflexivity.
Qed.

Lemma chunk_size_v2_cons m l : chunk_size_v2 (m :: l) = 4 + blen (hm_data m) + chunk_size_v2 l.
Proof. reflexivity. Qed.

Lemma msgs_at_v2_app l1 : forall l2 a,
  msgs_at_v2 (l1 ++ l2) a = msgs_at_v2 l1 a ++ msgs_at_v2 l2 (a + chunk_size_v2 l1).
Proof.
  induction l1 as [|m r IH]; intros l2 a.
  - cbn [app msgs_at_v2]. change (chunk_size_v2 []) with 0. f_equal. blia.
  - cbn [app msgs_at_v2]. rewrite IH. rewrite (chunk_size_v2_cons m r).
    replace (a + 4 + blen (hm_data m) + chunk_size_v2 r) with (a + (4 + blen (hm_data m) + chunk_size_v2 r)) by blia.
    reflexivity.
Qed.

Lemma chunk_size_v2_app l1 l2 : chunk_size_v2 (l1 ++ l2) = chunk_size_v2 l1 + chunk_size_v2 l2.
Proof.
  induction l1 as [|m r IH]; [change (chunk_size_v2 []) with 0; cbn [app]; blia|].
  cbn [app]. rewrite !chunk_size_v2_cons, IH. blia.
Qed.

Lemma body_v2_app l1 l2 : body_v2 (l1 ++ l2) = body_v2 l1 ++ body_v2 l2.
Proof. unfold body_v2. rewrite map_app, concat_app. reflexivity. Qed.

Lemma body_v2_cons m l : body_v2 (m :: l) = enc_msg_v2 m ++ body_v2 l.
Proof. reflexivity. Qed.

(* the loop of step 4 stops at the first dataspace message *)
Lemma find_dataspace_at before : forall m after a i v,
  no_ds before = true -> hm_type m = MSG_DATASPACE -> dec_dataspace (hm_data m) = Ok v ->
  find_dataspace (msgs_at_v2 (before ++ m :: after) a) i = Ok (i + length before)%nat.
Proof.
  induction before as [|b r IH]; intros m after a i v Hno Hty Hdec.
  - cbn [app msgs_at_v2 find_dataspace hmp_type hmp_data length]. rewrite Hty. cbn [N.eqb Pos.eqb MSG_DATASPACE].
    change (MSG_DATASPACE =? MSG_DATASPACE) with true. cbv iota. rewrite Hdec. cbn [obind]. f_equal. lia.
  - cbn [no_ds forallb] in Hno. apply andb_true_iff in Hno as [Hb Hr]. apply negb_true_iff in Hb.
    cbn [app msgs_at_v2 find_dataspace hmp_type length]. rewrite Hb.
    rewrite (IH m after _ (S i) v Hr Hty Hdec). f_equal. lia.
Qed.

Lemma first_dataspace_at before : forall m after a,
  no_ds before = true -> hm_type m = MSG_DATASPACE ->
  first_dataspace (msgs_at_v2 (before ++ m :: after) a) = Ok (hm_data m).
Proof.
  induction before as [|b r IH]; intros m after a Hno Hty.
  - cbn [app msgs_at_v2 first_dataspace hmp_type hmp_data]. rewrite Hty.
    change (MSG_DATASPACE =? MSG_DATASPACE) with true. reflexivity.
  - cbn [no_ds forallb] in Hno. apply andb_true_iff in Hno as [Hb Hr]. apply negb_true_iff in Hb.
    cbn [app msgs_at_v2 first_dataspace hmp_type]. rewrite Hb. apply IH; auto.
Qed.

(* step 7 on the list the reader returned: the data of message i is replaced; with data of the same length
   the offsets of the following messages are those of the list with the new message *)
Lemma set_data_at before : forall m after a d,
  blen d = blen (hm_data m) ->
  set_data (msgs_at_v2 (before ++ m :: after) a) (length before) d
  = msgs_at_v2 (before ++ {| hm_type := hm_type m; hm_data := d |} :: after) a.
Proof.
  induction before as [|b r IH]; intros m after a d Hl.
  - cbn [app msgs_at_v2 set_data length hmp_type hmp_offset hm_type hm_data]. rewrite Hl. reflexivity.
  - cbn [app msgs_at_v2 set_data length]. rewrite IH by exact Hl. reflexivity.
Qed.

Lemma bytes_ok_enc_dims8 l : bytes_ok (enc_dims8 l) = true.
Proof.
  induction l as [|d r IH]; [reflexivity|].
  unfold enc_dims8 in *. cbn [map concat]. rewrite bytes_ok_app, le_bytes_ok, IH. reflexivity.
Qed.

Lemma bytes_ok_enc_dataspace x : bytes_ok (enc_dataspace x) = true.
Proof.
  unfold enc_dataspace. rewrite !bytes_ok_app, !bytes_ok_enc_dims8.
  assert (W : wrap8 (blen (ds_dims x)) <? 256 = true).
  { apply N.ltb_lt. unfold wrap8. apply N.mod_lt. discriminate. }
  cbn [bytes_ok forallb zeros repeat]. rewrite W. destruct (ds_maxdims x); reflexivity.
Qed.

Lemma blen_ds_same dims new maxd : length new = length dims ->
  blen (enc_dataspace {| ds_dims := new; ds_maxdims := maxd |})
  = blen (enc_dataspace {| ds_dims := dims; ds_maxdims := maxd |}).
Proof.
  intros HL. rewrite !dataspace_blen. unfold size_dataspace, blen. cbn [ds_dims ds_maxdims]. rewrite HL. reflexivity.
Qed.

Lemma wf_dataspace_same dims new maxd : length new = length dims -> u64_ok new = true ->
  wf_dataspace {| ds_dims := dims; ds_maxdims := maxd |} = true ->
  wf_dataspace {| ds_dims := new; ds_maxdims := maxd |} = true.
Proof.
  unfold wf_dataspace, encok_dataspace. cbn [ds_dims ds_maxdims]. intros HL Hu H. rewrite HL, Hu.
  apply andb_true_iff in H as [H Hm]. apply andb_true_iff in H as [H Hd]. rewrite H, Hm. reflexivity.
Qed.
