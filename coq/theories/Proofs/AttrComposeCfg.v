(* C19 part A on the composed attribute-storage model: one attribute call under ANY configuration and ANY wiring of
   the configuration to the loaded index equals the same call under the default configuration - as states (the bytes
   of both regions), not only as listings.  Two facts carry it:
     * lazy bookkeeping never feeds back: every B-tree operation commutes with forgetting the lazy state
       ([strip_bt], from Proofs/BT2.v section 5), and the three delete entry points agree after forgetting it;
     * persistence: c_store writes the records and counters only, so the state after the call does not contain the lazy
       state, and the next call starts from a freshly loaded object. *)
From HV Require Import Base.Prelude Model.Attr Model.AttrCompose Model.AttrComposeCfg.
From HV Require Import Proofs.AttrComposeIdx Proofs.AttrCompose Proofs.Attr.
From HV Require Model.BT2 Proofs.BT2 Model.FHeap.

Notation S_ := BT2.strip_bt.

Lemma search_strip s n : BT2.search_record (S_ s) n = BT2.search_record s n.
Proof. reflexivity. Qed.

Lemma insert_strip s n v :
  BT2.insert_record (S_ s) n v = (S_ (fst (BT2.insert_record s n v)), snd (BT2.insert_record s n v)).
Proof.
  unfold BT2.insert_record. cbn [BT2.strip_bt BT2.with_lazy BT2.recs BT2.node_size BT2.header].
  destruct (BT2.find_index (BT2.recs s) (BT2.jenkins n) 0); [reflexivity|].
  destruct (_ <=? _); reflexivity.
Qed.

Lemma update_strip s n v :
  BT2.update_record (S_ s) n v = (S_ (fst (BT2.update_record s n v)), snd (BT2.update_record s n v)).
Proof.
  unfold BT2.update_record. cbn [BT2.strip_bt BT2.with_lazy BT2.recs BT2.node_size BT2.header].
  destruct (BT2.find_index (BT2.recs s) (BT2.jenkins n) 0); reflexivity.
Qed.

(* DeleteDenseAttribute's switch, whatever the lazy state, the flag and the clock: the records, counters and the
   answer of DeleteRecordWithRebalancing on the object without lazy state *)
Lemma switch_strip s n (rb d : bool) :
  let r := if BT2.is_lazy_enabled s then BT2.delete_lazy s n d
           else if rb then BT2.delete_with_rebalancing s n else BT2.delete_record s n in
  BT2.delete_with_rebalancing (S_ s) n = (S_ (fst r), snd r).
Proof.
  destruct s as [ns h lt lr rs lh ll lz].
  unfold BT2.is_lazy_enabled, BT2.delete_record, BT2.delete_with_rebalancing, BT2.delete_lazy, BT2.remove_record,
         BT2.handle_root_depth_decrease, BT2.strip_bt, BT2.with_lazy, BT2.with_recs.
  cbn [BT2.recs BT2.node_size BT2.header BT2.leaf_type BT2.leaf_recs BT2.loaded_hdr BT2.loaded_leaf BT2.lazy].
  destruct lz as [l|]; [|destruct rb];
    (destruct (BT2.find_index rs (BT2.jenkins n) 0); [|reflexivity]);
    cbn [BT2.header BT2.set_counts BT2.h_nroot BT2.h_depth BT2.recs BT2.node_size];
    destruct (_ && _); reflexivity.
Qed.

(* WriteAt writes records and counters; the file and the allocator afterwards do not depend on the lazy state *)
Lemma store_strip bf bn ba hfs ha s hp : c_store bf bn ba hfs ha (S_ s) hp = c_store bf bn ba hfs ha s hp.
Proof.
  unfold c_store. destruct (FHeap.store hp hfs) as [[[? hfs'] ?]|]; [|reflexivity].
  unfold BT2.write_in_place.
  cbn [BT2.bt BT2.fil BT2.next BT2.strip_bt BT2.with_lazy BT2.loaded_hdr BT2.loaded_leaf].
  destruct (BT2.loaded_hdr s =? 0); reflexivity.
Qed.

Lemma strip_idem s : S_ (S_ s) = S_ s.
Proof. reflexivity. Qed.

Lemma load_nolazy bf ba s : BT2.load_from OSZ (BT2.new_bt NODE) bf ba = BT2.LOk s -> S_ s = s.
Proof.
  intro E. pose proof (BT2.load_from_strip OSZ (BT2.new_bt NODE) bf ba) as X.
  change (BT2.strip_bt (BT2.new_bt NODE)) with (BT2.new_bt NODE) in X. rewrite E in X.
  destruct X as (X1 & _ & _). exact X1.
Qed.

Lemma c_load_nolazy bf ba hfs ha s hp : c_load bf ba hfs ha = Some (s, hp) -> S_ s = s.
Proof.
  unfold c_load. destruct (FHeap.load _ _ _); [|discriminate].
  destruct (BT2.load_from _ _ _ _) eqn:E; [|discriminate].
  intro H. inversion H; subst. exact (load_nolazy _ _ _ E).
Qed.

Lemma setup_strip m s : S_ s = s -> S_ (BT2.setup_mode m s) = s.
Proof. intro H. rewrite BT2.strip_setup. exact H. Qed.

Section Cfg.
Variable P : params.
Variable enc : attr -> bytes.
Variable pick : FHeap.heap -> bytes -> nat.
Variable wire : fwcfg -> BT2.mode.

Definition strip_pair (x : option (BT2.bt2 * FHeap.heap)) : option (BT2.bt2 * FHeap.heap) :=
  match x with Some (b, h) => Some (S_ b, h) | None => None end.

Lemma modify_strip s hp a : c_modify enc pick (S_ s) hp a = strip_pair (c_modify enc pick s hp a).
Proof.
  unfold c_modify. destruct (aname a) as [|c0 nm]; [reflexivity|].
  rewrite search_strip. destruct (BT2.search_record s (c0 :: nm)) as [id|]; [|reflexivity].
  destruct (FHeap.get hp id) as [old|]; [|reflexivity].
  destruct (FHeap.len (enc a) =? 0); [reflexivity|].
  destruct (FHeap.len (enc a) =? FHeap.len old).
  - destruct (FHeap.overwrite hp id (enc a)) as [hp' [u|]]; reflexivity.
  - destruct (FHeap.delete hp id) as [hp1 [u|]]; [|reflexivity].
    destruct (FHeap.insert FHeap.cap_new hp1 (enc a) (pick hp1 (enc a))) as [hp2 [id2|]]; [|reflexivity].
    destruct (negb (FHeap.len id2 =? 8)); [reflexivity|].
    rewrite update_strip. destruct (BT2.update_record s (c0 :: nm) (unle id2)) as [bt' [|]]; reflexivity.
Qed.

Lemma write_dense_cfg_eq cf bf bn ba hfs ha a :
  c_write_dense_cfg enc pick wire cf bf bn ba hfs ha a = c_write_dense enc pick bf bn ba hfs ha a.
Proof.
  unfold c_write_dense_cfg, c_write_dense.
  destruct (c_load bf ba hfs ha) as [[bt0 hp]|] eqn:EL; [|reflexivity].
  pose proof (c_load_nolazy _ _ _ _ _ _ EL) as N0.
  pose proof (setup_strip (wire cf) bt0 N0) as N1.
  set (bt := BT2.setup_mode (wire cf) bt0) in *.
  destruct (encode_attr a); [|reflexivity].
  rewrite <- (search_strip bt), N1.
  destruct (BT2.search_record bt0 (aname a)).
  - pose proof (modify_strip bt hp a) as M. rewrite N1 in M. rewrite M.
    destruct (c_modify enc pick bt hp a) as [[bt' hp']|]; cbn [strip_pair]; [|reflexivity].
    apply eq_sym, store_strip.
  - destruct (FHeap.insert FHeap.cap_new hp (enc a) (pick hp (enc a))) as [hp' [id|]]; [|reflexivity].
    destruct (negb (FHeap.len id =? 8)); [reflexivity|].
    pose proof (insert_strip bt (aname a) (unle id)) as I. rewrite N1 in I. rewrite I.
    destruct (BT2.insert_record bt (aname a) (unle id)) as [bt' [|]]; cbn [fst snd]; [|reflexivity].
    apply eq_sym, store_strip.
Qed.

(* the right-hand side is the existing model under the default configuration (flag true, clock false); by
   [delete_dense_flag] below the flag and the clock do not matter there either *)
Lemma delete_dense_cfg_eq cf rb d bf bn ba hfs ha n :
  c_delete_dense_cfg wire cf bf bn ba hfs ha n = c_delete_dense rb d bf bn ba hfs ha n.
Proof.
  unfold c_delete_dense_cfg, c_delete_dense.
  destruct (c_load bf ba hfs ha) as [[bt0 hp]|] eqn:EL; [|reflexivity].
  pose proof (c_load_nolazy _ _ _ _ _ _ EL) as N0.
  pose proof (setup_strip (wire cf) bt0 N0) as N1.
  set (bt := BT2.setup_mode (wire cf) bt0) in *.
  destruct n as [|c0 nm]; [reflexivity|].
  rewrite <- (search_strip bt), N1.
  destruct (BT2.search_record bt0 (c0 :: nm)) as [id|]; [|reflexivity].
  pose proof (switch_strip bt (c0 :: nm) (fw_rebalance cf) (mode_delay (wire cf))) as X1.
  pose proof (switch_strip bt0 (c0 :: nm) rb d) as X2.
  cbv zeta in X1, X2.
  set (r1 := if BT2.is_lazy_enabled bt then _ else _) in *.
  set (r2 := if BT2.is_lazy_enabled bt0 then _ else _) in *.
  rewrite N1 in X1. rewrite N0 in X2.
  assert (X : (S_ (fst r1), snd r1) = (S_ (fst r2), snd r2)) by (rewrite <- X1; exact X2).
  clear X1 X2. clearbody r1 r2.
  destruct r1 as [b1 ok1]. destruct r2 as [b2 ok2].
  cbn [fst snd] in X.
  assert (E1 : S_ b1 = S_ b2) by congruence. assert (E2 : ok1 = ok2) by congruence. subst ok2. clear X.
  destruct ok1; [|reflexivity].
  destruct (FHeap.delete hp id) as [hp' [u|]]; [|reflexivity].
  rewrite <- (store_strip _ _ _ _ _ b1), <- (store_strip _ _ _ _ _ b2), E1. reflexivity.
Qed.

Lemma step_cfg_eq cf rb d st o : c_step_cfg P enc pick wire cf st o = c_step P enc rb d pick st o.
Proof.
  destruct o as [n v|n]; cbn [c_step_cfg c_step].
  - unfold c_write_attr_cfg, c_write_attr. destruct v; [|reflexivity].
    destruct st; [reflexivity|]. apply write_dense_cfg_eq.
  - unfold c_delete_attr_cfg, c_delete_attr. destruct st; [reflexivity|]. apply delete_dense_cfg_eq.
Qed.

Lemma run_cfg_eq rb d : forall h cfs st, c_run_cfg P enc pick wire cfs st h = c_run P enc rb d pick st h.
Proof.
  induction h as [|o h IH]; intros cfs st; cbn [c_run_cfg c_run]; [reflexivity|].
  rewrite (step_cfg_eq _ rb d). destruct (c_step P enc rb d pick st o) as [st1 x].
  rewrite IH. reflexivity.
Qed.

Lemma run_ev_eq rb d : forall l cf st, c_run_ev P enc pick wire cf st l = c_run P enc rb d pick st (ops_of l).
Proof.
  induction l as [|[o|k] l IH]; intros cf st; cbn [c_run_ev ops_of c_run]; [reflexivity| |apply IH].
  rewrite (step_cfg_eq _ rb d). destruct (c_step P enc rb d pick st o) as [st1 x].
  rewrite IH. reflexivity.
Qed.

End Cfg.

(* one call, from ANY state (reachable or not) *)
Theorem compose_step_config_irrelevant P enc pick wire cf st o :
  c_step_cfg P enc pick wire cf st o = c_step_cfg P enc pick wire fw_default st o.
Proof. rewrite (step_cfg_eq P enc pick wire cf true false), (step_cfg_eq P enc pick wire fw_default true false). reflexivity. Qed.

(* every history, every per-call configuration list, every wiring: the state (all bytes) and the answers are those
   of the default configuration under the code as it is *)
Theorem compose_config_irrelevant P enc pick wire cfs st h :
  c_run_cfg P enc pick wire cfs st h = c_run_cfg P enc pick wire_go [] st h.
Proof. rewrite (run_cfg_eq P enc pick wire true false), (run_cfg_eq P enc pick wire_go true false). reflexivity. Qed.

(* the model of this file under the code as it is IS the model of Props/C02Compose.v (flag = BTreeRebalancing of the
   call's configuration), for any value of its wall-clock parameter *)
Theorem compose_cfg_as_built P enc pick delay cf st o :
  c_step_cfg P enc pick wire_go cf st o = c_step P enc (fw_rebalance cf) delay pick st o.
Proof. apply step_cfg_eq. Qed.

(* the flag and the clock of the existing composed model are irrelevant as well (every history, every state) *)
Theorem compose_flag_irrelevant P enc pick rb d rb' d' st h :
  c_run P enc rb d pick st h = c_run P enc rb' d' pick st h.
Proof. rewrite <- (run_cfg_eq P enc pick wire_go rb d h [] st), <- (run_cfg_eq P enc pick wire_go rb' d' h [] st). reflexivity. Qed.

(* what a reader sees after reopen *)
Theorem compose_config_irrelevant_read P enc dec pick wire cfs h :
  let a := c_run_cfg P enc pick wire cfs cinit h in
  let b := c_run_cfg P enc pick wire_go [] cinit h in
  snd a = snd b /\ c_read_msgs enc (fst a) = c_read_msgs enc (fst b) /\ c_read_attrs dec (fst a) = c_read_attrs dec (fst b).
Proof. cbv zeta. rewrite (compose_config_irrelevant P enc pick wire cfs cinit h). repeat split. Qed.

(* run-time configuration calls between attribute calls *)
Theorem compose_toggles_irrelevant P enc pick wire cf l :
  c_run_ev P enc pick wire cf cinit l = c_run_cfg P enc pick wire_go [] cinit (ops_of l).
Proof. rewrite (run_ev_eq P enc pick wire true false), (run_cfg_eq P enc pick wire_go true false). reflexivity. Qed.

(* with C02's composition theorems: under every configuration list / wiring the answers and the listing after reopen
   are those of the abstract attribute model, and (no hash collision among the names used) those of the map *)
Theorem compose_config_simulation P enc pick wire cfs : params_match P ->
  (forall a sz, encode_attr a = EncOk sz -> FHeap.len (enc a) = sz) ->
  forall h cst rs, c_run_cfg P enc pick wire cfs cinit h = (cst, rs) ->
  rs = snd (run BT2.jenkins P init h) /\
  c_read_msgs enc cst = option_map (map enc) (read_attrs (fst (run BT2.jenkins P init h))).
Proof.
  intros PM EL h cst rs R. rewrite (run_cfg_eq P enc pick wire true false) in R.
  exact (compose_simulation P enc true false pick PM EL h cst rs R).
Qed.

Theorem compose_config_refines_map P enc pick wire cfs : params_match P ->
  (forall a sz, encode_attr a = EncOk sz -> FHeap.len (enc a) = sz) ->
  forall h cst rs, NoHashCollision BT2.jenkins (names h) ->
  c_run_cfg P enc pick wire cfs cinit h = (cst, rs) ->
  exists l, c_read_msgs enc cst = Some (map enc l) /\ NoDup (map aname l) /\
            (forall n, attr_get l n = sp_get (run_spec [] h rs) n) /\ results_ok [] h rs.
Proof.
  intros PM EL h cst rs NC R. rewrite (run_cfg_eq P enc pick wire true false) in R.
  exact (compose_refines_map P enc true false pick PM EL h cst rs NC R).
Qed.

Theorem compose_toggles_refines_map P enc pick wire cf : params_match P ->
  (forall a sz, encode_attr a = EncOk sz -> FHeap.len (enc a) = sz) ->
  forall l cst rs, NoHashCollision BT2.jenkins (names (ops_of l)) ->
  c_run_ev P enc pick wire cf cinit l = (cst, rs) ->
  exists al, c_read_msgs enc cst = Some (map enc al) /\ NoDup (map aname al) /\
            (forall n, attr_get al n = sp_get (run_spec [] (ops_of l) rs) n) /\ results_ok [] (ops_of l) rs.
Proof.
  intros PM EL l cst rs NC R. rewrite (run_ev_eq P enc pick wire true false) in R.
  exact (compose_refines_map P enc true false pick PM EL (ops_of l) cst rs NC R).
Qed.

(* under a lazy wiring the lazy entry point IS taken on the loaded object and leaves a lazy state behind (threshold 50
   thousandths; after the delete one record is left, below half of 371: underflow 1/1 reaches the threshold, the batch
   runs and resets the counters), where the code as it is leaves none; the records are the same *)
Definition ex_bt : BT2.bt2 :=
  fst (BT2.insert_record (fst (BT2.insert_record (BT2.new_bt NODE) [97] 1)) [98] 2).

Example ex_lazy_entry_taken :
  let cf := mkFw false (Some (mkLazyCfg 50 false)) false false in
  BT2.is_lazy_enabled (BT2.setup_mode (wire_all cf) ex_bt) = true /\
  BT2.lazy (fst (dense_delete_switch (wire_all cf) (fw_rebalance cf) ex_bt [97])) = Some (BT2.mkLazy 50 0 1 0) /\
  BT2.lazy (fst (dense_delete_switch (wire_go cf) (fw_rebalance cf) ex_bt [97])) = None /\
  BT2.recs (fst (dense_delete_switch (wire_all cf) (fw_rebalance cf) ex_bt [97]))
  = BT2.recs (fst (dense_delete_switch (wire_go cf) (fw_rebalance cf) ex_bt [97])) /\
  List.length (BT2.recs (fst (dense_delete_switch (wire_all cf) (fw_rebalance cf) ex_bt [97]))) = 1%nat.
Proof. vm_compute. repeat split; reflexivity. Qed.

(* the four kinds of configuration give four different modes under wire_all, two under wire_go *)
Example ex_wirings :
  wire_all (mkFw true (Some (mkLazyCfg 10 true)) true false) = BT2.MIncremental 10 true /\
  wire_all (mkFw true (Some (mkLazyCfg 10 true)) false true) = BT2.MLazy 10 true /\
  wire_all (mkFw false None true true) = BT2.MOff /\ wire_all fw_default = BT2.MImmediate /\
  wire_go (mkFw false (Some (mkLazyCfg 10 true)) true true) = BT2.MOff.
Proof. repeat split. Qed.
