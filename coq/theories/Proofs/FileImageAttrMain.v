(* C02 at byte level: the composition for image_v2_attr, stated with the mathematical product of the extents, the file's length,
   and a witness that the hypotheses are satisfiable. *)
From HV Require Import Base.Prelude Base.Outcome Base.Bytes Model.IOProg Proofs.IOProg Model.IOProgReader Model.IOProgOpen.
From HV Require Import Model.CodecSuper Model.CodecOhdr Model.CodecMsg Model.CodecType Model.CodecAttr.
From HV Require Import Model.FileImage Model.FileImageAttr Proofs.FileImage Proofs.FileImageOhdr Proofs.FileImageData
  Proofs.FileImageGroup Proofs.FileImageOpen Proofs.FileImageProd Proofs.FileImageMain
  Proofs.FileImageAttrOhdr Proofs.FileImageAttr.

(* the attribute the reader's parser returns for what the writer was given: the name, the datatype as the decoder reports it
   (proj_datatype: for the numeric classes the same class / size / bit field, version 1, the standard properties), a simple
   dataspace of version 1 with the given extents and no maximum extents, the value bytes *)
Definition attr_as_read (aname : bytes) (adt : datatype) (adims : list N) (adata : bytes) : attribute' :=
  {| atp_name := aname; atp_dt := proj_datatype adt;
     atp_ds := {| dsp_version := 1; dsp_type := 1; dsp_dims := adims; dsp_maxdims := None |};
     atp_data := match adata with [] => None | d => Some d end |}.

Lemma file_attribute_roundtrip_stmt : forall name class size cbf dims data aname adt adims adata fuel hfuel,
  link_name_ok name = true -> basic_dtype class size cbf = true -> dims_ok dims = true ->
  blen data = product dims * size -> blen data < 4294967296 ->
  wf_attribute (attr_msg aname adt adims adata) = true ->
  attr_fits class size cbf dims aname adt adims adata = true ->
  (3 <= fuel)%nat -> (4 < hfuel)%nat ->
  let f := image_v2_attr name class size cbf dims data aname adt adims adata in
  run0 f (api_attributes SB' hfuel (dset_addr data)) = Ok [(aname, adata)] /\
  (exists h, run0 f (p_ohdr SB' hfuel (dset_addr data)) = Ok h /\
             decoded_attr h = Ok (attr_as_read aname adt adims adata) /\
             decoded_type_shape h = Ok (class, size, cbf, dims)) /\
  run0 f (api_read_raw SB' hfuel (dset_addr data)) = Ok (RawBytes data) /\
  run0 f p_superblock = Ok SB' /\
  run0 f (p_open true (blen f) fuel hfuel) = Ok (Grp [47] ROOT_ADDR [Dset name (dset_addr data)]).
Proof.
  intros name class size cbf dims data aname adt adims adata fuel hfuel Hname Hdt Hdims Hlen Hbound Hwf Hfit Hf Hh f.
  pose proof (Hlen' class size cbf dims data Hdt Hdims Hlen Hbound) as HL.
  pose proof (Hpos' class size cbf dims data Hdt Hdims Hlen) as HP.
  split; [|split; [|split; [|split]]].
  - exact (dataset_attributes name class size cbf dims data aname adt adims adata Hname Hdt Hbound Hwf Hfit hfuel Hh).
  - destruct (dataset_attr_decoded name class size cbf dims data aname adt adims adata Hname Hdt Hdims Hbound Hwf Hfit hfuel Hh)
      as (h & E1 & E2 & E3).
    exists h. split; [exact E1|]. split; [|exact E3]. rewrite E2. clear. now destruct adata.
  - exact (dataset_read_attr name class size cbf dims data aname adt adims adata Hname Hdt Hdims HL HP Hbound Hwf Hfit hfuel Hh).
  - exact (superblock_stage_a name class size cbf dims data aname adt adims adata Hname Hbound).
  - destruct fuel as [|[|[|n]]]; try blia.
    exact (open_image_a name class size cbf dims data aname adt adims adata Hname Hdt Hbound Hwf Hfit n hfuel Hh).
Qed.

Lemma image_attr_len_stmt : forall name class size cbf dims data aname adt adims adata,
  link_name_ok name = true -> basic_dtype class size cbf = true -> dims_ok dims = true ->
  blen data = total_elems dims * size -> blen data < 4294967296 ->
  wf_attribute (attr_msg aname adt adims adata) = true ->
  attr_fits class size cbf dims aname adt adims adata = true ->
  blen (image_v2_attr name class size cbf dims data aname adt adims adata) = eof_addr data.
Proof. intros. now apply image_attr_len. Qed.

(* the hypotheses are satisfiable: "/d" = uint8 [1,2,3] with the attribute a = int32(42) *)
Example file_attribute_roundtrip_witness :
  link_name_ok [100] = true /\ basic_dtype DT_FIXED 1 0 = true /\ dims_ok [3] = true /\
  blen [1; 2; 3] = product [3] * 1 /\ blen [1; 2; 3] < 4294967296 /\
  wf_attribute (attr_msg [97] (dtype_msg DT_FIXED 4 8) [1] [42; 0; 0; 0]) = true /\
  attr_fits DT_FIXED 1 0 [3] [97] (dtype_msg DT_FIXED 4 8) [1] [42; 0; 0; 0] = true.
Proof. repeat split. Qed.
