(* C11: object header round trips at every address; decoding is independent of the address. *)
From HV Require Import Base.Prelude Base.Outcome Base.Bytes Model.CodecOhdr Model.CodecOhdrAddr Proofs.CodecOhdr.

Lemma msgs_at_v1_shift ms : forall c d, msgs_at_v1 ms (c + d) = map (shift_msg d) (msgs_at_v1 ms c).
Proof.
  induction ms as [|m r IH]; intros c d; cbn [msgs_at_v1 map]; [reflexivity|].
  unfold shift_msg at 1. cbn [hmp_type hmp_offset hmp_data]. f_equal.
  rewrite <- IH. f_equal. blia.
Qed.

Lemma msgs_at_v2_shift ms : forall c d, msgs_at_v2 ms (c + d) = map (shift_msg d) (msgs_at_v2 ms c).
Proof.
  induction ms as [|m r IH]; intros c d; cbn [msgs_at_v2 map]; [reflexivity|].
  unfold shift_msg at 1. cbn [hmp_type hmp_offset hmp_data]. f_equal.
  rewrite <- IH. f_equal. blia.
Qed.

(* the name is computed from types and data only *)
Lemma fold_shift {A} (f : A -> hmsg' -> A) d : (forall a m, f a (shift_msg d m) = f a m) ->
  forall ms a, fold_left f (map (shift_msg d) ms) a = fold_left f ms a.
Proof. intros H. induction ms as [|m r IH]; intros a; cbn [map fold_left]; [reflexivity|]. now rewrite H. Qed.

Lemma name_v1_shift d ms : name_v1 (map (shift_msg d) ms) = name_v1 ms.
Proof. now apply fold_shift. Qed.

Lemma name_v2_shift d ms : name_v2 (map (shift_msg d) ms) = name_v2 ms.
Proof. now apply fold_shift. Qed.

Lemma refcount_v2_shift d be ms : refcount_v2 (map (shift_msg d) ms) be = refcount_v2 ms be.
Proof.
  induction ms as [|m r IH]; cbn [map refcount_v2]; [reflexivity|].
  rewrite IH. unfold shift_msg. cbn [hmp_type hmp_data]. reflexivity.
Qed.

Lemma proj_ohdr_v1_shift x addr : proj_ohdr_v1 x addr = shift_ohdr addr (proj_ohdr_v1 x 0).
Proof.
  unfold proj_ohdr_v1, shift_ohdr. cbn [ohp_version ohp_flags ohp_refcount ohp_name ohp_msgs].
  replace (addr + 16) with (0 + 16 + addr) by blia.
  rewrite msgs_at_v1_shift, name_v1_shift. reflexivity.
Qed.

Lemma proj_ohdr_v2_shift be x addr : proj_ohdr_v2 be x addr = shift_ohdr addr (proj_ohdr_v2 be x 0).
Proof.
  unfold proj_ohdr_v2, shift_ohdr. cbn [ohp_version ohp_flags ohp_refcount ohp_name ohp_msgs].
  replace (addr + 7) with (0 + 7 + addr) by blia.
  rewrite msgs_at_v2_shift, name_v2_shift, refcount_v2_shift. reflexivity.
Qed.

Lemma unplace_msgs_at_v1 ms : forall c, map unplace (msgs_at_v1 ms c) = ms.
Proof.
  induction ms as [|m r IH]; intros c; cbn [msgs_at_v1 map]; [reflexivity|].
  rewrite IH. destruct m; reflexivity.
Qed.

Lemma unplace_msgs_at_v2 ms : forall c, map unplace (msgs_at_v2 ms c) = ms.
Proof.
  induction ms as [|m r IH]; intros c; cbn [msgs_at_v2 map]; [reflexivity|].
  rewrite IH. destruct m; reflexivity.
Qed.

Lemma ohdr_v1_roundtrip_any_address addr x (pre suf : list N) :
  blen pre = addr ->
  wf_ohdr_v1 x = true ->
  addr + size_ohdr_v1 x + 16 < 9223372036854775808 ->
  dec_ohdr false (pre ++ enc_ohdr_v1 x ++ suf) addr = Ok (proj_ohdr_v1 x addr).
Proof. intros <- Hwf Hs. apply ohdr_v1_roundtrip; assumption. Qed.

Lemma ohdr_v1_roundtrip_messages addr x (pre suf : list N) :
  blen pre = addr ->
  wf_ohdr_v1 x = true ->
  addr + size_ohdr_v1 x + 16 < 9223372036854775808 ->
  exists o, dec_ohdr false (pre ++ enc_ohdr_v1 x ++ suf) addr = Ok o /\
            map unplace (ohp_msgs o) = oh_msgs x /\ ohp_refcount o = oh_refcount x /\ ohp_version o = 1.
Proof.
  intros Ha Hwf Hs. exists (proj_ohdr_v1 x addr). split; [apply ohdr_v1_roundtrip_any_address; assumption|].
  unfold proj_ohdr_v1. cbn [ohp_msgs ohp_refcount ohp_version]. rewrite unplace_msgs_at_v1. auto.
Qed.

Lemma ohdr_v1_address_independent x (pre suf : list N) :
  wf_ohdr_v1 x = true ->
  blen pre + size_ohdr_v1 x + 16 < 9223372036854775808 ->
  dec_ohdr false (pre ++ enc_ohdr_v1 x ++ suf) (blen pre)
  = omap (shift_ohdr (blen pre)) (dec_ohdr false (enc_ohdr_v1 x ++ suf) 0).
Proof.
  intros Hwf Hs.
  unfold enc_ohdr_v1, v1_size_field_repaired.
  rewrite (ohdr_v1_roundtrip x pre suf Hwf Hs).
  pose proof (ohdr_v1_roundtrip x [] suf Hwf) as H0.
  change (blen []) with 0 in H0. cbn [app] in H0. rewrite H0 by blia.
  cbn [omap]. rewrite proj_ohdr_v1_shift. reflexivity.
Qed.

Lemma ohdr_v2_address_independent x (pre suf : list N) sbBE :
  wf_ohdr_v2 x = true -> 1 <= blen suf ->
  blen pre + size_ohdr_v2 x + 8 < 9223372036854775808 ->
  dec_ohdr sbBE (pre ++ enc_ohdr_v2 x ++ suf) (blen pre)
  = omap (shift_ohdr (blen pre)) (dec_ohdr sbBE (enc_ohdr_v2 x ++ suf) 0).
Proof.
  intros Hwf H1 Hs.
  rewrite (ohdr_v2_roundtrip x pre suf sbBE Hwf H1 Hs).
  pose proof (ohdr_v2_roundtrip x [] suf sbBE Hwf H1) as H0.
  change (blen []) with 0 in H0. cbn [app] in H0. rewrite H0 by blia.
  cbn [omap]. rewrite proj_ohdr_v2_shift. reflexivity.
Qed.

(* hypotheses are satisfiable at an address that is not a multiple of 8: the dataset header of the seeded
   demonstration at address 99 *)
Lemma ohdr_v1_dataset_wf : wf_ohdr_v1 ohdr_v1_dataset = true /\ (99 mod 8 =? 0) = false /\
  99 + size_ohdr_v1 ohdr_v1_dataset + 16 < 9223372036854775808.
Proof. vm_compute. repeat split; reflexivity. Qed.

Lemma ohdr_v1_dataset_at_99 :
  dec_ohdr false (repeat 255 99 ++ enc_ohdr_v1 ohdr_v1_dataset ++ repeat 255 9) 99
  = Ok (proj_ohdr_v1 ohdr_v1_dataset 99) /\
  map hmp_offset (ohp_msgs (proj_ohdr_v1 ohdr_v1_dataset 99)) = [115; 139; 171].
Proof. split; vm_compute; reflexivity. Qed.

(* the reader that aligns to absolute addresses loses messages at each of eleven unaligned addresses (all residues
   1..7, and some larger ones), where the relative reader returns them all *)
Lemma ohdr_v1_abs_refuted :
  forall k, In k [1; 2; 3; 4; 5; 6; 7; 99; 4097; 4099; 4103] ->
  exists o, parse_v1_abs (repeat 255 (N.to_nat k) ++ enc_ohdr_v1 ohdr_v1_dataset ++ repeat 0 64) k 0 false = Ok o /\
            map unplace (ohp_msgs o) <> oh_msgs ohdr_v1_dataset /\
            parse_v1 (repeat 255 (N.to_nat k) ++ enc_ohdr_v1 ohdr_v1_dataset ++ repeat 0 64) k 0 false
            = Ok (proj_ohdr_v1 ohdr_v1_dataset k).
Proof.
  intros k Hk. cbn [In] in Hk.
  repeat (destruct Hk as [<- | Hk];
          [eexists; split; [vm_compute; reflexivity | split; [vm_compute; discriminate | vm_compute; reflexivity]]|]).
  destruct Hk.
Qed.

Lemma ohdr_v1_abs_agrees_aligned :
  forall k, In k [0; 8; 96; 4096] ->
  parse_v1_abs (repeat 255 (N.to_nat k) ++ enc_ohdr_v1 ohdr_v1_dataset ++ repeat 0 64) k 0 false
  = Ok (proj_ohdr_v1 ohdr_v1_dataset k).
Proof.
  intros k Hk. cbn [In] in Hk.
  repeat (destruct Hk as [<- | Hk]; [vm_compute; reflexivity|]).
  destruct Hk.
Qed.
