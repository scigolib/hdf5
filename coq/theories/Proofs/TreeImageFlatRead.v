(* C03 end to end, depth 1: hdf5.Open on the closed file of any state satisfying FlatInv returns the root with [nodes]. *)
From HV Require Import Base.Prelude Base.Outcome Base.Bytes Model.RobustAlloc Model.RobustGroup Model.GroupWire.
From HV Require Import Model.CodecSuper Model.CodecOhdr Model.CodecMsg Model.CodecType Model.CodecLink.
From HV Require Import Model.IOProg Proofs.IOProg Model.IOProgReader Model.IOProgOpen.
From HV Require Import Proofs.CodecOhdr Proofs.CodecLink Proofs.GroupWireHeap Proofs.GroupWireSnod.
From HV Require Import Model.FileImage Model.TreeImage Proofs.FileImage Proofs.FileImageOhdr Proofs.FileImageData.
From HV Require Import Proofs.TreeImageRead Proofs.TreeImageLink Proofs.TreeImageHdr Proofs.TreeImageOpen Proofs.TreeImagePlaced
  Proofs.TreeImageStep Proofs.TreeImageFlat Proofs.TreeImageFlatStep.
From HV Require Model.GroupNS Proofs.GroupNSBase Proofs.GroupNSHeap.

Local Open Scope N_scope.

Lemma closed_item_placed (P : list N) l1 it l2 : blen P = 48 -> Forall item_ok l1 ->
  placed (P ++ layout 48 (l1 ++ it :: l2)) (48 + lsize l1)
         (item_bytes (48 + lsize l1) it ++ layout (48 + lsize l1 + item_size it) l2).
Proof.
  intros HP H. rewrite layout_app. cbn [layout].
  exists (P ++ layout 48 l1), []. split; [now rewrite app_nil_r, <- !app_assoc|].
  rewrite blen_app, HP, blen_layout; auto.
Qed.

Lemma GroupAt_of_bytes f hfuel a (seg : list N) s (tail : list N) :
  placed f a (heap_header 256 1 (a + 32) ++ seg ++ snod_bytes s 32 ++ bt_block (a + 288)
              ++ enc_ohdr_v2 (group_ohdr (a + 1576) a) ++ tail) ->
  blen seg = 256 -> snode_ok s = true -> (length (stn_entries s) <= 32)%nat ->
  Forall (fun e => sy_cache e = 0) (stn_entries s) -> 2 <= blen tail -> (1 < hfuel)%nat -> a + 4000 < 4611686018427387904 ->
  GroupAt f hfuel a seg s.
Proof.
  intros HP Hs Hok Hm Hc Ht Hf Hb.
  set (H32 := heap_header 256 1 (a + 32)) in *. set (SN := snod_bytes s 32) in *. set (BT := bt_block (a + 288)) in *.
  set (OH := enc_ohdr_v2 (group_ohdr (a + 1576) a)) in *.
  assert (L32 : blen H32 = 32) by reflexivity.
  assert (LSN : blen SN = 1288) by (subst SN; rewrite snod_bytes_size; reflexivity).
  assert (LBT : blen BT = 544) by apply blen_bt_block.
  unfold GroupAt. rewrite Hs.
  split; [fold H32; now apply placed_head in HP|].
  split. { replace (a + 32) with (a + blen H32) by (rewrite L32; reflexivity). apply (placed_sub f a H32 seg _ HP). }
  split; [reflexivity|].
  split. { replace (a + 288) with (a + blen (H32 ++ seg)) by (rewrite blen_app, L32, Hs; blia).
           apply (placed_sub f a (H32 ++ seg) SN (BT ++ OH ++ tail)). now rewrite <- !app_assoc. }
  split; [exact Hok|]. split; [exact Hm|]. split; [exact Hc|].
  split. { replace (a + 1576) with (a + blen (H32 ++ seg ++ SN)) by (rewrite !blen_app, L32, Hs, LSN; blia).
           apply (placed_sub f a (H32 ++ seg ++ SN) BT (OH ++ tail)). now rewrite <- !app_assoc. }
  split; [|exact Hb].
  unfold HdrAt. split; [apply group_ohdr_ok|]. split.
  - exists tail. split; [|exact Ht].
    replace (a + 2120) with (a + blen (H32 ++ seg ++ SN ++ BT)) by (rewrite !blen_app, L32, Hs, LSN, LBT; blia).
    apply (placed_tail f a (H32 ++ seg ++ SN ++ BT) (OH ++ tail)). now rewrite <- !app_assoc.
  - split; [cbn [group_ohdr oh_msgs length]; lia | unfold B63; blia].
Qed.

Lemma map_eq_Forall2 {A B C} (g : A -> C) (h : B -> C) l l' : map g l = map h l' -> Forall2 (fun a b => g a = h b) l l'.
Proof.
  revert l'. induction l as [|x r IH]; intros [|y r'] H; try discriminate; constructor.
  - cbn in H. now inversion H.
  - apply IH. cbn in H. now inversion H.
Qed.
Lemma Forall2_and {A B} (P Q : A -> B -> Prop) l l' : Forall2 P l l' -> Forall2 Q l l' -> Forall2 (fun a b => P a b /\ Q a b) l l'.
Proof. induction 1; intros H2; inversion H2; subst; constructor; auto. Qed.

Lemma Forall2_left {A B} (P : A -> Prop) (Q : A -> B -> Prop) l l' : Forall2 (fun a b => P a /\ Q a b) l l' -> Forall P l.
Proof. induction 1 as [|x y r r' [H _] _ IH]; constructor; auto. Qed.

Lemma heap_string_ns (seg : list N) off nm : NS.get_string seg off = Some nm -> heap_string seg off = Ok nm.
Proof.
  intros H. change (heap_string seg off) with (get_string seg off). rewrite get_string_agrees, H. reflexivity.
Qed.

Section Read.
Variable hfuel : nat.
Hypothesis Hhf : (4 < hfuel)%nat.

Theorem flat_open st nodes n : FlatInv st nodes -> 2197 <= blen (t_file st) -> blen (t_file st) + 4000 < LIM ->
  let f := t_close (t_file st) in
  run0 f (p_open true (blen f) (S (S (S (S (S n))))) hfuel) = Ok (Grp [47] 2168 nodes).
Proof.
  intros (seg & s & rest & cs & ns & Hf & Hs & Hok & Hm & Hr & Hg & Hns & HF & Hnd & Hlt & Hn) Hlen Hb f.
  destruct (flat_lay_ok seg s rest Hs Hok Hm Hr) as [Hokl HL]. rewrite <- Hf in HL.
  rewrite HL in Hlen, Hb. unfold LIM in Hb.
  assert (Ef : f = enc_superblock (sb_eof (2195 + lsize rest)) ++ layout 48 (flat_lay seg s rest)).
  { subst f. rewrite Hf, close_image by exact Hokl. now rewrite lsize_flat. }
  rewrite Ef. subst nodes.
  set (P := enc_superblock (sb_eof (2195 + lsize rest))).
  assert (LP : blen P = 48) by apply v2_sb_len.
  assert (Hcache : Forall (fun e => sy_cache e = 0) (stn_entries s)).
  { exact (Forall2_left _ _ _ _ HF). }
  apply (open_depth1 (2195 + lsize rest) (layout 48 (flat_lay seg s rest)) hfuel n seg s cs).
  - blia.
  - rewrite blen_layout by exact Hokl. cbn [flat_lay lsize root_item item_size]. rewrite blen_hb0. blia.
  - pose proof (closed_item_placed P [] (root_item seg s) rest LP (Forall_nil _)) as HPl.
    cbn [app lsize root_item item_bytes item_size] in HPl. rewrite blen_hb0 in HPl.
    change (48 + 0) with 48 in HPl. change (48 + (2120 + 27)) with 2195 in HPl.
    apply (GroupAt_of_bytes _ hfuel 48 seg s (layout 2195 rest)); auto; try lia; try blia.
    + rewrite <- !app_assoc in HPl. exact HPl.
    + rewrite blen_layout by exact Hr. blia.
  - apply Forall2_and.
    + pose proof (GH.names_decode _ _ _ Hg) as D. rewrite map_map, <- Hns, map_map in D.
      apply map_eq_Forall2 in D. eapply Forall2_imp; [|exact D]. intros e nc H. cbn beta in H.
      apply heap_string_ns. exact H.
    + eapply Forall2_imp; [|exact HF]. intros e [nm c] [_ (l1 & it & l2 & -> & HIC)]. cbn [snd] in *.
      assert (Hok1 : Forall item_ok (root_item seg s :: l1)).
      { constructor; [cbn [root_item item_ok]; auto|]. apply Forall_app in Hr as [H1 _]. exact H1. }
      pose proof (closed_item_placed P (root_item seg s :: l1) it l2 LP Hok1) as HPl.
      replace (48 + lsize (root_item seg s :: l1)) with (2195 + lsize l1) in HPl
        by (cbn [lsize root_item item_size]; rewrite blen_hb0; blia).
      change ((root_item seg s :: l1) ++ it :: l2) with (flat_lay seg s (l1 ++ it :: l2)) in HPl.
      assert (Ha : 2195 + lsize l1 + item_size it <= 2195 + lsize (l1 ++ it :: l2)) by (rewrite lsize_app; cbn [lsize]; blia).
      set (a := 2195 + lsize l1) in *.
      inversion HIC as [|d x Hx]; subst.
      * cbn [ChildAt]. exists a. split; [reflexivity|]. split; [|reflexivity].
        cbn [new_group_item item_bytes] in HPl. unfold ohdr_block in HPl. rewrite <- !app_assoc in HPl.
        rewrite new_group_item_size in Ha.
        eapply GroupAt_of_bytes; try exact HPl; try reflexivity; try (cbn; lia); try constructor; try blia.
        rewrite blen_app, blen_zeros, size_group_ohdr. unfold OHDR_RESERVE. blia.
      * destruct Hx as (Hxo & Hxc & Hxa & Hxk & Hxl). cbn [ChildAt]. split; [|split; assumption].
        cbn [item_bytes] in HPl. unfold ohdr_block in HPl. rewrite <- !app_assoc in HPl.
        cbn [item_size] in Ha. rewrite blen_ohdr_block in Ha by blia.
        unfold HdrAt. split; [exact Hxo|]. split.
        { eexists. split; [apply (placed_tail _ a d _ HPl)|].
          rewrite blen_app, blen_zeros. unfold OHDR_RESERVE, size_ohdr_v2. blia. }
        split; [lia | unfold B63; blia].
  - exact Hnd.
Qed.
End Read.
