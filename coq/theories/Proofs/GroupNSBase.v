(* C03: generic lemmas (lengths, association lists). *)
From HV Require Import Base.Prelude Base.Bytes Model.GroupNS.

(* lia treats @blen byte l and @blen N l as different atoms: normalise the aliases first *)
Ltac nlia := unfold name, path, bytes, byte in *; lia.

(* Model/GroupNS.v has its own blen (any element type) and zeros (length in N); the facts of Base/Bytes.v
   are about other constants and do not rewrite these *)
Lemma blen_nil : forall A, @blen A [] = 0. Proof. reflexivity. Qed.
Lemma blen_cons : forall A (x : A) l, blen (x :: l) = blen l + 1.
Proof. intros. unfold blen. cbn [length]. lia. Qed.
Lemma blen_app : forall A (a b : list A), blen (a ++ b) = blen a + blen b.
Proof. intros. unfold blen. rewrite app_length. lia. Qed.
Lemma blen_zeros : forall k, blen (zeros k) = k.
Proof. intro k. unfold blen, zeros. rewrite repeat_length. lia. Qed.
Lemma blen_map : forall A B (f : A -> B) l, blen (map f l) = blen l.
Proof. intros. unfold blen. rewrite map_length. reflexivity. Qed.
Lemma to_nat_blen : forall A (l : list A), N.to_nat (blen l) = length l.
Proof. intros. unfold blen. lia. Qed.
Lemma blen_eq_length : forall A B (a : list A) (b : list B), length a = length b -> blen a = blen b.
Proof. intros. unfold blen. congruence. Qed.

Lemma alookup_aset : forall A k k' (v : A) l,
  alookup k' (aset k v l) = if k =? k' then Some v else alookup k' l.
Proof.
  induction l as [|[k0 v0] l IH]; cbn [aset alookup]; [reflexivity|].
  destruct (k0 =? k) eqn:E; cbn [alookup].
  - apply N.eqb_eq in E. subst k0. destruct (k =? k'); reflexivity.
  - rewrite IH. destruct (k0 =? k') eqn:E'; [|reflexivity].
    apply N.eqb_eq in E'. subst k'. rewrite N.eqb_sym, E. reflexivity.
Qed.
Lemma alookup_aset_eq : forall A k (v : A) l, alookup k (aset k v l) = Some v.
Proof. intros. rewrite alookup_aset, N.eqb_refl. reflexivity. Qed.
Lemma alookup_aset_neq : forall A k k' (v : A) l, k <> k' -> alookup k' (aset k v l) = alookup k' l.
Proof. intros A k k' v l H. apply N.eqb_neq in H. rewrite alookup_aset, H. reflexivity. Qed.

Lemma plookup_pset : forall A p p' (v : A) l,
  plookup p' (pset p v l) = if bytes_eqb p p' then Some v else plookup p' l.
Proof.
  induction l as [|[p0 v0] l IH]; cbn [pset plookup]; [reflexivity|].
  destruct (bytes_eqb p0 p) eqn:E; cbn [plookup].
  - apply bytes_eqb_eq in E. subst p0. destruct (bytes_eqb p p'); reflexivity.
  - rewrite IH. destruct (bytes_eqb p0 p') eqn:E'; [|reflexivity].
    apply bytes_eqb_eq in E'. subst p'. apply bytes_eqb_neq in E.
    rewrite (proj2 (bytes_eqb_neq p p0)) by congruence. reflexivity.
Qed.
Lemma plookup_pset_eq : forall A p (v : A) l, plookup p (pset p v l) = Some v.
Proof. intros. rewrite plookup_pset, bytes_eqb_refl. reflexivity. Qed.
Lemma plookup_pset_neq : forall A p p' (v : A) l, p <> p' -> plookup p' (pset p v l) = plookup p' l.
Proof. intros A p p' v l H. apply bytes_eqb_neq in H. rewrite plookup_pset, H. reflexivity. Qed.

Lemma nmem_In : forall k l, nmem k l = true <-> In k l.
Proof.
  induction l as [|x l IH]; cbn [nmem In]; [easy|]. rewrite orb_true_iff, N.eqb_eq, IH. reflexivity.
Qed.
Lemma nmem_false : forall k l, nmem k l = false <-> ~ In k l.
Proof. intros. rewrite <- nmem_In. destruct (nmem k l); intuition congruence. Qed.

Lemma clookup_app : forall n ch ch',
  clookup n (ch ++ ch') = match clookup n ch with Some c => Some c | None => clookup n ch' end.
Proof.
  induction ch as [|[n' c] ch IH]; intro ch'; cbn [clookup app]; [reflexivity|].
  destruct (bytes_eqb n' n); auto.
Qed.
Lemma clookup_In : forall n ch c, clookup n ch = Some c -> In (n, c) ch.
Proof.
  induction ch as [|[n' c'] ch IH]; intros c H; cbn [clookup] in H; [discriminate|].
  destruct (bytes_eqb n' n) eqn:E; [|right; auto].
  apply bytes_eqb_eq in E. left. congruence.
Qed.
Lemma clookup_None : forall n ch, clookup n ch = None <-> ~ In n (map fst ch).
Proof.
  induction ch as [|[n' c'] ch IH]; cbn [clookup map fst In]; [tauto|].
  destruct (bytes_eqb n' n) eqn:E.
  - apply bytes_eqb_eq in E. split; [discriminate | tauto].
  - apply bytes_eqb_neq in E. rewrite IH. tauto.
Qed.
