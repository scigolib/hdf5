(* Functional (block-structured) characterisation of the imperative chunk extraction and chunk
   placement models, and the refinement lemmas connecting them. *)
From HV Require Import Base.Prelude Model.Chunk Proofs.ChunkLists.

Local Open Scope N_scope.

Lemma vol_nil esz : vol [] esz = esz.
Proof. unfold vol. cbn [prodN fold_right]. lia. Qed.
Lemma vol_cons d r esz : vol (d :: r) esz = d * vol r esz.
Proof. unfold vol. cbn [prodN fold_right]. symmetry. apply N.mul_assoc. Qed.
Lemma vol_prod r esz : vol r esz = prodN r * esz.
Proof. reflexivity. Qed.

Section Spec.
Variable esz : N.

(* extraction of the chunk `coord` from src into a buffer whose previous content is old *)
Fixpoint ext_spec (dims cdims coord : list N) (src old : bytes) : bytes :=
  match dims, cdims, coord with
  | d :: dims', cd :: cdims', c :: coord' =>
      concat (map (fun i => if c * cd + i <? d
                            then ext_spec dims' cdims' coord'
                                          (blk (vol dims' esz) (c * cd + i) src) (blk (vol cdims' esz) i old)
                            else blk (vol cdims' esz) i old)
                  (rangeN cd))
  | _, _, _ => takeN esz src
  end.

(* placement of a chunk (full chunk extents cdims) at scaled coordinate coord into full *)
Fixpoint place_spec (dims cdims coord : list N) (chunk full : bytes) : bytes :=
  match dims, cdims, coord with
  | d :: dims', cd :: cdims', c :: coord' =>
      concat (map (fun k => if (c * cd <=? k) && (k <? c * cd + cd)
                            then place_spec dims' cdims' coord'
                                            (blk (vol cdims' esz) (k - c * cd) chunk) (blk (vol dims' esz) k full)
                            else blk (vol dims' esz) k full)
                  (rangeN d))
  | _, _, _ => takeN esz chunk
  end.

Lemma lenN_ext_spec dims : forall cdims coord src old,
  length cdims = length dims -> length coord = length dims ->
  lenN src = vol dims esz -> lenN old = vol cdims esz ->
  lenN (ext_spec dims cdims coord src old) = vol cdims esz.
Proof.
  induction dims as [|d dims' IH]; intros cdims coord src old Hc Hx Hs Ho;
    destruct cdims as [|cd cdims']; destruct coord as [|c coord']; try discriminate.
  - cbn [ext_spec]. rewrite lenN_takeN, Hs, !vol_nil. lia.
  - cbn [ext_spec]. rewrite vol_cons in *. cbn [length] in *.
    apply lenN_concat_range. intros k Hk.
    destruct (c * cd + k <? d) eqn:E; [|now apply (lenN_blk _ cd)].
    apply IH; [lia | lia | apply (lenN_blk _ d); [assumption|lia] | now apply (lenN_blk _ cd)].
Qed.

Lemma lenN_place_spec dims : forall cdims coord chunk full,
  length cdims = length dims -> length coord = length dims ->
  lenN chunk = vol cdims esz -> lenN full = vol dims esz ->
  lenN (place_spec dims cdims coord chunk full) = vol dims esz.
Proof.
  induction dims as [|d dims' IH]; intros cdims coord chunk full Hc Hx Hs Ho;
    destruct cdims as [|cd cdims']; destruct coord as [|c coord']; try discriminate.
  - cbn [place_spec]. rewrite lenN_takeN, Hs, !vol_nil. lia.
  - cbn [place_spec]. rewrite vol_cons in *. cbn [length] in *.
    apply lenN_concat_range. intros k Hk.
    destruct ((c * cd <=? k) && (k <? c * cd + cd)) eqn:E; [|now apply (lenN_blk _ d)].
    apply IH; [lia | lia | apply (lenN_blk _ cd); [assumption|lia] | now apply (lenN_blk _ d)].
Qed.

Lemma extract_rec_spec dims : forall cdims coord,
  length cdims = length dims -> length coord = length dims ->
  forall src dst so do_,
    so + vol dims esz <= lenN src -> do_ + vol cdims esz <= lenN dst ->
    extract_rec dims cdims (chunk_size dims cdims coord) coord esz src dst so do_
    = blit dst do_ (ext_spec dims cdims coord (slice src so (vol dims esz)) (slice dst do_ (vol cdims esz))).
Proof.
  induction dims as [|d dims' IH]; intros cdims coord Hc Hx src dst so do_ Hs Hd;
    destruct cdims as [|cd cdims']; destruct coord as [|c coord']; try discriminate.
  - cbn [extract_rec ext_spec chunk_size]. rewrite vol_nil in *.
    f_equal. unfold slice. rewrite takeN_takeN. f_equal. lia.
  - cbn [length] in *. cbn [chunk_size extract_rec ext_spec].
    set (v := (if d <? c * cd + cd then d else c * cd + cd) - c * cd).
    rewrite !(N.mul_comm esz). fold (vol dims' esz) (vol cdims' esz).
    set (S' := vol dims' esz) in *. set (CS' := vol cdims' esz) in *.
    rewrite !vol_cons in *. fold S' CS' in Hs, Hd |- *.
    assert (Hvd : forall i, i < v -> i < cd /\ c * cd + i < d) by (unfold v; intros i; destruct (d <? c * cd + cd) eqn:E; lia).
    assert (Hvi : forall i, i < cd -> (c * cd + i <? d) = ((0 <=? i) && (i <? 0 + v)))
      by (unfold v; intros i; destruct (d <? c * cd + cd) eqn:E; lia).
    assert (Hvc : v <= cd) by (unfold v; destruct (d <? c * cd + cd) eqn:E; lia).
    pose proof (N.mul_le_mono_r v cd CS' Hvc) as Hv.
    set (SRC := slice src so (d * S')). set (DST := slice dst do_ (cd * CS')).
    assert (HSRC : lenN SRC = d * S') by (apply lenN_slice; lia).
    assert (HDST : lenN DST = cd * CS') by (apply lenN_slice; lia).
    set (g := fun i => ext_spec dims' cdims' coord' (blk S' (c * cd + i) SRC) (blk CS' i DST)).
    assert (Hg : forall i, i < v -> lenN (g i) = CS').
    { intros i Hi. destruct (Hvd i Hi). apply lenN_ext_spec; [lia | lia | now apply (lenN_blk _ d) | now apply (lenN_blk _ cd)]. }
    transitivity (blit dst do_ (concat (map g (rangeN v)))).
    + apply (fold_blit_blocks v CS' do_ _ g dst Hg); [lia|].
      intros i dst' Hi Hl Hsl. destruct (Hvd i Hi) as [Hi1 Hi2].
      pose proof (blk_bound _ _ S' Hi2). pose proof (blk_bound _ _ CS' Hi1).
      rewrite IH by lia. fold S' CS'. rewrite Hsl. unfold g, SRC, DST.
      rewrite (blk_slice _ d), (blk_slice _ cd) by assumption. reflexivity.
    + symmetry.
      rewrite (map_ext_in _ (fun k => if (0 <=? k) && (k <? 0 + v) then g (k - 0) else blk CS' k DST)).
      2:{ intros k Hk. apply in_rangeN in Hk. cbv beta. rewrite Hvi, N.sub_0_r by auto. reflexivity. }
      rewrite (window_blit CS' cd 0 v g DST HDST) by (auto; lia).
      unfold DST. rewrite blit_blit_inner by (rewrite ?(lenN_concat_range g v CS' Hg); lia). f_equal. lia.
Qed.

Lemma extract_padded_spec dims cdims coord data :
  length cdims = length dims -> length coord = length dims -> lenN data = vol dims esz ->
  extract_padded dims cdims esz data coord
  = ext_spec dims cdims coord data (zerosN (vol cdims esz)).
Proof.
  intros Hc Hx Hl. unfold extract_padded. fold (vol cdims esz).
  rewrite extract_rec_spec by (auto; rewrite ?lenN_zerosN; lia).
  rewrite !slice_0_all by (rewrite ?lenN_zerosN; lia).
  apply blit_whole. rewrite lenN_zerosN. apply lenN_ext_spec; auto. apply lenN_zerosN.
Qed.

Lemma place_spec_outside dims : forall cdims coord chunk full,
  length cdims = length dims -> length coord = length dims -> lenN full = vol dims esz ->
  copy_dims coord cdims dims = None ->
  place_spec dims cdims coord chunk full = full.
Proof.
  induction dims as [|d dims' IH]; intros cdims coord chunk full Hc Hx Hf Hn;
    destruct cdims as [|cd cdims']; destruct coord as [|c coord']; try discriminate.
  cbn [length] in *. cbn [copy_dims] in Hn. cbn [place_spec]. rewrite vol_cons in *.
  transitivity (concat (map (fun k => blk (vol dims' esz) k full) (rangeN d))); [| apply concat_blocks; auto].
  f_equal. apply map_ext_in. intros k Hk. apply in_rangeN in Hk.
  destruct (d <=? c * cd) eqn:E.
  - replace ((c * cd <=? k) && (k <? c * cd + cd)) with false by lia. reflexivity.
  - destruct (copy_dims coord' cdims' dims') eqn:E2; [discriminate|].
    destruct ((c * cd <=? k) && (k <? c * cd + cd)) eqn:E3; auto.
    apply IH; auto. now apply (lenN_blk _ d).
Qed.

Lemma copy_dims_cons c coord' cd cdims' d dims' cds :
  copy_dims (c :: coord') (cd :: cdims') (d :: dims') = Some cds ->
  exists cds', cds = (if d <? c * cd + cd then d - c * cd else cd) :: cds' /\
               c * cd < d /\ copy_dims coord' cdims' dims' = Some cds'.
Proof.
  cbn [copy_dims]. destruct (d <=? c * cd) eqn:E; [discriminate|].
  destruct (copy_dims coord' cdims' dims') eqn:E2; [|discriminate].
  intros H. inversion H. eexists. split; [reflexivity|]. split; [lia|reflexivity].
Qed.

Lemma copy_rec_cons2 n n' r cs cstr' ds dstr' chunk full coff doff :
  copy_rec (n :: n' :: r) (cs :: cstr') (ds :: dstr') chunk full coff doff esz
  = bind_fold (fun full i => copy_rec (n' :: r) cstr' dstr' chunk full (coff + i * cs) (doff + i * ds) esz)
              (rangeN n) full.
Proof. reflexivity. Qed.

Lemma copy_rec_spec dims : dims <> [] -> forall cdims coord cds,
  length cdims = length dims -> length coord = length dims ->
  copy_dims coord cdims dims = Some cds ->
  forall chunk full coff doff,
    coff * esz + vol cdims esz <= lenN chunk -> doff * esz + vol dims esz <= lenN full ->
    copy_rec cds (strides cdims) (strides dims) chunk full coff
             (doff + data_offset coord cdims (strides dims)) esz
    = Ok (blit full (doff * esz)
               (place_spec dims cdims coord (slice chunk (coff * esz) (vol cdims esz))
                           (slice full (doff * esz) (vol dims esz)))).
Proof.
  induction dims as [|d dims' IH]; [congruence|]. intros _ cdims coord cds Hc Hx Hcd chunk full coff doff Hch Hf.
  destruct cdims as [|cd cdims']; destruct coord as [|c coord']; try discriminate.
  cbn [length] in *.
  apply copy_dims_cons in Hcd. destruct Hcd as (cds' & -> & Hlt & Hcd').
  set (n := if d <? c * cd + cd then d - c * cd else cd).
  assert (Hn : n <= cd) by (unfold n; destruct (d <? c * cd + cd) eqn:E; lia).
  assert (Hnd : c * cd + n <= d) by (unfold n; destruct (d <? c * cd + cd) eqn:E; lia).
  assert (Hwin : forall k, k < d -> ((c * cd <=? k) && (k <? c * cd + cd)) = ((c * cd <=? k) && (k <? c * cd + n)))
    by (unfold n; intros k Hk; destruct (d <? c * cd + cd) eqn:E; lia).
  set (S' := vol dims' esz) in *. set (CS' := vol cdims' esz) in *.
  rewrite !vol_cons in *. fold S' CS' in Hch, Hf |- *.
  pose proof (N.mul_le_mono_r _ _ CS' Hn) as HnC. pose proof (N.mul_le_mono_r _ _ S' Hnd) as HnS.
  destruct dims' as [|d' dims''].
  - destruct cdims' as [|? ?]; [|discriminate]. destruct coord' as [|? ?]; [|discriminate].
    cbn [copy_dims] in Hcd'. inversion Hcd'; subst cds'.
    cbn [strides prodN fold_right data_offset copy_rec place_spec].
    unfold S', CS' in *. rewrite !vol_nil in *.
    replace (lenN chunk <? coff * esz + n * esz) with false by lia.
    replace (lenN full <? (doff + (c * cd * 1 + 0)) * esz + n * esz) with false by lia.
    f_equal.
    set (ch := slice chunk (coff * esz) (cd * esz)). set (fl := slice full (doff * esz) (d * esz)).
    set (gb := fun i => blk esz i ch).
    rewrite (map_ext_in _ (fun k => if (c * cd <=? k) && (k <? c * cd + n) then gb (k - c * cd)
                                    else blk esz k fl)).
    2:{ intros k Hk. apply in_rangeN in Hk. cbv beta. rewrite Hwin by auto.
        destruct ((c * cd <=? k) && (k <? c * cd + n)); auto.
        unfold gb. apply takeN_all. unfold blk, slice. rewrite lenN_takeN. lia. }
    assert (Hlch : lenN ch = cd * esz) by (apply lenN_slice; lia).
    assert (Hlfl : lenN fl = d * esz) by (apply lenN_slice; lia).
    rewrite (window_blit esz d (c * cd) n gb fl); [| auto | lia | intros; apply (lenN_blk _ cd); auto; lia].
    unfold gb. rewrite concat_blocks_prefix.
    unfold fl. rewrite blit_blit_inner; [| lia | rewrite lenN_takeN, Hlch; lia].
    f_equal; [lia|]. unfold ch, slice. rewrite takeN_takeN. f_equal. lia.
  - destruct cdims' as [|cd' cdims'']; [discriminate|]. destruct coord' as [|c' coord'']; [discriminate|].
    destruct (copy_dims_cons _ _ _ _ _ _ _ Hcd') as (cds'' & Ecds' & _ & _).
    remember (d' :: dims'') as dims' eqn:Edims. remember (cd' :: cdims'') as cdims' eqn:Ecdims.
    remember (c' :: coord'') as coord' eqn:Ecoord.
    cbn [strides data_offset].
    set (Pd := prodN dims'). set (Pc := prodN cdims').
    assert (HS' : S' = Pd * esz) by reflexivity. assert (HCS' : CS' = Pc * esz) by reflexivity.
    set (DO := data_offset coord' cdims' (strides dims')).
    rewrite Ecds', copy_rec_cons2, <- Ecds'.
    set (ch := slice chunk (coff * esz) (cd * CS')). set (fl := slice full (doff * esz) (d * S')).
    assert (Hlch : lenN ch = cd * CS') by (apply lenN_slice; lia).
    assert (Hlfl : lenN fl = d * S') by (apply lenN_slice; lia).
    set (g := fun i => place_spec dims' cdims' coord' (blk CS' i ch) (blk S' (c * cd + i) fl)).
    assert (Hg : forall i, i < n -> lenN (g i) = S').
    { intros i Hi. apply lenN_place_spec; [lia | lia | apply (lenN_blk _ cd) | apply (lenN_blk _ d)]; auto; lia. }
    transitivity (Ok (blit full (doff * esz + c * cd * S') (concat (map g (rangeN n))))).
    + apply (bind_fold_blit_blocks n S' (doff * esz + c * cd * S') _ g full Hg).
      * lia.
      * intros i full' Hi Hl Hsl.
        replace (doff + (c * cd * Pd + DO) + i * Pd) with ((doff + (c * cd + i) * Pd) + DO) by lia.
        unfold DO.
        assert (Hoff : (doff + (c * cd + i) * Pd) * esz = doff * esz + c * cd * S' + i * S') by (rewrite HS'; lia).
        assert (Hcoff : (coff + i * Pc) * esz = coff * esz + i * CS') by (rewrite HCS'; lia).
        pose proof (blk_bound i cd CS' ltac:(lia)). pose proof (blk_bound (c * cd + i) d S' ltac:(lia)).
        rewrite IH; [| subst dims'; discriminate | lia | lia | auto | lia | lia].
        rewrite Hoff, Hcoff. fold S' CS'. rewrite Hsl. unfold g, ch, fl.
        rewrite (blk_slice _ cd), (blk_slice _ d) by lia. do 4 f_equal. lia.
    + f_equal. symmetry. cbn [place_spec]. fold S' CS'. fold ch fl.
      rewrite (map_ext_in _ (fun k => if (c * cd <=? k) && (k <? c * cd + n) then g (k - c * cd) else blk S' k fl)).
      2:{ intros k Hk. apply in_rangeN in Hk. cbv beta. rewrite Hwin by auto.
          destruct ((c * cd <=? k) && (k <? c * cd + n)) eqn:E; auto.
          unfold g. f_equal. f_equal. lia. }
      rewrite (window_blit S' d (c * cd) n g fl Hlfl Hnd Hg).
      unfold fl. rewrite blit_blit_inner; [reflexivity | lia |].
      rewrite (lenN_concat_range g n S' Hg). lia.
Qed.

Lemma copy_nd_chunk_spec dims cdims coord chunk full :
  dims <> [] -> length cdims = length dims -> length coord = length dims ->
  lenN chunk = vol cdims esz -> lenN full = vol dims esz ->
  copy_chunk_to_array chunk full coord cdims dims esz
  = Ok (place_spec dims cdims coord chunk full).
Proof.
  intros Hne Hc Hx Hch Hf. unfold copy_chunk_to_array.
  rewrite Hx, Hc, !Nat.eqb_refl. cbn [andb negb].
  unfold copy_nd_chunk.
  destruct coord as [|c0 coord0] eqn:Ecoord; [destruct dims; [congruence|discriminate]|].
  rewrite <- Ecoord in *. clear Ecoord.
  destruct (copy_dims coord cdims dims) as [cds|] eqn:Ecd.
  - pose proof (copy_rec_spec dims Hne cdims coord cds Hc Hx Ecd chunk full 0 0) as H.
    rewrite !N.mul_0_l, !N.add_0_l in H.
    rewrite H by lia.
    rewrite !slice_0_all by lia.
    f_equal. apply blit_whole. rewrite lenN_place_spec by auto. lia.
  - f_equal. symmetry. apply place_spec_outside; auto.
Qed.

End Spec.
