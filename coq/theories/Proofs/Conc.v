(* C18 - soundness of the lockset discipline over the interleaving semantics of Model/Conc.v.
   First half: step_inv says what one step does to every thread of the pool; three invariants are kept by
   it (local_inv: each thread still passes the static scan and keeps its label; mutex_inv; handoff_inv:
   happens-before by spawn) and together exclude a race (no_race_inv, lockset_sound).
   Second half: access tables.  The block of code around one site passes the scan when its entry is
   covered (scan_block), so every pool built from a table that passes locktable_ok follows the discipline
   (table_well_locked, table_sound), in particular the canonical program_of. *)
From HV Require Import Base.Prelude Model.Conc.
From Coq Require Import Arith.

Local Open Scope nat_scope.

Lemma memN_In m l : memN m l = true <-> In m l.
Proof.
  unfold memN. rewrite existsb_exists. split.
  - intros [x [Hi He]]. apply N.eqb_eq in He. subst. exact Hi.
  - intros H. exists m. split; [exact H | apply N.eqb_refl].
Qed.

Lemma memN_false m l : memN m l = false <-> ~ In m l.
Proof.
  split; intros H.
  - intros Hi. apply memN_In in Hi. congruence.
  - destruct (memN m l) eqn:E; [apply memN_In in E; contradiction | reflexivity].
Qed.

Lemma In_removeN_iff m x l : In x (removeN m l) <-> In x l /\ x <> m.
Proof.
  induction l as [|a l IH]; cbn [removeN In]; [tauto|].
  destruct (N.eqb_spec m a); cbn [In]; rewrite IH; intuition congruence.
Qed.

Lemma nth_error_upd_eq {A} (l : list A) i v a : nth_error l i = Some a -> nth_error (upd l i v) i = Some v.
Proof.
  revert i. induction l as [|b l IH]; intros [|i]; cbn; try discriminate; auto.
Qed.

Lemma nth_error_upd_neq {A} (l : list A) i j v : i <> j -> nth_error (upd l i v) j = nth_error l j.
Proof.
  revert i j. induction l as [|b l IH]; intros [|i] [|j] Hne; cbn; try reflexivity; try congruence.
  apply IH. congruence.
Qed.

Lemma existsb_tail {A} (f : A -> bool) a r : existsb f (a :: r) = false -> f a = false /\ existsb f r = false.
Proof. cbn [existsb]. intros H. apply orb_false_iff in H. exact H. Qed.

Lemma nth_error_indexed {A} (l : list A) : forall k j a, nth_error l j = Some a -> In (k + j, a) (indexed k l).
Proof.
  induction l as [|b l IH]; intros k [|j] a H; cbn in H; try discriminate.
  - inversion H; subst. cbn. left. f_equal. lia.
  - cbn [indexed]. right. replace (k + S j) with (S k + j) by lia. apply IH. exact H.
Qed.

Definition sim (a b : thread) : Prop :=
  t_lab a = t_lab b /\ t_prog a = t_prog b /\ t_w a = t_w b /\ t_r a = t_r b.

Lemma sim_refl a : sim a a. Proof. unfold sim. tauto. Qed.

(* thread x of the new pool comes from thread y of the old one: same but for the run flag, which only
   `ASpawn j` sets *)
Definition follows (a : action) (j : nat) (x y : thread) : Prop :=
  sim x y /\ (t_run x = t_run y \/ (a = ASpawn j /\ t_run x = true)).

Lemma follows_same a pool j x : nth_error pool j = Some x -> exists y, nth_error pool j = Some y /\ follows a j x y.
Proof. intros H. exists x. split; [exact H | split; [apply sim_refl | left; reflexivity]]. Qed.

Lemma effect_pool a s pool' j x :
  nth_error (s_pool (effect a s pool')) j = Some x -> exists y, nth_error pool' j = Some y /\ follows a j x y.
Proof.
  destruct a; cbn [effect s_pool]; try apply follows_same.
  destruct (nth_error pool' t) as [th0|] eqn:E; [|apply follows_same].
  destruct (Nat.eq_dec t j) as [->|Hne]; [|rewrite nth_error_upd_neq by exact Hne; apply follows_same].
  rewrite (nth_error_upd_eq _ _ _ _ E). intros H. inversion H; subst. exists th0. split; [exact E|].
  split; [unfold sim, set_run; cbn; tauto | right; split; reflexivity].
Qed.

Lemma effect_rest a s pool' :
  s_panic (effect a s pool') = s_panic s.
Proof. destruct a; reflexivity. Qed.

Lemma step_inv s i s' : step s i s' ->
  exists th a rest, nth_error (s_pool s) i = Some th /\ t_run th = true /\ t_prog th = a :: rest /\
    guard a s = true /\ s_panic s = false /\
    ((s_pool s' = s_pool s /\ s_panic s' = true) \/
     (s_panic s' = false /\
      forall j x, nth_error (s_pool s') j = Some x ->
        if Nat.eq_dec j i
        then sim x (mkT true (t_lab th) rest (w_after a (t_w th)) (r_after a (t_r th)))
        else exists y, nth_error (s_pool s) j = Some y /\ follows a j x y)).
Proof.
  unfold step, step_fn. destruct (s_panic s) eqn:Hp; [discriminate|].
  destruct (nth_error (s_pool s) i) as [th|] eqn:Hi; [|discriminate].
  destruct (t_run th) eqn:Hr; cbn [negb]; [|discriminate].
  destruct (t_prog th) as [|a rest] eqn:Hprog; [discriminate|].
  destruct (guard a s) eqn:Hg; cbn [negb]; [|discriminate].
  destruct (panics a s th) eqn:Hpan; intros H; inversion H; subst; clear H;
    exists th, a, rest; repeat (split; [assumption || reflexivity|]).
  - left. cbn. auto.
  - right. split; [rewrite effect_rest; exact Hp|].
    intros j x Hx. apply effect_pool in Hx. destruct Hx as [y [Hy Hf]].
    destruct (Nat.eq_dec j i) as [->|Hne].
    + rewrite (nth_error_upd_eq _ _ _ _ Hi) in Hy. inversion Hy; subst. exact (proj1 Hf).
    + rewrite nth_error_upd_neq in Hy by congruence. exists y. auto.
Qed.

Definition local_inv (P : pmap) (labs : list nat) (s : state) : Prop :=
  forall i th, nth_error (s_pool s) i = Some th ->
    scan P (t_lab th) (t_w th) (t_r th) (t_prog th) = true /\ nth_error labs i = Some (t_lab th).

Definition mutex_inv (s : state) : Prop :=
  forall i j thi thj m, i <> j -> nth_error (s_pool s) i = Some thi -> nth_error (s_pool s) j = Some thj ->
    In m (t_w thi) -> ~ In m (t_w thj) /\ ~ In m (t_r thj).

Lemma local_inv_step P labs s i s' : local_inv P labs s -> step s i s' -> local_inv P labs s'.
Proof.
  intros Hinv Hst. apply step_inv in Hst.
  destruct Hst as [th [a [rest [Hi [_ [Hprog [_ [_ [[Hpool _]|[_ Hall]]]]]]]]]].
  - unfold local_inv. rewrite Hpool. exact Hinv.
  - intros j x Hx. specialize (Hall j x Hx). destruct (Nat.eq_dec j i) as [->|Hne].
    + destruct Hall as [Hl [Hp [Hw Hr]]]; cbn in Hl, Hp, Hw, Hr. rewrite Hl, Hp, Hw, Hr.
      destruct (Hinv i th Hi) as [Hs Hlab]. rewrite Hprog in Hs. cbn [scan] in Hs.
      apply andb_true_iff in Hs. tauto.
    + destruct Hall as [y [Hy [[Hl [Hp [Hw Hr]]] _]]]. rewrite Hl, Hp, Hw, Hr. exact (Hinv j y Hy).
Qed.

(* nobody_w / nobody_r, for f = t_w / t_r *)
Lemma nobody_spec (f : thread -> list N) m pool j th :
  forallb (fun th => negb (memN m (f th))) pool = true -> nth_error pool j = Some th -> ~ In m (f th).
Proof.
  rewrite forallb_forall. intros H Hj. apply nth_error_In in Hj. specialize (H th Hj).
  apply negb_true_iff in H. apply memN_false. exact H.
Qed.

Lemma w_after_In a w m : In m (w_after a w) -> In m w \/ a = ALock m.
Proof.
  destruct a; cbn [w_after]; auto.
  - intros [->|H]; auto.
  - rewrite In_removeN_iff. tauto.
Qed.

Lemma r_after_In a r m : In m (r_after a r) -> In m r \/ a = ARLock m.
Proof.
  destruct a; cbn [r_after]; auto.
  - intros [->|H]; auto.
  - rewrite In_removeN_iff. tauto.
Qed.

(* a lock new in the stepping thread's sets was acquired under a guard that has looked at every thread y of the pool *)
Lemma acquired_excludes a s w r j y m : guard a s = true -> nth_error (s_pool s) j = Some y ->
  (In m (w_after a w) -> In m w \/ ~ In m (t_w y) /\ ~ In m (t_r y)) /\
  (In m (r_after a r) -> In m r \/ ~ In m (t_w y)).
Proof.
  intros Hg Hy. split; intros Hin.
  - apply w_after_In in Hin. destruct Hin as [Hin | ->]; [auto|]. right.
    cbn [guard] in Hg. apply andb_true_iff in Hg. destruct Hg as [G1 G2].
    split; [exact (nobody_spec t_w _ _ _ _ G1 Hy) | exact (nobody_spec t_r _ _ _ _ G2 Hy)].
  - apply r_after_In in Hin. destruct Hin as [Hin | ->]; [auto|]. right.
    exact (nobody_spec t_w _ _ _ _ Hg Hy).
Qed.

Lemma mutex_inv_step s i s' : mutex_inv s -> step s i s' -> mutex_inv s'.
Proof.
  intros Hinv Hst. apply step_inv in Hst.
  destruct Hst as [th [a [rest [Hi [_ [Hprog [Hg [_ [[Hpool _]|[_ Hall]]]]]]]]]].
  - unfold mutex_inv. rewrite Hpool. exact Hinv.
  - intros j k xj xk m Hjk Hj Hk Hm.
    pose proof (Hall j xj Hj) as Aj. pose proof (Hall k xk Hk) as Ak.
    destruct (Nat.eq_dec j i) as [->|Hji]; destruct (Nat.eq_dec k i) as [->|Hki]; try congruence.
    + (* j is the stepping thread, k another *)
      destruct Aj as [_ [_ [Hw _]]]; cbn in Hw. destruct Ak as [y [Hy [[_ [_ [Hyw Hyr]]] _]]].
      rewrite Hw in Hm. rewrite Hyw, Hyr.
      destruct (proj1 (acquired_excludes a s _ (t_r th) k y m Hg Hy) Hm) as [Hold|Hnew]; [|exact Hnew].
      exact (Hinv i k th y m Hjk Hi Hy Hold).
    + (* k is the stepping thread, j another that holds m for writing *)
      destruct Ak as [_ [_ [Hw Hr]]]; cbn in Hw, Hr. destruct Aj as [y [Hy [[_ [_ [Hyw _]]] _]]].
      rewrite Hyw in Hm. rewrite Hw, Hr.
      pose proof (Hinv j i y th m Hjk Hy Hi Hm) as Hold.
      destruct (acquired_excludes a s (t_w th) (t_r th) j y m Hg Hy) as [Aw Ar]. tauto.
    + destruct Aj as [y [Hy [[_ [_ [Hyw _]]] _]]]. destruct Ak as [z [Hz [[_ [_ [Hzw Hzr]]] _]]].
      rewrite Hyw in Hm. rewrite Hzw, Hzr. exact (Hinv j k y z m Hjk Hy Hz Hm).
Qed.

Definition child_running (s : state) (ic : nat) : bool :=
  match nth_error (s_pool s) ic with Some th => t_run th | None => false end.

Definition handoff_inv1 (x : N) (ip ic : nat) (s : state) : Prop :=
  ip <> ic /\
  (forall j th, nth_error (s_pool s) j = Some th -> j <> ip ->
     existsb (spawns ic) (t_prog th) = false /\ (j <> ic -> existsb (accesses x) (t_prog th) = false)) /\
  (forall th, nth_error (s_pool s) ip = Some th -> hs_ok x ic (child_running s ic) (t_prog th) = true).

Definition handoff_inv (P : pmap) (s : state) : Prop :=
  forall x ip ic, P x = Some (PHandoff ip ic) -> handoff_inv1 x ip ic s.

Lemma hs_ok_mono x c p : forall sp sp', (sp' = true -> sp = true) -> hs_ok x c sp p = true -> hs_ok x c sp' p = true.
Proof.
  induction p as [|a r IH]; intros sp sp' Himp; cbn [hs_ok]; [auto|].
  intros H. apply andb_true_iff in H. destruct H as [H1 H2]. apply andb_true_iff. split.
  - destruct (accesses x a); [|reflexivity]. destruct sp'; [|reflexivity].
    rewrite (Himp eq_refl) in H1. exact H1.
  - eapply IH; [|exact H2]. intros H. apply orb_true_iff in H. apply orb_true_iff.
    destruct H as [H|H]; [left; auto | right; exact H].
Qed.

Lemma handoff_inv1_step x ip ic s i s' : handoff_inv1 x ip ic s -> step s i s' -> handoff_inv1 x ip ic s'.
Proof.
  intros [Hne [Hoth Hpar]] Hst. apply step_inv in Hst.
  destruct Hst as [th [a [rest [Hi [Hrun [Hprog [_ [_ [[Hpool _]|[_ Hall]]]]]]]]]].
  - unfold handoff_inv1, child_running. rewrite Hpool. auto.
  - (* the child can only have become running through `ASpawn ic` executed by thread i *)
    assert (Hcr : child_running s' ic = true -> child_running s ic = true \/ a = ASpawn ic).
    { unfold child_running. destruct (nth_error (s_pool s') ic) as [xc|] eqn:Ec; [|discriminate].
      intros Hr. specialize (Hall ic xc Ec). destruct (Nat.eq_dec ic i) as [->|Hci].
      - left. rewrite Hi. exact Hrun.
      - destruct Hall as [y [Hy [_ [Heq|[Ha _]]]]]; [left; rewrite Hy, <- Heq; exact Hr | right; exact Ha]. }
    split; [exact Hne|]. split.
    + intros j xj Hj Hjp. specialize (Hall j xj Hj). destruct (Nat.eq_dec j i) as [->|Hji].
      * destruct Hall as [_ [Hp _]]; cbn in Hp. rewrite Hp.
        destruct (Hoth i th Hi Hjp) as [A B]. rewrite Hprog in A. apply existsb_tail in A. split; [tauto|].
        intros Hic. specialize (B Hic). rewrite Hprog in B. apply existsb_tail in B. tauto.
      * destruct Hall as [y [Hy [[_ [Hp _]] _]]]. rewrite Hp. exact (Hoth j y Hy Hjp).
    + intros xp Hxp. specialize (Hall ip xp Hxp). destruct (Nat.eq_dec ip i) as [->|Hpi].
      * destruct Hall as [_ [Hp _]]; cbn in Hp. rewrite Hp.
        specialize (Hpar th Hi). rewrite Hprog in Hpar. cbn [hs_ok] in Hpar.
        apply andb_true_iff in Hpar. destruct Hpar as [_ Hrest].
        eapply hs_ok_mono; [|exact Hrest]. intros Hc. apply Hcr in Hc. apply orb_true_iff.
        destruct Hc as [Hc|Hc]; [left; exact Hc | right; subst a; cbn; apply Nat.eqb_refl].
      * destruct Hall as [y [Hy [[_ [Hp _]] _]]]. rewrite Hp. specialize (Hpar y Hy).
        eapply hs_ok_mono; [|exact Hpar]. intros Hc. apply Hcr in Hc. destruct Hc as [Hc|Hc]; [exact Hc|].
        (* thread i <> ip cannot contain ASpawn ic *)
        exfalso. assert (Hip : i <> ip) by congruence.
        destruct (Hoth i th Hi Hip) as [A _]. rewrite Hprog in A. apply existsb_tail in A.
        destruct A as [A _]. subst a. cbn in A. rewrite Nat.eqb_refl in A. discriminate.
Qed.

Lemma handoff_inv_step P s i s' : handoff_inv P s -> step s i s' -> handoff_inv P s'.
Proof. intros H Hst x ip ic Hp. eapply handoff_inv1_step; eauto. Qed.

Lemma nth_error_init ths i th : nth_error (s_pool (init_state ths)) i = Some th ->
  exists run lab p, nth_error ths i = Some (run, lab, p) /\ th = init_thread run lab p.
Proof.
  cbn [init_state s_pool]. rewrite nth_error_map. destruct (nth_error ths i) as [[[run lab] p]|]; cbn; [|discriminate].
  intros H. inversion H. eauto.
Qed.

Lemma handoff_init x ip ic ths : handoff_ok x ip ic ths = true -> handoff_inv1 x ip ic (init_state ths).
Proof.
  unfold handoff_ok. intros H. apply andb_true_iff in H. destruct H as [H H3].
  apply andb_true_iff in H. destruct H as [H1 H2].
  apply negb_true_iff in H1. apply Nat.eqb_neq in H1. rewrite forallb_forall in H3.
  split; [exact H1|]. split.
  - intros j th Hj Hjp. destruct (nth_error_init _ _ _ Hj) as [run [lab [p [Hn ->]]]]. cbn [init_thread t_prog].
    specialize (H3 (j, (run, lab, p)) (nth_error_indexed ths 0 j _ Hn)). cbn in H3.
    apply Nat.eqb_neq in Hjp. rewrite Hjp in H3. apply andb_true_iff in H3. destruct H3 as [A B].
    apply negb_true_iff in A. split; [exact A|]. intros Hjc. apply Nat.eqb_neq in Hjc. rewrite Hjc in B.
    cbn in B. apply negb_true_iff in B. exact B.
  - intros th Hp. destruct (nth_error_init _ _ _ Hp) as [run [lab [p [Hn ->]]]]. cbn [init_thread t_prog].
    specialize (H3 (ip, (run, lab, p)) (nth_error_indexed ths 0 ip _ Hn)). cbn in H3.
    rewrite Nat.eqb_refl in H3.
    assert (Hc : child_running (init_state ths) ic = false).
    { unfold child_running. cbn [init_state s_pool]. rewrite nth_error_map.
      destruct (nth_error ths ic) as [[[runc labc] pc]|]; cbn; [|reflexivity].
      apply negb_true_iff in H2. exact H2. }
    rewrite Hc. exact H3.
Qed.

Definition acc (k : akind) (x : N) : action :=
  match k with KR => ARead x | KW => AWrite x | KA => AAtomic x end.

Lemma accesses_acc x k : accesses x (acc k x) = true.
Proof. destruct k; apply N.eqb_refl. Qed.

Lemma next_access_head th x k :
  next_access th = Some (x, k) -> t_run th = true /\ exists rest, t_prog th = acc k x :: rest.
Proof.
  unfold next_access. destruct (t_run th); [|discriminate].
  destruct (t_prog th) as [|[] rest]; try discriminate; intros H; inversion H; subst; split; eauto.
Qed.

Lemma scan_head P lab w r a rest : scan P lab w r (a :: rest) = true -> access_ok P lab w r a = true.
Proof. cbn [scan]. intros H. apply andb_true_iff in H. tauto. Qed.

Lemma access_ok_acc P lab w r k x : access_ok P lab w r (acc k x) = true ->
  match P x with
  | Some (PLock m) => In m w \/ k = KR /\ In m r
  | Some (PConfined t) => t = lab
  | Some (PHandoff _ _) => True
  | Some PReadOnly => k = KR
  | Some PAtomic => k = KA
  | None => False
  end.
Proof.
  destruct k; cbn [acc access_ok]; destruct (P x) as [[m|t|ip ic| |]|]; try discriminate; auto;
    rewrite ?orb_true_iff, ?memN_In, ?Nat.eqb_eq; intuition auto.
Qed.

(* a thread about to access a handed-over location is the child, running, or the parent before the spawn *)
Lemma handoff_head x ip ic s n th k : handoff_inv1 x ip ic s ->
  nth_error (s_pool s) n = Some th -> next_access th = Some (x, k) ->
  n = ic /\ child_running s ic = true \/ n = ip /\ child_running s ic = false.
Proof.
  intros [Hne [Hoth Hpar]] Hn Na. destruct (next_access_head _ _ _ Na) as [Hrun [rest Hp]].
  destruct (Nat.eq_dec n ic) as [->|Hnc]; [left; split; [reflexivity|]; unfold child_running; rewrite Hn; exact Hrun|].
  destruct (Nat.eq_dec n ip) as [->|Hnp].
  - right. split; [reflexivity|]. specialize (Hpar th Hn). rewrite Hp in Hpar. cbn [hs_ok] in Hpar.
    rewrite accesses_acc in Hpar. destruct (child_running s ic); [discriminate Hpar | reflexivity].
  - destruct (Hoth n th Hn Hnp) as [_ B]. specialize (B Hnc). rewrite Hp in B. cbn [existsb] in B.
    rewrite accesses_acc in B. discriminate B.
Qed.

Lemma no_race_inv P labs s :
  local_inv P labs s -> mutex_inv s -> handoff_inv P s ->
  (forall x t, P x = Some (PConfined t) -> unique_label t labs) ->
  ~ race s.
Proof.
  intros Hloc Hmut Hho Huniq [i [j [thi [thj [x [k1 [k2 [Hij [Hi [Hj [Ni [Nj Hc]]]]]]]]]]]].
  destruct (next_access_head _ _ _ Ni) as [_ [ri Pi]]. destruct (next_access_head _ _ _ Nj) as [_ [rj Pj]].
  destruct (Hloc i thi Hi) as [Si Li]. destruct (Hloc j thj Hj) as [Sj Lj].
  rewrite Pi in Si. rewrite Pj in Sj. apply scan_head, access_ok_acc in Si. apply scan_head, access_ok_acc in Sj.
  destruct (P x) as [[m|t|ip ic| |]|] eqn:Px.
  - (* common lock: one of the two does not read, so holds m for writing, and the other holds m too *)
    destruct Si as [Wi | [-> Ri]].
    + destruct (Hmut i j thi thj m Hij Hi Hj Wi). tauto.
    + destruct Sj as [Wj | [-> _]]; [|discriminate Hc].
      destruct (Hmut j i thj thi m (not_eq_sym Hij) Hj Hi Wj). tauto.
  - (* confined *) subst t. rewrite <- Sj in Lj. exact (Hij (Huniq x _ Px i j Li Lj)).
  - (* handed over by spawn *)
    destruct (handoff_head _ _ _ _ _ _ _ (Hho x ip ic Px) Hi Ni) as [[Ei Ci]|[Ei Ci]];
      destruct (handoff_head _ _ _ _ _ _ _ (Hho x ip ic Px) Hj Nj) as [[Ej Cj]|[Ej Cj]]; congruence.
  - (* read-only *) subst. discriminate Hc.
  - (* atomic *) subst. discriminate Hc.
  - contradiction.
Qed.

(* mutual exclusion needs nothing of the programs: the guards alone keep it *)
Lemma mutex_inv_reachable ths s : reachable (init_state ths) s -> mutex_inv s.
Proof.
  induction 1 as [|s i s' Hr IH Hst]; [|eapply mutex_inv_step; eauto].
  intros i j thi thj m _ Hi _ Hm. apply nth_error_init in Hi.
  destruct Hi as [? [? [? [_ ->]]]]. contradiction.
Qed.

Lemma reachable_invs P ths s : well_locked P ths -> reachable (init_state ths) s ->
  local_inv P (labels_of ths) s /\ handoff_inv P s.
Proof.
  intros [Hscan [_ Hho]] Hr. induction Hr as [|s i s' Hr [A B] Hst].
  - split; [|intros x ip ic Hp; apply handoff_init; eauto].
    intros i th Hi. apply nth_error_init in Hi. destruct Hi as [run [lab [p [Hn ->]]]]. split.
    + apply (Hscan run lab p). eapply nth_error_In; eauto.
    + unfold labels_of. rewrite nth_error_map, Hn. reflexivity.
  - split; [eapply local_inv_step | eapply handoff_inv_step]; eauto.
Qed.

Theorem mutual_exclusion P ths s : well_locked P ths -> reachable (init_state ths) s -> mutex_inv s.
Proof. intros _. apply mutex_inv_reachable. Qed.

(* any number of threads, any programs, any interleaving, any length *)
Theorem lockset_sound P ths : well_locked P ths -> forall s, reachable (init_state ths) s -> ~ race s.
Proof.
  intros Hwl s Hr. destruct (reachable_invs P ths s Hwl Hr) as [A B].
  apply (no_race_inv P (labels_of ths)); auto; [eapply mutex_inv_reachable; eauto | apply Hwl].
Qed.

Lemma removeN_incl m l l' : incl l l' -> incl (removeN m l) (removeN m l').
Proof. intros H x. rewrite !In_removeN_iff. intros [Hx Hne]. auto. Qed.

Lemma cons_incl (m : N) l l' : incl l l' -> incl (m :: l) (m :: l').
Proof. intros H. apply incl_cons; [apply in_eq | apply incl_tl, H]. Qed.

Lemma w_after_incl a w w' : incl w w' -> incl (w_after a w) (w_after a w').
Proof. intros H. destruct a; cbn [w_after]; auto using removeN_incl, cons_incl. Qed.

Lemma r_after_incl a r r' : incl r r' -> incl (r_after a r) (r_after a r').
Proof. intros H. destruct a; cbn [r_after]; auto using removeN_incl, cons_incl. Qed.

Lemma memN_incl m l l' : incl l l' -> memN m l = true -> memN m l' = true.
Proof. intros H. rewrite !memN_In. auto. Qed.

Lemma access_ok_mono P lab w r w' r' a : incl w w' -> incl r r' ->
  access_ok P lab w r a = true -> access_ok P lab w' r' a = true.
Proof.
  intros Hw Hr. destruct a; cbn [access_ok]; auto; destruct (P x) as [[m|t|ip ic| |]|]; auto.
  - intros H. apply orb_true_iff in H. apply orb_true_iff.
    destruct H; [left | right]; eapply memN_incl; eauto.
  - apply memN_incl; auto.
  - apply memN_incl; auto.
Qed.

Lemma scan_mono P lab p : forall w r w' r', incl w w' -> incl r r' ->
  scan P lab w r p = true -> scan P lab w' r' p = true.
Proof.
  induction p as [|a p IH]; intros w r w' r' Hw Hr; cbn [scan]; [auto|].
  intros H. apply andb_true_iff in H. destruct H as [H1 H2]. apply andb_true_iff. split.
  - eapply access_ok_mono; eauto.
  - eapply IH; [| |exact H2]; [apply w_after_incl | apply r_after_incl]; auto.
Qed.

Lemma scan_app P lab p q : forall w r,
  scan P lab w r p = true -> scan P lab [] [] q = true -> scan P lab w r (p ++ q) = true.
Proof.
  induction p as [|a p IH]; intros w r Hp Hq; cbn [app].
  - eapply scan_mono; [| |exact Hq]; intros x [].
  - cbn [scan] in *. apply andb_true_iff in Hp. destruct Hp as [H1 H2]. apply andb_true_iff. split; auto.
Qed.

Definition is_sync (a : action) : bool :=
  match a with ARead _ | AWrite _ | AAtomic _ => false | _ => true end.

Lemma access_ok_sync P lab w r a : is_sync a = true -> access_ok P lab w r a = true.
Proof. destruct a; cbn; auto; discriminate. Qed.

Definition ws_after (p : list action) (w : list N) : list N := fold_left (fun w a => w_after a w) p w.
Definition rs_after (p : list action) (r : list N) : list N := fold_left (fun r a => r_after a r) p r.

Lemma scan_sync_prefix P lab p q : forallb is_sync p = true -> forall w r,
  scan P lab w r (p ++ q) = scan P lab (ws_after p w) (rs_after p r) q.
Proof.
  induction p as [|a p IH]; intros Hs w r; cbn [app ws_after rs_after fold_left]; [reflexivity|].
  cbn [forallb] in Hs. apply andb_true_iff in Hs. destruct Hs as [Ha Hp].
  cbn [scan]. rewrite access_ok_sync by exact Ha. cbn [andb]. apply IH. exact Hp.
Qed.

Lemma scan_sync P lab p : forallb is_sync p = true -> forall w r, scan P lab w r p = true.
Proof.
  intros Hs w r. rewrite <- (app_nil_r p). rewrite scan_sync_prefix by exact Hs. reflexivity.
Qed.

Lemma sync_map (f : N -> action) : (forall m, is_sync (f m) = true) -> forall l, forallb is_sync (map f l) = true.
Proof. intros H. induction l as [|m l IH]; cbn; [reflexivity | rewrite H; exact IH]. Qed.

(* ws_after / rs_after over a run of one kind of lock operation (f = w_after / r_after, g the operation):
   acquisitions push their locks, operations foreign to the lock set leave it alone *)
Lemma fold_push (f : action -> list N -> list N) (g : N -> action) : (forall m s, f (g m) s = m :: s) ->
  forall l s, fold_left (fun s a => f a s) (map g l) s = rev l ++ s.
Proof.
  intros H. induction l as [|m l IH]; intros s; cbn; [reflexivity|].
  rewrite IH, H, <- app_assoc. reflexivity.
Qed.

Lemma fold_keep (f : action -> list N -> list N) (g : N -> action) : (forall m s, f (g m) s = s) ->
  forall l s, fold_left (fun s a => f a s) (map g l) s = s.
Proof. intros H. induction l as [|m l IH]; intros s; cbn; [reflexivity | rewrite H; apply IH]. Qed.

Lemma ws_after_locks l w : ws_after (map ALock l) w = rev l ++ w.
Proof. exact (fold_push w_after ALock (fun _ _ => eq_refl) l w). Qed.
Lemma rs_after_rlocks l r : rs_after (map ARLock l) r = rev l ++ r.
Proof. exact (fold_push r_after ARLock (fun _ _ => eq_refl) l r). Qed.
Lemma ws_after_rlocks l w : ws_after (map ARLock l) w = w.
Proof. exact (fold_keep w_after ARLock (fun _ _ => eq_refl) l w). Qed.
Lemma rs_after_locks l r : rs_after (map ALock l) r = r.
Proof. exact (fold_keep r_after ALock (fun _ _ => eq_refl) l r). Qed.

Lemma scan_block P e : live e = true -> entry_ok P e = true -> scan P (a_role e) [] [] (block e) = true.
Proof.
  intros Hl He. unfold entry_ok in He. rewrite Hl in He. cbn [negb orb] in He.
  unfold block.
  rewrite scan_sync_prefix by (apply sync_map; reflexivity).
  rewrite scan_sync_prefix by (apply sync_map; reflexivity).
  cbn [app scan]. apply andb_true_iff. split.
  - (* the locks held at the access are rev (a_w e) and rev (a_r e) *)
    rewrite ws_after_rlocks, rs_after_locks, ws_after_locks, rs_after_rlocks, !app_nil_r.
    eapply access_ok_mono; [| |exact He]; intros m; apply in_rev.
  - apply scan_sync. rewrite forallb_app, !sync_map; reflexivity.
Qed.

Lemma scan_from_blocks P t r p :
  (forall e, In e t -> entry_ok P e = true) -> from_blocks t r p -> scan P r [] [] p = true.
Proof.
  intros Hall Hfb. induction Hfb as [|e p Hin Hl Hr Hfb IH]; [reflexivity|].
  apply scan_app; [|exact IH]. subst r. apply scan_block; auto.
Qed.

Lemma prot_of_kind single t x p : prot_of single t x = Some p ->
  match p with PHandoff _ _ => False | PConfined lab => single lab = true | _ => True end.
Proof.
  unfold prot_of. destruct (entries_of t x) as [|e0 es]; [discriminate|].
  destruct (forallb _ (e0 :: es)); [intros H; inversion H; exact I|].
  destruct (forallb _ (e0 :: es)); [intros H; inversion H; exact I|].
  destruct (common_lock (e0 :: es)); [intros H; inversion H; exact I|].
  destruct (single (a_role e0)) eqn:E; cbn [andb]; [|discriminate].
  destruct (forallb _ (e0 :: es)); [|discriminate].
  intros H. inversion H. exact E.
Qed.

(* if the table passes the decidable check, every pool made of the table's sites
   (any number of foreground threads, any order and repetition of sites) follows the discipline *)
Theorem table_well_locked single t ths :
  locktable_ok single t = true -> conforms single t ths -> well_locked (prot_of single t) ths.
Proof.
  intros Hok [Hfb Hsingle]. unfold locktable_ok in Hok. rewrite forallb_forall in Hok. split.
  - intros run lab p Hin. eapply scan_from_blocks; eauto.
  - split.
    + intros x lab Hp. apply Hsingle. exact (prot_of_kind _ _ _ _ Hp).
    + intros x ip ic Hp. destruct (prot_of_kind _ _ _ _ Hp).
Qed.

Theorem table_sound single t ths :
  locktable_ok single t = true -> conforms single t ths ->
  forall s, reachable (init_state ths) s -> ~ race s.
Proof.
  intros Hok Hc. apply (lockset_sound (prot_of single t)). apply table_well_locked; auto.
Qed.

Lemma from_blocks_flat_map t r l :
  (forall e, In e l -> In e t /\ live e = true /\ a_role e = r) -> from_blocks t r (flat_map block l).
Proof.
  induction l as [|e l IH]; intros H; cbn [flat_map]; [constructor|].
  destruct (H e (or_introl eq_refl)) as [A [B C]].
  constructor; auto. apply IH. intros e' He'. apply H. right. exact He'.
Qed.

Lemma NoDup_unique_label lab labs : NoDup labs -> unique_label lab labs.
Proof. intros H i j Hi Hj. apply (proj1 (NoDup_nth_error labs) H); [apply nth_error_Some|]; congruence. Qed.

Lemma labels_program_of t : labels_of (program_of t) = seq 1 (nroles t - 1).
Proof.
  unfold labels_of, program_of. rewrite map_map. cbn. apply map_id.
Qed.

Lemma program_of_conforms t : conforms (fun _ => true) t (program_of t).
Proof.
  split.
  - intros run lab p Hin. unfold program_of in Hin. apply in_map_iff in Hin.
    destruct Hin as [r [Heq _]]. inversion Heq; subst. unfold prog_of_role.
    apply from_blocks_flat_map. intros e He. apply filter_In in He. destruct He as [A B].
    apply andb_true_iff in B. destruct B as [B1 B2]. apply Nat.eqb_eq in B2. auto.
  - intros r _. rewrite labels_program_of. apply NoDup_unique_label, seq_NoDup.
Qed.

Theorem program_of_well_locked t :
  locktable_ok (fun _ => true) t = true -> well_locked (prot_of (fun _ => true) t) (program_of t).
Proof. intros H. apply table_well_locked; [exact H | apply program_of_conforms]. Qed.

Theorem program_of_race_free t :
  locktable_ok (fun _ => true) t = true ->
  forall s, reachable (init_state (program_of t)) s -> ~ race s.
Proof. intros H. apply (table_sound (fun _ => true) t); [exact H | apply program_of_conforms]. Qed.
