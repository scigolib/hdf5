(* C01 end to end, base: blocks placed in a file image (placed f a b: the bytes b sit in f at address a) and what an intact run of
   a reader program reads from them: a ReadAt inside a placed block returns that block's slice (run0_read_placed).  Where the
   blocks of place_all sit, twice: at block_addr (place_all_placed), and, for the images, at the sum of the block lengths
   given as a list (placed_from, placed_block), which evaluates when the lengths are numerals. *)
From HV Require Import Base.Prelude Base.Outcome Base.Bytes Model.IOProg Proofs.IOProg Model.IOProgReader Model.FileImage.

Definition placed (f : bytes) (a : N) (b : bytes) : Prop :=
  exists pre suf, f = pre ++ b ++ suf /\ blen pre = a.

Lemma rd_app_mid (pre mid suf : bytes) : rd (pre ++ mid ++ suf) (blen pre) (blen mid) = mid.
Proof.
  unfold rd, blen. rewrite !Nat2N.id. bnorm.
  rewrite skipn_app, skipn_all, Nat.sub_diag. cbn [skipn app].
  rewrite firstn_app, firstn_all, Nat.sub_diag. cbn [firstn]. apply app_nil_r.
Qed.

Lemma rd_split (b : bytes) off len : off + len <= blen b ->
  b = firstn (N.to_nat off) b ++ rd b off len ++ skipn (N.to_nat (off + len)) b.
Proof.
  intros H. unfold rd.
  rewrite <- (firstn_skipn (N.to_nat off) b) at 1. f_equal.
  rewrite <- (firstn_skipn (N.to_nat len) (skipn (N.to_nat off) b)) at 1. f_equal.
  rewrite skipn_skipn. f_equal. blia.
Qed.

Lemma placed_sub f a x y z : placed f a (x ++ y ++ z) -> placed f (a + blen x) y.
Proof.
  intros (pre & suf & E & L). exists (pre ++ x), (z ++ suf). split.
  - rewrite E. rewrite <- !app_assoc. reflexivity.
  - rewrite blen_app. blia.
Qed.
Lemma placed_head f a y z : placed f a (y ++ z) -> placed f a y.
Proof.
  intros H. replace a with (a + blen (@nil N)) by (rewrite blen_nil; blia). apply (placed_sub f a [] y z). exact H.
Qed.
Lemma placed_tail f a x y : placed f a (x ++ y) -> placed f (a + blen x) y.
Proof. intros H. apply (placed_sub f a x y []). now rewrite app_nil_r. Qed.

Lemma placed_slice f a b off len : placed f a b -> off + len <= blen b -> placed f (a + off) (rd b off len).
Proof.
  intros H Hl. rewrite (rd_split b off len Hl) in H. apply placed_sub in H.
  replace (blen (firstn (N.to_nat off) b)) with off in H; [exact H|].
  unfold blen. rewrite firstn_length. unfold blen in Hl. blia.
Qed.

Lemma blen_rd (b : bytes) off len : off + len <= blen b -> blen (rd b off len) = len.
Proof. intros H. unfold rd, blen. rewrite firstn_length, skipn_length. unfold blen in H. blia. Qed.

Lemma placed_in_range f a b : placed f a b -> in_range f a (blen b) = true.
Proof. intros (pre & suf & E & L). unfold in_range. apply N.leb_le. rewrite E, !blen_app. blia. Qed.
Lemma placed_rd_exact f a b : placed f a b -> rd f a (blen b) = b.
Proof. intros (pre & suf & E & L). subst f a. apply rd_app_mid. Qed.
Lemma placed_bound f a b : placed f a b -> a + blen b <= blen f.
Proof. intros (pre & suf & E & L). rewrite E, !blen_app. blia. Qed.

Lemma run0_read_exact A f a b len (k : bytes -> prog A) :
  placed f a b -> len = blen b -> run0 f (ReadAt a len k) = run0 f (k b).
Proof.
  intros H ->. rewrite run0_read_in by (now apply placed_in_range). now rewrite placed_rd_exact.
Qed.
Lemma run0_read_placed A f a b off len (k : bytes -> prog A) :
  placed f a b -> off + len <= blen b -> run0 f (ReadAt (a + off) len k) = run0 f (k (rd b off len)).
Proof.
  intros H Hl. apply run0_read_exact.
  - now apply placed_slice.
  - symmetry. now apply blen_rd.
Qed.

Lemma run0_short_placed A f a b off len (k : bytes -> N -> prog A) :
  placed f a b -> off + len <= blen b -> run0 f (ReadAtShort (a + off) len k) = run0 f (k (rd b off len) len).
Proof.
  intros H Hl. rewrite run0_short.
  pose proof (placed_rd_exact _ _ _ (placed_slice f a b off len H Hl)) as HS. rewrite blen_rd in HS by exact Hl.
  unfold padded, avail. rewrite HS, blen_rd, N.sub_diag by exact Hl. cbn [N.to_nat zeros repeat]. now rewrite app_nil_r.
Qed.

Lemma run0_bind A B (p : prog A) (g : A -> prog B) f :
  run0 f (bind p g) = match run0 f p with Ok a => run0 f (g a) | Err => Err | Panic => Panic end.
Proof.
  unfold run0 at 1 2. rewrite run_bind. destruct (run f nofault 0 p) as [o c]. cbn [fst].
  destruct o; [apply run0_counter|reflexivity|reflexivity].
Qed.
Lemma run0_bind_ok A B (p : prog A) (g : A -> prog B) f a :
  run0 f p = Ok a -> run0 f (bind p g) = run0 f (g a).
Proof. intros H. now rewrite run0_bind, H. Qed.
Lemma run0_ret A (a : A) f : run0 f (Ret a) = Ok a.
Proof. reflexivity. Qed.
Lemma run0_lift_ok A B (o : outcome A) (g : A -> prog B) f a :
  o = Ok a -> run0 f (bind (lift o) g) = run0 f (g a).
Proof. intros ->. reflexivity. Qed.

Lemma run0_read_bytes_at f a b n : placed f a b -> n = blen b -> 0 < n -> a + n <= MAXI64 ->
  run0 f (p_read_bytes_at a n) = Ok b.
Proof.
  intros H -> Hn Hm. unfold p_read_bytes_at.
  replace (blen b =? 0) with false by (symmetry; apply N.eqb_neq; blia).
  replace (MAXI64 <? a + blen b) with false by (symmetry; apply N.ltb_ge; exact Hm).
  replace (a + blen b - 1) with (a + (blen b - 1)) by blia.
  rewrite (run0_read_placed _ f a b (blen b - 1) 1) by (auto; blia).
  rewrite (run0_read_exact _ f a b) by auto. reflexivity.
Qed.

Lemma place_all_placed : forall blocks i b, nth_error blocks i = Some b ->
  placed (place_all blocks) (block_addr blocks i) b.
Proof.
  induction blocks as [|x r IH]; intros [|i] b H; cbn [nth_error] in H; try discriminate.
  - injection H as ->. exists [], (concat r). split; reflexivity.
  - destruct (IH i b H) as (pre & suf & E & L). exists (x ++ pre), suf. split.
    + unfold place_all in *. cbn [concat]. rewrite E. now rewrite <- app_assoc.
    + cbn [block_addr]. rewrite blen_app. blia.
Qed.
(* The same with the lengths of the blocks given as a list: block i, and everything from block i on, sits at the sum of the first i
   lengths.  For a concrete list of blocks whose lengths are numerals the address evaluates. *)
Definition sumN (l : list N) : N := fold_right N.add 0 l.

Lemma placed_from : forall blocks lens i, map blen blocks = lens ->
  placed (place_all blocks) (sumN (firstn i lens)) (concat (skipn i blocks)).
Proof.
  intros blocks lens i <-. revert i. induction blocks as [|x r IH]; intros [|i]; cbn [map firstn skipn sumN fold_right].
  1-3: exists [], []; split; [cbn [app]; now rewrite app_nil_r | reflexivity].
  destruct (IH i) as (pre & suf & E & L). exists (x ++ pre), suf. split.
  - unfold place_all in *. cbn [concat]. rewrite E. now rewrite <- app_assoc.
  - rewrite blen_app. fold (sumN (firstn i (map blen r))). blia.
Qed.
Lemma placed_block blocks lens i b : map blen blocks = lens -> nth_error blocks i = Some b ->
  placed (place_all blocks) (sumN (firstn i lens)) b.
Proof.
  intros Hl Hi. pose proof (placed_from blocks lens i Hl) as H.
  destruct (nth_error_split _ _ Hi) as (l1 & l2 & -> & <-).
  rewrite skipn_app, skipn_all, Nat.sub_diag in H. exact (placed_head _ _ _ _ H).
Qed.
Lemma place_all_len blocks lens : map blen blocks = lens -> blen (place_all blocks) = sumN lens.
Proof.
  intros <-. unfold place_all. induction blocks as [|x r IH]; [reflexivity|]. cbn [concat map sumN fold_right]. rewrite blen_app.
  now f_equal.
Qed.
