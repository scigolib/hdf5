(* C09 at file level: element-level facts about valid selections that the I/O side needs: what the single-run and the
   selection-run paths read lies inside the dataset; the 2-D selection spelled out. *)
From HV Require Import Base.Prelude Base.Bytes Model.Hyperslab Proofs.HyperslabBase Proofs.HyperslabRaw Proofs.HyperslabContig.

Lemma starts_lt s dims : axes_valid s dims -> Forall2 N.lt (map a_start s) dims.
Proof.
  induction 1 as [|a d s ds H _ IH]; cbn [map]; constructor; [|assumption].
  destruct H as (A1 & A2 & A3 & A4). nia.
Qed.
Lemma last_lt s dims : axes_valid s dims -> Forall2 N.lt (last_rel s) dims.
Proof.
  induction 1 as [|a d s ds H _ IH]; cbn [map last_rel]; constructor; [|assumption].
  destruct H as (A1 & A2 & A3 & A4). set (m := (a_count a - 1) * a_stride a) in *. lia.
Qed.

Lemma contig_fit s dims : axes_valid s dims -> s <> [] -> is_contiguous_selection s dims = true ->
  lin dims (map a_start s) + out_elems s <= prodN dims.
Proof. exact (contig_fits s dims). Qed.

Lemma span_fit s dims : axes_valid s dims ->
  lin dims (map a_start s) + (lin dims (last_rel s) + 1) <= prodN dims.
Proof. exact (run_fits s dims). Qed.

Lemma sel_coords_2d a0 a1 :
  sel_coords [a0; a1] = flat_map (fun i => map (fun j => [i; j]) (axis_idx a1)) (axis_idx a0).
Proof.
  cbn [sel_coords map]. apply flat_map_ext_in. intros i _.
  rewrite (flat_map_single (fun j => [j])), map_map. reflexivity.
Qed.
Lemma select_2d full d0 d1 a0 a1 :
  select full [d0; d1] [a0; a1]
  = flat_map (fun i => map (fun j => nthN full (i * d1 + j)) (axis_idx a1)) (axis_idx a0).
Proof.
  unfold select. rewrite sel_coords_2d, map_flat_map. apply flat_map_ext_in. intros i _.
  rewrite map_map. apply map_ext. intros j. cbn [lin prodN]. f_equal. lia.
Qed.

Lemma map_a_start_zip4 : forall a b c d, length b = length a -> length c = length a -> length d = length a ->
  map a_start (zip4 a b c d) = a.
Proof.
  induction a as [|x a IH]; intros [|y b] [|z c] [|w d] L1 L2 L3; cbn [length] in *; try discriminate; [reflexivity|].
  cbn [zip4 map a_start]. f_equal. apply IH; lia.
Qed.
Lemma zip4_length : forall a b c d, length b = length a -> length c = length a -> length d = length a ->
  length (zip4 a b c d) = length a.
Proof.
  induction a as [|x a IH]; intros [|y b] [|z c] [|w d] L1 L2 L3; cbn [length] in *; try discriminate; [reflexivity|].
  cbn [zip4 length]. f_equal. apply IH; lia.
Qed.
