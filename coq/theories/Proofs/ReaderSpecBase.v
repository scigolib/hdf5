(* C06, reader against specification: bridge between the two styles of decoder.
   A specification decoder (Spec/Parse.v) consumes the unread suffix; a reader model (Model/Codec*.v) indexes the whole
   message with Go-style checked slicing.  With the parser state written as [skipn (N.to_nat p) bs] ("the suffix at
   position p"), every successful primitive step gives: the bound the reader's own length check needs, the equation
   for the reader's read at position p, and the next state in the same form. *)
From HV Require Import Base.Prelude Base.Outcome Base.Bytes Spec.Parse Spec.FormatMsg Model.CodecMsg.

Definition at_pos (bs : bytes) (p : N) : bytes := skipn (N.to_nat p) bs.

Lemma at_pos_0 (bs : bytes) : bs = at_pos bs 0.
Proof. reflexivity. Qed.

Lemma length_at_pos (bs : list N) p : length (at_pos bs p) = (length bs - N.to_nat p)%nat.
Proof. apply skipn_length. Qed.

Lemma at_pos_len (bs : list N) p : p <= blen bs -> blen (at_pos bs p) = blen bs - p.
Proof. intros H. unfold blen. rewrite length_at_pos. blia. Qed.

Lemma at_pos_at_pos (bs : list N) p q : at_pos (at_pos bs p) q = at_pos bs (p + q).
Proof. unfold at_pos. rewrite skipn_skipn. f_equal. blia. Qed.

Lemma slice_eq (bs : list N) a b : a <= b -> b <= blen bs ->
  slice bs a b = Ok (firstn (N.to_nat (b - a)) (at_pos bs a)).
Proof. intros H1 H2. unfold slice. now rewrite (proj2 (N.leb_le a b) H1), (proj2 (N.leb_le b _) H2). Qed.

Lemma slice_inv (bs : list N) a b s : slice bs a b = Ok s ->
  a <= b /\ b <= blen bs /\ s = firstn (N.to_nat (b - a)) (at_pos bs a).
Proof.
  unfold slice. destruct (a <=? b) eqn:E1; [|discriminate]. destruct (b <=? blen bs) eqn:E2; [|discriminate].
  intros H. injection H as <-. apply N.leb_le in E1, E2. auto.
Qed.

Lemma rd_le_eq (bs : list N) p k : p + k <= blen bs -> rd_le bs p k = Ok (unle (firstn (N.to_nat k) (at_pos bs p))).
Proof. intros H. unfold rd_le. rewrite slice_eq by blia. cbn [obind]. do 3 f_equal. blia. Qed.

Lemma rd_le_inv (bs : list N) p k v : rd_le bs p k = Ok v ->
  p + k <= blen bs /\ v = unle (firstn (N.to_nat k) (at_pos bs p)).
Proof.
  unfold rd_le. destruct (slice bs p (p + k)) as [s| |] eqn:S; cbn [obind]; try discriminate.
  intros H. injection H as <-. apply slice_inv in S as (_ & B & ->). split; [exact B|]. do 3 f_equal. blia.
Qed.

Lemma p_take_at (bs : list N) p n b r :
  p <= blen bs ->
  p_take n (at_pos bs p) = Ok (b, r) ->
  p + N.of_nat n <= blen bs /\ r = at_pos bs (p + N.of_nat n) /\
  slice bs p (p + N.of_nat n) = Ok b /\ length b = n.
Proof.
  intros Hp0. unfold p_take. rewrite length_at_pos.
  destruct (n <=? length bs - N.to_nat p)%nat eqn:E; [|discriminate].
  apply Nat.leb_le in E. intros H. injection H as <- <-.
  assert (Hp : p + N.of_nat n <= blen bs) by (unfold blen in *; blia).
  repeat split.
  - exact Hp.
  - rewrite <- at_pos_at_pos. unfold at_pos at 2. now rewrite Nat2N.id.
  - rewrite slice_eq by blia. do 2 f_equal. blia.
  - rewrite firstn_length, length_at_pos. blia.
Qed.

Lemma p_u_at (bs : list N) p n v r :
  p <= blen bs ->
  p_u n (at_pos bs p) = Ok (v, r) ->
  p + N.of_nat n <= blen bs /\ r = at_pos bs (p + N.of_nat n) /\
  rd_le bs p (N.of_nat n) = Ok v.
Proof.
  intros Hp. unfold p_u. destruct (p_take n (at_pos bs p)) as [[b r']| |] eqn:E; cbn [obind]; try discriminate.
  intros H. injection H as <- <-. apply p_take_at in E as (H1 & H2 & H3 & H4); auto.
  repeat split; auto. unfold rd_le. rewrite H3. reflexivity.
Qed.

Lemma p_byte_at (bs : list N) p x r :
  p <= blen bs ->
  p_byte (at_pos bs p) = Ok (x, r) ->
  p + 1 <= blen bs /\ r = at_pos bs (p + 1) /\ index bs p = Ok x.
Proof.
  intros Hp. unfold p_byte. destruct (at_pos bs p) as [|y t] eqn:E; [discriminate|].
  intros H. injection H as <- <-.
  pose proof (length_at_pos bs p) as L. rewrite E in L. cbn [length] in L.
  repeat split.
  - unfold blen. blia.
  - rewrite <- at_pos_at_pos, E. reflexivity.
  - unfold index. unfold at_pos in E. bnorm. rewrite <- (firstn_skipn (N.to_nat p) bs) at 1. rewrite E.
    rewrite nth_error_app2; rewrite firstn_length; [|blia].
    replace (N.to_nat p - Nat.min (N.to_nat p) (length bs))%nat with 0%nat by blia. reflexivity.
Qed.

Lemma all_zero_zeros_eq (b : list N) : all_zero b = true -> b = zeros (length b).
Proof.
  induction b as [|x b IH]; cbn [all_zero forallb length zeros repeat]; auto.
  intros H. apply andb_true_iff in H as [H1 H2]. apply N.eqb_eq in H1. subst x. f_equal. apply IH, H2.
Qed.

Lemma p_zeros_at (bs : list N) p n r :
  p <= blen bs ->
  p_zeros n (at_pos bs p) = Ok (tt, r) ->
  p + N.of_nat n <= blen bs /\ r = at_pos bs (p + N.of_nat n) /\
  slice bs p (p + N.of_nat n) = Ok (zeros n).
Proof.
  intros Hp. unfold p_zeros. destruct (p_take n (at_pos bs p)) as [[b r']| |] eqn:E; cbn [obind]; try discriminate.
  destruct (all_zero b) eqn:Z; [|discriminate].
  intros H. injection H as <-. apply p_take_at in E as (H1 & H2 & H3 & H4); auto.
  repeat split; auto. rewrite H3. f_equal. rewrite <- H4. now apply all_zero_zeros_eq.
Qed.

Lemma p_us_at n k : forall (bs : list N) p l r,
  p <= blen bs ->
  p_us n k (at_pos bs p) = Ok (l, r) ->
  p + N.of_nat n * N.of_nat k <= blen bs /\ r = at_pos bs (p + N.of_nat n * N.of_nat k) /\
  read_dims bs (N.of_nat n) k p = Ok (l, p + N.of_nat n * N.of_nat k) /\ length l = k.
Proof.
  induction k as [|k IH]; intros bs p l r Hp; cbn [p_us read_dims].
  - intros H. injection H as <- <-. replace (p + N.of_nat n * N.of_nat 0) with p by blia. auto.
  - destruct (p_u n (at_pos bs p)) as [[v r1]| |] eqn:E; cbn [obind]; try discriminate.
    apply p_u_at in E as (H1 & -> & H3); auto.
    destruct (p_us n k (at_pos bs (p + N.of_nat n))) as [[vs r2]| |] eqn:E2; cbn [obind]; try discriminate.
    intros H. injection H as <- <-.
    apply IH in E2 as (G1 & G2 & G3 & G4); auto.
    replace (p + N.of_nat n * N.of_nat (S k)) with (p + N.of_nat n + N.of_nat n * N.of_nat k) by blia.
    repeat split; auto.
    + replace (blen bs <? p + N.of_nat n) with false by (symmetry; apply N.ltb_ge; blia).
      rewrite H3. cbn [obind]. rewrite G3. reflexivity.
    + cbn [length]. now rewrite G4.
Qed.

Lemma p_end_at (bs : list N) p pad :
  p <= blen bs ->
  p_end pad (at_pos bs p) = Ok tt ->
  blen bs - p < 8 /\ (pad = false -> blen bs = p) /\ at_pos bs p = zeros (N.to_nat (blen bs - p)).
Proof.
  intros Hp. unfold p_end. destruct (at_pos bs p) as [|y t] eqn:E.
  - intros _. assert (L : length (at_pos bs p) = 0%nat) by (rewrite E; reflexivity).
    rewrite length_at_pos in L. assert (blen bs = p) by (unfold blen in *; blia).
    replace (blen bs - p) with 0 by blia. repeat split; auto; try blia; try reflexivity.
  - unfold guard. destruct pad; cbn [andb]; [|discriminate].
    destruct ((length (y :: t) <? 8)%nat) eqn:L8; cbn [andb]; [|discriminate].
    destruct (all_zero (y :: t)) eqn:Z; [|discriminate]. intros _.
    apply Nat.ltb_lt in L8. assert (L : length (at_pos bs p) = length (y :: t)) by (rewrite E; reflexivity).
    rewrite length_at_pos in L.
    repeat split; try discriminate.
    + unfold blen in *. blia.
    + rewrite (all_zero_zeros_eq _ Z). f_equal. unfold blen in *. blia.
Qed.

Lemma unle_app_zeros (b : list N) k : unle (b ++ zeros k) = unle b.
Proof.
  induction b as [|x b IH]; cbn [app unle].
  - induction k as [|k IHk]; cbn [zeros repeat unle]; auto. fold (zeros k). rewrite IHk. blia.
  - now rewrite IH.
Qed.

Lemma firstn_zeros a b : (a <= b)%nat -> firstn a (zeros b) = zeros a.
Proof.
  revert b. induction a as [|a IH]; intros [|b] H; cbn [zeros repeat firstn]; auto; try blia.
  f_equal. apply IH. blia.
Qed.

Lemma rd_le_wider (bs : list N) p k k' v :
  rd_le bs p k = Ok v ->
  at_pos bs (p + k) = zeros (N.to_nat (blen bs - (p + k))) ->
  k <= k' -> p + k' <= blen bs ->
  rd_le bs p k' = Ok v.
Proof.
  intros H Z Hk Hb. apply rd_le_inv in H as (B & ->). rewrite rd_le_eq by exact Hb. f_equal.
  set (t := at_pos bs p).
  assert (Lt : length (firstn (N.to_nat k) t) = N.to_nat k).
  { rewrite firstn_length. unfold t. rewrite length_at_pos. unfold blen in *. blia. }
  rewrite <- (firstn_skipn (N.to_nat k) t) at 1.
  rewrite firstn_app, Lt, firstn_firstn, Nat.min_r by blia.
  change (skipn (N.to_nat k) t) with (at_pos (at_pos bs p) k).
  rewrite at_pos_at_pos, Z, firstn_zeros by (unfold blen in *; blia). apply unle_app_zeros.
Qed.

Definition no_panic {A} (o : outcome A) : Prop := o <> Panic.

(* "the reader returns an error, or a value that satisfies R": what C06 asks of a decoder on a conformant message *)
Definition err_or {A} (R : A -> Prop) (o : outcome A) : Prop :=
  match o with Ok v => R v | Err => True | Panic => False end.

Lemma err_or_err {A} (R : A -> Prop) : err_or R Err.
Proof. exact I. Qed.
Lemma err_or_ok {A} (R : A -> Prop) v : R v -> err_or R (Ok v).
Proof. auto. Qed.
Lemma err_or_if {A} (R : A -> Prop) (c : bool) (o : outcome A) : err_or R o -> err_or R (if c then Err else o).
Proof. destruct c; auto. intros _. exact I. Qed.

Lemma if_else_eq_then {A} (c : bool) (a b : A) : (c = false -> b = a) -> (if c then a else b) = a.
Proof. destruct c; auto. Qed.

Lemma size_ok_cases k : size_ok k = true -> k = 2 \/ k = 4 \/ k = 8.
Proof.
  unfold size_ok. intros H.
  apply orb_true_iff in H as [H|H]; [apply orb_true_iff in H as [H|H]|]; apply N.eqb_eq in H; auto.
Qed.

(* named steps: [H] is the hypothesis "the specification decoder returned Ok"; the first parser runs on [at_pos bs p] *)
Ltac side := first [assumption | blia].
Ltac s_guard H G :=
  match type of H with
  | obind (guard ?c) _ = Ok _ => destruct c eqn:G; cbn [guard obind] in H; [|discriminate H]
  end.
(* any first parser returning a pair: value [x], rest [r], equation [E] *)
Ltac s_bind H x r E :=
  match type of H with
  | obind ?o _ = Ok _ => destruct o as [[x r]| |] eqn:E; cbn [obind] in H; [|discriminate H|discriminate H]
  end.
(* one step whose names do not matter (walking to the end of a run) *)
Ltac sstep H :=
  let G := fresh "G" in let x := fresh "x" in let r := fresh "r" in let E := fresh "E" in
  first [ s_guard H G | s_bind H x r E
        | match type of H with
          | obind ?o _ = Ok _ => destruct o as [x| |] eqn:E; cbn [obind] in H; [|discriminate H|discriminate H]
          end ].
Ltac s_byte H x B I :=
  match type of H with
  | obind (p_byte (at_pos ?bs ?p)) _ = Ok _ =>
      let E := fresh "E" in let r := fresh "r" in
      destruct (p_byte (at_pos bs p)) as [[x r]| |] eqn:E; cbn [obind] in H; [|discriminate H|discriminate H];
      apply p_byte_at in E as (B & -> & I); [|side]
  end.
Ltac s_u H v B R :=
  match type of H with
  | obind (p_u ?n (at_pos ?bs ?p)) _ = Ok _ =>
      let E := fresh "E" in let r := fresh "r" in
      destruct (p_u n (at_pos bs p)) as [[v r]| |] eqn:E; cbn [obind] in H; [|discriminate H|discriminate H];
      apply p_u_at in E as (B & -> & R); [|side]
  end.
Ltac s_take H b B S L :=
  match type of H with
  | obind (p_take ?n (at_pos ?bs ?p)) _ = Ok _ =>
      let E := fresh "E" in let r := fresh "r" in
      destruct (p_take n (at_pos bs p)) as [[b r]| |] eqn:E; cbn [obind] in H; [|discriminate H|discriminate H];
      apply p_take_at in E as (B & -> & S & L); [|side]
  end.
Ltac s_zeros H B S :=
  match type of H with
  | obind (p_zeros ?n (at_pos ?bs ?p)) _ = Ok _ =>
      let E := fresh "E" in let r := fresh "r" in
      destruct (p_zeros n (at_pos bs p)) as [[[] r]| |] eqn:E; cbn [obind] in H; [|discriminate H|discriminate H];
      apply p_zeros_at in E as (B & -> & S); [|side]
  end.
Ltac s_us H l B RD L :=
  match type of H with
  | obind (p_us ?n ?k (at_pos ?bs ?p)) _ = Ok _ =>
      let E := fresh "E" in let r := fresh "r" in
      destruct (p_us n k (at_pos bs p)) as [[l r]| |] eqn:E; cbn [obind] in H; [|discriminate H|discriminate H];
      apply p_us_at in E as (B & -> & RD & L); [|side]
  end.
Ltac s_end H PE PF ZZ :=
  match type of H with
  | obind (p_end ?pad (at_pos ?bs ?p)) _ = Ok _ =>
      let E := fresh "E" in
      destruct (p_end pad (at_pos bs p)) as [[]| |] eqn:E; cbn [obind] in H; [|discriminate H|discriminate H];
      apply p_end_at in E as (PE & PF & ZZ); [|side]
  end.
