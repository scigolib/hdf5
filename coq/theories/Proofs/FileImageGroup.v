(* C01 end to end, superblock and group stages.  For every file, address and superblock' with 8-byte little-endian fields the
   programs of ReadSuperblock (superblock_placed), LoadLocalHeap (heap_stage_at), ParseSymbolTableNode on a node with one entry
   (snod_stage_at) and ReadGroupBTreeEntries on a leaf with one child (btree_stage_at) return what is placed there; the string
   at offset 0 of the heap segment written for a link name is that name. *)
From HV Require Import Base.Prelude Base.Outcome Base.Bytes Model.IOProg Proofs.IOProg Model.IOProgReader.
From HV Require Import Model.CodecSuper Model.CodecOhdr Model.CodecMsg Model.CodecType Model.CodecLink Model.GroupWire.
From HV Require Import Proofs.CodecSuper Proofs.CodecOhdr Proofs.IOProgReader.
From HV Require Import Model.FileImage Proofs.FileImage Proofs.FileImageOhdr Proofs.FileImageData.

Definition gen_sym (da : N) : sym := {| sy_name := 0; sy_obj := da; sy_cache := 0; sy_res := 0; sy_bt := 0; sy_heap := 0 |}.

(* ReadSuperblock's buffer decoder on 128 bytes that begin with a superblock is the C11 decoder on a file that begins with it *)
Lemma dec_sb_buf_prefix x (T : bytes) : wf_superblock x = true -> blen (enc_superblock x ++ T) = 128 ->
  dec_sb_buf (enc_superblock x ++ T) 128 = Ok (proj_superblock x).
Proof.
  intros H L. rewrite <- (superblock_prefix_gen superblock_sizes_repaired x T H).
  change (dec_superblock_gen superblock_sizes_repaired ?F) with (dec_superblock F).
  rewrite dec_superblock_is_dec_sb_buf, L, firstn_all2 by (unfold blen in L; blia).
  cbn [N.min N.compare Pos.compare Pos.compare_cont N.sub Pos.sub_mask N.to_nat zeros repeat]. now rewrite app_nil_r.
Qed.
Lemma dec_sb_buf_v2 x (T : bytes) : wf_superblock x = true -> sp_version x = 2 -> blen T = 80 ->
  dec_sb_buf (enc_superblock x ++ T) 128 = Ok (proj_superblock x).
Proof.
  intros H Hv HT. apply (dec_sb_buf_prefix x T H). rewrite blen_app, superblock_blen, HT. unfold size_superblock. now rewrite Hv.
Qed.

(* ReadSuperblock asks for 128 bytes; the decoder is given the superblock and what follows it *)
Lemma superblock_placed f x (R : bytes) s :
  placed f 0 (enc_superblock x ++ R) -> blen (enc_superblock x) <= 128 <= blen (enc_superblock x) + blen R ->
  (forall T, blen T = 128 - blen (enc_superblock x) -> dec_sb_buf (enc_superblock x ++ T) 128 = Ok s) ->
  run0 f p_superblock = Ok s.
Proof.
  intros HP [H1 H2] Hdec. unfold p_superblock. rewrite (run0_short_placed _ f 0 _ 0 128 _ HP) by (rewrite blen_app; blia).
  unfold rd, blen in *. cbn [N.to_nat skipn]. rewrite firstn_app, firstn_all2 by blia.
  rewrite Hdec; [reflexivity|]. rewrite firstn_length. blia.
Qed.

Section Stages.
Variable sb : superblock'.
Hypothesis Ho : spp_offsize sb = 8.
Hypothesis Hl : spp_lensize sb = 8.
Hypothesis Hbe : spp_bigendian sb = false.
Variable f : bytes.

Lemma heap_stage_at hp dss fr (seg : bytes) :
  placed f hp (heap_header dss fr (hp + 32) ++ seg) -> blen seg = dss -> 0 < dss -> hp + 32 + dss <= MAXI64 ->
  run0 f (p_local_heap sb hp) = Ok seg.
Proof using Ho Hl Hbe.
  intros HP Hs Hpos Hb. unfold MAXI64 in Hb. set (h := heap_header dss fr (hp + 32)) in *.
  assert (E1 : rd_le h 8 8 = Ok dss)
    by (apply (rd_le_at [72; 69; 65; 80; 0; 0; 0; 0] 8 8 dss (le 8 fr ++ le 8 (hp + 32))); [reflexivity..|]; change (256 ^ 8) with 18446744073709551616; blia).
  assert (E2 : rd_le h 24 8 = Ok (hp + 32))
    by (apply (rd_le_at ([72; 69; 65; 80; 0; 0; 0; 0] ++ le 8 dss ++ le 8 fr) 8 8 (hp + 32) []); [reflexivity..|]; change (256 ^ 8) with 18446744073709551616; blia).
  unfold p_local_heap. cbv zeta. rewrite Ho, Hl, Hbe. change (8 + 2 * 8 + 8) with 32.
  rewrite (run0_read_exact _ f hp h 32 _ (placed_head _ _ _ _ HP) eq_refl).
  change (run0 f (bind (lift (sz <- rd_le h 8 8;; da <- rd_le h 24 8;; Ok (sz, da))) (fun x => p_read_bytes_at (snd x) (fst x))) = Ok seg).
  rewrite E1, E2. cbn [obind lift bind fst snd].
  apply run0_read_bytes_at; [exact (placed_tail _ _ _ _ HP) | now symmetry | exact Hpos | unfold MAXI64; exact Hb].
Qed.

Lemma snod_entries_one_sb (X : bytes) : length X = 8%nat ->
  snod_entries sb 1 (le 8 0 ++ X ++ le 4 0 ++ le 4 0 ++ zeros 16) 0 = Ok [(0, unle X, 0, 0, 0)].
Proof using Ho Hbe.
  intros H. clear Hl. destruct sb. cbn in Ho, Hbe. subst. do 9 (destruct X as [|? X]; try discriminate). vm_compute. reflexivity.
Qed.

Lemma snod_stage_at a da :
  placed f a ([83; 78; 79; 68; 1; 0; 1; 0] ++ enc_sym 8 (gen_sym da) ++ zeros 1240) -> da < 256 ^ 8 ->
  run0 f (p_snod sb a) = Ok [(0, da, 0, 0, 0)].
Proof using Ho Hbe.
  intros HP Hda. unfold p_snod. cbv zeta. rewrite Ho, Hbe.
  rewrite (run0_read_exact _ f a [83; 78; 79; 68; 1; 0; 1; 0] 8 _ (placed_head _ _ _ _ HP) eq_refl).
  change (run0 f (ReadAt (a + 8) 40 (fun d => lift (snod_entries sb 1 d 0))) = Ok [(0, da, 0, 0, 0)]).
  rewrite (run0_read_exact _ f (a + 8) _ 40 _ (placed_sub f a _ _ _ HP)) by (symmetry; apply enc_sym_len).
  change (enc_sym 8 (gen_sym da)) with (le 8 0 ++ le 8 da ++ le 4 0 ++ le 4 0 ++ zeros 16).
  rewrite snod_entries_one_sb by apply length_le. rewrite unle_le_small by exact Hda. reflexivity.
Qed.

(* K: the key / child / key bytes of the leaf's one entry *)
Lemma btree_stage_at a (K Z : bytes) sa es :
  placed f a (bt_leaf_hdr ++ K ++ Z) -> blen K = 24 -> btree_children sb 1 K 0 = Ok [sa] -> run0 f (p_snod sb sa) = Ok es ->
  run0 f (p_group_btree sb a) = Ok es.
Proof using Ho Hbe.
  intros HP HK Hc Hs. unfold p_group_btree. cbv zeta. rewrite Ho, Hbe. change (8 + 2 * 8) with 24.
  rewrite (run0_read_exact _ f a bt_leaf_hdr 24 _ (placed_head _ _ _ _ HP) eq_refl).
  change (run0 f (ReadAt (a + 24) 24 (fun d => bind (lift (btree_children sb 1 d 0)) (p_snods sb))) = Ok es).
  rewrite (run0_read_exact _ f (a + 24) K 24 _ (placed_sub f a _ _ _ HP)) by (now symmetry).
  rewrite Hc. cbn [lift bind p_snods]. rewrite run0_bind, Hs. cbn [bind]. now rewrite run0_ret, app_nil_r.
Qed.

Lemma bt_sig_placed a (Z : bytes) : placed f a (bt_leaf_hdr ++ Z) -> placed f a [84; 82; 69; 69].
Proof using.
  intros HP. change bt_leaf_hdr with ([84; 82; 69; 69] ++ [0; 0; 1; 0] ++ le 8 UNDEF ++ le 8 UNDEF) in HP.
  rewrite <- app_assoc in HP. exact (placed_head _ _ _ _ HP).
Qed.
End Stages.

Lemma root_ok : ohdr_ok root_ohdr.
Proof.
  unfold ohdr_ok. split; [reflexivity|]. split; [reflexivity|]. split; [vm_compute; discriminate|]. split; [discriminate|].
  repeat constructor; cbn; unfold MSG_CONT; try blia; try discriminate.
Qed.

Section Image.
Variable name : bytes.
Variables class size cbf : N.
Variable dims : list N.
Variable data : bytes.
Hypothesis Hname : link_name_ok name = true.
Hypothesis Hdt : basic_dtype class size cbf = true.
Hypothesis Hdims : dims_ok dims = true.
Hypothesis Hlen : blen data = total_elems dims * size.
Hypothesis Hbound : blen data < 4294967296.

Local Notation f := (image_v2 name class size cbf dims data).
Local Notation da := (dset_addr data).
Local Notation seg := ((name ++ [0]) ++ zeros (N.to_nat (256 - (blen name + 1)))).

Lemma image_len : blen f = eof_addr data.
Proof using Hname Hdt Hdims Hlen Hbound.
  transitivity (da + blen (dset_block class size cbf dims) + blen (concat [])); [exact (v2_len (eof_addr data) name data _ [] Hname)|].
  rewrite (dsb_len class size cbf dims data Hdt Hdims Hlen Hbound).
  unfold eof_addr. cbn [concat]. rewrite blen_nil. blia.
Qed.

Lemma name_nonzero : forallb (fun b => negb (b =? 0)) name = true.
Proof using Hname. clear - Hname.
  unfold link_name_ok in Hname. apply andb_true_iff in Hname as [H _]. apply andb_true_iff in H as [H _].
  apply andb_true_iff in H as [_ H]. rewrite forallb_forall in *. intros x Hx. specialize (H x Hx).
  apply andb_true_iff in H as [H _]. exact H.
Qed.
Theorem heap_name : heap_string seg 0 = Ok name.
Proof using Hname. clear - Hname.
  destruct (name_len name Hname) as [N1 N2].
  unfold heap_string. rewrite (heap_seg_len name Hname). change (256 <=? 0) with false. cbv iota.
  assert (E : seg = name ++ 0 :: zeros (N.to_nat (256 - (blen name + 1))))
    by (symmetry; apply (app_assoc name [0])).
  brewrite E.
  pose proof (find0_app [] name (zeros (N.to_nat (256 - (blen name + 1)))) 0 eq_refl name_nonzero) as Q0.
  cbn [app] in Q0. brewrite Q0.
  replace (256 <=? 0 + blen name) with false by (symmetry; apply N.leb_gt; blia).
  apply (slice_app' [] name); [reflexivity | blia].
Qed.

End Image.
