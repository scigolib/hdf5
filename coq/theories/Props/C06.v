(* C06 - reader output on reference-library files equals the reference library's report.
   The property itself is decided exhaustively on the bundled corpus by tools/props/c06.py (Go reader vs h5dump
   DDL, every object).  What is proved here is the value-decoding core that comparison relies on
   (Model/RefDecode.v): dec_int / dec_string are the inverse of the format's encoding, respect the type's range and
   byte order, and the three string paddings remove padding only.  The tie evaluates the same functions on the raw
   element bytes of corpus datasets/attributes and requires them to equal both the DDL value and the Go value. *)
From HV Require Import Base.Prelude Model.RefDecode Proofs.RefDecode.

(* reading a big-endian element is reading its byte-reversal as little-endian *)
Theorem C06_int_be_le : forall (s : bool) (n : N) (bs : bytes),
  dec_int BE s n (rev bs) = dec_int LE s n bs.
Proof. exact int_be_le. Qed.
Print Assumptions C06_int_be_le.

(* the decoded value lies in the range of the type (signed two's complement or unsigned, n bytes) *)
Theorem C06_int_range : forall (o : order) (s : bool) (n : N) (bs : bytes),
  byte_ok bs = true -> length bs = N.to_nat n -> 0 < n ->
  (int_lo s n <= dec_int o s n bs <= int_hi s n)%Z.
Proof. exact int_range. Qed.
Print Assumptions C06_int_range.

(* dec_int inverts the format's encoding on every value of the type ... *)
Theorem C06_int_roundtrip : forall (o : order) (s : bool) (n : N) (v : Z),
  0 < n -> (int_lo s n <= v <= int_hi s n)%Z ->
  dec_int o s n (enc_int o s n v) = v.
Proof. exact int_roundtrip. Qed.
Print Assumptions C06_int_roundtrip.

(* ... and the encoding inverts dec_int on every well-formed element: the model is a bijection, so a value the
   reference library printed determines the element bytes and vice versa *)
Theorem C06_int_enc_dec : forall (o : order) (s : bool) (n : N) (bs : bytes),
  byte_ok bs = true -> length bs = N.to_nat n -> 0 < n ->
  enc_int o s n (dec_int o s n bs) = bs.
Proof. exact int_enc_dec. Qed.
Print Assumptions C06_int_enc_dec.

(* strings: decoding a padded field gives back the string, for each of the three paddings *)
Theorem C06_string_pad : forall (p : strpad) (size : N) (s : bytes),
  representable p size s = true -> dec_string p size (enc_string p size s) = s.
Proof. exact string_roundtrip. Qed.
Print Assumptions C06_string_pad.

(* null-terminated: the result has no NUL, is a prefix of the field, and stops at a NUL or at the field's end *)
Theorem C06_string_pad_nullterm : forall (size : N) (bs : bytes),
  no_byte 0 (dec_string NullTerm size bs) = true /\
  exists r, firstn_N (N.to_nat size) bs = dec_string NullTerm size bs ++ r /\ (r = [] \/ exists r', r = 0 :: r').
Proof. exact string_nullterm. Qed.
Print Assumptions C06_string_pad_nullterm.

(* null-padded / space-padded: only trailing padding is removed and none is left *)
Theorem C06_string_pad_nullpad : forall (size : N) (bs : bytes), exists k,
  firstn_N (N.to_nat size) bs = dec_string NullPad size bs ++ repeat 0 k /\
  last_not 0 (dec_string NullPad size bs) = true.
Proof. exact string_nullpad. Qed.
Print Assumptions C06_string_pad_nullpad.

Theorem C06_string_pad_spacepad : forall (size : N) (bs : bytes), exists k,
  firstn_N (N.to_nat size) bs = dec_string SpacePad size bs ++ repeat 32 k /\
  last_not 32 (dec_string SpacePad size bs) = true.
Proof. exact string_spacepad. Qed.
Print Assumptions C06_string_pad_spacepad.

(* known findings shown on the model of the code as it is (attribute.go ReadValue at the pinned commit) *)

(* the full statement for 32/64-bit integer attributes (Model.RefDecode.attr_int_full): reader o s n bs = dec_int o s n bs
   for every well-formed element.  The pinned reader refutes it; so does the reader repaired for byte order. *)
Theorem C06_attr_int_full_refuted : ~ attr_int_full go_attr_int_pinned.
Proof. exact attr_pinned_full_refuted. Qed.
Print Assumptions C06_attr_int_full_refuted.

Theorem C06_attr_int_full_after_fix_refuted : ~ attr_int_full go_attr_int_fixed.
Proof. exact attr_fixed_full_refuted. Qed.
Print Assumptions C06_attr_int_full_after_fix_refuted.

(* it holds for little-endian signed attributes ... *)
Theorem C06_attr_int_partial : forall n bs, go_attr_int_pinned LE true n bs = dec_int LE true n bs.
Proof. exact attr_pinned_ok_le_signed. Qed.
Print Assumptions C06_attr_int_partial.

(* ... and fails for big-endian ones (KNOWN-FINDING C06-attr-byte-order-ignored; repaired by
   notes/fixes/c06-attribute-byte-order.patch) ... *)
Theorem C06_attr_byte_order_refuted :
  exists bs, byte_ok bs = true /\ length bs = 4%nat /\ go_attr_int_pinned BE true 4 bs <> dec_int BE true 4 bs.
Proof. exact attr_pinned_byte_order_refuted. Qed.
Print Assumptions C06_attr_byte_order_refuted.

(* ... and for unsigned ones, before and after that repair (KNOWN-FINDING C06-attr-unsigned-as-signed: the
   existing tests pin int32/int64 results for datatypes whose sign bit is clear) *)
Theorem C06_attr_unsigned_refuted :
  exists bs, byte_ok bs = true /\ length bs = 4%nat /\
    go_attr_int_pinned LE false 4 bs <> dec_int LE false 4 bs /\ go_attr_int_fixed LE false 4 bs <> dec_int LE false 4 bs.
Proof. exact attr_unsigned_refuted. Qed.
Print Assumptions C06_attr_unsigned_refuted.
