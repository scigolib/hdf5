(* C13, object-header level - "every Resize within the declared maximum dimensions succeeds and one beyond them is
   rejected; after reopen the dataset has the last requested shape": DatasetWriter.Resize as a rewrite of the stored
   object header.
   Model: Model/Resize.v (transcription of dataset_write.go Resize over the object header / dataspace codecs of
   Model/CodecOhdr.v, Model/CodecMsg.v).  Lemmas: Proofs/ResizeBase.v, Proofs/Resize.v, Proofs/ResizeThms.v,
   Proofs/ResizeTie.v (the executable check of [stored] used by the unit tie is sound)
   (examples: ex_stored, ex_run - rank 3, an unlimited maximum, requests at max, max + 1, zero, other rank).
   Invariant [stored file addr flags before after dims maxd pre suf]: the file holds at addr a version 2 object header
   as the library's writer produces it - any messages [before] (no dataspace among them), the dataspace message of
   extents dims / maxima maxd, any messages [after] (layout, filter pipeline, attributes, reference count ...) -
   with bytes pre in front and suf behind; the file goes on behind the header or the last message has two bytes of
   data (room: the reader fetches 6 bytes per message header), so the header may be the very end of the file, as it
   is for a dataset created last in a session (ex_stored: a header image produced by the library, suf = []).
   [handle_ok h]: the handle of a resizable dataset as CreateDataset
   builds it.  Both are preserved by every call (C13H_resize_decodes, C13H_resizes_last_accepted). *)
From HV Require Import Base.Prelude Base.Outcome Base.Bytes Model.CodecMsg Model.CodecOhdr Model.Resize.
From HV Require Import Model.ResizeTie Proofs.ResizeBase Proofs.Resize Proofs.ResizeThms Proofs.ResizeTie.

(* (1) the call succeeds iff the request has the rank of the dataset, no zero extent, and every extent is within
   the declared maximum (Unlimited accepts every uint64) *)
Theorem C13H_resize_accepts_iff : forall be h file addr flags before after pre suf new,
  stored file addr flags before after (rh_dims h) (rh_maxdims h) pre suf ->
  handle_ok h = true -> u64_ok new = true ->
  (snd (resize be h file addr new) = ROk <-> resize_ok (rh_dims h) (rh_maxdims h) new = true).
Proof. exact resize_accepts_iff. Qed.
Print Assumptions C13H_resize_accepts_iff.

(* ... and, whatever the handle and the file are (no hypothesis), a call that succeeds was within the maximum *)
Theorem C13H_resize_accept_sound : forall be h file addr new h' file',
  resize be h file addr new = (h', file', ROk) ->
  resize_ok (rh_dims h) (rh_maxdims h) new = true /\ rh_dims h' = new /\ rh_maxdims h' = rh_maxdims h.
Proof. exact resize_accept_sound. Qed.
Print Assumptions C13H_resize_accept_sound.

(* (2) the rewrite is local: file = A ++ (extents of the dataspace message) ++ B before and after with the same A, B;
   the file keeps its length and every byte outside those 8 * rank bytes (other messages: datatype, layout,
   attributes, links; everything else in the file) is unchanged *)
Theorem C13H_resize_same_length : forall be h file addr flags before after pre suf new h' file',
  stored file addr flags before after (rh_dims h) (rh_maxdims h) pre suf ->
  handle_ok h = true -> u64_ok new = true ->
  resize be h file addr new = (h', file', ROk) ->
  exists A B,
    file = A ++ enc_dims8 (rh_dims h) ++ B /\ file' = A ++ enc_dims8 new ++ B /\
    blen A = addr + 19 + chunk_size_v2 before /\
    length (enc_dims8 new) = length (enc_dims8 (rh_dims h)) /\
    length file' = length file /\
    forall i, (i < length A \/ length A + length (enc_dims8 new) <= i)%nat -> nth_error file' i = nth_error file i.
Proof. exact resize_same_length. Qed.
Print Assumptions C13H_resize_same_length.

(* (3) decoding the rewritten header yields the same message list with the dataspace message replaced by the one
   of the new extents and the unchanged maxima; the invariants hold again *)
Theorem C13H_resize_decodes : forall be h file addr flags before after pre suf new h' file',
  stored file addr flags before after (rh_dims h) (rh_maxdims h) pre suf ->
  handle_ok h = true -> u64_ok new = true ->
  resize be h file addr new = (h', file', ROk) ->
  dec_ohdr be file addr = Ok (proj_ohdr_v2 be (hdr_of flags before (rh_dims h) (rh_maxdims h) after) addr) /\
  dec_ohdr be file' addr = Ok (proj_ohdr_v2 be (hdr_of flags before new (rh_maxdims h) after) addr) /\
  stored_shape be file' addr = Ok (new, Some (rh_maxdims h)) /\
  rh_dims h' = new /\ rh_maxdims h' = rh_maxdims h /\
  stored file' addr flags before after (rh_dims h') (rh_maxdims h') pre suf /\ handle_ok h' = true.
Proof. exact resize_decodes. Qed.
Print Assumptions C13H_resize_decodes.

(* (4) no hypothesis: a call that does not succeed writes nothing and leaves the shape fields of the handle alone *)
Theorem C13H_resize_refused_unchanged : forall be h file addr new h' file' r,
  resize be h file addr new = (h', file', r) -> r <> ROk -> file' = file /\ same_shape h' h.
Proof. exact resize_refused_unchanged. Qed.
Print Assumptions C13H_resize_refused_unchanged.

(* ... for a handle as CreateDataset builds it the refusal comes before the file is read: nothing changes at all *)
Theorem C13H_resize_rejected : forall be h file addr new,
  handle_ok h = true -> resize_ok (rh_dims h) (rh_maxdims h) new = false ->
  resize be h file addr new = (h, file, RErr).
Proof. exact resize_rejected. Qed.
Print Assumptions C13H_resize_rejected.

(* (5) any list of requests: per-call results as specified, the file keeps its length, and what a reader decodes
   from the header is the last accepted shape with the declared maxima *)
Theorem C13H_resizes_last_accepted : forall be h file addr flags before after pre suf news,
  stored file addr flags before after (rh_dims h) (rh_maxdims h) pre suf ->
  handle_ok h = true -> Forall (fun new => u64_ok new = true) news ->
  exists h' file',
    resizes be h file addr news = (h', file', expected_results (rh_dims h) (rh_maxdims h) news) /\
    rh_dims h' = last_accepted (rh_dims h) (rh_maxdims h) news /\ rh_maxdims h' = rh_maxdims h /\
    stored_shape be file' addr = Ok (last_accepted (rh_dims h) (rh_maxdims h) news, Some (rh_maxdims h)) /\
    length file' = length file /\
    stored file' addr flags before after (rh_dims h') (rh_maxdims h') pre suf /\ handle_ok h' = true.
Proof. exact resizes_last_accepted. Qed.
Print Assumptions C13H_resizes_last_accepted.

(* the hypotheses are decidable on a concrete image: the unit tie (tools/props/c13unit.py) evaluates stored_ok and
   handle_ok on every header image the implementation has in front of a Resize call; stored_ok is sound *)
Theorem C13H_stored_ok_sound : forall img dims maxd, stored_ok img dims maxd = true ->
  exists flags before after suf, stored img 0 flags before after dims maxd [] suf.
Proof. exact stored_ok_sound. Qed.
Print Assumptions C13H_stored_ok_sound.
