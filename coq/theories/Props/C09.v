(* C09 - Partial reads agree with the full read.
   Model: Model/Hyperslab.v = dataset_read_hyperslab.go + utils.ValidateHyperslabBounds +
   dataset_chunk_iterator.go as repaired by notes/fixes/c09-*.patch (Part 2 of that file), and the code as it
   was before (its Part 3).  `select full dims s` is the specification: the elements of the full
   read at the coordinates of the selection, in row-major order of the selection.
   All theorems are general in the rank (induction over the list of dimensions). *)
From HV Require Import Base.Prelude Model.Hyperslab Proofs.HyperslabBase Proofs.HyperslabValidate
  Proofs.HyperslabRaw Proofs.HyperslabContig Proofs.HyperslabChunk Proofs.HyperslabDispatch
  Proofs.HyperslabIter Proofs.HyperslabRefuted.

(* validation: accepted  <->  inside the dataset (uint64 arithmetic, unbounded specification) *)
Theorem C09_validate_sound : forall h dims,
  u64_sel h (length dims) -> Forall u64 dims -> validate h dims = Ok -> valid h dims.
Proof. exact validate_sound. Qed.
Print Assumptions C09_validate_sound.

Theorem C09_validate_complete : forall h dims,
  u64_sel h (length dims) -> Forall u64 dims -> dims <> [] ->
  prodN (h_count h) <= max_hyperslab_elements ->
  valid h dims -> validate h dims = Ok.
Proof. exact validate_complete. Qed.
Print Assumptions C09_validate_complete.

Theorem C09_slice_validate : forall start count dims,
  Forall u64 dims -> (slice_validate start count dims = Ok <-> slice_valid start count dims).
Proof. exact slice_validate_ok. Qed.
Print Assumptions C09_slice_validate.

(* every extraction path returns the selection, under the condition the dispatcher tests before taking it *)
Theorem C09_path_compact_correct : forall full dims s,
  axes_valid s dims -> s <> [] -> lenN full = prodN dims ->
  extract_from_raw full dims s = select full dims s.
Proof. exact extract_from_raw_correct. Qed.
Print Assumptions C09_path_compact_correct.

Theorem C09_path_single_read_correct : forall full dims s,
  axes_valid s dims -> s <> [] -> lenN full = prodN dims ->
  is_contiguous_selection s dims = true ->
  read_contiguous_optimized full dims s = select full dims s.
Proof. exact read_contiguous_optimized_correct. Qed.
Print Assumptions C09_path_single_read_correct.

Theorem C09_path_2d_correct : forall full d0 d1 a0 a1,
  axes_valid [a0; a1] [d0; d1] ->
  read_contiguous_2d full d0 d1 a0 a1 = select full [d0; d1] [a0; a1].
Proof. exact read_contiguous_2d_correct. Qed.
Print Assumptions C09_path_2d_correct.

Theorem C09_path_selection_run_correct : forall full dims s,
  axes_valid s dims -> s <> [] -> lenN full = prodN dims ->
  fst (ext_rec (read_at full (calc_lin (map a_start s) dims) (calc_lin (last_rel s) dims + 1))
               dims (zero_start s) dims [] (zeros (out_elems s), 0))
  = select full dims s.
Proof. exact selection_run_correct. Qed.
Print Assumptions C09_path_selection_run_correct.

Theorem C09_path_contiguous_correct : forall full dims s,
  axes_valid s dims -> s <> [] -> lenN full = prodN dims ->
  read_hyperslab_contiguous full dims s = select full dims s.
Proof. exact read_hyperslab_contiguous_correct. Qed.
Print Assumptions C09_path_contiguous_correct.

Theorem C09_path_chunked_correct : forall full dims cdims s,
  axes_valid s dims -> s <> [] -> length cdims = length dims -> Forall (fun c => 0 < c) cdims ->
  read_hyperslab_chunked full dims cdims s = select full dims s.
Proof. exact read_hyperslab_chunked_correct. Qed.
Print Assumptions C09_path_chunked_correct.

(* ReadHyperslab / ReadSlice as a whole: no class of valid selections is excluded *)
Theorem C09_dispatch : forall lay full dims h,
  u64_sel h (length dims) -> Forall u64 dims -> layout_ok lay full dims ->
  validate h dims = Ok ->
  read_hyperslab lay full dims h = Some (select full dims (axes_of h (length dims))).
Proof. exact read_hyperslab_ok. Qed.
Print Assumptions C09_dispatch.

Theorem C09_valid_is_read : forall lay full dims h,
  u64_sel h (length dims) -> Forall u64 dims -> layout_ok lay full dims ->
  dims <> [] -> prodN (h_count h) <= max_hyperslab_elements -> valid h dims ->
  read_hyperslab lay full dims h = Some (select full dims (axes_of h (length dims))).
Proof. exact read_hyperslab_valid. Qed.
Print Assumptions C09_valid_is_read.

Theorem C09_invalid_is_rejected : forall lay full dims h,
  u64_sel h (length dims) -> Forall u64 dims -> ~ valid h dims -> read_hyperslab lay full dims h = None.
Proof. exact read_hyperslab_rejects. Qed.
Print Assumptions C09_invalid_is_rejected.

(* ReadSlice runs validateHyperslabSelection a second time inside readHyperslab (non-empty requests): more than
   MaxHyperslabElements elements are refused, hence the bound (Props/C09File.v C09_file_read_slice_contiguous shows the
   refusal at file level) *)
Theorem C09_read_slice : forall lay full dims start count,
  Forall u64 dims -> layout_ok lay full dims -> dims <> [] ->
  prodN count <= max_hyperslab_elements ->
  slice_valid start count dims ->
  read_slice lay full dims start count = Some (select full dims (slice_axes start count)).
Proof. exact read_slice_ok. Qed.
Print Assumptions C09_read_slice.

Theorem C09_read_slice_rejects : forall lay full dims start count,
  Forall u64 dims -> ~ slice_valid start count dims -> read_slice lay full dims start count = None.
Proof. exact read_slice_rejects. Qed.
Print Assumptions C09_read_slice_rejects.

(* chunk iterator *)
Theorem C09_chunk_iter_tiles : forall full dims cdims,
  Forall u64 dims -> dims <> [] -> lenN full = prodN dims ->
  length cdims = length dims -> Forall (fun c => 0 < c) cdims -> prodN cdims <= max_hyperslab_elements ->
  NoDup (iter_coords dims cdims) /\
  (forall x, Forall2 N.lt x dims ->
     exists cc, In cc (iter_coords dims cdims) /\ In x (sel_coords (box_axes dims cdims cc)) /\
                forall cc', In cc' (iter_coords dims cdims) ->
                            In x (sel_coords (box_axes dims cdims cc')) -> cc' = cc) /\
  (forall cc, In cc (iter_coords dims cdims) ->
     iter_piece full dims cdims cc = Some (select full dims (box_axes dims cdims cc))).
Proof. exact chunk_iter_tiles. Qed.
Print Assumptions C09_chunk_iter_tiles.

(* the boolean validity predicate evaluated by the tie is the specification's *)
Theorem C09_validb_reflects : forall h dims, validb h dims = true <-> valid h dims.
Proof. exact validb_spec. Qed.
Print Assumptions C09_validb_reflects.

(* the code before the repairs violated the property (D9), one witness per class *)
Theorem C09_refuted_validate_overflow :
  exists h dims, u64_sel h (length dims) /\ Forall u64 dims /\ validate_orig h dims = Ok /\ ~ valid h dims.
Proof. exact validate_orig_refuted. Qed.
Print Assumptions C09_refuted_validate_overflow.

Theorem C09_refuted_slice_overflow :
  exists start count dims, Forall u64 start /\ Forall u64 count /\ Forall u64 dims /\
    slice_validate_orig start count dims = Ok /\ ~ slice_valid start count dims.
Proof. exact slice_validate_orig_refuted. Qed.
Print Assumptions C09_refuted_slice_overflow.

Theorem C09_refuted_1d_fast_path :
  orig_wrong Contiguous (nrange 10) [10] (mkSel [0] [3] (Some [2]) None).
Proof. exact orig_1d_refuted. Qed.
Print Assumptions C09_refuted_1d_fast_path.

Theorem C09_refuted_nd_contiguous_guard :
  orig_wrong Contiguous (nrange 20) [4; 5] (mkSel [0; 0] [2; 5] (Some [2; 1]) None).
Proof. exact orig_nd_contiguous_refuted. Qed.
Print Assumptions C09_refuted_nd_contiguous_guard.

Theorem C09_refuted_bounding_box :
  orig_wrong Contiguous (nrange 60) [3; 4; 5] (mkSel [1; 1; 1] [2; 2; 2] None None).
Proof. exact orig_bbox_refuted. Qed.
Print Assumptions C09_refuted_bounding_box.

Theorem C09_refuted_chunk_major :
  orig_wrong (Chunked [2; 3]) (nrange 24) [4; 6] (mkSel [0; 0] [4; 6] None None).
Proof. exact orig_chunk_major_refuted. Qed.
Print Assumptions C09_refuted_chunk_major.

Theorem C09_refuted_chunk_overlapping_blocks :
  orig_wrong (Chunked [2]) (nrange 6) [6] (mkSel [0] [2] (Some [1]) (Some [3])).
Proof. exact orig_chunk_overlap_refuted. Qed.
Print Assumptions C09_refuted_chunk_overlapping_blocks.

(* non-vacuity *)
Theorem C09_nonvacuous_chunked :
  valid ex_h ex_dims /\ validate ex_h ex_dims = Ok /\
  read_hyperslab (Chunked [2; 3; 2]) (nrange 60) ex_dims ex_h
  = Some [21; 22; 23; 24; 31; 32; 33; 34; 41; 42; 43; 44; 51; 52; 53; 54].
Proof. exact nonvacuous_chunked. Qed.
Print Assumptions C09_nonvacuous_chunked.

Theorem C09_nonvacuous_rejects :
  validate (mkSel [18446744073709551615] [2] None None) [10] = Err /\
  validate (mkSel [1] [1] None (Some [18446744073709551615])) [10] = Err /\
  validate (mkSel [0] [4] (Some [3]) None) [10] = Ok /\
  validate (mkSel [0] [4] (Some [3]) (Some [2])) [10] = Err /\
  slice_validate [9] [18446744073709551615] [10] = Err /\
  slice_validate [10] [0] [10] = Ok.
Proof. exact nonvacuous_rejects. Qed.
Print Assumptions C09_nonvacuous_rejects.

Theorem C09_nonvacuous_iterator :
  chunk_iterator (nrange 24) [4; 6] [2; 4]
  = [([0; 0], Some [0; 1; 2; 3; 6; 7; 8; 9]); ([0; 1], Some [4; 5; 10; 11]);
     ([1; 0], Some [12; 13; 14; 15; 18; 19; 20; 21]); ([1; 1], Some [16; 17; 22; 23])].
Proof. exact nonvacuous_iterator. Qed.
Print Assumptions C09_nonvacuous_iterator.
