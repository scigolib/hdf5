(* C09 at file level.  The two transcriptions of dataset_read_hyperslab.go are related and the property is lifted to the
   file image:
     Model/Hyperslab.v    (C09: which element goes where; Props/C09.v)
     Model/IOProgSlice.v  (C17: which bytes are read, as an I/O program over the file; tied to Go on the sequence of I/O calls)
     Model/SliceRefine.v  slice_value: what Go computes from the bytes it has read (elements as little-endian values).
   Only theorem statements here; proofs in Proofs/SliceRefine*.v.  Contiguous layout; the chunked layout is NOT covered
   (what is missing is the analogue of C09_slice_program_refines_model for p_slice_chunked). *)
From HV Require Import Base.Prelude Base.Outcome Base.Bytes Model.IOProg Model.IOProgReader Model.IOProgSlice.
From HV Require Import Model.CodecSuper Model.CodecType Model.FileImage Proofs.FileImage Proofs.FileImageData Proofs.FileImageProd.
From HV Require Import Model.SliceRefine Proofs.SliceRefineBytes Proofs.SliceRefineContig Proofs.SliceRefineArith
  Proofs.SliceRefineValidate Proofs.SliceRefineMain Proofs.SliceRefineFile Proofs.SliceRefineTop Proofs.SliceRefineSlice Proofs.SliceRefineExamples.
From HV Require Proofs.HyperslabValidate Proofs.SliceRefineSliceH.

(* (1) refinement: on ANY file in which the dataset's data block (prod(dims) elements of es bytes) is placed at addr, for
   EVERY valid filled selection, the I/O program of readHyperslabContiguous succeeds and the value Go computes from the bytes
   read is the value of C09's contiguous dispatcher on the element values of the data block.  All three paths: one run
   (SlRun), one strict read per element (rank 2, SlElems), selection run + extraction (SlSpan). *)
Theorem C09_slice_program_refines_model : forall f addr es data, placed f addr data -> 0 < es -> addr + blen data <= MAXI64 ->
  forall dims, blen data = Hs.prodN dims * es -> Hs.prodN dims < 4294967296 ->
  forall s, sel_lens s (length dims) -> Hs.axes_valid (axes_of_sel s) dims -> dims <> [] ->
  exists sd, run0 f (p_slice_contig s dims es addr) = Ok sd /\
             slice_value es dims [] (axes_of_sel s) sd = Hs.read_hyperslab_contiguous (evals es data) dims (axes_of_sel s).
Proof. exact p_slice_contig_refines. Qed.
Print Assumptions C09_slice_program_refines_model.

(* the two validations agree on all uint64 inputs (and so do the checks of ReadSlice) *)
Theorem C09_validate_refines : forall s dims,
  Forall Hs.u64 dims -> HyperslabValidate.u64_sel (hsel_of s) (length dims) ->
  validate s dims = match Hs.validate (hsel_of s) dims with Hs.Ok => Some (fill s (length dims)) | Hs.Err => None end.
Proof. exact validate_refines. Qed.
Print Assumptions C09_validate_refines.

Theorem C09_validate_slice_refines : forall st cn dims, Forall Hs.u64 dims -> Forall Hs.u64 st -> Forall Hs.u64 cn ->
  validate_slice st cn dims =
  match Hs.slice_validate st cn dims with
  | Hs.Ok => Some (fill {| s_start := st; s_count := cn; s_stride := None; s_block := None |} (length dims))
  | Hs.Err => None
  end.
Proof. exact validate_slice_refines. Qed.
Print Assumptions C09_validate_slice_refines.

(* the uint64 arithmetic of the program is the unbounded arithmetic of the element-level model on valid selections *)
Theorem C09_program_arithmetic : forall s dims,
  sel_lens s (length dims) -> Hs.axes_valid (axes_of_sel s) dims -> Hs.prodN dims < 4294967296 -> dims <> [] ->
  out_size s = Hs.out_elems (axes_of_sel s) /\
  is_contig s dims = Hs.is_contiguous_selection (axes_of_sel s) dims /\
  (forall i, (i < length dims)%nat -> sel_idx s dims i = Hs.axis_idx (nth i (axes_of_sel s) (Hs.mkAxis 0 0 0 0))).
Proof. exact program_arithmetic. Qed.
Print Assumptions C09_program_arithmetic.

(* (2) file level.  For ALL link names, basic datatypes of 4 or 8 bytes (int32/uint32/int64/uint64/float32/float64), shapes
   of rank 1..24 with extents > 0, data of exactly product(dims)*size bytes (< 4 GiB), and ALL selections (start, count,
   stride, block; Stride/Block may be nil) made of uint64 numbers: on the image of the file the writer leaves behind, the
   Dataset.ReadHyperslab PROGRAM returns bytes whose value is `select data (sel_coords sel)` in row-major order of the
   selection if the selection is valid (and selects at most 10^9 blocks: utils.MaxHyperslabElements), and an error if it
   is not valid. *)
Theorem C09_file_slice_contiguous : forall name class size cbf dims data,
  link_name_ok name = true -> basic_dtype class size cbf = true -> dims_ok dims = true ->
  blen data = product dims * size -> blen data < 4294967296 ->
  forall s hfuel, (3 < hfuel)%nat -> size = 4 \/ size = 8 -> HyperslabValidate.u64_sel (hsel_of s) (length dims) ->
  let f := image_v2 name class size cbf dims data in
  (Hs.valid (hsel_of s) dims -> Hs.prodN (s_count s) <= Hs.max_hyperslab_elements ->
   exists sd, run0 f (api_read_hyperslab SB' hfuel (dset_addr data) s) = Ok sd /\
     slice_value size dims [] (Hs.axes_of (hsel_of s) (length dims)) sd
     = Hs.select (evals size data) dims (Hs.axes_of (hsel_of s) (length dims))) /\
  (~ Hs.valid (hsel_of s) dims -> run0 f (api_read_hyperslab SB' hfuel (dset_addr data) s) = Err).
Proof. exact file_hyperslab_contiguous. Qed.
Print Assumptions C09_file_slice_contiguous.

(* the 1- and 2-byte types of the registry cannot be read through ReadSlice / ReadHyperslab at all: every request is an error *)
Theorem C09_file_slice_small_types_refused : forall name class size cbf dims data,
  link_name_ok name = true -> basic_dtype class size cbf = true -> dims_ok dims = true ->
  blen data = product dims * size -> blen data < 4294967296 ->
  forall s hfuel, (3 < hfuel)%nat -> size = 1 \/ size = 2 ->
  run0 (image_v2 name class size cbf dims data) (api_read_hyperslab SB' hfuel (dset_addr data) s) = Err.
Proof. exact file_hyperslab_small_type. Qed.
Print Assumptions C09_file_slice_small_types_refused.

(* the head stage alone: on the image, ReadSlice / ReadHyperslab reduce to the contiguous reader on the data block *)
Theorem C09_file_slice_head : forall name class size cbf dims data,
  link_name_ok name = true -> basic_dtype class size cbf = true -> dims_ok dims = true ->
  blen data = total_elems dims * size -> blen data < 4294967296 ->
  forall fuel check, (3 < fuel)%nat ->
  run0 (image_v2 name class size cbf dims data) (api_slice_with SB' fuel (dset_addr data) check) =
  match check dims with
  | None => Err
  | Some s => run0 (image_v2 name class size cbf dims data) (after_decode class size dims DATA_ADDR s)
  end.
Proof. exact slice_head. Qed.
Print Assumptions C09_file_slice_head.

(* the ReadSlice entry point, for ALL (start, count) of uint64 numbers: the selection of the written data when the request
   lies inside the dataset (start[i] + count[i] <= dims[i], same rank) and has at most 10^9 elements -- a count of 0 gives
   the empty result without data I/O --, an error when it does not lie inside the dataset, and an error when it has more
   than 10^9 elements (the second validation inside readHyperslab: utils.CalculateHyperslabElements). *)
Theorem C09_file_read_slice_contiguous : forall name class size cbf dims data,
  link_name_ok name = true -> basic_dtype class size cbf = true -> dims_ok dims = true ->
  blen data = product dims * size -> blen data < 4294967296 ->
  forall st cn hfuel, (3 < hfuel)%nat -> size = 4 \/ size = 8 -> Forall Hs.u64 st -> Forall Hs.u64 cn ->
  let f := image_v2 name class size cbf dims data in
  (Hs.slice_valid st cn dims -> Hs.prodN cn <= Hs.max_hyperslab_elements ->
   exists sd, run0 f (api_read_slice SB' hfuel (dset_addr data) st cn) = Ok sd /\
     slice_value size dims [] (Hs.slice_axes st cn) sd = Hs.select (evals size data) dims (Hs.slice_axes st cn)) /\
  (~ Hs.slice_valid st cn dims -> run0 f (api_read_slice SB' hfuel (dset_addr data) st cn) = Err) /\
  (Hs.slice_valid st cn dims -> Hs.max_hyperslab_elements < Hs.prodN cn ->
   run0 f (api_read_slice SB' hfuel (dset_addr data) st cn) = Err).
Proof. exact file_read_slice_contiguous. Qed.
Print Assumptions C09_file_read_slice_contiguous.

(* an accepted hyperslab selects at most MaxHyperslabElements blocks (why the bound is a hypothesis above) *)
Theorem C09_validate_count_bound : forall h dims, Hs.validate h dims = Hs.Ok -> Hs.prodN (Hs.h_count h) <= Hs.max_hyperslab_elements.
Proof. exact SliceRefineSliceH.validate_count_bound. Qed.
Print Assumptions C09_validate_count_bound.

(* ... and the element-level model of ReadSlice refuses a larger request that lies inside the dataset *)
Theorem C09_read_slice_too_large : forall lay full dims st cn, Forall Hs.u64 dims -> Hs.slice_valid st cn dims ->
  Hs.max_hyperslab_elements < Hs.prodN cn -> Hs.read_slice lay full dims st cn = None.
Proof. exact SliceRefineSliceH.read_slice_too_large. Qed.
Print Assumptions C09_read_slice_too_large.

(* the hypotheses of C09_file_slice_contiguous and C09_file_read_slice_contiguous are satisfiable (the runs themselves:
   C09_file_example_2d, Proofs/SliceRefineExamples.v ex_slice) *)
Theorem C09_file_slice_witness :
  link_name_ok [100] = true /\ basic_dtype 0 4 8 = true /\ dims_ok [4; 6] = true /\
  blen wit_data = product [4; 6] * 4 /\ blen wit_data < 4294967296 /\
  HyperslabValidate.u64_sel (hsel_of wit_sel) (length [4; 6]) /\ Hs.valid (hsel_of wit_sel) [4; 6] /\
  Hs.prodN (s_count wit_sel) <= Hs.max_hyperslab_elements /\
  Forall Hs.u64 [1; 2] /\ Forall Hs.u64 [2; 3] /\ Hs.slice_valid [1; 2] [2; 3] [4; 6] /\ Hs.prodN [2; 3] <= Hs.max_hyperslab_elements.
Proof. exact file_slice_witness. Qed.
Print Assumptions C09_file_slice_witness.

(* (3) non-vacuity and concrete runs (vm_compute on the image of int32 [4,6] = 0..23, rank 2, stride and block > 1) *)
Theorem C09_file_example_2d :
  run0 ex_img (api_read_hyperslab SBI 64 (dset_addr ex_data) ex_sel_2d) = Ok ex_sd_2d
  /\ slice_value 4 [4; 6] [] (Hs.axes_of (hsel_of ex_sel_2d) 2) ex_sd_2d
     = [1; 2; 4; 5; 7; 8; 10; 11; 13; 14; 16; 17; 19; 20; 22; 23]
  /\ Hs.select (evals 4 ex_data) [4; 6] (Hs.axes_of (hsel_of ex_sel_2d) 2)
     = [1; 2; 4; 5; 7; 8; 10; 11; 13; 14; 16; 17; 19; 20; 22; 23]
  /\ Hs.read_hyperslab Hs.Contiguous (evals 4 ex_data) [4; 6] (hsel_of ex_sel_2d)
     = Some [1; 2; 4; 5; 7; 8; 10; 11; 13; 14; 16; 17; 19; 20; 22; 23].
Proof. exact ex_hyperslab_2d. Qed.
Print Assumptions C09_file_example_2d.

Theorem C09_file_example_span :
  run0 ex_img3 (api_read_hyperslab SBI 64 (dset_addr ex_data) ex_sel_span) = Ok ex_sd_span
  /\ slice_value 4 [2; 3; 4] [] (Hs.axes_of (hsel_of ex_sel_span) 3) ex_sd_span = [1; 3; 9; 11; 13; 15; 21; 23]
  /\ Hs.select (evals 4 ex_data) [2; 3; 4] (Hs.axes_of (hsel_of ex_sel_span) 3) = [1; 3; 9; 11; 13; 15; 21; 23]
  /\ Hs.read_hyperslab Hs.Contiguous (evals 4 ex_data) [2; 3; 4] (hsel_of ex_sel_span) = Some [1; 3; 9; 11; 13; 15; 21; 23].
Proof. exact ex_hyperslab_span. Qed.
Print Assumptions C09_file_example_span.
