(* C18 - independent handles and background rebalancing are race-free and stop cleanly.
   Statements only; lemmas in Proofs/Conc.v, Proofs/ConcExamples.v, Proofs/Lifecycle.v.

   PARTIAL by construction (see MANIFEST level_note): Coq carries (1) the soundness of the lockset
   discipline over an abstract interleaving semantics - every interleaving, any number of threads, runs
   of any length - which the check instantiates on every run with the access table extracted from the
   current source (tools/locktable -> `locktable_ok table = true` by vm_compute, then `C18_table_sound`),
   and (2) the start/stop protocols of the two background workers as counter-abstracted transition
   systems (any number of concurrent callers).  The Go memory model, the scheduler, and accesses the
   extractor cannot see are outside; the race detector runs are the search half.
   `fixed = false` is the code as found in the pinned tree, `fixed = true` the code after
   notes/fixes/c18-*.patch. *)
From HV Require Import Base.Prelude Model.Conc Proofs.Conc Proofs.ConcExamples Model.Lifecycle Proofs.Lifecycle.
From HV Require Gen.LockTablePinned Gen.LockTableFixed.


(* in every reachable state of every interleaving, a mutex held for writing is held by nobody else *)
Theorem C18_mutual_exclusion : forall P ths s, well_locked P ths -> reachable (init_state ths) s -> mutex_inv s.
Proof. exact mutual_exclusion. Qed.
Print Assumptions C18_mutual_exclusion.

(* a pool whose every access is covered (common lock / confinement to one uniquely labelled thread /
   handed over from parent to child by a spawn / read-only / atomic only) has no reachable state with two
   enabled conflicting accesses *)
Theorem C18_lockset_sound : forall P ths, well_locked P ths -> forall s, reachable (init_state ths) s -> ~ race s.
Proof. exact lockset_sound. Qed.
Print Assumptions C18_lockset_sound.

(* the decidable check on an access table implies the discipline for every pool built from the table's
   sites: any number of threads per role (unless the role is declared single), any order, any repetition *)
Theorem C18_table_well_locked : forall single t ths,
  locktable_ok single t = true -> conforms single t ths -> well_locked (prot_of single t) ths.
Proof. exact table_well_locked. Qed.
Print Assumptions C18_table_well_locked.

Theorem C18_table_sound : forall single t ths,
  locktable_ok single t = true -> conforms single t ths ->
  forall s, reachable (init_state ths) s -> ~ race s.
Proof. exact table_sound. Qed.
Print Assumptions C18_table_sound.

Theorem C18_program_of_well_locked : forall t,
  locktable_ok (fun _ => true) t = true -> well_locked (prot_of (fun _ => true) t) (program_of t).
Proof. exact program_of_well_locked. Qed.
Print Assumptions C18_program_of_well_locked.

(* non-vacuity: a disciplined program that runs to completion, an undisciplined one with a reachable
   race, a table that is rejected and whose canonical program does race *)
Theorem C18_example_good : (forall s, reachable (init_state ex_good) s -> ~ race s) /\
  exists s, run_sched (init_state ex_good) [0;0;0;1;1;1;0;0;2;2;1;2;2;1]%nat = Some s /\
    forallb (fun th => match t_prog th with [] => true | _ => false end) (s_pool s) = true /\ s_panic s = false.
Proof. exact (conj ex_good_race_free ex_good_runs). Qed.
Print Assumptions C18_example_good.

Theorem C18_example_bad : exists s, reachable (init_state ex_bad) s /\ race s.
Proof. exact ex_bad_race_reachable. Qed.
Print Assumptions C18_example_bad.

(* happens-before by spawn: initialise, then `go`: race free; one more parent access after the go
   statement: rejected by the static condition, and a race is reachable *)
Theorem C18_example_spawn_handoff : (forall s, reachable (init_state ex_hb_good) s -> ~ race s) /\
  handoff_ok 7%N 0 1 ex_hb_bad = false /\ exists s, reachable (init_state ex_hb_bad) s /\ race s.
Proof. exact (conj ex_hb_good_race_free (conj ex_hb_bad_rejected ex_hb_bad_races)). Qed.
Print Assumptions C18_example_spawn_handoff.

Theorem C18_example_table_bad : locktable_ok (fun _ => false) ex_table_bad = false /\
  exists s, reachable (init_state (program_of ex_table_bad)) s /\ race s.
Proof. exact (conj ex_table_bad_rejected ex_table_bad_races). Qed.
Print Assumptions C18_example_table_bad.

(* frozen snapshots of the extracted table (the check regenerates it from the source on every run):
   the tree as found is rejected and its canonical program does reach a race on
   lazyState.UnderflowNodes between the background loop and the foreground API;
   the tree with notes/fixes/c18-1..3 applied passes, hence no pool built from its sites can race *)
Theorem C18_pinned_table_refuted : locktable_ok Gen.LockTablePinned.nobody_single Gen.LockTablePinned.table = false /\
  exists s, reachable (init_state (program_of Gen.LockTablePinned.table)) s /\ race s.
Proof. exact (conj Gen.LockTablePinned.pinned_table_rejected Gen.LockTablePinned.pinned_table_races). Qed.
Print Assumptions C18_pinned_table_refuted.

Theorem C18_fixed_table_race_free : forall ths,
  conforms Gen.LockTableFixed.nobody_single Gen.LockTableFixed.table ths ->
  forall s, reachable (init_state ths) s -> ~ race s.
Proof. exact Gen.LockTableFixed.fixed_table_race_free. Qed.
Print Assumptions C18_fixed_table_race_free.


Theorem C18_inc_no_double_close : forall s, ireach true s -> i_panic s = false.
Proof. exact inc_fixed_no_double_close. Qed.
Print Assumptions C18_inc_no_double_close.

Theorem C18_inc_one_worker : forall s, ireach true s -> (i_spawn s + i_workers s <= 1)%nat.
Proof. exact inc_fixed_one_worker. Qed.
Print Assumptions C18_inc_one_worker.

Theorem C18_inc_stop_leaves_no_worker : forall s s',
  ireach true s -> istep true s IReturn = Some s' -> i_workers s' = 0%nat /\ i_spawn s' = 0%nat.
Proof. exact inc_fixed_stop_leaves_no_worker. Qed.
Print Assumptions C18_inc_stop_leaves_no_worker.

(* no reachable state in which a Stop waits and the system cannot move; each move brings the release
   closer.  (That the moves are taken is the scheduler's fairness, which is not modelled.) *)
Theorem C18_inc_stop_progress : forall s,
  ireach true s -> (i_wait s > 0)%nat -> i_stopped_closed s = false ->
  exists l s', i_internal l = true /\ istep true s l = Some s' /\ (i_measure s' < i_measure s)%nat.
Proof. exact inc_fixed_progress. Qed.
Print Assumptions C18_inc_stop_progress.

(* the code as found: two overlapping Stop calls close stopChan twice; Start after Stop closes
   stoppedChan twice; with one Start and one Stop per object it is fine *)
Theorem C18_inc_double_stop_refuted :
  exists s, irun false i_init trace_double_stop = Some s /\ i_panic s = true /\ i_starts s = 1%nat /\ i_stops s = 2%nat.
Proof. exact inc_double_stop_refuted. Qed.
Print Assumptions C18_inc_double_stop_refuted.

Theorem C18_inc_restart_refuted :
  exists s, irun false i_init trace_restart = Some s /\ i_panic s = true /\ i_returned s = 1%nat.
Proof. exact inc_restart_refuted. Qed.
Print Assumptions C18_inc_restart_refuted.

Theorem C18_inc_old_single_use_partial : forall s,
  ireach false s -> (i_starts s <= 1)%nat -> (i_stops s <= 1)%nat -> i_panic s = false.
Proof. exact inc_old_single_use_partial. Qed.
Print Assumptions C18_inc_old_single_use_partial.


Theorem C18_smart_one_worker : forall s, mreach true s -> (m_workers s <= 1)%nat /\ m_misuse s = false.
Proof. exact smart_fixed_one_worker. Qed.
Print Assumptions C18_smart_one_worker.

Theorem C18_smart_stop_leaves_no_worker : forall s s',
  mreach true s -> mstep true s MReturn = Some s' -> m_workers s' = 0%nat /\ m_started s' = false.
Proof. exact smart_fixed_stop_leaves_no_worker. Qed.
Print Assumptions C18_smart_stop_leaves_no_worker.

Theorem C18_smart_stop_progress : forall s,
  mreach true s -> (m_wait s > 0)%nat ->
  (exists s', mstep true s MReturn = Some s') \/
  (exists s', mstep true s MExit = Some s' /\ (m_wg s' < m_wg s)%nat).
Proof. exact smart_fixed_progress. Qed.
Print Assumptions C18_smart_stop_progress.

Theorem C18_smart_stop_blocked_refuted :
  exists s, mrun false m_init [MStartCall; MStopCall; MStartCall; MReselect] = Some s /\
    m_wait s = 1%nat /\ m_workers s = 2%nat /\ mstep false s MReturn = None /\ mstep false s MExit = None /\
    mstep false s MReselect = None.
Proof. exact smart_old_stop_blocked_refuted. Qed.
Print Assumptions C18_smart_stop_blocked_refuted.

Theorem C18_smart_waitgroup_misuse_refuted :
  exists s, mrun false m_init [MStartCall; MStopCall; MExit; MStartCall] = Some s /\ m_misuse s = true.
Proof. exact smart_old_waitgroup_misuse_refuted. Qed.
Print Assumptions C18_smart_waitgroup_misuse_refuted.

(* System (c) of Model/Lifecycle.v, the tree level (WritableBTreeV2.Enable/Stop/IsEnabled/GetProgress of
   incremental rebalancing): the field bt.incrementalRebalancer and every IncrementalRebalancer object
   it has pointed to (each one a state of system (a), moving by `istep true` only), any number of concurrent
   callers of the four wrappers.  `current` = the code as it is (golden skeleton "tree"/"patched" of
   tools/c18_protocol_shape.json), `early_detach` = field set to nil before rebalancer.Stop() (seeded C18-b). *)

(* the product property: every object installed in the tree is a reachable state of system (a) *)
Theorem C18_tree_projects_to_inc : forall v s k g,
  treach v s -> nth_error (t_gens s) k = Some g -> ireach true (g_in g).
Proof. exact tree_projects_to_inc. Qed.
Print Assumptions C18_tree_projects_to_inc.

(* a StopIncrementalRebalancing call that read object g and returns: g has no goroutine left, no object
   installed at or before g has a goroutine that may still run a session, and an object that has one was
   installed after this call read the field (index > g) and is the one the field points to *)
Theorem C18_tree_stop_return_means_stopped : forall s g ok s',
  treach current s -> tstep current s (TStopFinish g ok) = Some s' ->
  (exists gs, nth_error (t_gens s') g = Some gs /\ i_stopped_closed (g_in gs) = true /\
              i_workers (g_in gs) = 0%nat /\ i_spawn (g_in gs) = 0%nat) /\
  (forall k gs, nth_error (t_gens s') k = Some gs -> (k <= g)%nat -> i_active (g_in gs) = 0%nat) /\
  (forall k gs, nth_error (t_gens s') k = Some gs -> (i_active (g_in gs) > 0)%nat -> (g < k)%nat /\ t_field s' = Some k).
Proof. exact tree_stop_return_means_stopped. Qed.
Print Assumptions C18_tree_stop_return_means_stopped.

(* a call that returns at once because the field is nil: no object of this tree has a goroutine that may
   still run a session *)
Theorem C18_tree_stop_nil_return_no_active_worker : forall s s',
  treach current s -> tstep current s TStopRead = Some s' -> t_ret_nil s' = S (t_ret_nil s) ->
  forall k gs, nth_error (t_gens s') k = Some gs -> i_active (g_in gs) = 0%nat.
Proof. exact tree_stop_nil_return_no_active_worker. Qed.
Print Assumptions C18_tree_stop_nil_return_no_active_worker.

(* at most one goroutine per tree that has not yet passed `ir.running = false`, and it belongs to the object
   the field points to (goroutines that have only their deferred close(stoppedChan) left are not counted:
   C18_tree_exiting_overlap_example) *)
Theorem C18_tree_at_most_one_active_worker : forall s, treach current s ->
  (forall k g, nth_error (t_gens s) k = Some g -> (i_active (g_in g) <= 1)%nat) /\
  (forall k g, nth_error (t_gens s) k = Some g -> (i_active (g_in g) > 0)%nat -> t_field s = Some k) /\
  (forall k1 g1 k2 g2, nth_error (t_gens s) k1 = Some g1 -> nth_error (t_gens s) k2 = Some g2 ->
     (i_active (g_in g1) > 0)%nat -> (i_active (g_in g2) > 0)%nat -> k1 = k2).
Proof. exact tree_at_most_one_active_worker. Qed.
Print Assumptions C18_tree_at_most_one_active_worker.

Theorem C18_tree_exiting_worker_is_awaited : forall s k g,
  treach current s -> nth_error (t_gens s) k = Some g ->
  (i_exit (g_in g) > 0)%nat -> (i_wait (g_in g) > 0)%nat /\ i_stopped_closed (g_in g) = false.
Proof. exact (tree_exiting_worker_is_awaited current). Qed.
Print Assumptions C18_tree_exiting_worker_is_awaited.

Theorem C18_tree_no_panic : forall s k g,
  treach current s -> nth_error (t_gens s) k = Some g -> i_panic (g_in g) = false.
Proof. exact (tree_no_panic current). Qed.
Print Assumptions C18_tree_no_panic.

(* a StopIncrementalRebalancing call is never stuck: it can move itself, or (blocked in <-stoppedChan) a step
   of the system itself is enabled and decreases system (a)'s measure *)
Theorem C18_tree_stop_progress : forall s g gs,
  treach current s -> nth_error (t_gens s) g = Some gs ->
  ((g_pre gs > 0)%nat -> exists s', tstep current s (TStopInner g) = Some s') /\
  ((g_post gs > 0)%nat -> exists s', tstep current s (TStopFinish g true) = Some s') /\
  ((i_wait (g_in gs) > 0)%nat -> i_stopped_closed (g_in gs) = false ->
   exists l s' gs', i_internal l = true /\ tstep current s (TInner g l) = Some s' /\
     nth_error (t_gens s') g = Some gs' /\ (i_measure (g_in gs') < i_measure (g_in gs))%nat).
Proof. exact tree_stop_progress. Qed.
Print Assumptions C18_tree_stop_progress.

(* the seeded variant: the second of two overlapping stop requests returns while the goroutine is in its loop *)
Theorem C18_tree_early_detach_refuted :
  exists s gs, trun early_detach t_init trace_early_detach = Some s /\
    t_stops s = 2%nat /\ t_ret_nil s = 1%nat /\ nth_error (t_gens s) 0 = Some gs /\
    i_loop (g_in gs) = 1%nat /\ i_stop_closed (g_in gs) = false /\ i_stopped_closed (g_in gs) = false /\ g_pre gs = 1%nat.
Proof. exact tree_early_detach_refuted. Qed.
Print Assumptions C18_tree_early_detach_refuted.

Theorem C18_tree_early_detach_two_workers_refuted :
  exists s g0 g1, trun early_detach t_init [TEnable true; TStopRead; TEnable true] = Some s /\
    nth_error (t_gens s) 0 = Some g0 /\ nth_error (t_gens s) 1 = Some g1 /\
    i_active (g_in g0) = 1%nat /\ i_active (g_in g1) = 1%nat.
Proof. exact tree_early_detach_two_workers_refuted. Qed.
Print Assumptions C18_tree_early_detach_two_workers_refuted.

(* non-vacuity for `current`: two overlapping stop requests both wait and both return after the goroutine ended *)
Theorem C18_tree_two_overlapping_stops :
  exists s1 g1 s2 g2,
    trun current t_init trace_two_stops_wait = Some s1 /\ nth_error (t_gens s1) 0 = Some g1 /\
    i_wait (g_in g1) = 2%nat /\ i_loop (g_in g1) = 1%nat /\ t_ret s1 = 0%nat /\ tstep current s1 (TInner 0 IReturn) = None /\
    trun current s1 trace_two_stops_finish = Some s2 /\ nth_error (t_gens s2) 0 = Some g2 /\
    t_ret s2 = 2%nat /\ t_ret_nil s2 = 0%nat /\ t_field s2 = None /\ i_workers (g_in g2) = 0%nat /\ i_stopped_closed (g_in g2) = true.
Proof. exact tree_two_overlapping_stops. Qed.
Print Assumptions C18_tree_two_overlapping_stops.

(* observation: a goroutine past `ir.running = false` can coexist with the goroutine of a newer object *)
Theorem C18_tree_exiting_overlap_example :
  exists s1 a0 a1 s2 b0,
    trun current t_init trace_exiting_overlap = Some s1 /\
    nth_error (t_gens s1) 0 = Some a0 /\ nth_error (t_gens s1) 1 = Some a1 /\
    i_exit (g_in a0) = 1%nat /\ i_wait (g_in a0) = 1%nat /\ i_active (g_in a0) = 0%nat /\ i_active (g_in a1) = 1%nat /\
    trun current s1 trace_exiting_overlap_stop = Some s2 /\ t_ret s2 = 1%nat /\ t_field s2 = None /\
    nth_error (t_gens s2) 0 = Some b0 /\ i_exit (g_in b0) = 1%nat /\ i_wait (g_in b0) = 1%nat.
Proof. exact tree_exiting_overlap_example. Qed.
Print Assumptions C18_tree_exiting_overlap_example.
