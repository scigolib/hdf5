(* C05 - "... the encoding is decodable according to the HDF5 format specification": the writer's NODE / HEAP encoders against the
   specification decoders of Spec/FormatNode.v.  Theorems only; lemmas in Proofs/SpecNode*.v.

   The encoders are the byte-exact transcriptions of the Go code that other properties tie on every run:
     global heap collection   Model/GHeap.v      encode_collection          (tie: C12)
     v2 B-tree header, leaf   Model/BT2.v        encode_header, encode_leaf (tie: C14)
     fractal heap header, direct block  Model/FHeap.v  encode_header, encode_dblock (tie: C15)
     v1 B-tree chunk leaf     Model/ChunkIndex.v serialize_leaf             (tie: C01 unit)
   For each structure, UNIVERSALLY over the well-formed states (the invariants proved for reachable states in
   Proofs/GHeap.v, BT2.v, FHeap.v, ChunkIndex.v): the tolerant specification decoder accepts the encoder's bytes, returns the
   logical content the encoder was given and EXACTLY the deviation tags listed for that structure in KNOWN_FINDINGS.json; the
   strict decoder accepts exactly when that tag set is empty (the machine-checked refutation the findings cite).  A checksum
   tag is present unless CRC-32 and lookup3 coincide on the covered bytes, which no hypothesis can exclude for all inputs: the
   tag sets are stated with that condition, as in Props/C05Spec.v; the _refuted theorems exhibit reachable states where it is
   present.  Where an invariant lemma exists the statement is composed with it: after ANY history the bytes written decode. *)
From HV Require Import Base.Prelude Base.Outcome Base.Bytes Base.Crc32 Spec.Lookup3 Spec.Parse Spec.Format Spec.FormatNode
  Model.ChunkIndex Proofs.ChunkIndex
  Proofs.SpecNodeGHeap Proofs.SpecNodeBT2 Proofs.SpecNodeFHeap Proofs.SpecNodeFHeapId Proofs.SpecNodeBTree1.

(* every well-formed collection builder of at least the minimum collection size, any tolerance: the only deviation is the size
   field of the free-space object, written iff at least 16 bytes are free *)
Theorem C05_node_gcol : forall tol c b,
  PG.wfc c -> 4096 <= MG.c_size c -> MG.encode_collection c = Some b ->
  spec_dec_gcol tol 8 b =
    (tg <- devif (16 <=? MG.c_free c) tol T_gcol_free_size;;
     Ok (MG.c_size c, map spec_obj (MG.c_objs c), tg, [])).
Proof. exact spec_gcol_encoded. Qed.
Print Assumptions C05_node_gcol.

Theorem C05_node_gcol_tolerant : forall c b,
  PG.wfc c -> 4096 <= MG.c_size c -> MG.encode_collection c = Some b ->
  spec_dec_gcol tolerant 8 b = Ok (MG.c_size c, map spec_obj (MG.c_objs c), gcol_tags c, []).
Proof. exact spec_gcol_tolerant. Qed.
Print Assumptions C05_node_gcol_tolerant.

Theorem C05_node_gcol_strict : forall c b,
  PG.wfc c -> 4096 <= MG.c_size c -> MG.encode_collection c = Some b ->
  spec_dec_gcol strict 8 b =
    match gcol_tags c with [] => Ok (MG.c_size c, map spec_obj (MG.c_objs c), [], []) | _ => Err end.
Proof. exact spec_gcol_strict. Qed.
Print Assumptions C05_node_gcol_strict.

(* finding C05-gcol-free-size, universally *)
Theorem C05_gcol_free_size_refuted : forall c b,
  PG.wfc c -> 4096 <= MG.c_size c -> MG.encode_collection c = Some b -> 16 <= MG.c_free c ->
  spec_dec_gcol strict 8 b = Err /\
  spec_dec_gcol tolerant 8 b = Ok (MG.c_size c, map spec_obj (MG.c_objs c), [T_gcol_free_size], []).
Proof. exact gcol_free_size_refuted. Qed.
Print Assumptions C05_gcol_free_size_refuted.

(* after ANY history of WriteToGlobalHeap calls and other allocations, then Flush (shipped parameters 4096 / 4096) *)
Theorem C05_node_gcol_history : forall e0 ops fin ids,
  MG.run_close 4096 4096 e0 ops = Some (fin, ids) -> MG.eof fin < PG.W64 ->
  (forall a b, In (a, b) (MG.disk fin) ->
     exists c, PG.wfc c /\ MG.c_addr c = a /\ MG.encode_collection c = Some b /\
       spec_dec_gcol tolerant 8 b = Ok (MG.c_size c, map spec_obj (MG.c_objs c), gcol_tags c, []) /\
       spec_dec_gcol strict 8 b =
         match gcol_tags c with [] => Ok (MG.c_size c, map spec_obj (MG.c_objs c), [], []) | _ => Err end) /\
  length ids = length (MG.writes ops) /\
  (forall i d, nth_error (MG.writes ops) i = Some d ->
     exists id b sz objs tg,
       nth_error ids i = Some id /\ In (MG.h_addr id, b) (MG.disk fin) /\
       spec_dec_gcol tolerant 8 b = Ok (sz, objs, tg, []) /\
       In {| go_index := MG.h_idx id; go_refcount := 1; go_data := d |} objs).
Proof. exact spec_gcol_history_shipped. Qed.
Print Assumptions C05_node_gcol_history.

(* the hypotheses are satisfiable and both tag sets occur *)
Theorem C05_node_gcol_examples :
  (exists b, MG.encode_collection ex_coll_free = Some b /\ spec_dec_gcol strict 8 b = Err /\
     spec_dec_gcol tolerant 8 b =
       Ok (4096, [{| go_index := 1; go_refcount := 1; go_data := [97; 98; 99] |}], [T_gcol_free_size], [])) /\
  (exists b, MG.encode_collection ex_coll_full = Some b /\
     spec_dec_gcol strict 8 b = Ok (4112, [{| go_index := 1; go_refcount := 1; go_data := MG.zeros 4080 |}], [], [])).
Proof. exact gcol_examples. Qed.
Print Assumptions C05_node_gcol_examples.

Theorem C05_node_bt2hdr : forall tol osz s,
  PB.osz_ok osz -> PB.hdr_fits osz (MB.header s) -> hdr_spec_ok (MB.header s) = true ->
  spec_dec_bt2hdr tol osz 8 (MB.encode_header osz s) =
    (tg <- check_sum tol T_btree2_crc32 (MB.hdr_body osz (MB.header s)) (crc32 (MB.hdr_body osz (MB.header s)));;
     Ok (spec_hdr (MB.header s), tg, [])).
Proof. exact spec_bt2hdr. Qed.
Print Assumptions C05_node_bt2hdr.

Theorem C05_node_bt2hdr_tolerant : forall osz s,
  PB.osz_ok osz -> PB.hdr_fits osz (MB.header s) -> hdr_spec_ok (MB.header s) = true ->
  spec_dec_bt2hdr tolerant osz 8 (MB.encode_header osz s) =
    Ok (spec_hdr (MB.header s), bt2_tags (MB.hdr_body osz (MB.header s)), []).
Proof. exact spec_bt2hdr_tolerant. Qed.
Print Assumptions C05_node_bt2hdr_tolerant.

Theorem C05_node_bt2hdr_strict : forall osz s,
  PB.osz_ok osz -> PB.hdr_fits osz (MB.header s) -> hdr_spec_ok (MB.header s) = true ->
  spec_dec_bt2hdr strict osz 8 (MB.encode_header osz s) =
    match bt2_tags (MB.hdr_body osz (MB.header s)) with [] => Ok (spec_hdr (MB.header s), [], []) | _ => Err end.
Proof. exact spec_bt2hdr_strict. Qed.
Print Assumptions C05_node_bt2hdr_strict.

(* [rest]: the unused remainder of the node on disk *)
Theorem C05_node_bt2leaf : forall tol s (rest : list N),
  Forall PB.rec_wf (MB.leaf_recs s) ->
  spec_dec_bt2leaf tol (MB.leaf_type s) (length (MB.leaf_recs s)) 11 (MB.encode_leaf s ++ rest) =
    (tg <- check_sum tol T_btree2_crc32 (MB.leaf_body (MB.leaf_type s) (MB.leaf_recs s))
                     (crc32 (MB.leaf_body (MB.leaf_type s) (MB.leaf_recs s)));;
     Ok (map MB.enc_rec (MB.leaf_recs s), tg)).
Proof. exact spec_bt2leaf. Qed.
Print Assumptions C05_node_bt2leaf.

Theorem C05_node_bt2leaf_tolerant : forall s (rest : list N),
  Forall PB.rec_wf (MB.leaf_recs s) ->
  spec_dec_bt2leaf tolerant (MB.leaf_type s) (length (MB.leaf_recs s)) 11 (MB.encode_leaf s ++ rest) =
    Ok (map MB.enc_rec (MB.leaf_recs s), bt2_tags (MB.leaf_body (MB.leaf_type s) (MB.leaf_recs s))).
Proof. exact spec_bt2leaf_tolerant. Qed.
Print Assumptions C05_node_bt2leaf_tolerant.

Theorem C05_node_bt2leaf_strict : forall s (rest : list N),
  Forall PB.rec_wf (MB.leaf_recs s) ->
  spec_dec_bt2leaf strict (MB.leaf_type s) (length (MB.leaf_recs s)) 11 (MB.encode_leaf s ++ rest) =
    match bt2_tags (MB.leaf_body (MB.leaf_type s) (MB.leaf_recs s)) with
    | [] => Ok (map MB.enc_rec (MB.leaf_recs s), []) | _ => Err end.
Proof. exact spec_bt2leaf_strict. Qed.
Print Assumptions C05_node_bt2leaf_strict.

(* after ANY history of the write API (any rebalancing mode): header (with any root address that fits) and leaf of the state;
   the header always announces type 5 and record size 11 (the fact behind C05-btree2-attr-type-5) *)
Theorem C05_node_bt2_reachable : forall c ops root (rest : list N),
  PB.cfg_ok c -> PB.addr_ok c ops -> root < 256 ^ N.of_nat (MB.c_osz c) ->
  let s := MB.bt (fst (MB.run c ops)) in
  let h := MB.header (MB.with_root s root) in
  spec_dec_bt2hdr tolerant (MB.c_osz c) 8 (MB.encode_header (MB.c_osz c) (MB.with_root s root)) =
    Ok (spec_hdr h, bt2_tags (MB.hdr_body (MB.c_osz c) h), []) /\
  spec_dec_bt2hdr strict (MB.c_osz c) 8 (MB.encode_header (MB.c_osz c) (MB.with_root s root)) =
    match bt2_tags (MB.hdr_body (MB.c_osz c) h) with [] => Ok (spec_hdr h, [], []) | _ => Err end /\
  spec_dec_bt2leaf tolerant 5 (length (MB.leaf_recs s)) 11 (MB.encode_leaf s ++ rest) =
    Ok (map MB.enc_rec (MB.leaf_recs s), bt2_tags (MB.leaf_body 5 (MB.leaf_recs s))) /\
  spec_dec_bt2leaf strict 5 (length (MB.leaf_recs s)) 11 (MB.encode_leaf s ++ rest) =
    match bt2_tags (MB.leaf_body 5 (MB.leaf_recs s)) with [] => Ok (map MB.enc_rec (MB.leaf_recs s), []) | _ => Err end /\
  b2_type (spec_hdr h) = 5 /\ b2_recsize (spec_hdr h) = 11 /\ b2_depth (spec_hdr h) = 0 /\
  b2_root (spec_hdr h) = root /\
  b2_nroot (spec_hdr h) = N.of_nat (length (MB.leaf_recs s)) /\ b2_total (spec_hdr h) = N.of_nat (length (MB.leaf_recs s)).
Proof. exact spec_bt2_reachable. Qed.
Print Assumptions C05_node_bt2_reachable.

(* the bytes on disk: after WriteToFile from any state of the invariant, ReadAt at the header address returns bytes the
   specification decoder accepts, and the root node address / type / record count that header announces lead to a leaf it
   accepts with the state's records *)
Theorem C05_node_bt2_on_disk : forall c w (root_rest : list N),
  PB.cfg_ok c -> PB.winv c w -> hconst (MB.bt w) -> MB.next w < PB.lim c ->
  let w1 := fst (MB.step c w MB.OStore) in
  let s := MB.bt w1 in
  exists hb lb,
    MB.read_at (MB.fil w1) (MB.next w + MB.node_size (MB.bt w)) (MB.hdr_size (MB.c_osz c)) = Some hb /\
    spec_dec_bt2hdr tolerant (MB.c_osz c) 8 hb =
      Ok (spec_hdr (MB.header s), bt2_tags (MB.hdr_body (MB.c_osz c) (MB.header s)), []) /\
    MB.read_at (MB.fil w1) (b2_root (spec_hdr (MB.header s))) (length (MB.encode_leaf s)) = Some lb /\
    spec_dec_bt2leaf tolerant (b2_type (spec_hdr (MB.header s))) (N.to_nat (b2_nroot (spec_hdr (MB.header s)))) 11 lb =
      Ok (map MB.enc_rec (MB.leaf_recs s), bt2_tags (MB.leaf_body 5 (MB.leaf_recs s))).
Proof. exact spec_bt2_on_disk. Qed.
Print Assumptions C05_node_bt2_on_disk.

(* finding C05-btree2-crc32 on a concrete reachable tree (two inserted names) *)
Theorem C05_btree2_crc32_refuted :
  length (MB.leaf_recs ex_bt) = 2%nat /\
  spec_dec_bt2hdr strict 8 8 (MB.encode_header 8 (MB.with_root ex_bt 64)) = Err /\
  snd (fst (match spec_dec_bt2hdr tolerant 8 8 (MB.encode_header 8 (MB.with_root ex_bt 64)) with
            | Ok x => x | _ => (spec_hdr (MB.header ex_bt), [], []) end)) = [T_btree2_crc32] /\
  spec_dec_bt2leaf strict 5 2 11 (MB.encode_leaf ex_bt) = Err /\
  spec_dec_bt2leaf tolerant 5 2 11 (MB.encode_leaf ex_bt) = Ok (map MB.enc_rec (MB.leaf_recs ex_bt), [T_btree2_crc32]).
Proof. exact bt2_crc32_refuted. Qed.
Print Assumptions C05_btree2_crc32_refuted.

Theorem C05_node_fheap_hdr_tolerant : forall h, wf_fheap_hdr h = true ->
  spec_dec_fheap_hdr tolerant 8 8 (MF.encode_header h) = Ok (logical_fheap_hdr h, tags_fheap_hdr h, []).
Proof. exact spec_fheap_hdr_tolerant. Qed.
Print Assumptions C05_node_fheap_hdr_tolerant.

(* the address-0 deviation is unconditional: the strict decoder rejects every header the writer encodes *)
Theorem C05_node_fheap_hdr_strict : forall h, wf_fheap_hdr h = true ->
  spec_dec_fheap_hdr strict 8 8 (MF.encode_header h) = Err.
Proof. exact spec_fheap_hdr_strict. Qed.
Print Assumptions C05_node_fheap_hdr_strict.

Theorem C05_node_fhdb_tolerant : forall b, wf_fhdb b = true ->
  spec_dec_fhdb tolerant 8 (MF.db_hdraddr b) 2 (MF.db_boff b) 0 (MF.encode_dblock b) =
    Ok (15, if crc32 (fhdb_body b) =? 0 then [] else [T_fhdb_trailing_crc32]).
Proof. exact spec_fhdb_tolerant. Qed.
Print Assumptions C05_node_fhdb_tolerant.

Theorem C05_node_fhdb_strict : forall b, wf_fhdb b = true ->
  spec_dec_fhdb strict 8 (MF.db_hdraddr b) 2 (MF.db_boff b) 0 (MF.encode_dblock b) =
    if crc32 (fhdb_body b) =? 0 then Ok (15, []) else Err.
Proof. exact spec_fhdb_strict. Qed.
Print Assumptions C05_node_fhdb_strict.

(* after ANY admissible history (Proofs/FHeap.v) from NewWritableFractalHeap(bs), bs a power of two *)
Theorem C05_node_fheap_hdr_reachable : forall bs hist,
  MF.bs_ok bs = true -> pow2 bs = true -> MF.one_block bs hist = true -> MF.targets_live bs hist = true ->
  let h := MF.heap_of MF.cap_new bs hist in
  spec_dec_fheap_hdr tolerant 8 8 (MF.encode_header h) = Ok (logical_fheap_hdr h, tags_fheap_hdr h, [])
  /\ spec_dec_fheap_hdr strict 8 8 (MF.encode_header h) = Err.
Proof. exact spec_fheap_hdr_reachable. Qed.
Print Assumptions C05_node_fheap_hdr_reachable.

Theorem C05_node_fhdb_reachable : forall bs hist,
  MF.bs_ok bs = true -> pow2 bs = true -> MF.one_block bs hist = true -> MF.targets_live bs hist = true ->
  let b := MF.h_blk (MF.heap_of MF.cap_new bs hist) in
  spec_dec_fhdb tolerant 8 (MF.db_hdraddr b) 2 0 0 (MF.encode_dblock b) =
    Ok (15, if crc32 (fhdb_body b) =? 0 then [] else [T_fhdb_trailing_crc32])
  /\ spec_dec_fhdb strict 8 (MF.db_hdraddr b) 2 0 0 (MF.encode_dblock b) =
       (if crc32 (fhdb_body b) =? 0 then Ok (15, []) else Err).
Proof. exact spec_fhdb_reachable. Qed.
Print Assumptions C05_node_fhdb_reachable.

(* what WriteToFile / WriteAt put on disk for a state of the representation relation (addresses filled in) *)
Theorem C05_node_fheap_hdr_stored : forall bs h fs sp ha ba,
  MF.bs_ok bs = true -> pow2 bs = true -> PF.R bs h fs sp -> lt64 ba = true ->
  let h1 := MF.set_addrs h ha ba in
  spec_dec_fheap_hdr tolerant 8 8 (MF.encode_header h1) = Ok (logical_fheap_hdr h1, tags_fheap_hdr h1, [])
  /\ spec_dec_fheap_hdr strict 8 8 (MF.encode_header h1) = Err.
Proof. exact spec_fheap_hdr_stored. Qed.
Print Assumptions C05_node_fheap_hdr_stored.

Theorem C05_node_fhdb_stored : forall bs h fs sp ha ba,
  MF.bs_ok bs = true -> PF.R bs h fs sp -> lt64 ha = true ->
  let b := MF.h_blk (MF.set_addrs h ha ba) in
  spec_dec_fhdb tolerant 8 ha 2 0 0 (MF.encode_dblock b) =
    Ok (15, if crc32 (fhdb_body b) =? 0 then [] else [T_fhdb_trailing_crc32])
  /\ spec_dec_fhdb strict 8 ha 2 0 0 (MF.encode_dblock b) = if crc32 (fhdb_body b) =? 0 then Ok (15, []) else Err.
Proof. exact spec_fhdb_stored. Qed.
Print Assumptions C05_node_fhdb_stored.

(* findings C05-fheap-hdr-crc32 and C05-fheap-addr-0-not-undef: both tags, and each one alone is fatal *)
Theorem C05_fheap_hdr_refuted :
  wf_fheap_hdr fheap_witness = true /\
  MF.h_root fheap_witness = 2194 /\
  spec_dec_fheap_hdr strict 8 8 (MF.encode_header fheap_witness) = Err /\
  spec_dec_fheap_hdr tolerant 8 8 (MF.encode_header fheap_witness) =
    Ok (logical_fheap_hdr fheap_witness, [T_fheap_hdr_crc32; T_fheap_addr_0_not_undef], []) /\
  spec_dec_fheap_hdr (fun t => match t with T_fheap_hdr_crc32 => false | _ => true end) 8 8
    (MF.encode_header fheap_witness) = Err /\
  spec_dec_fheap_hdr (fun t => match t with T_fheap_addr_0_not_undef => false | _ => true end) 8 8
    (MF.encode_header fheap_witness) = Err.
Proof. exact fheap_hdr_refuted. Qed.
Print Assumptions C05_fheap_hdr_refuted.

(* finding C05-fhdb-trailing-crc32 *)
Theorem C05_fhdb_trailing_crc32_refuted :
  wf_fhdb (MF.h_blk fheap_witness) = true /\
  spec_dec_fhdb strict 8 2048 2 0 0 (MF.encode_dblock (MF.h_blk fheap_witness)) = Err /\
  spec_dec_fhdb tolerant 8 2048 2 0 0 (MF.encode_dblock (MF.h_blk fheap_witness)) = Ok (15, [T_fhdb_trailing_crc32]).
Proof. exact fhdb_refuted. Qed.
Print Assumptions C05_fhdb_trailing_crc32_refuted.

(* finding C05-fheap-offset-excludes-block-prefix.  Universally: what GetObject returns for a heap id with offset [off] are
   the bytes at offset 15 + off of the direct block the writer encodes (the specification's heap address space starts at the
   block's first byte, prefix included) - for every state of the representation relation of Proofs/FHeap.v *)
Theorem C05_fheap_id_offset_excludes_prefix : forall bs h fs sp id data,
  MF.bs_ok bs = true -> PF.R bs h fs sp -> MF.get h id = MF.Ok data ->
  exists off n, MF.parse_id h id = MF.Ok (off, n) /\
    MF.slice (MF.encode_dblock (MF.h_blk h)) (MF.PREFIX + off) n = data.
Proof. exact fheap_get_reads_after_prefix_R. Qed.
Print Assumptions C05_fheap_id_offset_excludes_prefix.

(* witness: an id with offset 0 whose object is at block bytes 15..24; block bytes 0..9 are the prefix *)
Theorem C05_fheap_offset_excludes_block_prefix_refuted :
  exists id,
    snd (MF.insert MF.cap_new (MF.new_heap 64) (MF.obj 1 10) 0) = MF.Ok id /\
    MF.parse_id id_heap id = MF.Ok (0, 10) /\
    MF.get id_heap id = MF.Ok (MF.obj 1 10) /\
    MF.slice (MF.encode_dblock (MF.h_blk id_heap)) 15 10 = MF.obj 1 10 /\
    MF.slice (MF.encode_dblock (MF.h_blk id_heap)) 0 10 = [70; 72; 68; 66; 0; 0; 0; 0; 0; 0] /\
    MF.slice (MF.encode_dblock (MF.h_blk id_heap)) 0 10 <> MF.obj 1 10.
Proof. exact fheap_offset_excludes_block_prefix_refuted. Qed.
Print Assumptions C05_fheap_offset_excludes_block_prefix_refuted.

(* the hypothesis "block size is a power of two" is needed (the library itself passes 64 KiB and 512 KiB) *)
Theorem C05_fheap_hdr_start_not_pow2_refuted :
  MF.bs_ok 100 = true /\ spec_dec_fheap_hdr tolerant 8 8 (MF.encode_header (MF.new_heap 100)) = Err.
Proof. exact fheap_hdr_start_not_pow2_refuted. Qed.
Print Assumptions C05_fheap_hdr_start_not_pow2_refuted.

(* decoder called with node type 1, 8-byte offsets, the dimensionality the writer's keys use, K = 32 *)
Theorem C05_node_btree1_leaf : forall tol dim es,
  Forall (fun e => entry_ok dim e = true) es -> N.of_nat (length es) < 65536 ->
  spec_dec_btree1 tol 8 8 1 dim 32 (serialize_leaf dim es) =
    (tg <- devif (64 <? N.of_nat (length es)) tol T_btree1_node_over_capacity;;
     Ok ({| b1_type := 1; b1_level := 0; b1_n := N.of_nat (length es); b1_left := U64MAX; b1_right := U64MAX;
            b1_keys := map spec_key_of es ++ [0 :: 0 :: repeat U64MAX dim]; b1_children := map w_addr es |}, tg, [])).
Proof. exact spec_btree1_leaf. Qed.
Print Assumptions C05_node_btree1_leaf.

Theorem C05_node_btree1_leaf_tolerant : forall dim es,
  Forall (fun e => entry_ok dim e = true) es -> N.of_nat (length es) < 65536 ->
  spec_dec_btree1 tolerant 8 8 1 dim 32 (serialize_leaf dim es) =
    Ok (spec_leaf dim es, if 64 <? N.of_nat (length es) then [T_btree1_node_over_capacity] else [], []).
Proof. exact spec_btree1_leaf_tolerant. Qed.
Print Assumptions C05_node_btree1_leaf_tolerant.

(* strict accepts iff the node holds at most 2K = 64 chunks *)
Theorem C05_node_btree1_leaf_strict : forall dim es,
  Forall (fun e => entry_ok dim e = true) es -> N.of_nat (length es) < 65536 ->
  (spec_dec_btree1 strict 8 8 1 dim 32 (serialize_leaf dim es) = Ok (spec_leaf dim es, [], []) <-> N.of_nat (length es) <= 64) /\
  (spec_dec_btree1 strict 8 8 1 dim 32 (serialize_leaf dim es) = Err <-> 64 < N.of_nat (length es)).
Proof. exact spec_btree1_leaf_strict_iff. Qed.
Print Assumptions C05_node_btree1_leaf_strict.

(* after ANY successful write_index (WriteToFile of the chunk index): the file from the returned address on decodes to the
   SORTED entries *)
Theorem C05_node_btree1_written : forall rep dim es f eof f' eof' addr,
  write_index rep dim es f eof = Ok (f', eof', addr) ->
  Forall (fun e => entry_ok dim e = true) es -> N.of_nat (length es) < 65536 ->
  exists suf,
    skipn (N.to_nat addr) f' = serialize_leaf dim (sort_entries es) ++ suf /\
    spec_dec_btree1 tolerant 8 8 1 dim 32 (skipn (N.to_nat addr) f') =
      Ok (spec_leaf dim (sort_entries es),
          if 64 <? N.of_nat (length es) then [T_btree1_node_over_capacity] else [], suf).
Proof. exact spec_btree1_written. Qed.
Print Assumptions C05_node_btree1_written.

Theorem C05_node_btree1_written_strict : forall rep dim es f eof f' eof' addr,
  write_index rep dim es f eof = Ok (f', eof', addr) ->
  Forall (fun e => entry_ok dim e = true) es -> N.of_nat (length es) < 65536 ->
  exists suf,
    skipn (N.to_nat addr) f' = serialize_leaf dim (sort_entries es) ++ suf /\
    spec_dec_btree1 strict 8 8 1 dim 32 (skipn (N.to_nat addr) f') =
      if 64 <? N.of_nat (length es) then Err else Ok (spec_leaf dim (sort_entries es), [], suf).
Proof. exact spec_btree1_written_strict. Qed.
Print Assumptions C05_node_btree1_written_strict.

(* finding C05-btree1-node-over-capacity: 65 chunks in one node of capacity 64 *)
Theorem C05_btree1_over_capacity_refuted :
  forallb (entry_ok 1) (cap_entries 65) = true /\ distinct_coords (cap_entries 65) = true /\
  spec_dec_btree1 strict 8 8 1 1 32 (serialize_leaf 1 (cap_entries 65)) = Err /\
  spec_dec_btree1 tolerant 8 8 1 1 32 (serialize_leaf 1 (cap_entries 65)) =
    Ok (spec_leaf 1 (cap_entries 65), [T_btree1_node_over_capacity], []).
Proof. exact btree1_over_capacity_refuted. Qed.
Print Assumptions C05_btree1_over_capacity_refuted.

Theorem C05_node_btree1_within_capacity :
  spec_dec_btree1 strict 8 8 1 1 32 (serialize_leaf 1 (cap_entries 64)) = Ok (spec_leaf 1 (cap_entries 64), [], []) /\
  spec_dec_btree1 strict 8 8 1 1 32 (serialize_leaf 1 (cap_entries 3)) = Ok (spec_leaf 1 (cap_entries 3), [], []).
Proof. exact btree1_within_capacity_conformant. Qed.
Print Assumptions C05_node_btree1_within_capacity.
