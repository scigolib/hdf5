(* C05 - "... the encoding is decodable according to the HDF5 format specification": the GROUP structures the writer emits
   (Model/GroupWire.v) against the specification decoders of Spec/FormatNode.v and the group clauses of the walker Spec/Walk.v.
   Theorems only; lemmas in Proofs/GroupWireSpec.v.  These are the theorems the KNOWN_FINDINGS.json entries
     C05-heap-name-offset-0  ->  C05_heap_name_offset_0_refuted, C05_group_snod_strict
     C05-snod-over-capacity  ->  C05_snod_over_capacity_refuted, C05_group_snod_strict
     C05-snod-unsorted       ->  C05_snod_names_in_creation_order
     C05-btree1-group-keys   ->  C05_btree1_group_keys_refuted (with C11_gbtree_writer_node: the keys are (0, 0))
   should cite. *)
From HV Require Import Base.Prelude Base.Outcome Base.Bytes Model.RobustAlloc Model.RobustGroup
  Spec.Parse Spec.Format Spec.FormatNode Spec.Walk
  Model.GroupWire Proofs.GroupWireHeap Proofs.GroupWireSnod Proofs.GroupWireBTree Proofs.GroupWireSpec.

(* every heap header WriteTo emits decodes under the (strict: it has no tolerance) specification decoder to the segment size, the
   free-list head and the address right behind the header; the remaining bytes are the data segment *)
Theorem C05_group_lheap : forall h a,
  hw_dss h < 18446744073709551616 -> hw_free h < 18446744073709551616 ->
  spec_dec_lheap 8 8 (heap_image h a) =
    Ok ({| lh_size := hw_dss h; lh_free := hw_free h; lh_addr := wrap64 (a + 32) |}, padded h).
Proof. exact spec_lheap_image. Qed.
Print Assumptions C05_group_lheap.

(* free-list head 1 (every heap of this writer): the free list is well-formed whatever the segment holds *)
Theorem C05_group_lheap_free_list : forall fuel seg, lheap_free_ok fuel 8 seg 1 = true.
Proof. exact spec_lheap_free_ok. Qed.
Print Assumptions C05_group_lheap_free_list.

Theorem C05_group_snod : forall tol leafK s m (r : list N),
  snode_ok s = true -> Forall (fun e => sym_plain e = true) (stn_entries s) -> (length (stn_entries s) <= m)%nat ->
  spec_dec_snod tol 8 leafK (snod_bytes s m ++ r) =
    (tg1 <- devif (2 * leafK <? stn_num s) tol T_snod_over_capacity;;
     tg2 <- devif (has_off0 s) tol T_heap_name_offset_0;;
     Ok (map spec_sym (stn_entries s), tg1 ++ tg2, zeros (40 * (m - length (stn_entries s))) ++ r)).
Proof. exact spec_snod_bytes. Qed.
Print Assumptions C05_group_snod.

(* tolerant: accepted with the logical content and exactly the listed tags *)
Theorem C05_group_snod_tolerant : forall leafK s m (r : list N),
  snode_ok s = true -> Forall (fun e => sym_plain e = true) (stn_entries s) -> (length (stn_entries s) <= m)%nat ->
  spec_dec_snod tolerant 8 leafK (snod_bytes s m ++ r) =
    Ok (map spec_sym (stn_entries s), snod_tags leafK s, zeros (40 * (m - length (stn_entries s))) ++ r).
Proof. exact spec_snod_tolerant. Qed.
Print Assumptions C05_group_snod_tolerant.

(* strict accepts iff the tag set is empty *)
Theorem C05_group_snod_strict : forall leafK s m (r : list N),
  snode_ok s = true -> Forall (fun e => sym_plain e = true) (stn_entries s) -> (length (stn_entries s) <= m)%nat ->
  spec_dec_snod strict 8 leafK (snod_bytes s m ++ r) =
    match snod_tags leafK s with
    | [] => Ok (map spec_sym (stn_entries s), [], zeros (40 * (m - length (stn_entries s))) ++ r)
    | _ => Err
    end.
Proof. exact spec_snod_strict. Qed.
Print Assumptions C05_group_snod_strict.

(* finding C05-heap-name-offset-0: every node whose first entry names heap offset 0 (the first AddString of a heap returns 0:
   C11_lheap_add_string on an empty buffer) is rejected by strict and carries the tag *)
Theorem C05_heap_name_offset_0_refuted : forall leafK s m e es (r : list N),
  snode_ok s = true -> Forall (fun e => sym_plain e = true) (stn_entries s) -> (length (stn_entries s) <= m)%nat ->
  stn_entries s = e :: es -> sy_name e = 0 ->
  spec_dec_snod strict 8 leafK (snod_bytes s m ++ r) = Err /\ In T_heap_name_offset_0 (snod_tags leafK s).
Proof. exact snod_heap_name_offset_0. Qed.
Print Assumptions C05_heap_name_offset_0_refuted.

(* finding C05-snod-over-capacity: group leaf K = 4 in the files written; the tag is present iff more than 8 links *)
Theorem C05_snod_over_capacity_refuted : forall s m (r : list N),
  snode_ok s = true -> Forall (fun e => sym_plain e = true) (stn_entries s) -> (length (stn_entries s) <= m)%nat ->
  (spec_dec_snod strict 8 4 (snod_bytes s m ++ r) = Err <-> (8 < stn_num s \/ has_off0 s = true)) /\
  (In T_snod_over_capacity (snod_tags 4 s) <-> 8 < stn_num s).
Proof. exact snod_over_capacity. Qed.
Print Assumptions C05_snod_over_capacity_refuted.

(* finding C05-snod-unsorted: the names the walker reads through the offsets AddString returned are the names in CREATION order,
   so its clause `increasing names` fails exactly for groups not created in increasing name order *)
Theorem C05_snod_names_in_creation_order : forall (ns : list bytes) (pre rest : list N),
  Forall (fun n => nonul n = true) ns ->
  omapM (heap_str (pre ++ enc_names ns ++ rest)) (name_offs (blen pre) ns) = Ok ns.
Proof. exact heap_strs_gen. Qed.
Print Assumptions C05_snod_names_in_creation_order.

Theorem C05_group_snod_example :
  snode_ok ex_snode = true /\ Forall (fun e => sym_plain e = true) (stn_entries ex_snode) /\
  spec_dec_snod strict 8 4 (snod_bytes ex_snode 32) = Err /\
  spec_dec_snod tolerant 8 4 (snod_bytes ex_snode 32) =
    Ok (map spec_sym (stn_entries ex_snode), [T_heap_name_offset_0], zeros 1200).
Proof. exact ex_snod_spec. Qed.
Print Assumptions C05_group_snod_example.

(* every node of at most 32 pairs: accepted under ANY tolerance with no deviation; keys, the key after the last child (0),
   children; what remains are the unused slots *)
Theorem C05_group_btree : forall tol b kcs (r : list N),
  bt_group_ok b kcs -> Forall (fun kc => fst kc < 18446744073709551616) kcs -> (length kcs <= 32)%nat ->
  spec_dec_btree1 tol 8 8 0 0 16 (bt_bytes b kcs 32 ++ r) =
    Ok (spec_group_node b kcs, [], zeros (16 * (32 - length kcs)) ++ r).
Proof. exact spec_group_btree. Qed.
Print Assumptions C05_group_btree.

(* finding C05-btree1-group-keys: with both keys naming the same heap string (the writer's keys are (0, 0) and are never updated)
   the walker's clause "key i < name <= key i+1" is false for EVERY non-empty child *)
Theorem C05_btree1_group_keys_refuted : forall lo (ents : list gentry),
  ents <> [] -> forallb (fun e => bytes_ltb lo (ge_name e) && bytes_leb (ge_name e) lo) ents = false.
Proof. exact group_keys_clause_fails. Qed.
Print Assumptions C05_btree1_group_keys_refuted.
