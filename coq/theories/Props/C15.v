(* C15 - the fractal heap returns exactly the bytes stored under each live id.
   Statements only; proofs in Proofs/FHeap.v; model and specification in Model/FHeap.v.

   Hypotheses (named boolean predicates, Model/FHeap.v):
     bs_ok bs          19 < bs <= 65536 (the model has 2-byte heap offsets, as the code for these sizes; beyond, the snapshot d8da495
                       wrapped ids - C15_offset_wrap_refuted - and /repo aca2fa7 uses wider offsets, not modelled)
     one_block bs h    the volume of the successful inserts stays within the usable size bs - 19 of one direct block
                       (beyond: the insert succeeds in memory and every later write-out is refused:
                       C15_multi_block_refuted, C15_full_refuted_indirect)
     targets_live bs h get / overwrite / delete address ids that are live at that point
                       (refuted for delete of a dead id: C15_dead_id_refuted)
   cap_new is the capacity rule of /repo e934eea (usable = size - prefix 15 - checksum 4); cap_old that of the
   snapshot d8da495. *)
From HV Require Import Base.Prelude Model.FHeap Proofs.FHeap.

(* every answer of the model equals the specification's (a finite map id -> bytes); afterwards every live id
   returns its bytes, live ids are pairwise distinct with disjoint byte ranges, and the header's object count and
   free space are the specification's.  SL (write out + load back) may occur anywhere in the history. *)
Theorem C15_refines : forall bs hist,
  bs_ok bs = true -> one_block bs hist = true -> targets_live bs hist = true ->
  exists sp eouts h fs,
    spec_run bs spec0 hist = Some (sp, eouts)
    /\ run cap_new bs (new_heap bs, fs0) hist = (h, fs, eouts)
    /\ ((forall id d, lookup id (sp_live sp) = Some d -> get h id = Ok d)
        /\ NoDup (map fst (sp_live sp))
        /\ ForallOrdPairs (fun a b => disjoint_ids (fst a) (fst b) = true) (sp_live sp)
        /\ h_nobj h = spec_count sp /\ h_free h = spec_free bs sp).
Proof. exact refines_obs. Qed.
Print Assumptions C15_refines.

(* an insert that fails leaves a single-block heap exactly as it was (and it fails only for an empty or an
   over-sized object); the single-block insertion routine refuses what does not fit, unchanged *)
Theorem C15_full : forall cap h d pick,
  h_ind h = None -> h_others h = [] ->
  snd (insert cap h d pick) = Err ->
  fst (insert cap h d pick) = h /\ (len d = 0 \/ MAX_OBJ < len d).
Proof. exact insert_err_unchanged. Qed.
Print Assumptions C15_full.

Theorem C15_full_direct : forall cap h d,
  cap (db_size (h_blk h)) < db_free (h_blk h) + len d -> insert_direct cap h d = (h, Err).
Proof. exact insert_direct_full. Qed.
Print Assumptions C15_full_direct.

(* at any point of an admissible history: what store writes, load reads back as a heap with the same counters
   that answers every live id as before and represents the same specification state *)
Theorem C15_persist : forall bs hist,
  bs_ok bs = true -> one_block bs hist = true -> targets_live bs hist = true ->
  exists sp eouts h fs,
    spec_run bs spec0 hist = Some (sp, eouts)
    /\ run cap_new bs (new_heap bs, fs0) hist = (h, fs, eouts)
    /\ exists h1 fs1 ha h2,
         store h fs = Ok (h1, fs1, ha) /\ load bs (f_bytes fs1) ha = Ok h2
         /\ observables bs h2 sp
         /\ h_nobj h2 = h_nobj h /\ h_free h2 = h_free h /\ h_manoff h2 = h_manoff h
         /\ db_free (h_blk h2) = db_free (h_blk h)
         /\ (forall id d, lookup id (sp_live sp) = Some d -> get h2 id = get h id).
Proof. exact persist. Qed.
Print Assumptions C15_persist.

(* ... hence a store/load cycle inserted anywhere changes no later answer *)
Theorem C15_persist_commutes : forall bs pre post sp eouts,
  bs_ok bs = true -> spec_run bs spec0 (pre ++ post) = Some (sp, eouts) ->
  exists xs ys h fs h' fs',
    eouts = xs ++ ys /\ length xs = length pre
    /\ run cap_new bs (new_heap bs, fs0) (pre ++ post) = (h, fs, xs ++ ys)
    /\ run cap_new bs (new_heap bs, fs0) (pre ++ SL :: post) = (h', fs', xs ++ OUnit :: ys)
    /\ observables bs h sp /\ observables bs h' sp.
Proof. exact persist_commutes. Qed.
Print Assumptions C15_persist_commutes.

(* every live object's bytes are in the serialised direct block, at prefix + offset: none is lost to the block
   prefix or to the checksum *)
Theorem C15_no_byte_lost : forall bs hist,
  bs_ok bs = true -> one_block bs hist = true -> targets_live bs hist = true ->
  exists sp eouts h fs,
    spec_run bs spec0 hist = Some (sp, eouts)
    /\ run cap_new bs (new_heap bs, fs0) hist = (h, fs, eouts)
    /\ forall id d, lookup id (sp_live sp) = Some d ->
         slice (encode_dblock (h_blk h)) (PREFIX + id_off id) (len d) = d.
Proof. exact no_byte_lost. Qed.
Print Assumptions C15_no_byte_lost.

(* ... and both read-only readers return them from the written file *)
Theorem C15_readers : forall bs hist,
  bs_ok bs = true -> one_block bs hist = true -> targets_live bs hist = true ->
  exists sp eouts h fs,
    spec_run bs spec0 hist = Some (sp, eouts)
    /\ run cap_new bs (new_heap bs, fs0) hist = (h, fs, eouts)
    /\ exists h1 fs1 ha,
         store h fs = Ok (h1, fs1, ha)
         /\ forall id d, lookup id (sp_live sp) = Some d ->
              ro_read (f_bytes fs1) ha id = Ok d /\ core_read (f_bytes fs1) ha id = Ok d.
Proof. exact readers. Qed.
Print Assumptions C15_readers.

(* what the excluded classes do (witnesses replayed on the Go code by the tie) *)
Theorem C15_no_byte_lost_refuted_old_rule :
  let d := obj 1 60 in
  let id := mkid 0 60 in
  bs_ok 64 = true /\ targets_live 64 [Ins d 0; SL; Get id] = true
  /\ outs_of cap_old 64 [Ins d 0; Get id] = [OId id; OData d]
  /\ bytes_eqb (slice (encode_dblock (h_blk (heap_of cap_old 64 [Ins d 0]))) (PREFIX + id_off id) (len d)) d = false
  /\ outs_of cap_old 64 [Ins d 0; SL; Get id] = [OId id; OUnit; OErr].
Proof. exact no_byte_lost_refuted_old_rule. Qed.
Print Assumptions C15_no_byte_lost_refuted_old_rule.

Theorem C15_multi_block_refuted :
  let a := obj 1 40 in let b := obj 101 40 in
  let hist := [Ins a 0; Ins b 0] in
  let idb := mkid 64 40 in
  bs_ok 64 = true /\ targets_live 64 hist = true /\ one_block 64 hist = false
  /\ outs_of cap_new 64 (hist ++ [Get idb; SL; Get idb]) = [OId (mkid 0 40); OId idb; OData b; OErr; OData b]
  /\ store (heap_of cap_new 64 hist) (file_of cap_new 64 hist) = Err
  /\ f_bytes (file_of cap_new 64 (hist ++ [SL])) = [].
Proof. exact multi_block_refuted. Qed.
Print Assumptions C15_multi_block_refuted.

Theorem C15_full_refuted_indirect :
  let hist := [Ins (obj 1 40) 0; Ins (obj 2 40) 0] in
  let h := heap_of cap_new 64 hist in
  let '(h', r) := insert cap_new h (obj 3 40) 0 in
  r = Err /\ h_mansize h = 128 /\ h_mansize h' = 192 /\ h_free h' = h_free h + 64
  /\ length (h_others h') = S (length (h_others h)).
Proof. exact full_refuted_indirect. Qed.
Print Assumptions C15_full_refuted_indirect.

Theorem C15_dead_id_refuted :
  let id := mkid 0 10 in
  let hist := [Ins (obj 1 10) 0; Del id; Del id] in
  bs_ok 64 = true /\ one_block 64 hist = true /\ targets_live 64 hist = false
  /\ outs_of cap_new 64 hist = [OId id; OUnit; OUnit]
  /\ h_nobj (heap_of cap_new 64 hist) = 18446744073709551615
  /\ h_free (heap_of cap_new 64 hist) = 74.
Proof. exact dead_id_refuted. Qed.
Print Assumptions C15_dead_id_refuted.

Theorem C15_offset_wrap_refuted :
  let a := repeat 1 (N.to_nat 65536) in
  let b := repeat 2 (N.to_nat 10) in
  let hist := [Ins a 0; Ins b 0] in
  bs_ok 524288 = false
  /\ outs_of cap_new 524288 (hist ++ [Get (mkid 0 10)]) = [OId (mkid 0 65536); OId (mkid 0 10); OData (repeat 1 (N.to_nat 10))]
  /\ disjoint_ids (mkid 0 65536) (mkid 0 10) = false.
Proof. exact offset_wrap_refuted. Qed.
Print Assumptions C15_offset_wrap_refuted.
