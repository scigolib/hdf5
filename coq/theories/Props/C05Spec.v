(* C05 - "every signature, version, size field and stored checksum is consistent with the bytes it describes, and the encoding is
   decodable according to the HDF5 format specification": the writer's encoders (Model/Codec*.v, byte-exact transcriptions of the Go
   code, tied on every run by C11) against the STRICT specification decoders of Spec/Format*.v.  Theorems only; lemmas in
   Proofs/Spec*.v.  For every encoder: conformant (strict decoder returns the logical value), or - for each deviation listed in
   KNOWN_FINDINGS.json - the strict decoder rejects AND the tolerant decoder accepts reporting exactly that tag. *)
From HV Require Import Base.Prelude Base.Outcome Base.Bytes Base.Crc32 Spec.Lookup3 Spec.Parse Spec.Format Spec.FormatMsg
  Spec.FormatNode Model.CodecSuper Model.CodecMsg Model.CodecType Model.CodecLink Model.CodecAttr Model.CodecFilter
  Model.CodecCompound Model.CodecOhdr
  Proofs.SpecSuper Proofs.SpecMsg Proofs.SpecType Proofs.SpecOhdr Proofs.SpecWitness Proofs.SpecExamples.

Theorem C05_spec_checksum_is_lookup3 : forall t covered stored tg,
  check_sum strict t covered stored = Ok tg -> stored = hashlittle covered 0 /\ tg = [].
Proof. exact check_sum_strict. Qed.
Print Assumptions C05_spec_checksum_is_lookup3.

Theorem C05_spec_tolerated_checksum_is_crc32 : forall tol t covered stored,
  check_sum tol t covered stored = Ok [t] -> stored = crc32 covered /\ stored <> hashlittle covered 0.
Proof. exact check_sum_tolerated. Qed.
Print Assumptions C05_spec_tolerated_checksum_is_crc32.

(* the CRC the writer computes (Go hash/crc32, transcribed in CodecSuper) is the CRC-32 of Base/Crc32.v *)
Theorem C05_spec_writer_crc_is_crc32 : forall bs, crc32 bs = wrap32 (crc32_ieee bs).
Proof. exact crc32_ieee_eq. Qed.
Print Assumptions C05_spec_writer_crc_is_crc32.

Theorem C05_spec_superblock_v0 : forall tol x, wf_superblock x = true -> sp_version x = 0 ->
  spec_dec_superblock tol (enc_superblock x) = Ok (logical_superblock x, [], []).
Proof. exact spec_superblock_v0. Qed.
Print Assumptions C05_spec_superblock_v0.

Theorem C05_spec_superblock_v2_strict : forall x, wf_superblock x = true -> sp_version x <> 0 ->
  spec_dec_superblock strict (enc_superblock x) =
    if crc32 (superblock_covered x) =? hashlittle (superblock_covered x) 0 then Ok (logical_superblock x, [], []) else Err.
Proof. exact spec_superblock_v2_strict. Qed.
Print Assumptions C05_spec_superblock_v2_strict.

Theorem C05_spec_superblock_v2_tolerant : forall x, wf_superblock x = true -> sp_version x <> 0 ->
  spec_dec_superblock tolerant (enc_superblock x) =
    Ok (logical_superblock x, if crc32 (superblock_covered x) =? hashlittle (superblock_covered x) 0 then [] else [T_sb_crc32], []).
Proof. exact spec_superblock_v2_tolerant. Qed.
Print Assumptions C05_spec_superblock_v2_tolerant.

Theorem C05_sb_crc32_refuted :
  wf_superblock sb_witness = true /\
  spec_dec_superblock strict (enc_superblock sb_witness) = Err /\
  spec_dec_superblock tolerant (enc_superblock sb_witness) = Ok (logical_superblock sb_witness, [T_sb_crc32], []).
Proof. exact sb_crc32_refuted. Qed.
Print Assumptions C05_sb_crc32_refuted.

Theorem C05_spec_ohdr_v2 : forall tol x, wf_ohdr_v2 x = true -> oh_flags x < 64 ->
  spec_dec_ohdr2 tol (enc_ohdr_v2 x) = (tg <- dev tol T_ohdr_no_checksum;; Ok (logical_ohdr2 x, tg, [])).
Proof. exact spec_ohdr2. Qed.
Print Assumptions C05_spec_ohdr_v2.

Theorem C05_ohdr_no_checksum_refuted : forall x, wf_ohdr_v2 x = true -> oh_flags x < 64 ->
  spec_dec_ohdr2 strict (enc_ohdr_v2 x) = Err /\
  spec_dec_ohdr2 tolerant (enc_ohdr_v2 x) = Ok (logical_ohdr2 x, [T_ohdr_no_checksum], []).
Proof. exact ohdr_no_checksum_refuted. Qed.
Print Assumptions C05_ohdr_no_checksum_refuted.

Theorem C05_spec_ohdr_v1_root :
  wf_ohdr_v1 ohdr1_root = true /\
  spec_dec_ohdr1 (enc_ohdr_v1 ohdr1_root) =
    Ok ({| o1_nmsgs := 1; o1_refcount := 1; o1_size := 24;
           o1_msgs := [ {| ms_type := 17; ms_flags := 0; ms_corder := None; ms_data := le 8 136 ++ le 8 680 |} ] |}, []).
Proof. exact ohdr1_root_conforms. Qed.
Print Assumptions C05_spec_ohdr_v1_root.

Theorem C05_ohdr_v1_unpadded_size_refuted :
  wf_ohdr_v1 ohdr1_unaligned = true /\ spec_dec_ohdr1 (enc_ohdr_v1 ohdr1_unaligned) = Err.
Proof. exact ohdr1_unpadded_size_refuted. Qed.
Print Assumptions C05_ohdr_v1_unpadded_size_refuted.

Theorem C05_spec_dataspace : forall x, wf_dataspace x = true -> maxdims_ok x = true ->
  spec_dec_dataspace 8 false (enc_dataspace x) = Ok (logical_dataspace x).
Proof. exact spec_dataspace. Qed.
Print Assumptions C05_spec_dataspace.

Theorem C05_spec_layout : forall v x, wf_layout (sb8 v) x = true -> chunkdims_positive x = true ->
  spec_dec_layout 8 8 false (enc_layout (sb8 v) x) = Ok (logical_layout x).
Proof. exact spec_layout. Qed.
Print Assumptions C05_spec_layout.

Theorem C05_spec_symtab : forall x, wf_symtab x = true ->
  spec_dec_symtab 8 false (enc_symtab 8 x) = Ok (st_btree x, st_heap x).
Proof. exact spec_symtab. Qed.
Print Assumptions C05_spec_symtab.

Theorem C05_spec_attrinfo : forall v x, wf_attrinfo (sb8 v) x = true -> ai_version x = 0 -> ai_flags x < 4 ->
  N.testbit (ai_flags x) 0 = false ->
  spec_dec_attrinfo 8 false (enc_attrinfo (sb8 v) x) = Ok (logical_attrinfo x).
Proof. exact spec_attrinfo. Qed.
Print Assumptions C05_spec_attrinfo.

Theorem C05_spec_linkinfo : forall v x, wf_linkinfo (sb8 v) x = true ->
  spec_dec_linkinfo 8 false (enc_linkinfo (sb8 v) x) = Ok (logical_linkinfo x).
Proof. exact spec_linkinfo. Qed.
Print Assumptions C05_spec_linkinfo.

Theorem C05_fixed_props_malformed : forall tol size cbf, (size = 1 \/ size = 2 \/ size = 4 \/ size = 8) -> cbf < 16 ->
  spec_dec_datatype tol false (enc_datatype (mk_num DT_FIXED size cbf)) =
    (tg <- dev tol T_fixed_props_malformed;; Ok (logical_fixed size cbf, tg)).
Proof. exact spec_fixed. Qed.
Print Assumptions C05_fixed_props_malformed.

Theorem C05_float_props_malformed : forall tol size cbf, (size = 4 \/ size = 8) -> cbf < 2 ->
  spec_dec_datatype tol false (enc_datatype (mk_num DT_FLOAT size cbf)) =
    (tg1 <- dev tol T_float_props_malformed;;
     tg2 <- (if size =? 8 then dev tol T_float64_bias_127 else Ok []);;
     Ok (logical_float size cbf, tg1 ++ tg2)).
Proof. exact spec_float. Qed.
Print Assumptions C05_float_props_malformed.

Theorem C05_numeric_encoder_fields : forall x, (dt_class x =? DT_FIXED) || (dt_class x =? DT_FLOAT) = true ->
  enc_datatype x = enc_datatype (mk_num (dt_class x) (dt_size x) (dt_cbf x)).
Proof. exact enc_numeric_fields. Qed.
Print Assumptions C05_numeric_encoder_fields.

Theorem C05_string_extra_prop_byte : forall tol x, wf_datatype x = true -> dt_class x = DT_STRING ->
  string_bits_ok (dt_cbf x) = true ->
  spec_dec_datatype tol false (enc_datatype x) =
    (tg <- dev tol T_string_extra_prop_byte;;
     Ok (DString 1 (dt_size x) (bits_of (dt_cbf x) 0 4) (bits_of (dt_cbf x) 4 4), tg)).
Proof. exact spec_string. Qed.
Print Assumptions C05_string_extra_prop_byte.

Theorem C05_spec_reference : forall tol x, wf_datatype x = true -> dt_class x = DT_REFERENCE -> dt_cbf x < 2 ->
  spec_dec_datatype tol false (enc_datatype x) = Ok (DReference 1 (dt_size x) (dt_cbf x), []).
Proof. exact spec_reference. Qed.
Print Assumptions C05_spec_reference.

Theorem C05_spec_opaque : forall tol x, wf_datatype x = true -> dt_class x = DT_OPAQUE -> pad8 (blen (dt_props x)) < 256 ->
  spec_dec_datatype tol false (enc_datatype x) =
    Ok (DOpaque 1 (dt_size x) (dt_props x ++ zeros (N.to_nat (pad8 (blen (dt_props x)) - blen (dt_props x)))), []).
Proof. exact spec_opaque. Qed.
Print Assumptions C05_spec_opaque.

Theorem C05_spec_array_vlen_witnesses :
  spec_dec_datatype strict false (enc_array array_example) = Ok (DArray 3 48 [3; 2] (DReference 1 8 0), []) /\
  spec_dec_datatype tolerant false (enc_datatype vlen_str) = Ok (DVlen 1 16 1 0 0 (DString 1 1 0 0), [T_string_extra_prop_byte]).
Proof. exact (conj (proj2 array_v3_conforms) (proj2 (proj2 vlen_string_framing))). Qed.
Print Assumptions C05_spec_array_vlen_witnesses.

(* deviations KNOWN_FINDINGS.json does not list (notes/c05-known-findings-proposed.json) *)
Theorem C05_compound_v3_layout_refuted :
  encok_compound compound_ok_example = true /\
  spec_dec_datatype strict false (enc_compound compound_ok_example) = Err /\
  tags_of (spec_dec_datatype tolerant false (enc_compound compound_ok_example)) =
    Some (map tag_code [T_compound_v3_layout; T_fixed_props_malformed; T_string_extra_prop_byte]).
Proof. exact compound_v3_layout_refuted. Qed.
Print Assumptions C05_compound_v3_layout_refuted.

Theorem C05_enum_v3_layout_refuted :
  wf_enum enum_example = true /\
  spec_dec_datatype strict false (enc_enum enum_example) = Err /\
  tags_of (spec_dec_datatype tolerant false (enc_enum enum_example)) =
    Some (map tag_code [T_fixed_props_malformed; T_enum_v3_layout]).
Proof. exact enum_v3_layout_refuted. Qed.
Print Assumptions C05_enum_v3_layout_refuted.

Theorem C05_pipeline_v2_with_v1_layout_refuted :
  wf_pipeline [gzip6] = true /\
  spec_dec_pipeline strict false (enc_pipeline [gzip6]) = Err /\
  spec_dec_pipeline tolerant false (enc_pipeline [gzip6]) =
    Ok ([{| fl_id := 1; fl_flags := 0; fl_name := ascii_bytes "deflate"; fl_cd := [6] |}], [T_pipeline_v2_with_v1_layout]).
Proof. exact pipeline_v2_with_v1_layout_refuted. Qed.
Print Assumptions C05_pipeline_v2_with_v1_layout_refuted.

Theorem C05_extlink_value_layout_refuted :
  wf_link 8 ext_link = true /\
  spec_dec_link strict 8 false (enc_link ext_link) = Err /\
  spec_dec_link tolerant 8 false (enc_link ext_link) =
    Ok ({| ls_flags := 8; ls_corder := None; ls_cset := 0; ls_name := ascii_bytes "e";
           ls_value := LExternal (ascii_bytes "f.h5") (ascii_bytes "/x") |}, [T_extlink_value_layout]).
Proof. exact extlink_value_layout_refuted. Qed.
Print Assumptions C05_extlink_value_layout_refuted.

Theorem C05_spec_attribute_v3_framing :
  wf_attribute attr_int = true /\ wf_attribute attr_ref = true /\
  tags_of (spec_dec_attribute strict 8 false (enc_attribute attr_ref)) = Some [] /\
  spec_dec_attribute strict 8 false (enc_attribute attr_int) = Err /\
  tags_of (spec_dec_attribute tolerant 8 false (enc_attribute attr_int)) = Some [tag_code T_fixed_props_malformed].
Proof. exact attribute_v3_framing. Qed.
Print Assumptions C05_spec_attribute_v3_framing.

(* the reading of the specification is validated on bytes of reference-library files *)
Theorem C05_spec_reference_files :
  hashlittle (firstn 44 ref_sb2) 0 = unle (skipn 44 ref_sb2) /\
  spec_dec_lheap 8 8 (unhex "484541500000000058000000000000000800000000000000c802000000000000")
    = Ok ({| lh_size := 88; lh_free := 8; lh_addr := 712 |}, []) /\
  spec_dec_datatype strict true (unhex "11213f000800000000004000340b0034ff03000000000000")
    = Ok (DFloat 1 8 1 0 2 63 0 64 52 11 0 52 1023, []) /\
  spec_dec_layout 8 8 true (unhex "030203784b00000000000004000000030000000100000000") = Ok (LyChunked 19320 [4; 3; 1]).
Proof. exact (conj ref_superblock_checksum_is_lookup3 (conj ref_lheap (conj ref_float_be ref_layout_chunked))). Qed.
Print Assumptions C05_spec_reference_files.
