(* C07 - no input file can crash, hang or exhaust the reader.  Property theorems only.
   Three families, all for EVERY input (no length bound; induction / case analysis, no enumeration):
     no_panic      the byte-level decoder models (Model/Codec*.v, checked slicing = Go's index/slice panics) never Panic;
     alloc_bounded every allocation request of the size computations (Model/RobustAlloc.v) is <= k * |file| + c, k and c explicit;
     terminates    the address-following traversals (Model/RobustTerm.v) never exhaust an explicitly given fuel, for every
                   file graph, including cyclic and self-referential ones; step counts / recursion depths are bounded.
   Then the same three clauses for four readers that have byte-level models of their own: (a) the symbol-table group walk
   (Model/RobustGroup.v), (b) the dense attribute readers (Model/RobustDense.v), (c) the LZF loop (Model/Filters.v),
   (d) the datatype conversion loops (Model/RobustConv.v).
   Where the faithful model of the current code refutes a clause, the refutation is a theorem with a witness. *)
From HV Require Import Base.Prelude Base.Outcome Base.Bytes.
From HV Require Import Model.CodecSuper Model.CodecMsg Model.CodecOhdr Model.CodecType Model.CodecCompound
  Model.CodecFilter Model.CodecAttr Model.CodecLink Model.RobustAlloc Model.RobustTerm.
From HV Require Import Proofs.RobustNoPanic Proofs.RobustAlloc Proofs.RobustTerm.

(* no panic, all byte strings *)
Theorem C07_superblock_no_panic : forall file, dec_superblock file <> Panic.
Proof. exact dec_superblock_np. Qed.
Print Assumptions C07_superblock_no_panic.

(* both variants of the C06 repair switch of this parser (false = the code before the repair, true = dec_superblock) *)
Theorem C07_superblock_no_panic_both_variants : forall rep file, dec_superblock_gen rep file <> Panic.
Proof. exact dec_superblock_gen_np. Qed.
Print Assumptions C07_superblock_no_panic_both_variants.

Theorem C07_dataspace_no_panic : forall data, dec_dataspace data <> Panic.
Proof. exact dec_dataspace_np. Qed.
Print Assumptions C07_dataspace_no_panic.

Theorem C07_layout_no_panic : forall sb data, dec_layout sb data <> Panic.
Proof. exact dec_layout_np. Qed.
Print Assumptions C07_layout_no_panic.

Theorem C07_datatype_no_panic : forall fuel data, dec_dt fuel data <> Panic.
Proof. exact dec_dt_np. Qed.
Print Assumptions C07_datatype_no_panic.

Theorem C07_compound_no_panic : forall data, dec_compound data <> Panic.
Proof. exact dec_compound_np. Qed.
Print Assumptions C07_compound_no_panic.

Theorem C07_pipeline_no_panic : forall data, dec_pipeline data <> Panic.
Proof. exact dec_pipeline_np. Qed.
Print Assumptions C07_pipeline_no_panic.

(* both variants of the C06 repair switch of this parser (false = the code before the repair, true = dec_pipeline) *)
Theorem C07_pipeline_no_panic_both_variants : forall rep data, dec_pipeline_gen rep data <> Panic.
Proof. exact dec_pipeline_gen_np. Qed.
Print Assumptions C07_pipeline_no_panic_both_variants.

Theorem C07_attribute_no_panic : forall be data, dec_attribute be data <> Panic.
Proof. exact dec_attribute_np. Qed.
Print Assumptions C07_attribute_no_panic.

(* both variants of the C06 repair switch of this parser (false = the code before the repair, true = dec_attribute) *)
Theorem C07_attribute_no_panic_both_variants : forall rep be data, dec_attribute_gen rep be data <> Panic.
Proof. exact dec_attribute_gen_np. Qed.
Print Assumptions C07_attribute_no_panic_both_variants.

Theorem C07_link_no_panic : forall offsize data, dec_link offsize data <> Panic.
Proof. exact dec_link_np. Qed.
Print Assumptions C07_link_no_panic.

Theorem C07_linkinfo_no_panic : forall sb data, dec_linkinfo sb data <> Panic.
Proof. exact dec_linkinfo_np. Qed.
Print Assumptions C07_linkinfo_no_panic.

Theorem C07_attrinfo_no_panic : forall sb data, dec_attrinfo sb data <> Panic.
Proof. exact dec_attrinfo_np. Qed.
Print Assumptions C07_attrinfo_no_panic.

Theorem C07_symtab_no_panic : forall be data, dec_symtab be data <> Panic.
Proof. exact dec_symtab_np. Qed.
Print Assumptions C07_symtab_no_panic.

Theorem C07_ohdr_v2_no_panic : forall file addr flags isBE sbBE version, parse_v2 file addr flags isBE sbBE version <> Panic.
Proof. exact parse_v2_np. Qed.
Print Assumptions C07_ohdr_v2_no_panic.

(* object headers (versions 1 and 2, either byte order): every file image made of bytes *)
Theorem C07_ohdr_no_panic : forall sbBE file addr, bytes_ok file = true -> dec_ohdr sbBE file addr <> Panic.
Proof. exact dec_ohdr_np_bytes. Qed.
Print Assumptions C07_ohdr_no_panic.

(* ... and every image shorter than 2^64 elements, bytes or not *)
Theorem C07_ohdr_no_panic_short : forall sbBE file addr, blen file < 18446744073709551616 -> dec_ohdr sbBE file addr <> Panic.
Proof. exact dec_ohdr_np_partial. Qed.
Print Assumptions C07_ohdr_no_panic_short.

(* without either hypothesis the C11 model of the version 1 header DOES panic (it slices at current+8 where the guard is
   on wrap64 (current+8)); the witness needs 2^64 list elements, some of them >= 256: a model artefact, not a file *)
Theorem C07_ohdr_model_corner_refuted : ~ (forall sbBE file addr, dec_ohdr sbBE file addr <> Panic).
Proof. exact dec_ohdr_no_panic_refuted. Qed.
Print Assumptions C07_ohdr_model_corner_refuted.

(* allocations: n <= k * |file| + c *)
(* ReadBytesAt: k = 1, c = 0; never panics; an Ok result has exactly the requested length *)
Theorem C07_read_bytes_at :
  forall file off size, off < 18446744073709551616 -> size < 18446744073709551616 ->
  fst (read_bytes_at file off size) <> Panic /\
  alloc_bounded 1 0 file (snd (read_bytes_at file off size)) /\
  (forall s, fst (read_bytes_at file off size) = Ok s -> blen s = size /\ size <= blen file).
Proof. exact read_bytes_at_spec. Qed.
Print Assumptions C07_read_bytes_at.

(* SafeMultiply: Ok means the exact product, no wrap-around *)
Theorem C07_safe_multiply_exact :
  forall a b v, a < 18446744073709551616 -> b < 18446744073709551616 -> safe_multiply a b = Ok v -> v = a * b.
Proof. exact safe_multiply_exact. Qed.
Print Assumptions C07_safe_multiply_exact.

(* contiguous dataset (any dimensions, the product wraps in the model as in Go): k = 8, c = 0 *)
Theorem C07_contiguous_read_bounded :
  forall file dims es addr, es < 18446744073709551616 -> addr < 18446744073709551616 ->
  fst (contiguous_read file dims es addr) <> Panic /\ alloc_bounded 8 0 file (snd (contiguous_read file dims es addr)).
Proof. exact contiguous_read_spec. Qed.
Print Assumptions C07_contiguous_read_bounded.

(* one chunk: k = 1, c = 0 *)
Theorem C07_chunk_read_bounded :
  forall file addr nbytes, addr < 18446744073709551616 -> nbytes < 18446744073709551616 ->
  fst (chunk_read file addr nbytes) <> Panic /\ alloc_bounded 1 0 file (snd (chunk_read file addr nbytes)).
Proof. exact chunk_read_spec. Qed.
Print Assumptions C07_chunk_read_bounded.

(* chunk B-tree node (header, body, decoded keys and child pointers): k = 4, c = 24 *)
Theorem C07_btree_node_bounded :
  forall file addr O nd entries, addr < 18446744073709551616 -> O <= 8 -> nd <= 255 -> entries <= 65535 ->
  fst (btree_node_sizes file addr O nd entries) <> Panic /\ alloc_bounded 4 24 file (snd (btree_node_sizes file addr O nd entries)).
Proof. exact btree_node_sizes_spec. Qed.
Print Assumptions C07_btree_node_bounded.

(* local heap: k = 1, c = 64 *)
Theorem C07_local_heap_bounded :
  forall file addr O L, bytes_ok file = true -> O <= 8 -> L <= 8 ->
  fst (local_heap_load file addr O L) <> Panic /\ alloc_bounded 1 64 file (snd (local_heap_load file addr O L)).
Proof. exact local_heap_load_spec. Qed.
Print Assumptions C07_local_heap_bounded.

Theorem C07_heap_string_no_panic : forall data off, heap_get_string data off <> Panic.
Proof. exact heap_get_string_no_panic. Qed.
Print Assumptions C07_heap_string_no_panic.

(* global heap collection and every object copied out of it: k = 1, c = 16 *)
Theorem C07_global_heap_bounded :
  forall file addr os, bytes_ok file = true -> addr < 18446744073709551616 ->
  fst (gcol_read file addr os) <> Panic /\ alloc_bounded 1 16 file (snd (gcol_read file addr os)).
Proof. exact gcol_read_spec. Qed.
Print Assumptions C07_global_heap_bounded.

(* the object loop of a collection is never cut short by its fuel S (length collection) *)
Theorem C07_global_heap_loop_terminates :
  forall fuel cd os offset, (N.to_nat (blen cd - offset) < fuel)%nat ->
  forall fuel', (fuel <= fuel')%nat -> gcol_objects fuel cd os offset = gcol_objects fuel' cd os offset.
Proof. exact gcol_objects_fuel. Qed.
Print Assumptions C07_global_heap_loop_terminates.

(* object header message buffers and decompression output: constants (k = 0) *)
Theorem C07_message_buffer_bounded : forall file sz, alloc_bounded 0 65535 file (msg_buffer_request sz).
Proof. exact msg_buffer_request_bounded. Qed.
Print Assumptions C07_message_buffer_bounded.

(* header message buffers, repaired code: n one-byte messages request n bytes in total (<= the 5 n bytes they occupy) *)
Theorem C07_message_storm_bounded : forall n, storm_requests false n <= storm_file_bytes n.
Proof. exact storm_repaired_bounded. Qed.
Print Assumptions C07_message_storm_bounded.

(* REFUTED for the pooled buffers of the unrepaired code (4096 bytes per message): no k < 819 works *)
Theorem C07_pooled_message_buffers_refuted : forall k c, k < 819 -> exists n, k * storm_file_bytes n + c < storm_requests true n.
Proof. exact storm_pooled_unbounded. Qed.
Print Assumptions C07_pooled_message_buffers_refuted.

Theorem C07_filter_output_bounded : forall file claimed, alloc_bounded 0 2147484162 file (inflate_requests claimed).
Proof. exact inflate_requests_bounded. Qed.
Print Assumptions C07_filter_output_bounded.

(* REFUTED clause: the output buffer of a chunked dataset is sized by the declared extent.  For every k, c with
   k * |file| + c < 2^40 there are dimensions for which the request exceeds k * |file| + c (finding C07-chunked-extent-alloc);
   what holds is the constant limit 2^40. *)
Theorem C07_chunked_extent_refuted :
  forall k c file, k * blen file + c < 1099511627776 ->
  exists dims es, es < 18446744073709551616 /\ Forall (fun d => d < 18446744073709551616) dims /\
                  ~ alloc_bounded k c file (snd (chunked_total_bytes dims es)).
Proof. exact chunked_extent_unbounded. Qed.
Print Assumptions C07_chunked_extent_refuted.

Theorem C07_chunked_extent_limit : forall dims es, Forall (fun n => n <= 1099511627776) (snd (chunked_total_bytes dims es)).
Proof. exact chunked_total_bytes_limit. Qed.
Print Assumptions C07_chunked_extent_limit.

(* termination, every file graph *)
(* (a) version 1 continuation chain: fuel 65537 is never exhausted; <= 65535 messages, <= 65535 continuation blocks *)
Theorem C07_v1_continuation_terminates :
  forall blk, (forall a k conts, blk a = Some (k, conts) -> N.of_nat (length conts) <= k /\ k <= 65535) ->
  forall first, v1_header blk (N.to_nat 65537) first <> TOutOfFuel /\
                forall n s, v1_header blk (N.to_nat 65537) first = TDone (n, s) -> n <= 65535 /\ s <= 65535.
Proof. exact v1_header_terminates. Qed.
Print Assumptions C07_v1_continuation_terminates.

(* (b) version 2 continuation chain: fuel 1026, <= 1025 chunks *)
Theorem C07_v2_continuation_terminates :
  forall blk first, v2_chain blk 1026 [first] [] 0 <> TOutOfFuel /\
                    forall s, v2_chain blk 1026 [first] [] 0 = TDone s -> s <= 1025.
Proof. exact v2_header_terminates. Qed.
Print Assumptions C07_v2_continuation_terminates.

(* (c) chunk B-tree: recursion depth <= level + 1 <= 256, whatever the child pointers say *)
Theorem C07_btree_descent_terminates :
  forall node level children visited, level <= 255 -> bt_collect node 256 level children visited <> TOutOfFuel.
Proof. exact bt_collect_256. Qed.
Print Assumptions C07_btree_descent_terminates.

Theorem C07_btree_visited_grows :
  forall node fuel level children visited n v',
  bt_collect node fuel level children visited = TDone (n, v') -> exists added, v' = added ++ visited.
Proof. exact bt_collect_visited. Qed.
Print Assumptions C07_btree_visited_grows.

(* (d) object tree: recursion depth <= 1025 for every link graph; never more than maxLoads objects *)
Theorem C07_load_terminates : forall links maxLoads root, load links 1026 maxLoads root [] 0 <> TOutOfFuel.
Proof. exact load_terminates. Qed.
Print Assumptions C07_load_terminates.

Theorem C07_load_count_bounded :
  forall links maxLoads fuel a loading count n,
  count <= maxLoads -> load links fuel maxLoads a loading count = TDone n -> count <= n /\ n <= maxLoads.
Proof. exact load_count. Qed.
Print Assumptions C07_load_count_bounded.

(* no panic, bounded allocation and termination for the group walk, the dense attribute readers, the LZF loop and the
   conversion loops; their models and proofs are required here *)
From HV Require Import Model.RobustGroup Model.RobustDense Model.RobustConv.
From HV Require Import Proofs.RobustGroup Proofs.RobustDense Proofs.RobustExt.
From HV Require Model.Filters Proofs.RobustLzf.

(* (a) symbol-table group walk, all byte strings *)
(* ReadGroupBTreeEntries up to the child (symbol table node) addresses: no panic; buffers bounded by the 16-bit entry count *)
Theorem C07_group_node_no_panic :
  forall file addr O, bytes_ok file = true -> O <= 8 ->
  fst (gnode_read file addr O) <> Panic /\ alloc_bounded 0 2097136 file (snd (gnode_read file addr O)) /\
  forall kids, fst (gnode_read file addr O) = Ok kids -> N.of_nat (length kids) <= 65535.
Proof. exact gnode_read_spec. Qed.
Print Assumptions C07_group_node_no_panic.

(* ParseSymbolTableNode: no panic for every entry count; a node that parses lies inside the file *)
Theorem C07_snod_bounded :
  forall file addr O, bytes_ok file = true -> O <= 8 ->
  fst (snod_parse file addr O) <> Panic /\ alloc_bounded 0 5242800 file (snd (snod_parse file addr O)) /\
  forall es, fst (snod_parse file addr O) = Ok es ->
             addr + 8 + N.of_nat (length es) * (2 * O + 24) <= blen file /\ N.of_nat (length es) <= 65535.
Proof. exact snod_parse_spec. Qed.
Print Assumptions C07_snod_bounded.

(* the whole walk never panics, repaired or not; the loops are counted (structural recursion on 16-bit counts: no fuel) *)
Theorem C07_group_walk_no_panic :
  forall capped file addr O, bytes_ok file = true -> O <= 8 -> fst (group_btree_entries capped file addr O) <> Panic.
Proof. exact group_btree_entries_no_panic. Qed.
Print Assumptions C07_group_walk_no_panic.

(* repaired code (notes/fixes/c07-group-node-entry-budget.patch): every request <= 4 |file| + 5242800 and the entries
   collected fit into the file *)
Theorem C07_group_walk_bounded :
  forall file addr O, bytes_ok file = true -> O <= 8 ->
  fst (group_btree_entries true file addr O) <> Panic /\
  alloc_bounded 4 5242800 file (snd (group_btree_entries true file addr O)) /\
  forall t, fst (group_btree_entries true file addr O) = Ok t -> t * (2 * O + 24) <= blen file.
Proof. exact group_btree_entries_spec. Qed.
Print Assumptions C07_group_walk_bounded.

(* code as it is in /repo: n child pointers to one node of m entries collect n * m entries ... *)
Theorem C07_group_walk_unrepaired_multiplies :
  forall file O a es l, snod_parse file a O = (Ok es, l) ->
  forall n total spanEnd,
  fst (gwalk false file O (repeat a n) total spanEnd) = Ok (total + N.of_nat n * N.of_nat (length es)) /\
  (n <> 0%nat -> In (96 * (total + N.of_nat n * N.of_nat (length es))) (snd (gwalk false file O (repeat a n) total spanEnd))).
Proof. exact gwalk_uncapped_repeat. Qed.
Print Assumptions C07_group_walk_unrepaired_multiplies.

(* ... REFUTED bound: a 14376-byte image makes it collect 65536 entries and exceed 4 |file| + 5242800 *)
Theorem C07_group_walk_unrepaired_refuted :
  exists file, bytes_ok file = true /\ blen file = 14376 /\
               fst (group_btree_entries false file 0 8) = Ok 65536 /\
               ~ alloc_bounded 4 5242800 file (snd (group_btree_entries false file 0 8)).
Proof. exact group_uncapped_refuted. Qed.
Print Assumptions C07_group_walk_unrepaired_refuted.

(* (b) dense attribute readers, all byte strings *)
Theorem C07_bt2_header_no_panic :
  forall file addr O, bytes_ok file = true ->
  fst (bt2_header_raw file addr O) <> Panic /\ alloc_bounded 0 38 file (snd (bt2_header_raw file addr O)) /\
  forall root nroot total, fst (bt2_header_raw file addr O) = Ok (root, nroot, total) -> nroot <= 65535.
Proof. exact bt2_header_raw_spec. Qed.
Print Assumptions C07_bt2_header_no_panic.

(* leaf: the record count is bounded by the bytes present (6 + 11 records <= |file|); ids are 7 bytes *)
Theorem C07_bt2_leaf_bounded :
  forall file addr nrec, bytes_ok file = true -> nrec <= 65535 ->
  fst (bt2_leaf_records file addr nrec) <> Panic /\ alloc_bounded 0 720895 file (snd (bt2_leaf_records file addr nrec)) /\
  forall ids, fst (bt2_leaf_records file addr nrec) = Ok ids ->
    N.of_nat (length ids) = nrec /\ 6 + 11 * N.of_nat (length ids) <= blen file /\ Forall id_ok ids.
Proof. exact bt2_leaf_records_spec. Qed.
Print Assumptions C07_bt2_leaf_bounded.

Theorem C07_fheap_header_no_panic :
  forall file addr O L, bytes_ok file = true -> L <= 8 ->
  fst (fh_header_raw file addr O L) <> Panic /\ alloc_bounded 0 144 file (snd (fh_header_raw file addr O L)) /\
  forall root hos hls, fst (fh_header_raw file addr O L) = Ok (root, hos, hls) -> hos <= 255.
Proof. exact fh_header_raw_spec. Qed.
Print Assumptions C07_fheap_header_no_panic.

(* heap id decoding for every offset/length width the header can give *)
Theorem C07_heap_id_no_panic :
  forall id hos hls, id_ok id ->
  parse_heap_id id hos hls <> Panic /\
  forall off len, parse_heap_id id hos hls = Ok (off, len) -> off < 18446744073709551616 /\ len < 18446744073709551616.
Proof. exact parse_heap_id_spec. Qed.
Print Assumptions C07_heap_id_no_panic.

(* direct block object: the length field is checked against the file (ReadBytesAt) before the buffer exists *)
Theorem C07_heap_object_bounded :
  forall file blockAddr offset length O hos, O <= 8 -> hos <= 255 -> length < 18446744073709551616 ->
  fst (read_heap_object file blockAddr offset length O hos) <> Panic /\
  alloc_bounded 1 284 file (snd (read_heap_object file blockAddr offset length O hos)) /\
  forall obj, fst (read_heap_object file blockAddr offset length O hos) = Ok obj -> blen obj = length /\ length <= blen file.
Proof. exact read_heap_object_spec. Qed.
Print Assumptions C07_heap_object_bounded.

(* readDenseAttributes: no panic, every request <= |file| + 720895, attribute count bounded by the leaf bytes present *)
Theorem C07_dense_attributes_bounded :
  forall file fhAddr btAddr O L, bytes_ok file = true -> O <= 8 -> L <= 8 ->
  fst (dense_read file fhAddr btAddr O L) <> Panic /\
  alloc_bounded 1 720895 file (snd (dense_read file fhAddr btAddr O L)) /\
  forall t, fst (dense_read file fhAddr btAddr O L) = Ok t -> 6 + 11 * t <= blen file.
Proof. exact dense_read_spec. Qed.
Print Assumptions C07_dense_attributes_bounded.

(* (c) LZF decompression loop (Model/Filters.v lzf_decompress) *)
Theorem C07_lzf_no_panic_no_fuel :
  forall i, Filters.lzf_decompress i <> Filters.OutOfFuel /\ Filters.lzf_decompress i <> Filters.Panic.
Proof. exact RobustLzf.lzf_decompress_no_panic_no_fuel. Qed.
Print Assumptions C07_lzf_no_panic_no_fuel.

(* lzfDecompress is given no limit by its caller; the output is bounded by the input: 88 bytes per input byte *)
Theorem C07_lzf_output_bounded :
  forall i r, forallb (fun b => b <? 256) i = true -> Filters.lzf_decompress i = Filters.Ok r ->
              N.of_nat (length r) <= 88 * N.of_nat (length i).
Proof. exact RobustLzf.lzf_decompress_out_len_N. Qed.
Print Assumptions C07_lzf_output_bounded.

(* ... and 88 is reached in the limit: 2 + 3k input bytes decode to 1 + 264k bytes *)
Theorem C07_lzf_output_bound_tight :
  forall k, exists r, Filters.lzf_decompress ([0; 65] ++ concat (repeat [224; 255; 0] k)) = Filters.Ok r /\
                      length r = (1 + 264 * k)%nat /\
                      length ([0; 65] ++ concat (repeat [224; 255; 0] k)) = (2 + 3 * k)%nat.
Proof. exact RobustLzf.lzf_blowup. Qed.
Print Assumptions C07_lzf_output_bound_tight.

(* (d) datatype conversion loops (element loops written out) *)
(* convertToFloat64: no panic, the loop ends within S n iterations, the result slice is <= 8 |raw|, Ok = all n elements *)
Theorem C07_convert_float64_loop :
  forall raw es n, blen raw < 9223372036854775808 -> n < 18446744073709551616 ->
  fst (conv_float64 raw es n) <> Some Panic /\ fst (conv_float64 raw es n) <> None /\
  alloc_bounded 8 0 raw (snd (conv_float64 raw es n)) /\
  forall k, fst (conv_float64 raw es n) = Some (Ok k) -> k = n /\ n * es <= blen raw.
Proof. exact conv_float64_robust. Qed.
Print Assumptions C07_convert_float64_loop.

Theorem C07_convert_strings_loop :
  forall raw ss n, blen raw < 9223372036854775808 -> n < 18446744073709551616 ->
  fst (conv_strings raw ss n) <> Some Panic /\ fst (conv_strings raw ss n) <> None /\
  alloc_bounded 16 0 raw (snd (conv_strings raw ss n)).
Proof. exact conv_strings_robust. Qed.
Print Assumptions C07_convert_strings_loop.

Theorem C07_convert_compound_loop :
  forall raw ss members n, blen raw < 9223372036854775808 -> ss < 4294967296 -> n < 18446744073709551616 ->
  fst (conv_compound raw ss members n) <> Some Panic /\ fst (conv_compound raw ss members n) <> None /\
  alloc_bounded 8 0 raw (snd (conv_compound raw ss members n)).
Proof. exact conv_compound_robust. Qed.
Print Assumptions C07_convert_compound_loop.
