(* C03 - the abstract namespace model (Model/GroupNS.v: per group the heap's data segment and the node's (offset, address)
   pairs) against the BYTES on disk (Model/GroupWire.v).  Theorems only; lemmas in Proofs/GroupWireHeap.v, GroupWireSnod.v.

   Abstraction: a heap object is projected to (strings, DataSegmentSize); a file that holds a heap is abstracted by what
   LoadLocalHeap returns (the data segment GroupNS keeps); a node by its entries' (LinkNameOffset, ObjectAddress).  The steps of
   GroupNS commute with it, in memory and - for the two halves of linkToParent - on the file. *)
From HV Require Import Base.Prelude Base.Outcome Base.Bytes Model.RobustAlloc Model.RobustGroup Model.GroupWire
  Proofs.GroupWireHeap Proofs.GroupWireSnod.
From HV Require Model.GroupNS.

Theorem C03_wire_heap_new : forall n, abs_heap (new_local_heap n) = NS.new_local_heap n.
Proof. exact abs_new. Qed.
Print Assumptions C03_wire_heap_new.

Theorem C03_wire_heap_prepare : forall data, abs_heap (prepare_for_modification data) = NS.prepare_for_modification data.
Proof. exact abs_prepare. Qed.
Print Assumptions C03_wire_heap_prepare.

Theorem C03_wire_heap_add_string : forall h s,
  omap (fun p : N * wheap => (fst p, abs_heap (snd p))) (add_string h s) = of_option (NS.add_string (abs_heap h) s).
Proof. exact abs_add_string. Qed.
Print Assumptions C03_wire_heap_add_string.

Theorem C03_wire_heap_write_to : forall h a,
  abs_heap (fst (fst (heap_write_to h a))) = fst (NS.write_to (abs_heap h)) /\
  snd (heap_write_to h a) = snd (NS.write_to (abs_heap h)).
Proof. exact abs_write_to. Qed.
Print Assumptions C03_wire_heap_write_to.

(* the byte-level GetString (also the reader model of C07) is GroupNS's get_string on ALL segments and offsets *)
Theorem C03_wire_get_string : forall (data : list N) off, get_string data off = of_option (NS.get_string data off).
Proof. exact get_string_agrees. Qed.
Print Assumptions C03_wire_get_string.

(* the heap createGroupStructures writes is a heap file with GroupNS's initial segment *)
Theorem C03_wire_new_heap_file : forall n pre suf,
  blen pre + 32 + NS.new_heap_size n <= MaxInt64 ->
  pre ++ heap_image (new_local_heap n) (blen pre) ++ suf = heap_file pre suf 1 (zeros (N.to_nat (NS.new_heap_size n))).
Proof. exact new_heap_image. Qed.
Print Assumptions C03_wire_new_heap_file.

(* the heap half of linkToParent (LoadLocalHeap, PrepareForModification, AddString, WriteTo at the same address) on every file
   that holds a heap with data segment [seg]: loading yields [seg]; the step fails exactly when GroupNS's add_string fails and
   then writes nothing; otherwise it returns GroupNS's offset and the new file holds GroupNS's new segment at the same place,
   same length, everything before and after the heap untouched *)
Theorem C03_wire_link_heap : forall pre suf seg nm,
  blen pre + 32 + blen seg <= MaxInt64 ->
  load_local_heap (heap_file pre suf 1 seg) (blen pre) 8 8 = Ok seg /\
  match NS.add_string (NS.prepare_for_modification seg) nm with
  | None => link_heap (heap_file pre suf 1 seg) (blen pre) nm = Err
  | Some (off, h1) =>
      blen (snd (NS.write_to h1)) = blen seg /\
      link_heap (heap_file pre suf 1 seg) (blen pre) nm = Ok (off, heap_file pre suf 1 (snd (NS.write_to h1)))
  end.
Proof. exact link_heap_commutes. Qed.
Print Assumptions C03_wire_link_heap.

Theorem C03_wire_snod_new : forall c, abs_snode (new_snode c) = NS.new_snod c.
Proof. exact abs_new_snode. Qed.
Print Assumptions C03_wire_snod_new.

Theorem C03_wire_snod_add_entry : forall s e, stn_num s = llen (stn_entries s) ->
  omap abs_snode (add_entry s e) = of_option (NS.add_entry (abs_snode s) (abs_sym e)).
Proof. exact abs_add_entry. Qed.
Print Assumptions C03_wire_snod_add_entry.

Theorem C03_wire_snod_write_at : forall s m,
  NS.snod_write_at (abs_snode s) (N.of_nat m) = map abs_sym (firstn m (stn_entries s)).
Proof. exact abs_snod_write_at. Qed.
Print Assumptions C03_wire_snod_write_at.

Theorem C03_wire_snod_parse : forall s, snode_ok s = true -> abs_snode s = NS.parse_snod 32 (map abs_sym (stn_entries s)).
Proof. exact abs_parse. Qed.
Print Assumptions C03_wire_snod_parse.

(* the node half of linkToParent (ParseSymbolTableNode, AddEntry, WriteAt(.., 32) at the same address) on every file holding a
   well-formed node of at most 32 entries: fails exactly when GroupNS's add_entry fails (32 entries), otherwise the file holds the
   node with the entry appended, the rest of the file untouched *)
Theorem C03_wire_link_snod : forall s e (pre suf : list N),
  snode_ok s = true -> sym_ok e = true -> (length (stn_entries s) <= 32)%nat -> blen pre + 8 + 40 * 32 <= MaxInt64 ->
  match NS.add_entry (NS.parse_snod 32 (map abs_sym (stn_entries s))) (abs_sym e) with
  | None => link_snod (pre ++ snod_bytes s 32 ++ suf) (blen pre) e = Err /\ length (stn_entries s) = 32%nat
  | Some n1 =>
      exists s1, snode_ok s1 = true /\ stn_entries s1 = stn_entries s ++ [e] /\ abs_snode s1 = n1 /\
        link_snod (pre ++ snod_bytes s 32 ++ suf) (blen pre) e = Ok (pre ++ snod_bytes s1 32 ++ suf)
  end.
Proof. exact link_snod_commutes. Qed.
Print Assumptions C03_wire_link_snod.
