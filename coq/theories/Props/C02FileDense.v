(* C02, end to end at byte level, DENSE attribute storage: the READER programs (Dataset.Attributes' api_attributes with the dense
   path p_dense = readBTreeV2HeaderRaw, readBTreeV2LeafRecords, readFractalHeapHeaderRaw, parseHeapID, readHeapObject;
   Dataset.Read's api_read_raw; ReadSuperblock; hdf5.Open's loader p_open: Model/IOProg*.v, each tied to the Go reader and proved
   strict for C17) run on the FILE IMAGE the writer leaves behind for
     CreateForWrite (superblock v2); CreateDataset("/"+name, dtype, dims); Write(data); WriteAttribute(a_1, v_1); ...;
     WriteAttribute(a_n, v_n); Close()
   once the library has moved the attributes to dense storage (Model/FileImageDense.v image_v2_dense: image_v2 whose dataset
   header, rewritten in place over the longer compact header, carries the Attribute Info message, followed by fractal heap header,
   64 KiB direct block, 4 KiB B-tree v2 leaf, B-tree v2 header - assembled from the encoder models of C11 / C14 / C15 and compared
   byte for byte with the library's files on every run: tools/props/c02file.py kind "dense") return the attributes that were
   written, and the data.  Histories of WRITES of pairwise distinct names (no delete / overwrite; for arbitrary histories the
   structure-level composition is Props/C02Compose.v).  Only theorem statements here; proofs in Proofs/FileImageDense*.v. *)
From HV Require Import Base.Prelude Base.Outcome Base.Bytes Model.IOProg Model.IOProgReader Model.IOProgOpen.
From HV Require Import Model.CodecSuper Model.CodecOhdr Model.CodecMsg Model.CodecType Model.CodecLink Model.CodecAttr Model.FileImage
  Model.FileImageAttr Model.FileImageDense.
From HV Require Import Proofs.FileImage Proofs.FileImageData Proofs.FileImageProd Proofs.FileImageDenseRead Proofs.FileImageDense Proofs.FileImageDenseMain.
From Coq Require Import Sorting.Permutation Sorting.Sorted.

(* For ALL link names / basic registry datatypes / shapes / data as in C01_file_roundtrip_contiguous and ALL attribute lists
   (name, datatype message, dataspace extents, value bytes) whose attribute messages are well-formed (wf_attribute, as in
   C02_file_attribute_roundtrip; C02_dense_kinds_wf: every value kind of WriteAttribute the tie covers), such that the header with
   the Attribute Info message fits its chunk (dense_fits: otherwise the transition is refused), the messages fit the usable part
   of the direct block (heap_fits: 65517 bytes) and the records fit the leaf (leaf_fits: 371), every loader fuel >= 3 and header
   fuel >= 5:
     Dataset.Attributes returns exactly the written (name, value bytes) pairs, in the order dense_order = the order of the leaf
       records: a permutation of the written list, ascending in the name hash (C02_file_dense_order: strictly ascending, hence
       independent of the order of the WriteAttribute calls, when the name hashes are pairwise distinct);
     the dataset's own datatype and shape are still decoded from the rewritten header;
     the dataset read still returns exactly the written bytes;
     ReadSuperblock and Open return the same superblock / tree as without attributes.
   No hypothesis on names or hashes is needed for reading the image back; the image IS the library's file when the names and the
   name hashes are pairwise distinct (InsertRecord refuses a present hash: the colliding class is the known finding of C02, see
   C02_full_refuted) and the transition was taken (dense_taken); the witness below satisfies all of these. *)
Theorem C02_file_dense_attributes_roundtrip : forall name class size cbf dims data attrs fuel hfuel,
  link_name_ok name = true -> basic_dtype class size cbf = true -> dims_ok dims = true ->
  blen data = product dims * size -> blen data < 4294967296 ->
  Forall (fun a => wf_attribute (dattr_msg a) = true) attrs ->
  dense_fits class size cbf dims data = true -> heap_fits attrs = true -> leaf_fits attrs = true ->
  (3 <= fuel)%nat -> (4 < hfuel)%nat ->
  let f := image_v2_dense name class size cbf dims data attrs in
  run0 f (api_attributes SB' hfuel (dset_addr data)) = Ok (map listed (dense_order attrs)) /\
  Permutation (dense_order attrs) attrs /\
  StronglySorted N.le (dattr_hashes (dense_order attrs)) /\
  (exists h, run0 f (p_ohdr SB' hfuel (dset_addr data)) = Ok h /\
             (d <- match find_msg 3 (ohp_msgs h) with Some b => dec_datatype b | None => Err end;;
              s <- match find_msg 1 (ohp_msgs h) with Some b => dec_dataspace b | None => Err end;;
              Ok (dt_class d, dt_size d, dt_cbf d, dsp_dims s)) = Ok (class, size, cbf, dims)) /\
  run0 f (api_read_raw SB' hfuel (dset_addr data)) = Ok (RawBytes data) /\
  run0 f p_superblock = Ok SB' /\
  run0 f (p_open true (blen f) fuel hfuel) = Ok (Grp [47] ROOT_ADDR [Dset name (dset_addr data)]).
Proof. exact file_dense_roundtrip_stmt. Qed.
Print Assumptions C02_file_dense_attributes_roundtrip.

(* pairwise distinct name hashes: the listing is strictly ascending in the name hash, and two write orders of the same attributes
   are listed with the same hash sequence *)
Theorem C02_file_dense_order : forall attrs, NoDup (dattr_hashes attrs) ->
  StronglySorted N.lt (dattr_hashes (dense_order attrs)) /\
  forall attrs', Permutation attrs attrs' -> dattr_hashes (dense_order attrs) = dattr_hashes (dense_order attrs').
Proof. exact dense_order_stmt. Qed.
Print Assumptions C02_file_dense_order.

(* every list of attributes of the value kinds of attr_of_kind (int8..uint64, float32/64 scalars; non-empty []int32 []int64
   []float32 []float64; strings without NUL), names non-empty of less than 65535 bytes, satisfies the well-formedness hypothesis *)
Theorem C02_dense_kinds_wf : forall l, forallb kind_ok l = true ->
  Forall (fun a => wf_attribute (dattr_msg a) = true) (map dattr_of_kind l).
Proof. exact dense_kinds_wf. Qed.
Print Assumptions C02_dense_kinds_wf.

(* the transition allocates 146 + 65536 + 4096 + 38 bytes behind the old end of file; later writes allocate nothing *)
Theorem C02_image_dense_length : forall name class size cbf dims data attrs,
  link_name_ok name = true -> basic_dtype class size cbf = true -> dims_ok dims = true ->
  blen data = total_elems dims * size -> blen data < 4294967296 ->
  dense_fits class size cbf dims data = true -> heap_fits attrs = true -> leaf_fits attrs = true ->
  blen (image_v2_dense name class size cbf dims data attrs) = eof_addr data + 146 + 65536 + 4096 + 38.
Proof. exact image_dense_len_stmt. Qed.
Print Assumptions C02_image_dense_length.


(* readBTreeV2HeaderRaw on the bytes BT2.encode_header writes: root node address and number of records *)
Theorem C02_dense_stage_bt2_header : forall s,
  MB.h_root (MB.header s) < 18446744073709551616 -> MB.h_nroot (MB.header s) < 65536 ->
  dec_bt2hdr SB' (MB.encode_header 8 s) 38 = Ok (MB.h_root (MB.header s), MB.h_nroot (MB.header s)).
Proof. exact dec_bt2hdr_enc. Qed.
Print Assumptions C02_dense_stage_bt2_header.

(* readBTreeV2LeafRecords on the bytes BT2.encode_leaf writes: the 7-byte heap ids of all records, in record order *)
Theorem C02_dense_stage_leaf_records : forall s, Forall PB.rec_wf (MB.leaf_recs s) ->
  let n := N.of_nat (length (MB.leaf_recs s)) in
  dec_bt2leaf n (MB.encode_leaf s) (6 + n * 11 + 4) = Ok (map snd (MB.leaf_recs s)).
Proof. exact dec_bt2leaf_enc. Qed.
Print Assumptions C02_dense_stage_leaf_records.

(* readFractalHeapHeaderRaw on the 144 bytes it reads of FHeap.encode_header: root block address, heap offset size 2, length size 3 *)
Theorem C02_dense_stage_fheap_header : forall h tail,
  MF.h_maxdb h = 65536 -> MF.h_root h < 18446744073709551616 -> blen tail = 2 ->
  dec_fheaphdr SB' (MF.header_body h ++ tail) 144 = Ok (MF.h_root h, 2, 3).
Proof. exact dec_fheaphdr_enc. Qed.
Print Assumptions C02_dense_stage_fheap_header.

(* parseHeapID on the 7 bytes the index keeps of the 8-byte id encodeHeapID builds *)
Theorem C02_dense_stage_heap_id : forall off n, off < 65536 -> n < 16777216 ->
  parse_heap_id (firstn 7 (MF.encode_id 3 off n)) 2 3 = Ok (off, n).
Proof. exact parse_heap_id_enc. Qed.
Print Assumptions C02_dense_stage_heap_id.

(* readHeapObject on a direct block FHeap.encode_dblock wrote anywhere in a file: an object m lying at offset |x| of the block's
   object area is returned exactly (header read tolerating io.EOF, then utils.ReadBytesAt) *)
Theorem C02_dense_stage_heap_object : forall f ba b,
  31 <= MF.db_size b -> blen (MF.db_objs b) <= MF.db_size b - 19 -> MF.db_boff b = 0 ->
  placed f ba (MF.encode_dblock b) -> ba + MF.db_size b <= MAXI64 ->
  forall x m y, MF.db_objs b = x ++ m ++ y -> 0 < blen m ->
  run0 f (p_heap_object SB' ba (blen x) (blen m) 2) = Ok m.
Proof. exact heap_object_read. Qed.
Print Assumptions C02_dense_stage_heap_object.

(* ParseAttributeInfoMessage on the writer's Attribute Info message: the two addresses *)
Theorem C02_dense_stage_attrinfo : forall data, blen data < 4294967296 ->
  IOProgReader.dec_attrinfo SB' (enc_attrinfo SBP (dense_info data)) = Ok (FH_ADDR data, BTH_ADDR data).
Proof. exact ainfo_decoded. Qed.
Print Assumptions C02_dense_stage_attrinfo.

(* the hypotheses are satisfiable, the transition is taken (after four compact attributes: the fifth message does not fit the
   255-byte header chunk), names and name hashes are pairwise distinct: "/d" = uint8 [1,2,3], int32 attributes a0 .. a8 *)
Theorem C02_file_dense_roundtrip_witness :
  link_name_ok [100] = true /\ basic_dtype DT_FIXED 1 0 = true /\ dims_ok [3] = true /\
  blen [1; 2; 3] = product [3] * 1 /\ blen [1; 2; 3] < 4294967296 /\
  Forall (fun a => wf_attribute (dattr_msg a) = true) ex_attrs /\
  dense_fits DT_FIXED 1 0 [3] [1; 2; 3] = true /\ heap_fits ex_attrs = true /\ leaf_fits ex_attrs = true /\
  dense_taken DT_FIXED 1 0 [3] ex_attrs = true /\ n_compact DT_FIXED 1 0 [3] ex_attrs = 4%nat /\
  NoDup (dattr_names ex_attrs) /\ NoDup (dattr_hashes ex_attrs).
Proof. exact file_dense_roundtrip_witness. Qed.
Print Assumptions C02_file_dense_roundtrip_witness.
