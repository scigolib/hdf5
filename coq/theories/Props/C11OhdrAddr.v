(* C11 — object headers at arbitrary file addresses.
   The Go reader parseV1Header / parseV1MessagesInBlock reads at absolute addresses but steps from message to
   message relative to the start of the message block, exactly as ObjectHeaderWriter.writeToV1 pads; the model
   dec_ohdr sbBE file addr carries the address.  The correspondence obligation of the tie is therefore
   "core.ReadObjectHeader(image, a) = dec_ohdr image a for EVERY a, aligned or not": tools/props/c11.py places
   version 1 and version 2 headers at every residue modulo 8 (kinds ohdr_v1 / ohdr_v2, OHDR_ADDRS). *)
From HV Require Import Base.Prelude Base.Outcome Base.Bytes Model.CodecOhdr Model.CodecOhdrAddr
  Proofs.CodecOhdr Proofs.CodecOhdrAddr.

(* the round trip of a version 1 header holds at every address addr = blen pre: no hypothesis on addr mod 8 *)
Theorem C11_ohdr_v1_roundtrip_any_address : forall addr x (pre suf : list N),
  blen pre = addr ->
  wf_ohdr_v1 x = true ->
  addr + size_ohdr_v1 x + 16 < 9223372036854775808 ->
  dec_ohdr false (pre ++ enc_ohdr_v1 x ++ suf) addr = Ok (proj_ohdr_v1 x addr).
Proof. exact ohdr_v1_roundtrip_any_address. Qed.
Print Assumptions C11_ohdr_v1_roundtrip_any_address.

(* ... and what comes back is the encoded message list (types and data, in order), the reference count and
   the version: the file offsets are the only part of the result that mentions the address *)
Theorem C11_ohdr_v1_roundtrip_messages : forall addr x (pre suf : list N),
  blen pre = addr ->
  wf_ohdr_v1 x = true ->
  addr + size_ohdr_v1 x + 16 < 9223372036854775808 ->
  exists o, dec_ohdr false (pre ++ enc_ohdr_v1 x ++ suf) addr = Ok o /\
            map unplace (ohp_msgs o) = oh_msgs x /\ ohp_refcount o = oh_refcount x /\ ohp_version o = 1.
Proof. exact ohdr_v1_roundtrip_messages. Qed.
Print Assumptions C11_ohdr_v1_roundtrip_messages.

(* decoding an encoded header at address blen pre = decoding it at address 0, message offsets moved *)
Theorem C11_ohdr_v1_address_independent : forall x (pre suf : list N),
  wf_ohdr_v1 x = true ->
  blen pre + size_ohdr_v1 x + 16 < 9223372036854775808 ->
  dec_ohdr false (pre ++ enc_ohdr_v1 x ++ suf) (blen pre)
  = omap (shift_ohdr (blen pre)) (dec_ohdr false (enc_ohdr_v1 x ++ suf) 0).
Proof. exact ohdr_v1_address_independent. Qed.
Print Assumptions C11_ohdr_v1_address_independent.

Theorem C11_ohdr_v2_address_independent : forall x (pre suf : list N) sbBE,
  wf_ohdr_v2 x = true -> 1 <= blen suf ->
  blen pre + size_ohdr_v2 x + 8 < 9223372036854775808 ->
  dec_ohdr sbBE (pre ++ enc_ohdr_v2 x ++ suf) (blen pre)
  = omap (shift_ohdr (blen pre)) (dec_ohdr sbBE (enc_ohdr_v2 x ++ suf) 0).
Proof. exact ohdr_v2_address_independent. Qed.
Print Assumptions C11_ohdr_v2_address_independent.

(* the hypotheses are satisfiable at an unaligned address: a three-message dataset header (12, 24 and 18
   bytes of data) at address 99; the second and third message sit at 139 and 171 (not multiples of 8) *)
Theorem C11_ohdr_v1_unaligned_example :
  (wf_ohdr_v1 ohdr_v1_dataset = true /\ (99 mod 8 =? 0) = false /\
   99 + size_ohdr_v1 ohdr_v1_dataset + 16 < 9223372036854775808) /\
  dec_ohdr false (repeat 255 99 ++ enc_ohdr_v1 ohdr_v1_dataset ++ repeat 255 9) 99
  = Ok (proj_ohdr_v1 ohdr_v1_dataset 99) /\
  map hmp_offset (ohp_msgs (proj_ohdr_v1 ohdr_v1_dataset 99)) = [115; 139; 171].
Proof. exact (conj ohdr_v1_dataset_wf ohdr_v1_dataset_at_99). Qed.
Print Assumptions C11_ohdr_v1_unaligned_example.

(* A reader that looks for the next message at the next ABSOLUTE multiple of 8 (seeded change C11-e; not
   /repo's reader) does not invert the writer: at each of these addresses it returns Ok with a message list that is not the
   encoded one (the first message only; at address 2 the first message and two that were never written), where the transcription of /repo's reader returns the header. *)
Theorem C11_ohdr_v1_absolute_alignment_refuted :
  forall k, In k [1; 2; 3; 4; 5; 6; 7; 99; 4097; 4099; 4103] ->
  exists o, parse_v1_abs (repeat 255 (N.to_nat k) ++ enc_ohdr_v1 ohdr_v1_dataset ++ repeat 0 64) k 0 false = Ok o /\
            map unplace (ohp_msgs o) <> oh_msgs ohdr_v1_dataset /\
            parse_v1 (repeat 255 (N.to_nat k) ++ enc_ohdr_v1 ohdr_v1_dataset ++ repeat 0 64) k 0 false
            = Ok (proj_ohdr_v1 ohdr_v1_dataset k).
Proof. exact ohdr_v1_abs_refuted. Qed.
Print Assumptions C11_ohdr_v1_absolute_alignment_refuted.

(* ... and is indistinguishable from it at aligned addresses (so headers placed at multiples of 8 only cannot tell the two readers apart) *)
Theorem C11_ohdr_v1_absolute_alignment_agrees_aligned :
  forall k, In k [0; 8; 96; 4096] ->
  parse_v1_abs (repeat 255 (N.to_nat k) ++ enc_ohdr_v1 ohdr_v1_dataset ++ repeat 0 64) k 0 false
  = Ok (proj_ohdr_v1 ohdr_v1_dataset k).
Proof. exact ohdr_v1_abs_agrees_aligned. Qed.
Print Assumptions C11_ohdr_v1_absolute_alignment_agrees_aligned.
