(* C14 - B-tree v2 name index is a faithful, persistent map under any history; the key hash equals
   Jenkins lookup3 for every byte string.   Statements only; proofs in Proofs/Lookup3.v, Proofs/BT2.v,
   Proofs/BT2Examples.v.  Model: Model/BT2.v (WritableBTreeV2 as of /repo 6c2e9ef).

   Hypotheses used below (Proofs/BT2.v):
     cfg_ok c   : offset size in {1,2,4,8}; node size N (0 = default 4096) with 10 <= N < 2^32 and
                  (N-10)/11 <= 65535 (the root record count is a uint16)
     addr_ok c ops : the addresses handed out by the allocator during the history fit the offset size
   Histories are lists of OInsert/OUpdate/OSearch/OHas/ODelete, OStoreLoad (WriteToFile + LoadFromFile into
   a new object), ORewrite (WriteAt + LoadFromFile into a new object), OWriteAt (WriteAt in place, the
   history continues on the SAME object: one loaded handle may be written in place any number of times)
   and OStore (WriteToFile, same object); every theorem below that quantifies over `ops` covers all of them.
     has_collision (names_of ops) = false : no two distinct names of the history have the same hash *)
From Coq Require Import Sorted.
From HV Require Import Base.Prelude Base.Crc32 Spec.Lookup3 Model.BT2 Proofs.Lookup3 Proofs.BT2 Proofs.BT2Examples.

(* the Go hash loop (for length-i > 12, words by | and <<, switch with fallthrough) is lookup3 hashlittle
   with initval 0 on every byte string *)
Theorem C14_hash_eq_lookup3 : forall s, Forall (fun x => x < 256) s -> jenkins s = hashlittle s 0.
Proof. exact jenkins_eq_hashlittle. Qed.
Print Assumptions C14_hash_eq_lookup3.

(* after any history, in any mode: records ordered by hash, the four count views agree, capacity respected *)
Theorem C14_sorted_counts : forall c ops, cfg_ok c -> addr_ok c ops ->
  let s := bt (fst (run c ops)) in
  StronglySorted N.le (map fst (recs s))
  /\ h_nroot (header s) = N.of_nat (List.length (recs s))
  /\ h_total (header s) = N.of_nat (List.length (recs s))
  /\ leaf_recs s = recs s
  /\ N.of_nat (List.length (recs s)) <= max_records (ns_of c).
Proof. exact sorted_counts. Qed.
Print Assumptions C14_sorted_counts.

(* every result of every operation (insert/update/search/has/delete/store+load/rewrite+load/write in
   place/store, present and absent names, every mode) equals the result of the specification map, and at the end the record
   list is exactly the image of the live keys with their latest values *)
Theorem C14_refines_map : forall c ops, cfg_ok c -> addr_ok c ops -> has_collision (names_of ops) = false ->
  snd (run c ops) = snd (spec_run c ops)
  /\ (let s := bt (fst (run c ops)) in
      let m := s_map (fst (spec_run c ops)) in
      List.length (recs s) = List.length m
      /\ forall h v, In (h, v) (recs s) <-> exists n, In (n, v) m /\ h = jenkins n).
Proof. exact refines_content. Qed.
Print Assumptions C14_refines_map.

(* the rebalancing mode never influences results, records, header, file bytes or addresses
   (no hypothesis: also with collisions, any node size) *)
Theorem C14_mode_irrelevant : forall m1 m2 osz ns ops,
  let w1 := fst (run (mkCfg m1 osz ns) ops) in
  let w2 := fst (run (mkCfg m2 osz ns) ops) in
  snd (run (mkCfg m1 osz ns) ops) = snd (run (mkCfg m2 osz ns) ops)
  /\ recs (bt w1) = recs (bt w2) /\ leaf_recs (bt w1) = leaf_recs (bt w2) /\ header (bt w1) = header (bt w2)
  /\ node_size (bt w1) = node_size (bt w2) /\ fil w1 = fil w2 /\ next w1 = next w2
  /\ loaded_hdr (bt w1) = loaded_hdr (bt w2) /\ loaded_leaf (bt w1) = loaded_leaf (bt w2).
Proof. exact mode_irrelevant. Qed.
Print Assumptions C14_mode_irrelevant.

(* insert into a full node: error, index / file / allocator unchanged (any state, any mode) *)
Theorem C14_capacity : forall c w n v,
  max_records (node_size (bt w)) <= N.of_nat (List.length (recs (bt w))) ->
  snd (step c w (OInsert n v)) = RErr
  /\ bt (fst (step c w (OInsert n v))) = bt w
  /\ fil (fst (step c w (OInsert n v))) = fil w /\ next (fst (step c w (OInsert n v))) = next w.
Proof. exact capacity_refused. Qed.
Print Assumptions C14_capacity.

(* bytes: LoadFromFile of what WriteToFile / WriteAt wrote (leaf at la, header at ha, into any file)
   returns the same records, counts and header; encoding the loaded index again gives identical bytes *)
Theorem C14_persist : forall osz s f la ha recv,
  osz_ok osz -> st_wf s -> la < 256 ^ N.of_nat osz -> la + node_size s <= ha ->
  exists s',
    load_from osz recv (write_at (write_at f la (encode_leaf s)) ha (encode_header osz (with_root s la))) ha = LOk s'
    /\ recs s' = recs s /\ leaf_recs s' = recs s /\ header s' = header (with_root s la) /\ node_size s' = node_size s
    /\ loaded_hdr s' = ha /\ loaded_leaf s' = la
    /\ encode_leaf s' = encode_leaf s /\ encode_header osz s' = encode_header osz (with_root s la).
Proof. exact persist. Qed.
Print Assumptions C14_persist.

(* ... and its hypothesis st_wf holds at every point of every history *)
Theorem C14_persist_any_point : forall c ops, cfg_ok c -> addr_ok c ops ->
  st_wf (strip_bt (bt (fst (run c ops)))).
Proof. exact reachable_wf. Qed.
Print Assumptions C14_persist_any_point.

(* persistence of in-place rewrites at full strength: after ANY history (any number of WriteAt calls on
   the same loaded handle, interleaved with inserts/updates/deletes/stores), whenever the last operation
   is a successful write (WriteAt on the same object, WriteAt + reload, WriteToFile + reload), LoadFromFile
   of the file at the object's loaded header address returns the in-memory object itself: records, leaf
   view, all header fields (counts, root address), node size, loaded addresses; only the lazy-rebalancing
   state is the receiver's.  So the image on disk equals the index after every write, not only the first. *)
Theorem C14_image_after_every_write : forall c ops o recv, cfg_ok c -> addr_ok c (ops ++ [o]) ->
  is_write o = true -> last (snd (run c (ops ++ [o]))) RErr = ROk ->
  let w := fst (run c (ops ++ [o])) in
  load_from (c_osz c) recv (fil w) (loaded_hdr (bt w)) = LOk (with_lazy (bt w) (lazy recv)).
Proof. exact image_after_write. Qed.
Print Assumptions C14_image_after_every_write.

(* WriteToFile on the same object (no reload) after any history: it succeeds and the image at the header
   address it returns (the last allocation) loads to the same records, counts and header *)
Theorem C14_image_after_store : forall c ops recv, cfg_ok c -> addr_ok c (ops ++ [OStore]) ->
  let w := fst (run c (ops ++ [OStore])) in
  last (snd (run c (ops ++ [OStore]))) RErr = ROk
  /\ exists s', load_from (c_osz c) recv (fil w) (next w - hsz c) = LOk s'
       /\ recs s' = recs (bt w) /\ leaf_recs s' = recs (bt w) /\ header s' = header (bt w)
       /\ node_size s' = node_size (bt w).
Proof. exact image_after_store. Qed.
Print Assumptions C14_image_after_store.

(* the full statement without the collision hypothesis is false: "ayou" and "cpxv" *)
Theorem C14_collision_refuted :
  ~ (forall c ops, cfg_ok c -> addr_ok c ops -> snd (run c ops) = snd (spec_run c ops)).
Proof. exact collision_refuted. Qed.
Print Assumptions C14_collision_refuted.

(* node sizes 1..9 are excluded for a reason: capacity wraps to 390451571, store+load fails *)
Theorem C14_node_size_precondition_needed :
  ~ (forall c ops, osz_ok (c_osz c) -> addr_ok c ops -> has_collision (names_of ops) = false ->
       snd (run c ops) = snd (spec_run c ops)).
Proof. exact node_size_precondition_needed. Qed.
Print Assumptions C14_node_size_precondition_needed.
