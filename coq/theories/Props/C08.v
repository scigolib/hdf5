(* C08 - filter pipelines are lossless, self-compatible and detect corruption.
   Statements only; proofs are in Proofs/Filters*.v, the model in Model/Filters.v.
   deflate/inflate are NOT re-proved: the theorems that involve them take the zlib round trip
   [forall l x, inflate (deflate l x) = Some x] as an explicit premise (trusted base; exercised by the tie). *)
From HV Require Import Base.Prelude Model.Filters.
From HV Require Import Proofs.FiltersShuffle Proofs.FiltersFletcher Proofs.FiltersLzf Proofs.FiltersPipeline.

(* shuffle: the writer's Remove inverts its Apply whenever the length is a multiple of the element size *)
Theorem C08_shuffle_inv : forall esz x,
  0 < esz -> N.of_nat (length x) mod esz = 0 ->
  bind (shuffle_apply esz x) (shuffle_remove esz) = Ok x.
Proof. exact shuffle_inv. Qed.
Print Assumptions C08_shuffle_inv.

(* the reader's applyShuffle is the same function as the writer's Remove, errors included *)
Theorem C08_reader_unshuffle_is_writer_remove : forall esz y,
  0 < esz -> reader_unshuffle [esz] y = shuffle_remove esz y.
Proof. exact reader_unshuffle_eq. Qed.
Print Assumptions C08_reader_unshuffle_is_writer_remove.

(* lengths that are not a multiple of the element size are rejected by all three entry points *)
Theorem C08_shuffle_nonmultiple : forall esz x,
  0 < esz -> N.of_nat (length x) mod esz <> 0 ->
  shuffle_apply esz x = Err /\ shuffle_remove esz x = Err /\ reader_unshuffle [esz] x = Err.
Proof. exact shuffle_nonmultiple. Qed.
Print Assumptions C08_shuffle_nonmultiple.

(* element size 0 is an error everywhere (the writer checks for it before dividing: /repo b6934a2) *)
Theorem C08_shuffle_zero_esz : forall x,
  x <> [] -> shuffle_apply 0 x = Err /\ shuffle_remove 0 x = Err /\ reader_unshuffle [0] x = Err.
Proof. exact shuffle_esz0_err. Qed.
Print Assumptions C08_shuffle_zero_esz.

Theorem C08_fletcher_roundtrip : forall x, fletcher_verify (fletcher_apply x) = Ok x.
Proof. exact fletcher_roundtrip. Qed.
Print Assumptions C08_fletcher_roundtrip.

(* any single byte of the stored chunk (payload or checksum) replaced by a different byte: an error *)
Theorem C08_fletcher_detects_single_byte : forall (x : bytes) (i : nat) (b : byte),
  bytes_ok x -> b < 256 -> (i < length (fletcher_apply x))%nat -> b <> nth i (fletcher_apply x) 0 ->
  fletcher_verify (upd i b (fletcher_apply x)) = Err.
Proof. exact fletcher_detects_single_byte. Qed.
Print Assumptions C08_fletcher_detects_single_byte.

Theorem C08_lzf_roundtrip : forall x, lzf_decompress (lzf_compress x) = Ok x.
Proof. exact lzf_roundtrip. Qed.
Print Assumptions C08_lzf_roundtrip.

(* on arbitrary input the decompressor returns data or an error: no panic, and fuel = len(input) suffices *)
Theorem C08_lzf_decompress_total : forall i, lzf_decompress i <> OutOfFuel /\ lzf_decompress i <> Panic.
Proof. exact lzf_decompress_total. Qed.
Print Assumptions C08_lzf_decompress_total.

(* any filters, any order: whatever the writer's Apply accepted, its Remove restores *)
Theorem C08_pipeline_roundtrip :
  forall (deflate : N -> bytes -> bytes) (inflate : bytes -> option bytes),
  (forall l x, inflate (deflate l x) = Some x) ->
  forall fs x y, pipeline_apply deflate fs x = Ok y -> pipeline_remove inflate fs y = Ok x.
Proof. exact pipeline_roundtrip. Qed.
Print Assumptions C08_pipeline_roundtrip.

(* Apply succeeds when every filter's precondition holds on its input (only shuffle has one) *)
Theorem C08_pipeline_accepts :
  forall (deflate : N -> bytes -> bytes) fs x,
  pipeline_pre deflate fs x -> exists y, pipeline_apply deflate fs x = Ok y.
Proof. exact pipeline_accepts. Qed.
Print Assumptions C08_pipeline_accepts.

(* the reader (ApplyFilters on the parsed description) decodes what the writer encoded *)
Theorem C08_reader_decodes_writer :
  forall (deflate : N -> bytes -> bytes) (inflate : bytes -> option bytes),
  (forall l x, inflate (deflate l x) = Some x) ->
  forall fs x y, stages_small deflate fs x ->     (* every deflate stage input is at most utils.MaxChunkSize = 1 GiB *)
  pipeline_apply deflate fs x = Ok y -> reader_apply inflate (descr fs) y = Ok x.
Proof. exact reader_decodes_writer. Qed.
Print Assumptions C08_reader_decodes_writer.

(* the reader parses the writer's description message into exactly the writer's filter list *)
Theorem C08_msg_roundtrip : forall fs,
  Forall filter_wf fs -> (0 < length fs < 256)%nat ->
  bind (encode_msg (descr fs)) parse_msg = Ok (2, N.of_nat (length fs), descr fs).
Proof. exact msg_roundtrip. Qed.
Print Assumptions C08_msg_roundtrip.

(* ... for both variants of the version 2 filter name switch of the parser (Model/Filters.v filters_v2_names: the code before /
   after notes/fixes/c06-pipeline-v2-filter-name.patch; parse_msg is the repaired variant) *)
Theorem C08_msg_roundtrip_both_variants : forall rep fs,
  Forall filter_wf fs -> (0 < length fs < 256)%nat ->
  bind (encode_msg (descr fs)) (parse_msg_gen rep) = Ok (2, N.of_nat (length fs), descr fs).
Proof. exact msg_roundtrip_gen. Qed.
Print Assumptions C08_msg_roundtrip_both_variants.

(* Fletcher-32 outermost: a single altered byte of the stored chunk is an error for the writer's Remove
   and for the reader's ApplyFilters, whatever the other filters are *)
Theorem C08_pipeline_detects :
  forall (inflate : bytes -> option bytes) pre (z : bytes) (i : nat) (b : byte),
  bytes_ok z -> b < 256 -> (i < length (fletcher_apply z))%nat -> b <> nth i (fletcher_apply z) 0 ->
  pipeline_remove inflate (pre ++ [FFletcher]) (upd i b (fletcher_apply z)) = Err /\
  reader_apply inflate (descr (pre ++ [FFletcher])) (upd i b (fletcher_apply z)) = Err.
Proof. exact pipeline_detects. Qed.
Print Assumptions C08_pipeline_detects.

(* The same statement for Fletcher-32 NOT outermost is false (finding C08-fletcher-not-outermost-lzf):
   pipeline [fletcher32; lzf], 40 zero bytes, stored byte 4 (the length byte) changed from 33 to 29: both decoders return
   36 zero bytes and no error. *)
Theorem C08_fletcher_inner_refuted :
  pipeline_apply (fun _ x => x) refuted_fs refuted_x = Ok refuted_stored /\
  nth 4 refuted_stored 0 = 33 /\
  pipeline_remove (fun x => Some x) refuted_fs (upd 4 29 refuted_stored) = Ok (repeat 0 36) /\
  reader_apply (fun x => Some x) (descr refuted_fs) (upd 4 29 refuted_stored) = Ok (repeat 0 36).
Proof. exact fletcher_inner_refuted. Qed.
Print Assumptions C08_fletcher_inner_refuted.
