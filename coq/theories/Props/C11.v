(* C11 - every metadata encoder is inverted by its decoder.  Property theorems only.
   Determinism of encoding is definitional: every enc_X is a Gallina function. *)
From HV Require Import Base.Prelude Base.Outcome Base.Bytes Model.CodecMsg Proofs.CodecMsg
  Model.CodecType Proofs.CodecType Model.CodecAttr Proofs.CodecAttr
  Model.CodecSuper Proofs.CodecSuper Model.CodecOhdr Proofs.CodecOhdr
  Model.CodecLink Proofs.CodecLink Model.CodecCompound Proofs.CodecCompound
  Model.CodecCompoundTree Proofs.CodecCompoundTree2 Proofs.CodecCompoundTree3.

Theorem C11_dataspace_roundtrip : forall x, wf_dataspace x = true ->
  dec_dataspace (enc_dataspace x) = Ok (proj_dataspace x).
Proof. exact dataspace_roundtrip. Qed.
Print Assumptions C11_dataspace_roundtrip.

Theorem C11_dataspace_len : forall x, blen (enc_dataspace x) = size_dataspace x.
Proof. exact dataspace_blen. Qed.
Print Assumptions C11_dataspace_len.

Theorem C11_dataspace_not_ambiguous : forall x, wf_dataspace x = true ->
  ambiguous_dataspace_len (blen (ds_dims x)) (negb (length (ds_maxdims x) =? 0)%nat) (blen (enc_dataspace x)) = false.
Proof. exact dataspace_not_ambiguous. Qed.
Print Assumptions C11_dataspace_not_ambiguous.

Theorem C11_layout_roundtrip : forall sb x, wf_layout sb x = true ->
  dec_layout sb (enc_layout sb x) = Ok (proj_layout sb x).
Proof. exact layout_roundtrip. Qed.
Print Assumptions C11_layout_roundtrip.

Theorem C11_layout_len : forall sb x, wf_layout sb x = true -> blen (enc_layout sb x) = size_layout sb x.
Proof. exact layout_blen. Qed.
Print Assumptions C11_layout_len.

(* datatype message, classes fixed-point, float, string, reference, opaque, compound (properties given
   as bytes).  proj_datatype spells out what the decoder returns: version 1 and the generated property
   bytes for numeric types; one property byte 0 for strings; the zero-padded tag and its padded length
   as class bit field for opaque; the value itself for compound. *)
Theorem C11_datatype_roundtrip : forall x, wf_datatype x = true ->
  dec_datatype (enc_datatype x) = Ok (proj_datatype x).
Proof. exact datatype_roundtrip. Qed.
Print Assumptions C11_datatype_roundtrip.

Theorem C11_datatype_len : forall x, wf_datatype x = true -> blen (enc_datatype x) = size_datatype x.
Proof. exact datatype_blen. Qed.
Print Assumptions C11_datatype_len.

(* variable-length datatypes (vlen_header_repaired = true, the header layout of /repo 71914eb; version comes back as 1) *)
Theorem C11_vlen_roundtrip : forall x, wf_vlen x = true ->
  dec_datatype (enc_datatype x) = Ok (proj_vlen x).
Proof. exact vlen_roundtrip. Qed.
Print Assumptions C11_vlen_roundtrip.

(* D10: with the header layout of enc_datatype_gen false, the writer before /repo 71914eb (class and version
   nibbles swapped, type flags at bytes 8-11), the decoder does not return the encoded class / flags / base type *)
Theorem C11_vlen_refuted :
  exists x, dt_class x = DT_VLEN /\ encok_datatype x = true /\
            match dec_datatype (enc_datatype_gen false x) with
            | Ok y => transported x y = false
            | _ => True
            end.
Proof. exact vlen_refuted. Qed.
Print Assumptions C11_vlen_refuted.

(* attribute message, version 3 (little-endian size fields, as the writer produces them) *)
Theorem C11_attribute_roundtrip : forall x, wf_attribute x = true ->
  dec_attribute false (enc_attribute x) = Ok (proj_attribute x).
Proof. exact attribute_roundtrip. Qed.
Print Assumptions C11_attribute_roundtrip.

(* ... for both variants of the version 2 padding switch of the reader (Model/CodecAttr.v attribute_v2_unpadded: the code
   before / after notes/fixes/c06-attribute-v2-padding.patch; dec_attribute is the repaired variant) *)
Theorem C11_attribute_roundtrip_both_variants : forall rep x, wf_attribute x = true ->
  dec_attribute_gen rep false (enc_attribute x) = Ok (proj_attribute x).
Proof. exact attribute_roundtrip_gen. Qed.
Print Assumptions C11_attribute_roundtrip_both_variants.

Theorem C11_attribute_len : forall x, wf_attribute x = true -> blen (enc_attribute x) = size_attribute x.
Proof. exact attribute_blen. Qed.
Print Assumptions C11_attribute_len.

(* superblock versions 0, 2, 3 (8-byte offsets/lengths: the only sizes the writers accept).
   proj_superblock: v0 base address comes back 0; v2/v3 SuperExtension 0 comes back UNDEF; the end-of-file
   address and (v2/v3) the checksum are written but never read. *)
Theorem C11_superblock_roundtrip : forall x, wf_superblock x = true ->
  dec_superblock (enc_superblock x) = Ok (proj_superblock x).
Proof. exact superblock_roundtrip. Qed.
Print Assumptions C11_superblock_roundtrip.

(* ... for both variants of the superblock sizes switch of the reader (Model/CodecSuper.v superblock_sizes_repaired: the code
   before / after notes/fixes/c06-superblock-sizes.patch; dec_superblock is the repaired variant) *)
Theorem C11_superblock_roundtrip_both_variants : forall rep x, wf_superblock x = true ->
  dec_superblock_gen rep (enc_superblock x) = Ok (proj_superblock x).
Proof. exact superblock_roundtrip_gen. Qed.
Print Assumptions C11_superblock_roundtrip_both_variants.

Theorem C11_superblock_len : forall x, blen (enc_superblock x) = size_superblock x.
Proof. exact superblock_blen. Qed.
Print Assumptions C11_superblock_len.

(* object header version 2 inside a file image: prefix, message list, sizes.  The reader stops at
   chunk end - 4 (it expects a checksum the writer does not write) and fetches 6 bytes per message header,
   so at least one byte must follow the header in the file (C11_ohdr_v2_eof_quirk); messages with
   empty data are skipped by the reader and are excluded by wf_ohdr_v2. *)
Theorem C11_ohdr_v2_roundtrip : forall x (pre suf : list N) sbBE,
  wf_ohdr_v2 x = true -> 1 <= blen suf ->
  blen pre + size_ohdr_v2 x + 8 < 9223372036854775808 ->
  dec_ohdr sbBE (pre ++ enc_ohdr_v2 x ++ suf) (blen pre) = Ok (proj_ohdr_v2 sbBE x (blen pre)).
Proof. exact ohdr_v2_roundtrip. Qed.
Print Assumptions C11_ohdr_v2_roundtrip.

Theorem C11_ohdr_v2_len : forall x, blen (enc_ohdr_v2 x) = size_ohdr_v2 x.
Proof. exact ohdr_v2_blen. Qed.
Print Assumptions C11_ohdr_v2_len.

Theorem C11_ohdr_v2_eof_quirk :
  exists x, wf_ohdr_v2 x = true /\ dec_ohdr false (enc_ohdr_v2 x) 0 = Err.
Proof. exact ohdr_v2_eof_quirk. Qed.
Print Assumptions C11_ohdr_v2_eof_quirk.

(* object header version 1 (v1_size_field_repaired = true: size field = message bytes, the writer of /repo bd70d6d) *)
Theorem C11_ohdr_v1_roundtrip : forall x (pre suf : list N),
  wf_ohdr_v1 x = true ->
  blen pre + size_ohdr_v1 x + 16 < 9223372036854775808 ->
  dec_ohdr false (pre ++ enc_ohdr_v1 x ++ suf) (blen pre) = Ok (proj_ohdr_v1 x (blen pre)).
Proof. exact ohdr_v1_roundtrip. Qed.
Print Assumptions C11_ohdr_v1_roundtrip.

Theorem C11_ohdr_v1_len : forall x, blen (enc_ohdr_v1 x) = size_ohdr_v1 x.
Proof. exact (ohdr_v1_blen true). Qed.
Print Assumptions C11_ohdr_v1_len.

(* with the size field 16 + 8*n of enc_ohdr_v1_gen false (the writer before /repo bd70d6d) messages are lost *)
Theorem C11_ohdr_v1_refuted :
  exists x, oh_version x = 1 /\
    dec_ohdr false (enc_ohdr_v1_gen false x ++ [0]) 0 <> Ok (proj_ohdr_v1 x 0).
Proof. exact ohdr_v1_refuted. Qed.
Print Assumptions C11_ohdr_v1_refuted.

(* link message (hard / soft / external; every combination of the optional fields and name-length widths).
   proj_link: for a soft link the decoder returns the path without the 2-byte length that the encoder
   expects inside LinkValue (C11_link_soft_reencode_refuted: re-encoding a parsed soft link gives other bytes) *)
Theorem C11_link_roundtrip : forall os x, wf_link os x = true ->
  dec_link os (enc_link x) = Ok (proj_link x).
Proof. exact link_roundtrip. Qed.
Print Assumptions C11_link_roundtrip.

Theorem C11_link_len : forall x, lk_version x = 1 -> blen (enc_link x) = size_link x.
Proof. exact link_blen. Qed.
Print Assumptions C11_link_len.

Theorem C11_link_soft_reencode_refuted :
  wf_link 8 soft_link_witness = true /\
  match dec_link 8 (enc_link soft_link_witness) with
  | Ok y => bytes_eqb (enc_link y) (enc_link soft_link_witness) = false /\
            bytes_eqb (lk_value y) (lk_value soft_link_witness) = false
  | _ => False
  end.
Proof. exact link_soft_reencode_refuted. Qed.
Print Assumptions C11_link_soft_reencode_refuted.

(* link-info message: exact identity *)
Theorem C11_linkinfo_roundtrip : forall sb x, wf_linkinfo sb x = true ->
  dec_linkinfo sb (enc_linkinfo sb x) = Ok x.
Proof. exact linkinfo_roundtrip. Qed.
Print Assumptions C11_linkinfo_roundtrip.

Theorem C11_linkinfo_len : forall sb x, wf_linkinfo sb x = true -> blen (enc_linkinfo sb x) = size_linkinfo sb x.
Proof. exact linkinfo_blen. Qed.
Print Assumptions C11_linkinfo_len.

(* attribute-info message: exact identity for little-endian superblocks; for big-endian ones the encoder
   honours the byte order and the decoder (readAddress) does not *)
Theorem C11_attrinfo_roundtrip : forall sb x, wf_attrinfo sb x = true ->
  dec_attrinfo sb (enc_attrinfo sb x) = Ok x.
Proof. exact attrinfo_roundtrip. Qed.
Print Assumptions C11_attrinfo_roundtrip.

Theorem C11_attrinfo_len : forall sb x, wf_attrinfo sb x = true -> blen (enc_attrinfo sb x) = size_attrinfo sb x.
Proof. exact attrinfo_blen. Qed.
Print Assumptions C11_attrinfo_len.

Theorem C11_attrinfo_be_refuted :
  exists sb x, sb_bigendian sb = true /\ sb_ok sb = true /\
    dec_attrinfo sb (enc_attrinfo sb x) <> Ok x.
Proof. exact attrinfo_be_refuted. Qed.
Print Assumptions C11_attrinfo_be_refuted.

(* symbol-table message (8-byte offsets, little-endian: what the writer supports) *)
Theorem C11_symtab_roundtrip : forall x, wf_symtab x = true -> dec_symtab false (enc_symtab 8 x) = Ok x.
Proof. exact symtab_roundtrip. Qed.
Print Assumptions C11_symtab_roundtrip.

Theorem C11_symtab_len : forall x, blen (enc_symtab 8 x) = 16.
Proof. exact symtab_blen. Qed.
Print Assumptions C11_symtab_len.

(* array and enum datatype messages: the library's only decoder is ParseDatatypeMessage, which returns the
   properties raw; the round trip is "header fields + the exact property bytes the encoder laid out" *)
Theorem C11_array_roundtrip : forall x, wf_array x = true -> dec_datatype (enc_array x) = Ok (proj_array x).
Proof. exact array_roundtrip. Qed.
Print Assumptions C11_array_roundtrip.

Theorem C11_enum_roundtrip : forall x, wf_enum x = true -> dec_datatype (enc_enum x) = Ok (proj_enum x).
Proof. exact enum_roundtrip. Qed.
Print Assumptions C11_enum_roundtrip.

(* compound member lists: a member of a class whose extent the decoder cannot determine (string, reference,
   opaque, array, enum, variable-length) that is not the last member makes the list unparsable *)
Theorem C11_compound_member_extent_refuted :
  encok_compound compound_witness = true /\ dec_compound (enc_compound compound_witness) = Err.
Proof. exact compound_member_extent_refuted. Qed.
Print Assumptions C11_compound_member_extent_refuted.

(* compound datatypes given as a LIST of members, members that are compounds themselves (a tree).
   Encoders: EncodeCompoundDatatypeV1 / V3 (cp_version selects; version 3 always writes 4-byte member
   offsets, whatever the compound size: that is what the Go code does).  A nested compound member is the
   DatatypeMessage of its own encoding (flat).  wf_ctype: at every level 1..65535 (v1) / 1..2^32-1 (v3)
   members, non-empty names without NUL (any length: the version-1 padding to the next multiple of 8 is
   part of the theorem), 32-bit offsets and sizes, header fields of member types in range, the four classes
   with a fixed property length (fixed-point, float, bitfield, time) carrying exactly that many property
   bytes, and every member but the LAST one self-delimiting (sd): fixed-point / float / bitfield / time, or a
   version-3 compound of self-delimiting members.  What sd excludes is the known finding
   C11-compound-member-extent (string, reference, opaque, array, enum, variable-length before the last
   member: C11_compound_member_extent_refuted) and its two consequences for nested compounds
   (C11_compound_v1_member_refuted, C11_compound_greedy_tail_refuted). *)
Theorem C11_compound_roundtrip : forall v s fs, wf_ctype (CComp v s fs) = true ->
  dec_compound (enc_compound (to_compound v s fs)) = Ok (proj_compound v s fs).
Proof. exact compound_tree_roundtrip. Qed.
Print Assumptions C11_compound_roundtrip.

Theorem C11_compound_encoder_accepts : forall v s fs, wf_ctype (CComp v s fs) = true ->
  encok_compound (to_compound v s fs) = true.
Proof. exact wf_ctype_encok. Qed.
Print Assumptions C11_compound_encoder_accepts.

(* nested compounds: ParseDatatypeMessage, then ParseCompoundType on the message and again on every member of
   class compound (what the dataset reader does) gives the whole tree back *)
Theorem C11_compound_nested_roundtrip : forall v s fs, wf_ctype (CComp v s fs) = true ->
  dec_compound_tree (enc_compound (to_compound v s fs)) = Ok (CComp v s fs).
Proof. exact compound_tree_deep_roundtrip'. Qed.
Print Assumptions C11_compound_nested_roundtrip.

(* a self-delimiting member type is parsed back exactly whatever bytes follow it (this is what lets it stand
   before other members) *)
Theorem C11_compound_member_self_delimiting : forall t fuel rest, sd t = true -> (depth t < fuel)%nat ->
  dec_dt fuel (member_hdr (flat t) ++ rest) = Ok (flat t).
Proof. exact sd_dec. Qed.
Print Assumptions C11_compound_member_self_delimiting.

(* hypotheses are satisfiable: 4 members with a nested compound in the middle and a string last (both
   versions; the 9-byte name exercises the version-1 padding), and a 3-level tree *)
Theorem C11_compound_examples_wf :
  wf_ctype (tree_example 3) = true /\ wf_ctype (tree_example 1) = true /\ wf_ctype deep_example = true.
Proof. exact tree_examples_wf. Qed.
Print Assumptions C11_compound_examples_wf.

(* same cause as C11_compound_member_extent_refuted: a version-1 compound member / a version-3 compound
   member ending in a string, followed by another member *)
Theorem C11_compound_v1_member_refuted :
  match v1_member_witness with
  | CComp v s fs => encok_compound (to_compound v s fs) = true /\ dec_compound (enc_compound (to_compound v s fs)) = Err
  | _ => False
  end.
Proof. exact compound_v1_member_refuted. Qed.
Print Assumptions C11_compound_v1_member_refuted.

Theorem C11_compound_greedy_tail_refuted :
  match greedy_tail_witness with
  | CComp v s fs => encok_compound (to_compound v s fs) = true /\ dec_compound (enc_compound (to_compound v s fs)) = Err
  | _ => False
  end.
Proof. exact compound_greedy_tail_refuted. Qed.
Print Assumptions C11_compound_greedy_tail_refuted.
