(* C11 - every metadata encoder is inverted by its decoder: the SECOND link-message parser,
   internal/structures/linkmessage.go ParseLinkMessage (Model/CodecLink2.v), against core.EncodeLinkMessage
   and against the first parser (Model/CodecLink.v).  Property theorems only. *)
From HV Require Import Base.Prelude Base.Outcome Base.Bytes Model.CodecMsg Proofs.CodecMsg
  Model.CodecLink Proofs.CodecLink Model.CodecLink2 Proofs.CodecLink2.

(* structures.ParseLinkMessage inverts core.EncodeLinkMessage: hard links (offset size 1,2,4,8; the address is
   the LinkValue bytes read in the superblock's byte order), soft links with a non-empty path, every other link
   type with at least the 2-byte length field; all four name-length widths, optional type / creation order /
   character set in any combination, reserved flag bits carried through; names of any length >= 1 *)
Theorem C11_link2_roundtrip : forall os be x, wf_link2 os be x = true ->
  dec_link2 os be (enc_link x) = Ok (proj_link2 os be x).
Proof. exact link2_roundtrip. Qed.
Print Assumptions C11_link2_roundtrip.

(* the two parsers never disagree on a field: for EVERY byte string and offset size on which both succeed, the
   second parser's result is the first parser's result re-expressed (same version, flags, type, creation order,
   character set, name; ObjectAddress = the hard-link value bytes in the superblock's byte order; TargetPath =
   the soft-link value; CreationOrderValid = flag bit 2) *)
Theorem C11_link_parsers_agree : forall os be data x y,
  dec_link os data = Ok x -> dec_link2 os be data = Ok y -> y = link2_of_link be x.
Proof. exact link_parsers_agree. Qed.
Print Assumptions C11_link_parsers_agree.

(* and the second parser accepts everything the first accepts, except: empty name, hard link under an offset
   size other than 1,2,4,8, soft link with an empty path *)
Theorem C11_link2_accepts : forall os be data x,
  dec_link os data = Ok x -> 1 <= blen (lk_name x) ->
  (lk_type x = 0 -> size1248 os) -> (lk_type x = 1 -> 1 <= blen (lk_value x)) ->
  dec_link2 os be data = Ok (link2_of_link be x).
Proof. exact link2_accepts. Qed.
Print Assumptions C11_link2_accepts.

Theorem C11_proj_link2_of_proj : forall os be x, proj_link2 os be x = link2_of_link be (proj_link x).
Proof. exact proj_link2_of_proj. Qed.
Print Assumptions C11_proj_link2_of_proj.

(* every value of the first parser's round-trip theorem is covered here under the three extra requirements *)
Theorem C11_wf_link2_of_wf_link : forall os be x,
  wf_link os x = true -> 1 <= blen (lk_name x) ->
  (lk_type x = 0 -> size1248 os) -> (lk_type x = 1 -> 3 <= blen (lk_value x)) ->
  wf_link2 os be x = true.
Proof. exact wf_link2_of_wf_link. Qed.
Print Assumptions C11_wf_link2_of_wf_link.

(* where the outcomes differ (the accepted sets are incomparable) *)

Theorem C11_link_parsers_same_outcome_refuted :
  ~ (forall os be data, oclass (dec_link os data) = oclass (dec_link2 os be data)).
Proof. exact link_parsers_same_outcome_refuted. Qed.
Print Assumptions C11_link_parsers_same_outcome_refuted.

(* empty link name: accepted by core, refused by structures *)
Theorem C11_link2_empty_name_differs :
  dec_link 8 l2w_empty_name = Ok {| lk_version := 1; lk_flags := 0; lk_type := 0; lk_corder := 0; lk_charset := 0;
                                    lk_name := []; lk_value := [1; 2; 3; 4; 5; 6; 7; 8] |} /\
  dec_link2 8 false l2w_empty_name = Err.
Proof. exact link2_empty_name_differs. Qed.
Print Assumptions C11_link2_empty_name_differs.

(* soft link with an empty path: accepted by core, refused by structures *)
Theorem C11_link2_empty_soft_differs :
  dec_link 8 l2w_empty_soft = Ok {| lk_version := 1; lk_flags := 8; lk_type := 1; lk_corder := 0; lk_charset := 0;
                                    lk_name := [108]; lk_value := [] |} /\
  dec_link2 8 false l2w_empty_soft = Err.
Proof. exact link2_empty_soft_differs. Qed.
Print Assumptions C11_link2_empty_soft_differs.

(* link type other than 0, 1, 64: refused by core, accepted (nothing kept) by structures *)
Theorem C11_link2_other_type_differs :
  dec_link 8 l2w_type5 = Err /\
  dec_link2 8 false l2w_type5 =
    Ok {| l2_version := 1; l2_flags := 8; l2_type := 5; l2_name := [108]; l2_corder := 0; l2_corder_valid := false;
          l2_charset := 0; l2_addr := 0; l2_target := [] |}.
Proof. exact link2_other_type_differs. Qed.
Print Assumptions C11_link2_other_type_differs.

(* external link whose value stops after the first length field: refused by core, accepted by structures *)
Theorem C11_link2_short_external_differs :
  dec_link 8 l2w_short_ext = Err /\
  dec_link2 8 false l2w_short_ext =
    Ok {| l2_version := 1; l2_flags := 8; l2_type := 64; l2_name := [108]; l2_corder := 0; l2_corder_valid := false;
          l2_charset := 0; l2_addr := 0; l2_target := [] |}.
Proof. exact link2_short_external_differs. Qed.
Print Assumptions C11_link2_short_external_differs.

(* hard link under an offset size outside 1,2,4,8: accepted by core, refused by structures *)
Theorem C11_link2_offsize3_differs :
  dec_link 3 l2w_hard = Ok {| lk_version := 1; lk_flags := 0; lk_type := 0; lk_corder := 0; lk_charset := 0;
                              lk_name := [108]; lk_value := [1; 2; 3] |} /\
  dec_link2 3 false l2w_hard = Err.
Proof. exact link2_offsize3_differs. Qed.
Print Assumptions C11_link2_offsize3_differs.

(* a name longer than 1 MiB: core's parser refuses its own encoder's output, structures reads it back
   (C11_link2_roundtrip applies to the same x) *)
Theorem C11_link_long_name_core_err : forall os be x,
  wf_link2 os be x = true -> 1048576 < blen (lk_name x) -> dec_link os (enc_link x) = Err.
Proof. exact link_long_name_core_err. Qed.
Print Assumptions C11_link_long_name_core_err.

(* the hypotheses are satisfiable; a message with creation order AND character set *)

Theorem C11_link2_corder_charset_example :
  dec_link 8 l2w_both = Ok {| lk_version := 1; lk_flags := 28; lk_type := 0; lk_corder := 72623859790382856;
                              lk_charset := 1; lk_name := [108; 109]; lk_value := le 8 4096 |} /\
  dec_link2 8 false l2w_both =
    Ok {| l2_version := 1; l2_flags := 28; l2_type := 0; l2_name := [108; 109]; l2_corder := 72623859790382856;
          l2_corder_valid := true; l2_charset := 1; l2_addr := 4096; l2_target := [] |}.
Proof. exact link2_corder_charset_example. Qed.
Print Assumptions C11_link2_corder_charset_example.

Example C11_wf_link2_satisfiable :
  wf_link2 8 true l2x_hard = true /\ wf_link2 8 false l2x_soft = true /\ wf_link2 4 false l2x_ext = true /\
  l2_addr (proj_link2 8 true l2x_hard) = 4096 /\ l2_target (proj_link2 8 false l2x_soft) = [47; 97].
Proof. exact wf_link2_examples. Qed.
Print Assumptions C11_wf_link2_satisfiable.
