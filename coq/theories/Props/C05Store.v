(* C05 (extent part) - in every reachable state all extents are pairwise disjoint, end at or below the
   allocator's end of file, and after Close at or below the physical file size. *)
From HV Require Import Base.Prelude Model.Store Proofs.Store Proofs.StoreOps Proofs.StoreInv Proofs.StoreProps.
Local Open Scope N_scope.

Theorem C05_extents_disjoint_inbounds : forall bp ba sb h,
  let s := reach bp ba sb h in
  ovf (st s) = false ->
  NoOverlap (exts (st s)) /\
  Forall (fun e => ext_end e <= next (al (st s))) (exts (st s)) /\
  (closed s = true -> Forall (fun e => ext_end e <= fsize (st s)) (exts (st s))).
Proof. exact (fun bp ba sb h => st_ok_extents bp ba _ (reach_ok bp ba sb h)). Qed.
Print Assumptions C05_extents_disjoint_inbounds.

(* the allocator is append-only: a new block starts at the old end of file and is disjoint from everything *)
Theorem C05_allocate_fresh : forall s o k n e s', ext_ok s -> alloc_ext s o k n = Some (e, s') -> ovf s' = false ->
  start e = next (al s) /\ next (al s') = next (al s) + n /\ Forall (fun e' => edisj e e') (exts s).
Proof. exact alloc_ext_fresh. Qed.
Print Assumptions C05_allocate_fresh.

(* the lazy flush of a global heap collection (roll-over inside a later variable-length write, Close) and every other
   write that starts inside a collection's extent ends inside it: the buffer has the size createNewHeap allocated *)
Theorem C05_gcol_flush_within_extent : forall bp ba sb h o w,
  let s := reach bp ba sb h in let s' := fst (step s o) in
  ovf (st s') = false -> In w (wlog (st s')) ->
  forall e, In e (exts (st s')) -> is_gcol (kind_of e) = true -> start e <= fst w -> fst w < ext_end e ->
  fst w + snd w <= ext_end e.
Proof. exact (fun bp ba sb h o w Hov Hw e Hin _ => step_write_within bp ba _ o w (reach_ok bp ba sb h) Hov Hw e Hin). Qed.
Print Assumptions C05_gcol_flush_within_extent.
