(* C06 at message level, for ALL byte strings: the reader's parsers against the format specification.

   Files written by the reference HDF5 library conform to the HDF5 File Format Specification, so "what the reader
   returns without error equals what the reference library reports; unsupported features are errors, never other
   values" becomes, per message type:

       for every byte string bs and every size-of-offsets / size-of-lengths:
       if the STRICT specification decoder (Spec/FormatMsg.v, Spec/Format.v; written from the specification) accepts bs
       with logical value s, then the reader model (Model/Codec*.v dec_X; each tied to the Go Parse* function on every
       run of C11 / C07, malformed inputs included) returns Err, or Ok v with v agreeing with s on every field the
       reader returns - and never Panic                                  ([err_or (agree s) (dec_X bs)]).

   Three repairs found by these theorems are in notes/fixes (c06-superblock-sizes, c06-attribute-v2-padding,
   c06-pipeline-v2-filter-name).  The three models carry a boolean switch (dec_superblock_gen, dec_attribute_gen,
   dec_pipeline_gen: false = the code before the repair, true = the repaired code = dec_superblock / dec_attribute /
   dec_pipeline); the ties read from the source tree under test which variant it implements.  The positive theorems are
   stated for the repaired variant (or for both), the old behaviour stays stated as [_refuted] for the variant [false].

   Where that statement is FALSE for the faithful reader model there is a [_refuted] theorem with the witness bytes
   (a conformant message the reader decodes, without error, to a different value), and the positive theorem carries
   the hypothesis that names the excluded class. *)
From HV Require Import Base.Prelude Base.Outcome Base.Bytes Spec.Parse Spec.Format Spec.FormatMsg
  Model.CodecMsg Model.CodecType Model.CodecLink Model.CodecAttr Model.CodecSuper Model.CodecFilter
  Proofs.ReaderSpecBase Proofs.ReaderSpecDataspace Proofs.ReaderSpecLayout Proofs.ReaderSpecLink Proofs.ReaderSpecSuper Proofs.ReaderSpecAttr Proofs.ReaderSpecType Proofs.ReaderSpecAttrFrame Proofs.ReaderSpecSuperOk Proofs.ReaderSpecInfo Proofs.ReaderSpecTypeAll Proofs.ReaderSpecSuperRepaired Proofs.ReaderSpecPipeline.

(* dataspace (versions 1 and 2; scalar, simple, null;
   maximum extents).  The reader is not told the size of lengths: it infers 8- or 4-byte extents from the message length.
   Proved correct for sizes 4 and 8, including version 1 object headers where the message is zero-padded to a multiple of
   8 bytes (pad_ok). *)
Theorem C06_reader_dataspace : forall (lsz : nat) (pad_ok : bool) (bs : bytes) (s : dataspace_spec),
  lsz = 4%nat \/ lsz = 8%nat ->
  spec_dec_dataspace lsz pad_ok bs = Ok s ->
  simple_rank0 s = false ->
  err_or (ds_agree s) (dec_dataspace bs).
Proof. exact dataspace_reader_spec. Qed.
Print Assumptions C06_reader_dataspace.

(* size of lengths 2: two 2-byte extents (3, 5) are read as one 4-byte extent 327683 and a second extent 0 *)
Theorem C06_reader_dataspace_lsz2_refuted :
  spec_dec_dataspace 2 true dataspace_lsz2_witness =
    Ok {| dss_version := 1; dss_type := 1; dss_dims := [3; 5]; dss_maxdims := None |} /\
  dec_dataspace dataspace_lsz2_witness =
    Ok {| dsp_version := 1; dsp_type := 1; dsp_dims := [327683; 0]; dsp_maxdims := None |}.
Proof. exact dataspace_lsz2_refuted. Qed.
Print Assumptions C06_reader_dataspace_lsz2_refuted.

(* version 2 "simple" with rank 0 (the excluded class simple_rank0; never written by the reference library, which turns
   rank 0 into a scalar dataspace): reported as scalar *)
Theorem C06_reader_dataspace_simple_rank0_refuted :
  spec_dec_dataspace 8 false [2; 0; 0; 1] =
    Ok {| dss_version := 2; dss_type := 1; dss_dims := []; dss_maxdims := None |} /\
  dec_dataspace [2; 0; 0; 1] =
    Ok {| dsp_version := 2; dsp_type := 0; dsp_dims := [1]; dsp_maxdims := None |}.
Proof. exact dataspace_simple_rank0_refuted. Qed.
Print Assumptions C06_reader_dataspace_simple_rank0_refuted.

(* data layout version 3: compact (size, data),
   contiguous (address, size), chunked (B-tree address, chunk dimensions incl. the element size), for every valid
   size of offsets / lengths and superblock version < 4 *)
Theorem C06_reader_layout : forall (osz lsz : nat) (sbver : N) (pad_ok : bool) (bs : bytes) (L : layout_spec),
  size_ok (N.of_nat osz) = true -> size_ok (N.of_nat lsz) = true -> sbver < 4 ->
  spec_dec_layout osz lsz pad_ok bs = Ok L ->
  err_or (ly_agree L) (dec_layout (sb_of sbver osz lsz) bs).
Proof. exact layout_reader_spec. Qed.
Print Assumptions C06_reader_layout.

(* datatype, classes 0 (fixed point), 1 (floating point),
   3 (string): for every message of bytes (< 256) with that class nibble which the strict specification decoder accepts, the
   reader returns Ok (never an error, never a panic) with the same class, version and size, and the class bit field from
   which byte order, padding bits, sign / mantissa normalisation / sign location / string padding / character set are read
   (dt_agree).  The property bytes (bit offset, precision, exponent and mantissa layout, bias) are handed back raw. *)
Theorem C06_reader_datatype_fixed_float_string : forall (pad_ok : bool) (bs : bytes) (t : dtype) (tg : list tag),
  bytes_ok bs = true ->
  dt_class_nibble bs = 0 \/ dt_class_nibble bs = 1 \/ dt_class_nibble bs = 3 ->
  spec_dec_datatype strict pad_ok bs = Ok (t, tg) ->
  exists v, dec_datatype bs = Ok v /\ dt_agree t v.
Proof. exact datatype_reader_spec. Qed.
Print Assumptions C06_reader_datatype_fixed_float_string.

(* symbol table message: the reader always takes two
   8-byte addresses; right for 8-byte offsets, an error (message shorter than 16 bytes) for smaller ones *)
Theorem C06_reader_symtab : forall (osz : nat) (pad_ok : bool) (bs : bytes) (s : N * N),
  size_ok (N.of_nat osz) = true ->
  spec_dec_symtab osz pad_ok bs = Ok s ->
  err_or (st_agree s) (dec_symtab false bs).
Proof. exact symtab_reader_spec. Qed.
Print Assumptions C06_reader_symtab.

(* link message: flags, optional link type / creation
   order / character set, name-length width 1/2/4/8, name; hard link address, soft link target; for every size of
   offsets *)
Theorem C06_reader_link : forall (osz : nat) (pad_ok : bool) (bs : bytes) (l : link_spec) (tg : list tag),
  spec_dec_link strict osz pad_ok bs = Ok (l, tg) ->
  err_or (lk_agree l) (dec_link (N.of_nat osz) bs).
Proof. exact link_reader_spec. Qed.
Print Assumptions C06_reader_link.

(* superblock: REFUTED unless both sizes are 8.
   Version 2/3: the reader takes byte 9 (size of offsets) as a flags byte, byte 10 (size of lengths) as the size of
   offsets and sets the size of lengths to 8.  Version 0: root group addresses are read at the fixed file positions 64,
   80, 88, which is where they are for 8-byte offsets only.  Each witness is accepted by the strict specification decoder
   (lookup3 checksum included) and decoded by the reader WITHOUT error to other values
   (views: version, size of offsets, size of lengths, base address, root group address). *)
Theorem C06_reader_superblock_v2_sizes_refuted :
  spec_view sb2_witness_8_4 = Ok (2, 8, 4, 0, 48) /\
  reader_view sb2_witness_8_4 = Ok (2, 4, 8, 0, 4294967295).
Proof. exact superblock_v2_sizes_refuted. Qed.
Print Assumptions C06_reader_superblock_v2_sizes_refuted.

Theorem C06_reader_superblock_v2_lensize_refuted :
  spec_view sb2_witness_4_4 = Ok (3, 4, 4, 0, 48) /\
  reader_view sb2_witness_4_4 = Ok (3, 4, 8, 0, 48).
Proof. exact superblock_v2_lensize_refuted. Qed.
Print Assumptions C06_reader_superblock_v2_lensize_refuted.

Theorem C06_reader_superblock_v0_offsets_refuted :
  spec_view sb0_witness_4 = Ok (0, 4, 4, 0, 96) /\
  reader_view sb0_witness_4 = Ok (0, 4, 4, 0, 0).
Proof. exact superblock_v0_offsets_refuted. Qed.
Print Assumptions C06_reader_superblock_v0_offsets_refuted.

(* attribute message: REFUTED for version 2.
   The reader pads name / datatype / dataspace to multiples of 8 in versions 1 AND 2; the specification pads in version 1
   only.  The witness (attribute "a", 1-byte integer, dataspace [16], 16 data bytes) is accepted by the strict
   specification decoder; the reader returns without error another datatype, a scalar dataspace and 6 data bytes. *)
Theorem C06_reader_attribute_v2_padding_refuted :
  spec_dec_attribute strict 4 false attr_v2_witness =
    Ok ({| as_version := 2; as_cset := 0; as_name := [97]; as_dtype := DFixed 1 1 0 0 0 false 0 8;
           as_space := {| dss_version := 2; dss_type := 1; dss_dims := [16]; dss_maxdims := None |};
           as_data := [7; 7; 2; 0; 0; 0; 0; 0; 0; 0; 1; 2; 3; 4; 5; 6] |}, []) /\
  dec_attribute_gen false false attr_v2_witness =
    Ok {| atp_name := [97];
          atp_dt := {| dt_class := 0; dt_version := 0; dt_size := 16908296; dt_cbf := 0; dt_props := [0; 1; 16; 0] |};
          atp_ds := {| dsp_version := 2; dsp_type := 0; dsp_dims := [1]; dsp_maxdims := None |};
          atp_data := Some [1; 2; 3; 4; 5; 6] |}.
Proof. exact attribute_v2_padding_refuted. Qed.
Print Assumptions C06_reader_attribute_v2_padding_refuted.

(* attribute message versions 1 and 3: framing.
   version | reserved | name size | datatype size | dataspace size | [v3: character set] | name | datatype | dataspace |
   data; name / datatype / dataspace padded to multiples of 8 bytes in version 1 (the reader's uint16 (s+7)&^7 is proved
   equal to the specification's rounding for messages shorter than 65536 bytes = the object header's 16-bit message size).
   at_agree: same name; dataspace agrees (ds_agree); datatype agrees (dt_agree) when of class 0 / 1 / 3; the data the reader
   hands back (the rest of the message, so including up to 7 bytes of object header padding) starts with the
   specification's data bytes. *)
Theorem C06_reader_attribute_v1 : forall (rep : bool) (lsz : nat) (pad_ok : bool) (bs : bytes) (a : attribute_spec) (tg : list tag),
  bytes_ok bs = true -> blen bs < 65536 ->
  lsz = 4%nat \/ lsz = 8%nat ->
  spec_dec_attribute strict lsz pad_ok bs = Ok (a, tg) ->
  index bs 0 = Ok 1 ->
  simple_rank0 (as_space a) = false ->
  err_or (at_agree a) (dec_attribute_gen rep false bs).
Proof. exact attribute_v1_reader_spec. Qed.
Print Assumptions C06_reader_attribute_v1.

Theorem C06_reader_attribute_v3 : forall (rep : bool) (lsz : nat) (pad_ok : bool) (bs : bytes) (a : attribute_spec) (tg : list tag),
  bytes_ok bs = true -> blen bs < 65536 ->
  lsz = 4%nat \/ lsz = 8%nat ->
  spec_dec_attribute strict lsz pad_ok bs = Ok (a, tg) ->
  index bs 0 = Ok 3 ->
  simple_rank0 (as_space a) = false ->
  err_or (at_agree a) (dec_attribute_gen rep false bs).
Proof. exact attribute_v3_reader_spec. Qed.
Print Assumptions C06_reader_attribute_v3.

(* superblock with size of offsets = size of lengths = 8,
   for the UNREPAIRED reader (dec_superblock_gen false): the class the refutations above leave.  For every file image the strict specification decoder accepts (signature, version,
   reserved bytes, K values, flags, addresses, root symbol table entry / lookup3 checksum) the reader returns an error or the
   same version, sizes, little-endian byte order and root group address; versions 2/3: base address and superblock extension
   address; version 0: the cached B-tree / local heap addresses when the root entry's cache type is 1 (sb_agree).
   Version 1 superblocks are an error for the reader. *)
Theorem C06_reader_superblock_v2_v3 : forall (bs : bytes) (s : superblock_spec) (tg : list tag) (r : bytes),
  spec_dec_superblock strict bs = Ok (s, tg, r) ->
  sbs_version s = 2 \/ sbs_version s = 3 -> sbs_O s = 8 -> sbs_L s = 8 ->
  err_or (sb_agree s) (dec_superblock_gen false bs).
Proof. exact superblock_v23_sizes8_reader_spec. Qed.
Print Assumptions C06_reader_superblock_v2_v3.

Theorem C06_reader_superblock_v0 : forall (bs : bytes) (s : superblock_spec) (tg : list tag) (r : bytes),
  spec_dec_superblock strict bs = Ok (s, tg, r) ->
  sbs_version s = 0 -> sbs_O s = 8 -> sbs_L s = 8 ->
  err_or (sb_agree s) (dec_superblock_gen false bs).
Proof. exact superblock_v0_sizes8_reader_spec. Qed.
Print Assumptions C06_reader_superblock_v0.

(* version 0: the base address is reported as 0 whatever the superblock says (outside sb_agree for version 0) *)
Theorem C06_reader_superblock_v0_base_refuted :
  spec_view (sb0_base 512) = Ok (0, 8, 8, 512, 96) /\ reader_view (sb0_base 512) = Ok (0, 8, 8, 0, 96).
Proof. exact superblock_v0_base_refuted. Qed.
Print Assumptions C06_reader_superblock_v0_base_refuted.

(* datatype, all eleven classes (nested descriptions
   included): class, version and size of whatever the reader returns are the specification's; never a panic *)
Theorem C06_reader_datatype_header : forall (pad_ok : bool) (bs : bytes) (t : dtype) (tg : list tag),
  bytes_ok bs = true ->
  spec_dec_datatype strict pad_ok bs = Ok (t, tg) ->
  err_or (dt_header_agree t) (dec_datatype bs).
Proof. exact datatype_header_reader_spec. Qed.
Print Assumptions C06_reader_datatype_header.

(* link info message: flags, maximum creation index,
   fractal heap / name B-tree / creation order B-tree addresses, for every valid size of offsets *)
Theorem C06_reader_linkinfo : forall (osz : nat) (sbver lsz : N) (pad_ok : bool) (bs : bytes) (s : linkinfo_spec),
  size_ok (N.of_nat osz) = true ->
  spec_dec_linkinfo osz pad_ok bs = Ok s ->
  err_or (li_agree s)
         (dec_linkinfo {| sb_version := sbver; sb_offsize := N.of_nat osz; sb_lensize := lsz; sb_bigendian := false |} bs).
Proof. exact linkinfo_reader_spec. Qed.
Print Assumptions C06_reader_linkinfo.

(* attribute info message of exactly the specified size
   (version 2 object headers do not pad).  With flag bit 0 (creation order tracked) the reader skips four bytes for the
   2-byte maximum creation index and so finds the message too short: an error, not another value. *)
Theorem C06_reader_attrinfo : forall (osz : nat) (sbver lsz : N) (bs : bytes) (s : attrinfo_spec),
  size_ok (N.of_nat osz) = true ->
  spec_dec_attrinfo osz false bs = Ok s ->
  err_or (ai_agree s)
         (dec_attrinfo {| sb_version := sbver; sb_offsize := N.of_nat osz; sb_lensize := lsz; sb_bigendian := false |} bs).
Proof. exact attrinfo_reader_spec. Qed.
Print Assumptions C06_reader_attrinfo.

(* ... followed by zero padding (only possible in a version 1 object header, where the reference library never puts this
   message) the same misreading gives other addresses *)
Theorem C06_reader_attrinfo_padded_refuted :
  spec_dec_attrinfo 8 true attrinfo_padded_witness =
    Ok {| ais_flags := 1; ais_maxcidx := Some 5; ais_heap := 1000; ais_btname := 2000; ais_btorder := None |} /\
  dec_attrinfo {| sb_version := 2; sb_offsize := 8; sb_lensize := 8; sb_bigendian := false |} attrinfo_padded_witness =
    Ok {| ai_version := 0; ai_flags := 1; ai_heap := 562949953421312000; ai_btname := 0; ai_maxcidx := 5; ai_btorder := 0 |}.
Proof. exact attrinfo_padded_refuted. Qed.
Print Assumptions C06_reader_attrinfo_padded_refuted.

(* attribute message version 2 for the REPAIRED reader
   (dec_attribute_gen true = dec_attribute: the code with notes/fixes/c06-attribute-v2-padding.patch): the statement refuted
   above for the variant [false] holds once version 2 is no longer padded. *)
Theorem C06_reader_attribute_is_repaired_variant : forall (bigendian : bool) (data : bytes),
  dec_attribute bigendian data = dec_attribute_gen true bigendian data.
Proof. reflexivity. Qed.
Print Assumptions C06_reader_attribute_is_repaired_variant.

Theorem C06_reader_attribute_v2_repaired : forall (lsz : nat) (pad_ok : bool) (bs : bytes) (a : attribute_spec) (tg : list tag),
  bytes_ok bs = true -> blen bs < 65536 ->
  lsz = 4%nat \/ lsz = 8%nat ->
  spec_dec_attribute strict lsz pad_ok bs = Ok (a, tg) ->
  index bs 0 = Ok 2 ->
  simple_rank0 (as_space a) = false ->
  err_or (at_agree a) (dec_attribute false bs).
Proof. exact attribute_v2_repaired_reader_spec. Qed.
Print Assumptions C06_reader_attribute_v2_repaired.

(* superblock for the REPAIRED reader
   (dec_superblock_gen true = dec_superblock: the code with notes/fixes/c06-superblock-sizes.patch): for EVERY size of
   offsets / lengths the format allows - no hypothesis on the sizes any more. *)
Theorem C06_reader_superblock_is_repaired_variant : forall (file : bytes),
  dec_superblock file = dec_superblock_gen true file.
Proof. reflexivity. Qed.
Print Assumptions C06_reader_superblock_is_repaired_variant.

Theorem C06_reader_superblock_v2_v3_repaired : forall (bs : bytes) (s : superblock_spec) (tg : list tag) (r : bytes),
  spec_dec_superblock strict bs = Ok (s, tg, r) ->
  sbs_version s = 2 \/ sbs_version s = 3 ->
  err_or (sb_agree s) (dec_superblock bs).
Proof. exact superblock_v23_repaired_reader_spec. Qed.
Print Assumptions C06_reader_superblock_v2_v3_repaired.

Theorem C06_reader_superblock_v0_repaired : forall (bs : bytes) (s : superblock_spec) (tg : list tag) (r : bytes),
  spec_dec_superblock strict bs = Ok (s, tg, r) ->
  sbs_version s = 0 ->
  err_or (sb_agree s) (dec_superblock bs).
Proof. exact superblock_v0_repaired_reader_spec. Qed.
Print Assumptions C06_reader_superblock_v0_repaired.

(* the three refutation witnesses under the repaired reader
   (views: version, size of offsets, size of lengths, base, root, cached B-tree, cached heap) *)
Theorem C06_reader_superblock_repaired_witnesses :
  repaired_view sb2_witness_8_4 = Ok (2, 8, 4, 0, 48, 0, 0) /\
  repaired_view sb2_witness_4_4 = Ok (3, 4, 4, 0, 48, 0, 0) /\
  repaired_view sb0_witness_4 = Ok (0, 4, 4, 0, 96, 136, 680).
Proof. exact superblock_repaired_witnesses. Qed.
Print Assumptions C06_reader_superblock_repaired_witnesses.

(* filter pipeline message version 2: REFUTED for
   user-defined filters (identifier >= 256).  A genuine version 2 message gives such a filter a name-length field and a
   name; the reader reads neither (outside the version 1 layout), so it returns the name length as the flags, drops the
   client data and continues behind the wrong field.  Witness: filter 32000 "lzf" with client data [5].
   With notes/fixes/c06-pipeline-v2-filter-name.patch (dec_pipeline_gen true = dec_pipeline) the witness is decoded as the specification says. *)
Theorem C06_reader_pipeline_v2_userfilter_refuted :
  spec_dec_pipeline strict false pipeline_v2_userfilter_witness =
    Ok ([{| fl_id := 32000; fl_flags := 0; fl_name := [108; 122; 102; 0]; fl_cd := [5] |}], []) /\
  dec_pipeline_gen false pipeline_v2_userfilter_witness =
    Ok {| pl_version := 2; pl_nfilters := 1;
          pl_filters := [{| rf_id := 32000; rf_namelen := 0; rf_flags := 4; rf_ncd := 0; rf_name := []; rf_cd := None |}] |}.
Proof. exact pipeline_v2_userfilter_refuted. Qed.
Print Assumptions C06_reader_pipeline_v2_userfilter_refuted.

Theorem C06_reader_pipeline_is_repaired_variant : forall (data : bytes), dec_pipeline data = dec_pipeline_gen true data.
Proof. reflexivity. Qed.
Print Assumptions C06_reader_pipeline_is_repaired_variant.

Theorem C06_reader_pipeline_v2_userfilter_repaired :
  dec_pipeline pipeline_v2_userfilter_witness =
    Ok {| pl_version := 2; pl_nfilters := 1;
          pl_filters := [{| rf_id := 32000; rf_namelen := 4; rf_flags := 0; rf_ncd := 1; rf_name := [108; 122; 102];
                            rf_cd := Some [5] |}] |}.
Proof. exact pipeline_v2_userfilter_repaired. Qed.
Print Assumptions C06_reader_pipeline_v2_userfilter_repaired.
