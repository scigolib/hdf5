(* C06 - the Coq whole-file specification walker (Spec/Walk.v) as the reference for the reader on reference-library files:
   theorems only; lemmas in Proofs/WalkTol.v and Proofs/Walk.v; satisfiability of the hypotheses: Proofs/RefWalkExamples.v.
   tools/props/c06walk.py compares the tree summary of the STRICT walk with what the Go reader returns. *)
From HV Require Import Base.Prelude Base.Outcome Base.Bytes Spec.Parse Spec.Walk Proofs.Walk Proofs.WalkTol.

(* (1) Monotonicity of tolerance, for ALL byte strings and fuels: what the strict walk accepts, the walk under every tolerance (in
   particular the tolerant walk) accepts with the IDENTICAL result - same extents, same tree summary, same tags.  So "the strict
   walk accepts" is a sound filter for "the file conforms to the specification as encoded in Spec/": no listed deviation of the
   writer is needed to read it, and the answer does not depend on which deviations one is prepared to tolerate. *)
Theorem C06_walk_strict_accepts_any_tolerance : forall tol fuel f r,
  walk wstrict fuel f = Ok r -> walk tol fuel f = Ok r.
Proof. exact walk_strict_any_tolerance. Qed.
Print Assumptions C06_walk_strict_accepts_any_tolerance.

Theorem C06_walk_strict_implies_tolerant_same_summary : forall fuel f r,
  walk wstrict fuel f = Ok r -> exists r', walk wtolerant fuel f = Ok r' /\ wr_tree r' = wr_tree r /\ wr_tags r' = wr_tags r.
Proof. exact walk_strict_tolerant_same_summary. Qed.
Print Assumptions C06_walk_strict_implies_tolerant_same_summary.

(* (2) The summary is a function of the file alone: two accepting runs - the strict one with any fuel, the other with any tolerance
   and any fuel - return the same result.  (That a fixed fuel suffices for every file is NOT proved; the tie runs with
   [default_fuel] and counts "fuel exhausted" as a rejection reason.) *)
Theorem C06_walk_summary_function_of_file : forall tol fuel1 fuel2 f r1 r2,
  walk wstrict fuel1 f = Ok r1 -> walk tol fuel2 f = Ok r2 -> r1 = r2.
Proof. exact walk_result_unique. Qed.
Print Assumptions C06_walk_summary_function_of_file.

(* (3) Specification decoders are monotone in the tolerance in general (t1 below t2): the datatype decoder as the recursive case.
   NOT proved here (partial): that the strict walk returns the EMPTY tag list; the tie checks it on every accepted corpus file
   (walk6_obs carries the number of tags, tools/props/c06walk.py requires 0). *)
Theorem C06_datatype_decoder_tolerance_mono_partial : forall t1 t2 pad bs r, tle t1 t2 ->
  Spec.FormatMsg.spec_dec_datatype t1 pad bs = Ok r -> Spec.FormatMsg.spec_dec_datatype t2 pad bs = Ok r.
Proof. exact (fun t1 t2 pad bs r T => ole_datatype t1 t2 T pad bs r). Qed.
Print Assumptions C06_datatype_decoder_tolerance_mono_partial.
