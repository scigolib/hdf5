(* C03, end to end at byte level for the NAMESPACE.
   Model/TreeImage.v: tree_image h = the byte image of  CreateForWrite; <h>; Close  for histories h of CreateGroup /
   CreateDataset(+Write) / CreateHardLink calls, as a fold of a byte-level step function over the file (allocate = append; a
   creation appends its blocks and rewrites the parent's heap segment and symbol table node in place through
   GroupWire.link_heap / link_snod; a hard link also rewrites the target's header with the RefCount message), with the ok/err
   answer of every call.  Compared with the library BYTE FOR BYTE on every run, whole file and every answer
   (tools/props/c03file.py: generated histories up to 40 creations, depth 5, names filling the 256-byte heap, groups filled to 32
   entries, duplicate / missing-parent / missing-target / capacity refusals in between).

   The main statement is C03_file_tree_depth1 (last but one).  For EVERY history h whose calls are CreateGroup / CreateDataset
   with a path "/" name in the specification's syntax (Model/TreeFlat.v d1_op: one component, non-empty, no NUL, no '/'; dataset
   arguments covered) - accepted or REFUSED (duplicate name, heap full, node full) - with the file below 2^62 and at least one
   successful creation:
     (1) tree_oks h = the specification's per-call answers (map is_ok of Model/GroupNS.v spec_step under go_cfg);
     (2) the specification's tree exists, spec_tree = Some tr, and for an address map addr (fixed by
         node_of_tree addr "/" tr = Grp "/" 2168 (flat_nodes t_init h): the root at 2168, every child at the header address the
         model's allocator gave the creating call)
         run0 (tree_image h) (p_open ..) = Ok (node_of_tree addr "/" tr).

   The theorems, in the order of the file:
     - the WRITER's in-place step on any file (C03_file_link_is_two_rewrites, _link_commutes, _link_rest_untouched): on every file
       that holds a group's heap and node anywhere, with arbitrary other bytes around and between them, linkToParent's two
       rewrites fail exactly when the abstract namespace model (Model/GroupNS.v add_string / add_entry, i.e. Props/C03.v) fails,
       otherwise the file holds the abstract model's new segment and the node with the entry appended at the same places and
       every other placed block of the file is still in place;
     - the READER's stages for a heap and a node placed anywhere (C03_file_local_heap_placed, _snod_placed): LoadLocalHeap's and
       ParseSymbolTableNode's I/O programs return the segment and the n <= 32 entries;
     - evaluated instances (C03_file_one_dataset_is_image_v2, _tree_example, _link_witness): the one-dataset history is the image
       of Props/C01File.v; on a nested history with refused calls and hard links hdf5.Open's loader program (p_open) run on
       tree_image returns exactly the tree built;
     - the READER at symbolic addresses (C03_file_superblock_any, _with_header_placed, _group_btree_placed, _children_placed,
       _modern_placed, _object_child, _children_loop_depth1 with the loader state threaded: visited B-trees, loading set, load
       counter against the budget) and their composition C03_file_open_depth1: for EVERY closed file (superblock + anything) in
       which a root group's four blocks (heap, node with n <= 32 entries, B-tree node, header) are placed and every entry's
       object address holds a placed version 2 header of a dataset (any header without attribute messages that
       determineObjectType calls a dataset) or of an empty symbol-table group with its own placed blocks, hdf5.Open's program
       returns the root with exactly those n children in entry order, names from the heap, kinds from the headers;
     - the WRITER's whole steps (C03_file_placed_init, _alloc_group_appends, _alloc_dataset_appends, _append_keeps_placed,
       _item_placed, _link_on_image, _step_group_preserves_placed, _step_dataset_preserves_placed, _close_image): Placed st = the
       file is the superblock followed by the items created so far (group = heap | node | B-tree | header block, dataset =
       data | header block), every group's segment and node well-formed, the root and every fw.groups entry name a group item.
       CreateForWrite establishes it; CreateGroup and CreateDataset preserve it in every branch, refused calls included;
     - depth-1 histories (C03_file_flat_init, _link_root, _flat_group_step, _flat_dataset_step, _flat_run, _flat_open): the CONTENT
       invariant FlatInv - root segment and node agree with a name list by Proofs/GroupNSHeap.v gwf, every item is an empty group
       as written or a dataset with a header the reader accepts, entry i = (offset of name i, header address of an item), child
       B-trees distinct - is established by CreateForWrite, preserved by every flat step, and enough for C03_file_open_depth1.
       C03_file_tree_depth1_partial: for EVERY flat history h (Model/TreeFlat.v flat_hist: each call either leaves the writer's
       state exactly as it was - any refusal: duplicate, missing parent, missing target, capacity, malformed path, any hard
       link that is refused - or is a CreateGroup / CreateDataset with the root as parent, covered arguments, file below 2^62)
       with at least one successful creation, hdf5.Open's program on tree_image h returns the root with exactly flat_nodes h:
       one child per SUCCESSFUL call, in call order, named by the link name the call parsed, a group or a dataset as the call
       said, at the header address the allocator gave it.  C03_file_tree_empty is the file without any creation, evaluated;
       C03_file_tree_depth1_example shows the hypotheses satisfiable on a history with three refused calls;
       C03_file_group_ / _dataset_ / _hardlink_refused_unchanged: a refused call leaves file and fw.groups as they were;
     - against the specification (C03_file_prepare_root_decision: checkLinkable on the bytes of a root whose segment/node agree
       with a name list answers Ok exactly by d1_accept: name not in the list, used + len + 1 <= 256, fewer than 32 entries;
       C03_file_link_root_total: then linkToParent succeeds, the allocated-but-unlinked branch is unreachable;
       C03_file_group_answer / _dataset_answer; C03_file_spec_create: the specification accepts by the same d1_accept and appends
       the child; C03_file_spec_tree_of; C03_file_d1_run: joint induction, FlatInv and the specification's state SpecInv advance
       together), then C03_file_tree_depth1 and C03_file_tree_depth1_witness (its hypotheses are satisfiable).

   Not covered:
     - arbitrary depth: Model/TreeFlat.v C03_file_tree_full : Prop is the statement, NOT proved.  The reader's children loop is
       for children that are datasets or empty groups; FlatInv speaks of the root group only;
     - in C03_file_tree_depth1: calls the specification refuses for other reasons than duplicate / capacity (missing parent,
       missing hard-link target, malformed path) in between, and successful hard links.  The model side has the refusals as
       C03_file_..._refused_unchanged; "specification refuses => prepare_link / resolve_addr fail" is not proved (it needs the
       key set of fw.groups in the invariant).  FlatInv has no step lemma for the header rewrite with the RefCount message, and
       Placed none for CreateHardLink's successful branch;
     - in C03_file_tree_depth1_partial which calls succeed is tree_oks h, the decision of the byte-level model, not the
       specification's; the children's addresses are stated through the model's allocator (end of file at the call), not
       through an independent address assignment;
     - the hypothesis 2197 <= file length (the root header lemma wants two bytes behind the header) excludes the file without
       any creation, which C03_file_tree_empty covers by evaluation. *)
From HV Require Import Base.Prelude Base.Outcome Base.Bytes Model.IOProg Model.IOProgReader Model.IOProgOpen.
From HV Require Import Model.RobustAlloc Model.RobustGroup Model.CodecType Model.GroupWire Model.FileImage Model.TreeImage.
From HV Require Import Proofs.GroupWireHeap Proofs.GroupWireSnod Proofs.FileImage Proofs.FileImageData.
From HV Require Import Proofs.FileImageOhdr Model.CodecOhdr Model.CodecSuper.
From HV Require Import Proofs.TreeImageLink Proofs.TreeImageRead Proofs.TreeImageExamples Proofs.TreeImageHdr Proofs.TreeImageOpen
  Proofs.TreeImagePlaced Proofs.TreeImageStep Proofs.TreeImageFlat Proofs.TreeImageFlatStep Proofs.TreeImageFlatRead Proofs.TreeImageFlatMain Proofs.TreeImageDecide Proofs.TreeImageSpecSide Proofs.TreeImageD1.
From HV Require Import Model.TreeFlat.
From HV Require Proofs.GroupNSHeap.
From HV Require Model.GroupNS.

(* once prepareLink has accepted the call, the model's linkToParent is the heap rewrite followed by the node rewrite *)
Theorem C03_file_link_is_two_rewrites : forall st parent nm child ha sa,
  prepare_link st parent nm child = Ok (ha, sa) ->
  link_to_parent st parent nm child = link_both (t_file st) ha sa nm child.
Proof. exact link_to_parent_eq. Qed.
Print Assumptions C03_file_link_is_two_rewrites.

(* group_file pre mid suf seg s = pre ++ heap header ++ seg ++ mid ++ node s ++ suf  for ARBITRARY pre, mid, suf: the composed
   rewrite fails exactly when the abstract model's add_string fails (nothing written) or its add_entry fails (32 entries),
   otherwise the result is the same file with the abstract model's new segment (same length) and the node with the new entry *)
Theorem C03_file_link_commutes : forall (pre mid suf seg : list N) s nm child,
  snode_ok s = true -> (length (stn_entries s) <= 32)%nat -> child < 18446744073709551616 ->
  blen pre + 32 + blen seg + blen mid + 8 + 40 * 32 <= MaxInt64 ->
  let sa := blen pre + 32 + blen seg + blen mid in
  match NS.add_string (NS.prepare_for_modification seg) nm with
  | None => link_both (group_file pre mid suf seg s) (blen pre) sa nm child = Err
  | Some (off, h1) =>
      let seg' := snd (NS.write_to h1) in
      blen seg' = blen seg /\
      match NS.add_entry (NS.parse_snod 32 (map abs_sym (stn_entries s))) {| NS.e_off := off; NS.e_obj := child |} with
      | None => link_both (group_file pre mid suf seg s) (blen pre) sa nm child = Err /\ length (stn_entries s) = 32%nat
      | Some n1 =>
          exists s1, snode_ok s1 = true /\ stn_entries s1 = stn_entries s ++ [new_sym off child] /\ abs_snode s1 = n1 /\
            link_both (group_file pre mid suf seg s) (blen pre) sa nm child = Ok (group_file pre mid suf seg' s1)
      end
  end.
Proof. exact link_both_commutes. Qed.
Print Assumptions C03_file_link_commutes.

(* every block placed before the heap, between heap and node, or behind the node is in place before and after the rewrite *)
Theorem C03_file_link_rest_untouched : forall (pre mid suf seg seg' : list N) s s1 a b,
  blen seg' = blen seg ->
  (placed pre a b -> placed (group_file pre mid suf seg' s1) a b) /\
  (placed mid a b -> placed (group_file pre mid suf seg s) (blen pre + 32 + blen seg + a) b /\
                     placed (group_file pre mid suf seg' s1) (blen pre + 32 + blen seg + a) b) /\
  (placed suf a b -> placed (group_file pre mid suf seg s) (blen pre + 32 + blen seg + blen mid + 1288 + a) b /\
                     placed (group_file pre mid suf seg' s1) (blen pre + 32 + blen seg + blen mid + 1288 + a) b).
Proof. exact group_file_others_kept. Qed.
Print Assumptions C03_file_link_rest_untouched.

Theorem C03_file_local_heap_placed : forall f a (seg : list N),
  placed f a (heap_header (blen seg) 1 (a + 32)) -> placed f (a + 32) seg ->
  0 < blen seg -> a + 32 + blen seg <= MAXI64 ->
  run0 f (p_local_heap SB' a) = Ok seg.
Proof. exact local_heap_placed. Qed.
Print Assumptions C03_file_local_heap_placed.

Theorem C03_file_snod_placed : forall f a s,
  placed f a (snod_bytes s 32) -> snode_ok s = true -> (length (stn_entries s) <= 32)%nat ->
  Forall (fun e => sy_cache e = 0) (stn_entries s) ->
  run0 f (p_snod SB' a) = Ok (map stentry_of (stn_entries s)).
Proof. exact snod_placed. Qed.
Print Assumptions C03_file_snod_placed.

Theorem C03_file_one_dataset_is_image_v2 :
  tree_oks [TDataset [47; 100] 4 [3] [1; 2; 3]] = [true] /\
  tree_image [TDataset [47; 100] 4 [3] [1; 2; 3]] = image_v2 [100] DT_FIXED 1 0 [3] [1; 2; 3].
Proof. exact one_dataset_is_image_v2. Qed.
Print Assumptions C03_file_one_dataset_is_image_v2.

(* an evaluated instance of the end-to-end statement: /g, /g/d, /g/d again (refused), /x -> /g/d, /g/h, /g/h/y -> /x,
   /q/r (refused), /z -> /nothing (refused): Open on the image returns the tree built; the three names of the dataset share
   its address *)
Theorem C03_file_tree_example :
  forallb op_args_ok ex_hist = true /\
  tree_oks ex_hist = [true; true; false; true; true; true; false; false] /\
  blen (tree_image ex_hist) = 7224 /\
  run0 (tree_image ex_hist) (p_open true (blen (tree_image ex_hist)) 12 8) =
    Ok (Grp [47] 2168 [Grp [103] 4315 [Dset [100] 4580; Grp [104] 6962 [Dset [121] 4580]]; Dset [120] 4580]).
Proof. exact tree_example. Qed.
Print Assumptions C03_file_tree_example.

(* the hypotheses of C03_file_link_commutes / _is_two_rewrites are satisfiable: the root group of a fresh file *)
Theorem C03_file_link_witness :
  init_file = group_file (firstn 48 init_file) [] (skipn 1624 init_file) (zeros 256) (new_snode 32) /\
  snode_ok (new_snode 32) = true /\
  prepare_link t_init [] [100] 2195 = Ok (48, 336) /\
  link_to_parent t_init [] [100] 2195 = link_both init_file 48 336 [100] 2195.
Proof. exact link_example. Qed.
Print Assumptions C03_file_link_witness.

Theorem C03_file_superblock_any : forall e (R : list N), e < 18446744073709551616 -> 80 <= blen R ->
  run0 (enc_superblock (sb_eof e) ++ R) p_superblock = Ok SB'.
Proof. exact superblock_any. Qed.
Print Assumptions C03_file_superblock_any.

Theorem C03_file_with_header_placed : forall f hfuel A a x (k : ohdr' -> prog A), HdrAt f hfuel a x -> no_attr (oh_msgs x) = true ->
  run0 f (with_header SB' hfuel a k) = run0 f (k (proj_ohdr_v2 false x a)).
Proof. exact with_header_placed. Qed.
Print Assumptions C03_file_with_header_placed.

Theorem C03_file_group_btree_placed : forall f ba sa s,
  placed f ba (bt_block sa) -> sa < 9223372036854775808 -> sa <> 0 ->
  placed f sa (snod_bytes s 32) -> snode_ok s = true -> (length (stn_entries s) <= 32)%nat ->
  Forall (fun e => sy_cache e = 0) (stn_entries s) ->
  run0 f (p_group_btree SB' ba) = Ok (map stentry_of (stn_entries s)).
Proof. exact group_btree_placed. Qed.
Print Assumptions C03_file_group_btree_placed.

Theorem C03_file_children_placed : forall f hfuel rec a seg s st, GroupAt f hfuel a seg s -> mem (a + 1576) (vbt st) = false ->
  run0 f (p_children true SB' rec (a + 1576) a st) =
  run0 f (children_loop true SB' rec seg (map stentry_of (stn_entries s)) (with_vbt st (a + 1576))).
Proof. exact children_placed. Qed.
Print Assumptions C03_file_children_placed.

Theorem C03_file_modern_placed : forall f hfuel rec a seg s st, GroupAt f hfuel a seg s -> mem (a + 1576) (vbt st) = false ->
  run0 f (p_modern true SB' hfuel rec (a + 2120) st) =
  match run0 f (children_loop true SB' rec seg (map stentry_of (stn_entries s)) (with_vbt st (a + 1576))) with
  | Ok x => Ok (Grp [] (a + 2120) (fst x), snd x) | Err => Err | Panic => Panic end.
Proof. exact modern_placed. Qed.
Print Assumptions C03_file_modern_placed.

Theorem C03_file_object_child : forall f B hfuel n a nm c st, ChildAt f hfuel a c ->
  mem a (loading st) = false -> lenN' (loading st) < 1024 -> cnt st + 1 <= B ->
  Forall (fun b => mem b (vbt st) = false) (child_bt a c) ->
  run0 f (p_object true SB' B hfuel (p_load true SB' B hfuel (S (S n))) a nm st) = Ok (child_node nm a c, child_st st a c).
Proof. exact object_child. Qed.
Print Assumptions C03_file_object_child.

Theorem C03_file_children_loop_depth1 : forall f B hfuel n (seg : list N) es cs st,
  Forall2 (fun e nc => heap_string seg (sy_name e) = Ok (fst nc) /\ ChildAt f hfuel (sy_obj e) (snd nc)) es cs ->
  Forall (fun e => mem (sy_obj e) (loading st) = false) es -> lenN' (loading st) < 1024 ->
  cnt st + N.of_nat (length es) <= B ->
  NoDup (loop_bts es cs) -> Forall (fun b => mem b (vbt st) = false) (loop_bts es cs) ->
  run0 f (children_loop true SB' (p_load true SB' B hfuel (S (S (S n)))) seg (map stentry_of es) st)
  = Ok (loop_nodes es cs, loop_st st es cs).
Proof. exact children_loop_depth1. Qed.
Print Assumptions C03_file_children_loop_depth1.

(* hdf5.Open on any closed file whose root group has n <= 32 children, each a dataset or an empty group *)
Theorem C03_file_open_depth1 : forall e (R : list N) hfuel n seg s cs,
  let f := enc_superblock (sb_eof e) ++ R in
  e < 18446744073709551616 -> 80 <= blen R ->
  GroupAt f hfuel 48 seg s ->
  Forall2 (fun e nc => heap_string seg (sy_name e) = Ok (fst nc) /\ ChildAt f hfuel (sy_obj e) (snd nc)) (stn_entries s) cs ->
  NoDup (1624 :: loop_bts (stn_entries s) cs) ->
  run0 f (p_open true (blen f) (S (S (S (S (S n))))) hfuel) = Ok (Grp [47] 2168 (loop_nodes (stn_entries s) cs)).
Proof. exact open_depth1. Qed.
Print Assumptions C03_file_open_depth1.

Theorem C03_file_placed_init : Placed t_init.
Proof. exact placed_init. Qed.
Print Assumptions C03_file_placed_init.

Theorem C03_file_alloc_group_appends : forall lay, Forall item_ok lay -> 48 + lsize lay + 3000 < LIM ->
  let ha := 48 + lsize lay in
  alloc_group (image lay) = (image (lay ++ [new_group_item ha]), ha, ha + 288, ha + 1576, ha + 2120).
Proof. exact alloc_group_image. Qed.
Print Assumptions C03_file_alloc_group_appends.

Theorem C03_file_alloc_dataset_appends : forall lay code dims data, Forall item_ok lay ->
  let da := 48 + lsize lay in
  alloc_dataset (image lay) code dims data = (image (lay ++ [new_dset_item code dims data da]), da + blen data).
Proof. exact alloc_dataset_image. Qed.
Print Assumptions C03_file_alloc_dataset_appends.

Theorem C03_file_append_keeps_placed : forall lay it a b, placed (image lay) a b -> placed (image (lay ++ [it])) a b.
Proof. exact append_keeps_placed. Qed.
Print Assumptions C03_file_append_keeps_placed.

Theorem C03_file_item_placed : forall l1 it l2, Forall item_ok l1 ->
  placed (image (l1 ++ it :: l2)) (48 + lsize l1) (item_bytes (48 + lsize l1) it).
Proof. exact item_placed. Qed.
Print Assumptions C03_file_item_placed.

(* linkToParent's two rewrites on the image: one group item gets a new segment and node, everything else is the same list *)
Theorem C03_file_link_on_image : forall l1 seg s hb l2 nm child f2,
  Forall item_ok (l1 ++ IGroup seg s hb :: l2) -> 48 + lsize (l1 ++ IGroup seg s hb :: l2) < LIM -> child < 18446744073709551616 ->
  link_both (image (l1 ++ IGroup seg s hb :: l2)) (48 + lsize l1) (48 + lsize l1 + 288) nm child = Ok f2 ->
  exists seg' s1, item_ok (IGroup seg' s1 hb) /\ f2 = image (l1 ++ IGroup seg' s1 hb :: l2).
Proof. exact link_image. Qed.
Print Assumptions C03_file_link_on_image.

Theorem C03_file_step_group_preserves_placed : forall st p, Placed st -> blen (t_file st) + 3000 < LIM ->
  Placed (fst (t_step st (TGroup p))).
Proof. exact step_group_preserves. Qed.
Print Assumptions C03_file_step_group_preserves_placed.

Theorem C03_file_step_dataset_preserves_placed : forall st p code dims data, Placed st ->
  blen (fst (alloc_dataset (t_file st) code dims data)) < LIM -> Placed (fst (t_step st (TDataset p code dims data))).
Proof. exact step_dataset_preserves. Qed.
Print Assumptions C03_file_step_dataset_preserves_placed.

Theorem C03_file_close_image : forall lay, Forall item_ok lay ->
  t_close (image lay) = enc_superblock (sb_eof (48 + lsize lay)) ++ layout 48 lay.
Proof. exact close_image. Qed.
Print Assumptions C03_file_close_image.

Theorem C03_file_flat_init : FlatInv t_init [].
Proof. exact flat_init. Qed.
Print Assumptions C03_file_flat_init.

(* linkToParent into the root of a flat image: the root's segment and node stay well-formed for the name list + the new name *)
Theorem C03_file_link_root : forall st seg s rest ns parent nm oa f2,
  t_file st = image (flat_lay seg s rest) -> blen seg = 256 -> snode_ok s = true -> (length (stn_entries s) <= 32)%nat ->
  GH.gwf seg (map abs_sym (stn_entries s)) ns -> oa < 18446744073709551616 ->
  NS.is_root_parent parent = true ->
  link_to_parent st parent nm oa = Ok f2 ->
  exists seg' s1 off, f2 = image (flat_lay seg' s1 rest) /\ blen seg' = 256 /\ snode_ok s1 = true /\
    stn_entries s1 = stn_entries s ++ [new_sym off oa] /\ (length (stn_entries s1) <= 32)%nat /\
    GH.gwf seg' (map abs_sym (stn_entries s1)) (ns ++ [nm]).
Proof. exact link_root. Qed.
Print Assumptions C03_file_link_root.

Theorem C03_file_flat_group_step : forall st nodes p, FlatInv st nodes ->
  NS.is_root_parent (fst (NS.parse_path (NS.trim_suffix_slash p))) = true -> blen (t_file st) + 3000 < LIM ->
  FlatInv (fst (t_create_group st p))
    (if snd (t_create_group st p)
     then nodes ++ [Grp (snd (NS.parse_path (NS.trim_suffix_slash p))) (blen (t_file st) + 2120) []] else nodes).
Proof. exact flat_group_step. Qed.
Print Assumptions C03_file_flat_group_step.

Theorem C03_file_flat_dataset_step : forall st nodes p code dims data, FlatInv st nodes ->
  NS.is_root_parent (fst (NS.parse_path p)) = true -> op_args_ok (TDataset p code dims data) = true ->
  blen (t_file st) + blen data + 3000 < LIM ->
  FlatInv (fst (t_create_dataset st p code dims data))
    (if snd (t_create_dataset st p code dims data)
     then nodes ++ [Dset (snd (NS.parse_path p)) (blen (t_file st) + blen data)] else nodes).
Proof. exact flat_dataset_step. Qed.
Print Assumptions C03_file_flat_dataset_step.

Theorem C03_file_flat_run : forall h st nodes, FlatInv st nodes -> flat_hist st h ->
  FlatInv (fst (t_run st h)) (nodes ++ flat_nodes st h).
Proof. exact flat_run. Qed.
Print Assumptions C03_file_flat_run.

Theorem C03_file_flat_open : forall hfuel, (4 < hfuel)%nat -> forall st nodes n,
  FlatInv st nodes -> 2197 <= blen (t_file st) -> blen (t_file st) + 4000 < LIM ->
  let f := t_close (t_file st) in
  run0 f (p_open true (blen f) (S (S (S (S (S n))))) hfuel) = Ok (Grp [47] 2168 nodes).
Proof. exact flat_open. Qed.
Print Assumptions C03_file_flat_open.

Theorem C03_file_tree_depth1_partial : forall h n hfuel, (4 < hfuel)%nat -> flat_hist t_init h ->
  2197 <= blen (t_file (fst (tree_run h))) -> blen (t_file (fst (tree_run h))) + 4000 < FLAT_LIM ->
  run0 (tree_image h) (p_open true (blen (tree_image h)) (S (S (S (S (S n))))) hfuel) = Ok (Grp [47] 2168 (flat_nodes t_init h)).
Proof. exact tree_depth1_partial. Qed.
Print Assumptions C03_file_tree_depth1_partial.

Theorem C03_file_tree_empty : run0 (tree_image []) (p_open true (blen (tree_image [])) 5 5) = Ok (Grp [47] 2168 []).
Proof. exact tree_empty. Qed.
Print Assumptions C03_file_tree_empty.

(* the hypotheses of C03_file_tree_depth1_partial (hence of C03_file_open_depth1, which it instantiates) are satisfiable:
   /g, /d, /d again (refused), /g/x/y (refused), hard link /l -> /n (refused) *)
Theorem C03_file_tree_depth1_example :
  flat_hist t_init flat_ex /\ 2197 <= blen (t_file (fst (tree_run flat_ex))) /\
  blen (t_file (fst (tree_run flat_ex))) + 4000 < FLAT_LIM /\
  tree_oks flat_ex = [true; true; false; false; false] /\
  flat_nodes t_init flat_ex = [Grp [103] 4315 []; Dset [100] 4580].
Proof. exact flat_ex_ok. Qed.
Print Assumptions C03_file_tree_depth1_example.

(* refused calls leave the state (file and fw.groups) exactly as it was: these discharge the first alternative of flat_step *)
Theorem C03_file_group_refused_unchanged : forall st p,
  (forall x, prepare_link st (fst (NS.parse_path (NS.trim_suffix_slash p))) (snd (NS.parse_path (NS.trim_suffix_slash p))) 0 <> Ok x) ->
  t_step st (TGroup p) = (st, false).
Proof. exact group_refused_unchanged. Qed.
Print Assumptions C03_file_group_refused_unchanged.

Theorem C03_file_dataset_refused_unchanged : forall st p code dims data,
  (forall x, prepare_link st (fst (NS.parse_path p)) (snd (NS.parse_path p)) 0 <> Ok x) ->
  t_step st (TDataset p code dims data) = (st, false).
Proof. exact dataset_refused_unchanged. Qed.
Print Assumptions C03_file_dataset_refused_unchanged.

Theorem C03_file_hardlink_refused_unchanged : forall st p q,
  (forall t, resolve_addr st q <> Ok t) \/
  (forall x, prepare_link st (fst (NS.parse_path p)) (snd (NS.parse_path p)) 0 <> Ok x) ->
  t_step st (THardLink p q) = (st, false).
Proof. exact hardlink_refused_unchanged. Qed.
Print Assumptions C03_file_hardlink_refused_unchanged.

(* checkLinkable on the bytes of the root: Ok exactly by the specification's rule on the name list *)
Theorem C03_file_prepare_root_decision : forall st (seg : list N) s rest (ns : list bytes),
  t_file st = image (flat_lay seg s rest) -> blen seg = 256 -> snode_ok s = true -> (length (stn_entries s) <= 32)%nat ->
  GH.gwf seg (map abs_sym (stn_entries s)) ns -> forall parent, NS.is_root_parent parent = true -> forall nm child,
  prepare_link st parent nm child = if NS.heap_name_ok nm && d1_accept ns nm then Ok (48, 336) else Err.
Proof. exact prepare_root_eq. Qed.
Print Assumptions C03_file_prepare_root_decision.

Theorem C03_file_link_root_total : forall st (seg : list N) s rest (ns : list bytes),
  t_file st = image (flat_lay seg s rest) -> blen seg = 256 -> snode_ok s = true -> (length (stn_entries s) <= 32)%nat ->
  GH.gwf seg (map abs_sym (stn_entries s)) ns -> forall parent, NS.is_root_parent parent = true -> forall nm oa,
  NS.heap_name_ok nm = true -> d1_accept ns nm = true -> oa < 18446744073709551616 ->
  exists f2, link_to_parent st parent nm oa = Ok f2.
Proof. exact link_root_ok. Qed.
Print Assumptions C03_file_link_root_total.

Theorem C03_file_group_answer : forall st nodes p n, FlatInv st nodes -> NS.split_path p = Some [n] ->
  blen (t_file st) + 3000 < LIM -> snd (t_create_group st p) = d1_accept (map node_name nodes) n.
Proof. exact group_answer. Qed.
Print Assumptions C03_file_group_answer.

Theorem C03_file_dataset_answer : forall st nodes p n code dims data, FlatInv st nodes -> NS.split_path p = Some [n] ->
  blen (t_file st) + blen data + 3000 < LIM -> snd (t_create_dataset st p code dims data) = d1_accept (map node_name nodes) n.
Proof. exact dataset_answer. Qed.
Print Assumptions C03_file_dataset_answer.

(* the specification on a root-level creation: accepted exactly by d1_accept on the names it holds, then the child is appended *)
Theorem C03_file_spec_create : forall t L p n (g : bool) a, SpecInv t L -> NS.split_path p = Some [n] ->
  let acc := d1_accept (map en_name L) n in
  let r := NS.s_create NS.go_cfg t p (if g then NS.SG [] else NS.SD) in
  NS.is_ok (snd r) = acc /\
  SpecInv (fst r) (if acc then L ++ [{| en_name := n; en_id := NS.s_clock t; en_grp := g; en_addr := a |}] else L).
Proof. exact spec_create. Qed.
Print Assumptions C03_file_spec_create.

Theorem C03_file_spec_tree_of : forall t L, SpecInv t L ->
  NS.spec_tree t = Some (NS.TNode 0 NS.KGroup (map (fun e => (en_name e, ent_tree e)) L)).
Proof. exact spec_tree_of. Qed.
Print Assumptions C03_file_spec_tree_of.

Theorem C03_file_d1_run : forall h st t L, FlatInv st (map ent_node L) -> SpecInv t L -> forallb d1_op h = true -> bounded st h ->
  exists L', FlatInv (fst (t_run st h)) (map ent_node L') /\
    SpecInv (fst (NS.run (NS.spec_step NS.go_cfg) t (map ns_op h))) L' /\
    snd (t_run st h) = map NS.is_ok (snd (NS.run (NS.spec_step NS.go_cfg) t (map ns_op h))) /\
    map ent_node L' = map ent_node L ++ flat_nodes st h /\ flat_hist st h.
Proof. exact d1_run. Qed.
Print Assumptions C03_file_d1_run.

Theorem C03_file_tree_depth1 : forall h n hfuel, (4 < hfuel)%nat -> forallb d1_op h = true -> bounded t_init h ->
  2197 <= blen (t_file (fst (tree_run h))) -> blen (t_file (fst (tree_run h))) + 4000 < FLAT_LIM ->
  let sp := NS.run (NS.spec_step NS.go_cfg) NS.s_empty (map ns_op h) in
  tree_oks h = map NS.is_ok (snd sp) /\
  exists tr addr, NS.spec_tree (fst sp) = Some tr /\
    node_of_tree addr [47] tr = Grp [47] 2168 (flat_nodes t_init h) /\
    run0 (tree_image h) (p_open true (blen (tree_image h)) (S (S (S (S (S n))))) hfuel) = Ok (node_of_tree addr [47] tr).
Proof. exact tree_depth1. Qed.
Print Assumptions C03_file_tree_depth1.

(* its hypotheses are satisfiable, on a history with two calls that library and specification both refuse *)
Theorem C03_file_tree_depth1_witness :
  forallb d1_op d1_ex = true /\ bounded t_init d1_ex /\ 2197 <= blen (t_file (fst (tree_run d1_ex))) /\
  blen (t_file (fst (tree_run d1_ex))) + 4000 < FLAT_LIM /\
  tree_oks d1_ex = [true; true; false; false] /\
  map NS.is_ok (snd (NS.run (NS.spec_step NS.go_cfg) NS.s_empty (map ns_op d1_ex))) = [true; true; false; false] /\
  NS.spec_tree (fst (NS.run (NS.spec_step NS.go_cfg) NS.s_empty (map ns_op d1_ex)))
    = Some (NS.TNode 0 NS.KGroup [([103], NS.TNode 1 NS.KGroup []); ([100], NS.TNode 2 NS.KData [])]).
Proof. exact d1_ex_ok. Qed.
Print Assumptions C03_file_tree_depth1_witness.
