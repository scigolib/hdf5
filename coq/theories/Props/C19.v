(* C19 - rebalancing options never change content; the automatic selector obeys its constraints.
   Statements only; lemmas in Proofs/Selector.v, Proofs/RebalanceConfig.v and Proofs/Detector.v.

   Quantifiers: every strategy (unless the built-in one is named), every constraint setting c, every
   list l of observations (features, workload type, clock reading) - any length, any clock readings
   (also decreasing ones).  p : bool selects the code: false = selector.go as found, true = after
   notes/fixes/selector-zero-time-stability.patch (the stability gate tests hasLastDecision instead
   of !lastDecisionTime.IsZero()).  Everything except the strict stability statement holds for both. *)
From HV Require Import Base.Prelude Model.Selector Proofs.Selector Model.RebalanceConfig Proofs.RebalanceConfig.
From HV Require Import Model.Detector Proofs.Detector.

(* the returned mode is "none" or is permitted by IsAllowed (an empty list permits every mode) *)
Theorem C19_allowed : forall p strategy c l r, In r (run p strategy cstate0 c l) ->
  d_mode (r_dec r) = ModeNone \/ is_allowed c (d_mode (r_dec r)) = true.
Proof. exact allowed_holds. Qed.
Print Assumptions C19_allowed.

(* mode in allowed U {none} when the list is not empty *)
Theorem C19_allowed_list : forall p strategy c l r, In r (run p strategy cstate0 c l) ->
  allowed c <> [] -> d_mode (r_dec r) = ModeNone \/ In (d_mode (r_dec r)) (allowed c).
Proof. exact allowed_list_holds. Qed.
Print Assumptions C19_allowed_list.

(* confidence < MinConfidence (Go's float64 <) gives mode none *)
Theorem C19_min_confidence : forall p strategy c l r, In r (run p strategy cstate0 c l) ->
  f64_lt (d_conf (r_dec r)) (min_conf c) = true -> d_mode (r_dec r) = ModeNone.
Proof. exact min_confidence_holds. Qed.
Print Assumptions C19_min_confidence.

(* built-in strategy, MinConfidence not NaN: "not (confidence >= MinConfidence)" gives none *)
Theorem C19_min_confidence_builtin : forall p c l r, f64_is_nan (min_conf c) = false ->
  In r (run p rule_select cstate0 c l) ->
  f64_le (min_conf c) (d_conf (r_dec r)) = false -> d_mode (r_dec r) = ModeNone.
Proof. exact min_confidence_builtin_total. Qed.
Print Assumptions C19_min_confidence_builtin.

(* the reported confidence is the strategy's, bit for bit *)
Theorem C19_confidence_passthrough : forall p strategy c l r, In r (run p strategy cstate0 c l) ->
  d_conf (r_dec r) = s_conf (r_raw r) /\ exists f w, r_raw r = strategy f w.
Proof. exact confidence_passthrough. Qed.
Print Assumptions C19_confidence_passthrough.

(* 0 <= confidence <= 1 for the built-in strategy, for all features *)
Theorem C19_confidence_range : forall p c l r,
  In r (run p rule_select cstate0 c l) -> f64_in_unit (d_conf (r_dec r)) = true.
Proof. exact confidence_range_builtin. Qed.
Print Assumptions C19_confidence_range.

(* ... and for any strategy that itself answers within [0,1] (which excludes NaN) *)
Theorem C19_confidence_range_any_strategy : forall p strategy c l r,
  (forall f w, f64_in_unit (s_conf (strategy f w)) = true) ->
  In r (run p strategy cstate0 c l) -> f64_in_unit (d_conf (r_dec r)) = true.
Proof. exact confidence_range_any. Qed.
Print Assumptions C19_confidence_range_any_strategy.

(* NaN, precisely: a NaN confidence is never stopped by the confidence gate, is reported unchanged
   (so outside [0,1]), and when no stability memory is armed the strategy's allowed mode is returned *)
Theorem C19_nan_confidence_passes : forall p strategy c st f w now,
  f64_is_nan (s_conf (strategy f w)) = true ->
  let d := snd (select_config p strategy st c f w now) in
  d_kind d <> 1%N /\ d_conf d = s_conf (strategy f w) /\ f64_in_unit (d_conf d) = false
  /\ (is_allowed c (s_mode (strategy f w)) = true -> armed p st = false ->
      d_mode d = s_mode (strategy f w)).
Proof. exact nan_confidence_passes. Qed.
Print Assumptions C19_nan_confidence_passes.

(* a NaN MinConfidence (accepted by SafetyConstraints.Validate) switches the confidence gate off *)
Theorem C19_nan_min_confidence_never_gates : forall p strategy c st f w now,
  f64_is_nan (min_conf c) = true -> d_kind (snd (select_config p strategy st c f w now)) <> 1%N.
Proof. exact nan_min_confidence_never_gates. Qed.
Print Assumptions C19_nan_min_confidence_never_gates.

Theorem C19_nan_refuted : forall p, exists strategy c l r,
  In r (run p strategy cstate0 c l) /\ f64_le (min_conf c) (d_conf (r_dec r)) = false
  /\ d_mode (r_dec r) <> ModeNone /\ f64_in_unit (d_conf (r_dec r)) = false.
Proof. exact nan_refuted. Qed.
Print Assumptions C19_nan_refuted.

(* stability, by the supplied clock (which may run backwards), repaired code: a gate-passing
   decision taken less than MinStabilityPeriod after the latest recorded decision returns the mode
   of the previous gate-passing decision.  [stability_ok true] is that statement checked at every
   position of the history (Model/Selector.v). *)
Theorem C19_stability : forall strategy c l, stability_ok true c (run true strategy cstate0 c l) = true.
Proof. exact (stability_holds true). Qed.
Print Assumptions C19_stability.

(* the code as found satisfies it only with the exception "... and the recorded clock reading is
   not the zero instant 0001-01-01T00:00:00Z" *)
Theorem C19_stability_as_found_partial : forall strategy c l,
  stability_ok false c (run false strategy cstate0 c l) = true.
Proof. exact (stability_holds false). Qed.
Print Assumptions C19_stability_as_found_partial.

Theorem C19_stability_as_found_refuted : exists c l,
  clock_mono true zero_instant l = true /\ stability_ok true c (run false rule_select cstate0 c l) = false.
Proof. exact zero_instant_refuted. Qed.
Print Assumptions C19_stability_as_found_refuted.

(* the same, spelled out for one more call after an arbitrary history *)
Theorem C19_stability_next : forall p strategy c l f w now T m,
  let t := run p strategy cstate0 c l in
  let r := row_of p strategy c (run_state p strategy cstate0 c l) (f, w, now) in
  run p strategy cstate0 c (l ++ [(f, w, now)]) = t ++ [r] /\
  (passes c r = true ->
   g_rec_time (ghost_of c t) = Some T -> g_pass_mode (ghost_of c t) = Some m ->
   p = true \/ T <> zero_instant -> (sat_sub now T < min_stab c)%Z ->
   d_mode (r_dec r) = m).
Proof. exact stability_next. Qed.
Print Assumptions C19_stability_next.

(* with a clock that never decreases (as found: and never reads the zero instant): two changes of
   mode among gate-passing decisions are at least MinStabilityPeriod apart (no flapping) *)
Theorem C19_dwell : forall p strategy c l prev, clock_mono p prev l = true ->
  dwell_ok c (run p strategy cstate0 c l) = true.
Proof. exact dwell_holds. Qed.
Print Assumptions C19_dwell.

(* the invariant that carries it: lastMode is the mode returned by the latest gate-passing decision
   and is an allowed mode; lastDecisionTime is the clock reading of the latest recorded decision *)
Theorem C19_memory_invariant : forall p strategy c l,
  let st := run_state p strategy cstate0 c l in
  let g := ghost_of c (run p strategy cstate0 c l) in
  (g_rec_time g = None /\ g_pass_mode g = None /\ st = cstate0) \/
  (g_rec_time g = Some (last_time st) /\ g_pass_mode g = Some (last_mode st)
   /\ has_last st = true /\ is_allowed c (last_mode st) = true).
Proof. exact memory_invariant. Qed.
Print Assumptions C19_memory_invariant.

(* the literal pairwise reading (ANY two consecutive gate-passing decisions less than the period
   apart agree) does not hold, before or after the repair: a held decision does not restart the
   period (the mode had been kept for 31 s >= 30 s when it changed; see C19_dwell) *)
Theorem C19_stability_pairwise_refuted : forall p, exists c l,
  clock_mono p 0%Z l = true /\ pairwise_ok c None (run p rule_select cstate0 c l) = false.
Proof. exact pairwise_refuted. Qed.
Print Assumptions C19_stability_pairwise_refuted.

(* for every name hash, node capacity, history of inserts/deletes and every per-operation choice of
   (rebalance flag, lazy state, lazy triggers): per-operation results, records and header counters
   equal those of the default configuration *)
Theorem C19_config_irrelevant : forall hash max_records cfs ops,
  visible (run_hist hash max_records cfs 0 ops btree0)
  = visible (run_hist hash max_records (fun _ => default_config) 0 ops btree0).
Proof. exact config_irrelevant. Qed.
Print Assumptions C19_config_irrelevant.

(* SmartRebalancer.Evaluate = detector + selector: the decisions of any session (operations recorded and evaluations requested at arbitrary clock
   readings, any window / minimum sample size / ring capacity) are the selector's decisions on the
   list of extracted observations: all theorems above about [run p rule_select] apply to them *)
Theorem C19_evaluate_is_selector_run : forall p c window min_samples capacity steps evs st,
  map e_dec (run_session p c window min_samples capacity evs st steps)
  = map r_dec (run p rule_select st c (session_obs window min_samples capacity evs steps)).
Proof. exact session_is_run. Qed.
Print Assumptions C19_evaluate_is_selector_run.
