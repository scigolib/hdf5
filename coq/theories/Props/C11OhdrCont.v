(* C11 - every metadata encoder is inverted by its decoder: object header version 2 with continuation
   chunks.  Property theorems only.  The library's writer never emits continuation chunks; the encoder is
   the specification-side encoder build_chain of Model/CodecOhdrCont.v, the decoder is the transcription
   dec_ohdr_c of core.ReadObjectHeader / parseV2Header of /repo 57823d4. *)
From HV Require Import Base.Prelude Base.Outcome Base.Bytes Model.CodecOhdr Model.CodecOhdrCont
  Proofs.CodecOhdrCont Proofs.CodecOhdrContRT.

(* the model with continuation chunks extends the model without them (Model/CodecOhdr.v, which stops with an
   error at a continuation message): same result wherever that model returns a header - every file
   image, address, offset size, length size and byte order *)
Theorem C11_ohdr_v2_cont_conservative : forall os ls sbBE file addr r,
  dec_ohdr sbBE file addr = Ok r -> dec_ohdr_c os ls sbBE file addr = Ok r.
Proof. exact dec_ohdr_conservative. Qed.
Print Assumptions C11_ohdr_v2_cont_conservative.

(* round trip over a chain of continuation chunks of any length (0 .. 1024): arbitrary bytes before the
   header, between the chunks and after them; every chunk holds arbitrary well-formed messages before and
   after its linking message; the reader returns the concatenated message list - the continuation messages
   themselves included - with the absolute offsets, and flags, reference count and name computed from it *)
Theorem C11_ohdr_v2_cont_roundtrip : forall os ls sbBE (pre : bytes) flags a0 b0 ks (suf : bytes),
  wf_chain os ls flags a0 b0 ks = true ->
  let file := build_chain os ls sbBE pre flags a0 b0 ks suf in
  blen file < 9223372036854775808 -> blen file < 256 ^ os -> blen file < 256 ^ ls ->
  (ks = [] -> 1 <= blen suf) ->
  dec_ohdr_c os ls sbBE file (blen pre) = Ok (proj_chain os ls sbBE (blen pre) flags a0 b0 ks).
Proof. exact chain_roundtrip. Qed.
Print Assumptions C11_ohdr_v2_cont_roundtrip.

Theorem C11_ohdr_v2_cont_roundtrip_one_cont : forall os ls sbBE (pre : bytes) flags a0 b0 k (suf : bytes),
  wf_chain os ls flags a0 b0 [k] = true ->
  let file := build_chain os ls sbBE pre flags a0 b0 [k] suf in
  blen file < 9223372036854775808 -> blen file < 256 ^ os -> blen file < 256 ^ ls ->
  dec_ohdr_c os ls sbBE file (blen pre) = Ok (proj_chain os ls sbBE (blen pre) flags a0 b0 [k]).
Proof. exact (fun os ls sbBE pre flags a0 b0 k suf Hwf Hfile Ho Hl =>
  chain_roundtrip os ls sbBE pre flags a0 b0 [k] suf Hwf Hfile Ho Hl (fun E => match E with end)). Qed.
Print Assumptions C11_ohdr_v2_cont_roundtrip_one_cont.

(* the hypotheses are satisfiable: a 105-byte file with two continuation chunks and seven messages; the
   model without continuation chunks refuses it *)
Theorem C11_ohdr_v2_cont_example :
  wf_chain 8 8 8 [ex_m 1 [1; 2; 3]] [ex_m 3 [4]] ex_ks = true /\
  blen ex_file = 105 /\
  omap (fun o => (ohp_refcount o, ohp_name o, map hmp_type (ohp_msgs o), map hmp_offset (ohp_msgs o)))
       (dec_ohdr_c 8 8 false ex_file 5)
  = Ok (7, [65; 66], [1; 16; 3; 13; 16; 1; 22], [12; 19; 39; 51; 58; 78; 93]) /\
  dec_ohdr_c 8 8 false ex_file 5 = Ok (proj_chain 8 8 false 5 8 [ex_m 1 [1; 2; 3]] [ex_m 3 [4]] ex_ks) /\
  dec_ohdr false ex_file 5 = Err.
Proof. exact chain_example. Qed.
Print Assumptions C11_ohdr_v2_cont_example.

(* refusals of the reader: a continuation naming a chunk already read (itself, or an earlier one) is an
   error - no endless loop -, so are a size below 8, a missing "OCHK" signature, a chunk beyond the file *)
Theorem C11_ohdr_v2_cont_cycle_refused :
  dec_ohdr_c 8 8 false
    (build_chain 8 8 false [] 0 [] []
       [ {| k_between := []; k_a := []; k_b := [cont_msg 8 8 false 27 28]; k_gap := []; k_ck := [0; 0; 0; 0] |} ] []) 0 = Err.
Proof. exact cont_cycle_refused. Qed.
Print Assumptions C11_ohdr_v2_cont_cycle_refused.

Theorem C11_ohdr_v2_cont_cycle2_refused :
  dec_ohdr_c 8 8 false
    (build_chain 8 8 false [] 0 [] []
       [ {| k_between := []; k_a := []; k_b := []; k_gap := []; k_ck := [0; 0; 0; 0] |};
         {| k_between := []; k_a := []; k_b := [cont_msg 8 8 false 27 28]; k_gap := []; k_ck := [0; 0; 0; 0] |} ] []) 0 = Err.
Proof. exact cont_cycle2_refused. Qed.
Print Assumptions C11_ohdr_v2_cont_cycle2_refused.

Theorem C11_ohdr_v2_cont_short_size_refused :
  dec_ohdr_c 8 8 false (build_chain 8 8 false [] 0 [] [cont_msg 8 8 false 27 7] [] ochk_min) 0 = Err /\
  oclass (dec_ohdr_c 8 8 false (build_chain 8 8 false [] 0 [] [cont_msg 8 8 false 27 13] [] ochk_min) 0) = 0.
Proof. exact cont_short_size_refused. Qed.
Print Assumptions C11_ohdr_v2_cont_short_size_refused.

Theorem C11_ohdr_v2_cont_bad_signature_refused :
  dec_ohdr_c 8 8 false (build_chain 8 8 false [] 0 [] [cont_msg 8 8 false 28 12] [] ochk_min) 0 = Err /\
  dec_ohdr_c 8 8 false (build_chain 8 8 false [] 0 [] [cont_msg 8 8 false 27 13] [] ([79; 67; 72; 88] ++ skipn 4 ochk_min)) 0 = Err.
Proof. exact cont_bad_signature_refused. Qed.
Print Assumptions C11_ohdr_v2_cont_bad_signature_refused.

Theorem C11_ohdr_v2_cont_beyond_file_refused :
  dec_ohdr_c 8 8 false (build_chain 8 8 false [] 0 [] [cont_msg 8 8 false 1000 13] [] ochk_min) 0 = Err.
Proof. exact cont_beyond_file_refused. Qed.
Print Assumptions C11_ohdr_v2_cont_beyond_file_refused.
