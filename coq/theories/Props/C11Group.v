(* C11 - "every metadata encoder is inverted by its decoder": the three structures of a symbol-table GROUP at byte level
   (Model/GroupWire.v: local heap, symbol table node, group B-tree node; tie tools/props/c03wire.py).  Theorems only; lemmas in
   Proofs/GroupWireHeap.v, GroupWireSnod.v, GroupWireBTree.v.

   Form of every round trip: for EVERY well-formed value, EVERY address and EVERY file that holds the writer's bytes at that
   address ([pre] before, [suf] after; only addr + size <= MaxInt64 is required, the io.ReaderAt offset type), the reader returns
   the value.  Sizes are the ones Model/Store.v allocates (32 + segment, 8 + 2K*40, 24 + (2K+1)*8 + 2K*8). *)
From HV Require Import Base.Prelude Base.Outcome Base.Bytes Model.RobustAlloc Model.RobustGroup Model.GroupWire
  Proofs.GroupWireHeap Proofs.GroupWireSnod Proofs.GroupWireBTree.

(* LocalHeap.WriteTo emits LocalHeap.Size() = 32 + DataSegmentSize bytes *)
Theorem C11_lheap_size : forall h a, blen (hw_strings h) <= hw_dss h -> blen (heap_image h a) = heap_size h.
Proof. exact heap_image_size. Qed.
Print Assumptions C11_lheap_size.

(* LoadLocalHeap (WriteTo h) = the data segment: the strings padded with zeros to DataSegmentSize *)
Theorem C11_lheap_roundtrip : forall h pre suf,
  blen (hw_strings h) <= hw_dss h -> blen pre + 32 + hw_dss h <= MaxInt64 ->
  load_local_heap (pre ++ heap_image h (blen pre) ++ suf) (blen pre) 8 8 = Ok (padded h).
Proof. exact load_heap_image. Qed.
Print Assumptions C11_lheap_roundtrip.

(* GetString returns every name at the offset AddString returned for it: names of ANY bytes without NUL (the empty name too) *)
Theorem C11_lheap_get_strings : forall ns (rest : list N),
  Forall (fun n => nonul n = true) ns -> map (get_string (enc_names ns ++ rest)) (name_offs 0 ns) = map Ok ns.
Proof. exact get_strings_enc. Qed.
Print Assumptions C11_lheap_get_strings.

Theorem C11_lheap_get_string_at : forall (pre nm suf : list N),
  nonul nm = true -> get_string (pre ++ nm ++ 0 :: suf) (blen pre) = Ok nm.
Proof. exact get_string_at. Qed.
Print Assumptions C11_lheap_get_string_at.

(* AddString: the offset is the old length, the buffer grows by the name and its terminator, the heap still fits *)
Theorem C11_lheap_add_string : forall h s off h1, add_string h s = Ok (off, h1) ->
  off = blen (hw_strings h) /\ hw_strings h1 = hw_strings h ++ s ++ [0] /\ hw_dss h1 = hw_dss h /\ hw_free h1 = hw_free h /\
  blen (hw_strings h1) <= hw_dss h1.
Proof. exact add_string_fits. Qed.
Print Assumptions C11_lheap_add_string.

(* the allocation-aware model of C07 (Model/RobustAlloc.v local_heap_load) is this reader followed by len() *)
Theorem C11_lheap_reader_is_c07_reader : forall file addr O L, addr <= MaxInt64 ->
  fst (local_heap_load file addr O L) = omap blen (load_local_heap file addr O L).
Proof. exact local_heap_load_agrees. Qed.
Print Assumptions C11_lheap_reader_is_c07_reader.

Theorem C11_lheap_example :
  load_local_heap (zeros 96 ++ heap_image ex_heap 96 ++ [7; 7]) 96 8 8 = Ok ([100; 115; 0; 103; 0] ++ zeros 11) /\
  get_string ([100; 115; 0; 103; 0] ++ zeros 11) 3 = Ok [103] /\
  link_heap (zeros 96 ++ heap_image ex_heap 96 ++ [7; 7]) 96 [120] =
    Ok (5, zeros 96 ++ heap_image {| hw_strings := [100; 115; 0; 103; 0; 120; 0]; hw_dss := 16; hw_free := 1; hw_daddr := 0 |} 96 ++ [7; 7]).
Proof. exact ex_heap_roundtrip. Qed.
Print Assumptions C11_lheap_example.

(* WriteAt never panics when NumSymbols = len(Entries) and emits the closed form: header, the first maxEntries entries, zero
   slots *)
Theorem C11_snod_write_closed : forall s m, stn_num s = llen (stn_entries s) ->
  snod_write_at s 8 (N.of_nat m) = Ok (snod_bytes s m).
Proof. exact snod_write_at_ok. Qed.
Print Assumptions C11_snod_write_closed.

(* length = 8 + maxEntries * 40, for every node (whatever its fields) *)
Theorem C11_snod_size : forall s m b, snod_write_at s 8 m = Ok b -> blen b = 8 + m * sym_size 8.
Proof. exact snod_write_at_size. Qed.
Print Assumptions C11_snod_size.

(* ParseSymbolTableNode (WriteAt s) = s: version, count, every field of every entry, capacity; any count up to maxEntries *)
Theorem C11_snod_roundtrip : forall s m (pre suf : list N),
  snode_ok s = true -> (length (stn_entries s) <= m)%nat -> blen pre + 8 + 40 * N.of_nat m <= MaxInt64 ->
  parse_snod (pre ++ snod_bytes s m ++ suf) (blen pre) 8 = Ok s.
Proof. exact parse_snod_bytes. Qed.
Print Assumptions C11_snod_roundtrip.

Theorem C11_snod_example :
  snode_ok ex_snode = true /\ snod_write_at ex_snode 8 32 = Ok (snod_bytes ex_snode 32) /\
  parse_snod (zeros 50 ++ snod_bytes ex_snode 32 ++ [9]) 50 8 = Ok ex_snode.
Proof. exact ex_snode_roundtrip. Qed.
Print Assumptions C11_snod_example.

(* BTreeNodeV1.WriteAt for a node of at most 2k (key, child) pairs: closed form and size 24 + (2k+1)*8 + 2k*8 *)
Theorem C11_gbtree_write_closed : forall b kcs k,
  pairs_of b kcs -> (length kcs <= 2 * k)%nat -> bt_write_at b 8 (N.of_nat k) = bt_bytes b kcs (2 * k).
Proof. exact bt_write_at_closed. Qed.
Print Assumptions C11_gbtree_write_closed.

Theorem C11_gbtree_size : forall b kcs k,
  pairs_of b kcs -> (length kcs <= 2 * k)%nat ->
  blen (bt_write_at b 8 (N.of_nat k)) = 24 + (2 * N.of_nat k + 1) * 8 + 2 * N.of_nat k * 8.
Proof. exact bt_write_at_size. Qed.
Print Assumptions C11_gbtree_size.

(* the child-pointer pass of ReadGroupBTreeEntries returns the children that are neither 0 nor undefined, in order *)
Theorem C11_gbtree_children_roundtrip : forall b kcs k2 (pre suf : list N),
  bt_group_ok b kcs -> (length kcs <= k2)%nat -> N.of_nat k2 < 32768 -> blen pre + blen (bt_bytes b kcs k2) <= MaxInt64 ->
  fst (gnode_read (pre ++ bt_bytes b kcs k2 ++ suf) (blen pre) 8) = Ok (filter live (map snd kcs)).
Proof. exact gnode_read_bytes. Qed.
Print Assumptions C11_gbtree_children_roundtrip.

(* the node createGroupStructures writes *)
Theorem C11_gbtree_writer_node : forall a, a < 18446744073709551616 ->
  exists b, add_key (new_btnode 0 GROUP_K) 0 a = Ok b /\ bt_group_ok b [(0, a)] /\
            bt_write_at b 8 GROUP_K = bt_bytes b [(0, a)] 32.
Proof. exact writer_node. Qed.
Print Assumptions C11_gbtree_writer_node.

(* ReadGroupBTreeEntries on ANY file holding the writer's B-tree node and a well-formed symbol table node at its child address
   returns that node's entries: the entry budget of /repo 336a458 never refuses what the writer wrote *)
Theorem C11_group_read_written : forall f b s m (pre1 suf1 pre2 suf2 : list N),
  bt_group_ok b [(0, blen pre2)] -> live (blen pre2) = true ->
  f = pre1 ++ bt_bytes b [(0, blen pre2)] 32 ++ suf1 -> blen pre1 + 544 <= MaxInt64 ->
  f = pre2 ++ snod_bytes s m ++ suf2 -> snode_ok s = true -> (length (stn_entries s) <= m)%nat ->
  blen pre2 + 8 + 40 * N.of_nat m <= MaxInt64 ->
  read_group_btree_entries f (blen pre1) 8 = Ok (map bentry_of (stn_entries s)).
Proof. exact read_group_btree_written. Qed.
Print Assumptions C11_group_read_written.

Theorem C11_group_example :
  blen ex_group_file = 64 + 1288 + 544 /\
  read_group_btree_entries ex_group_file (64 + 1288) 8 = Ok (map bentry_of (stn_entries ex_snode)).
Proof. exact ex_group_read. Qed.
Print Assumptions C11_group_example.
