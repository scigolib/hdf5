(* Property C02, composition with the detailed B-tree v2 (C14) and fractal heap (C15) models.
   Statements only.  Model/AttrCompose.v is the attribute dispatch of Model/Attr.v running on the DETAILED models
   Model/BT2.v and Model/FHeap.v (configuration of the attribute code: 4096-byte node, 65536-byte direct block,
   capacity rule cap_new, 8-byte offsets, delete modes off/immediate); the dense state consists of the BYTES both
   structures were written to, and every call loads them and writes them back in place.

   Reading guide.
     abs_idx s                 the records of B-tree s as the abstract index of Model/Attr.v
     ISim s ix                 the records of s are the canonical images of ix (implies abs_idx s = ix)
     HSim enc h fs hp          FHeap's representation relation R between the concrete heap h and the reference
                               state computed from the ABSTRACT heap hp (a concrete heap does not record which
                               ranges are live, so there is no abstraction FUNCTION on heaps)
     id_live hp id a           the abstract id (offset, length) addresses object a of hp with its length
     params_match P            p_idxcap P = max_records 4096 (= 371), p_hcap P = cap_new 65536 (= 65517),
                               p_maxobj P = 65536, p_ovf_err P = true
     enc                       the attribute message encoder; only len (enc a) = msg_size a is assumed (byte level: C11)
     c_run ... cinit h         replay of history h on the composed model; c_read_msgs = the attribute messages the
                               reader finds (dense: B-tree records in order, heap objects through core's reader)
   No hypothesis on the name hash in the simulation theorems (they hold with or without collisions). *)
From HV Require Import Base.Prelude Model.Attr Model.AttrCompose.
From HV Require Import Proofs.AttrComposeIdx Proofs.AttrComposeHeap Proofs.AttrComposeBt Proofs.AttrCompose Proofs.Attr.
From HV Require Model.BT2 Model.FHeap Proofs.FHeap.

(* 0. the parameter equations hold for go_params *)
Theorem C02_compose_params_go : forall base, params_match (go_params base).
Proof. exact params_match_go. Qed.
Print Assumptions C02_compose_params_go.

(* 1. index: BT2 operations simulate the abstract index operations; abs_idx commutes *)
Theorem C02_compose_idx_abs : forall s ix, ISim s ix -> abs_idx s = ix.
Proof. exact ISim_abs. Qed.
Print Assumptions C02_compose_idx_abs.

Theorem C02_compose_idx_search : forall s ix n, ISim s ix ->
  BT2.search_record s n = option_map id8 (idx_search (BT2.jenkins n) ix).
Proof. exact search_sim. Qed.
Print Assumptions C02_compose_idx_search.

Theorem C02_compose_idx_insert : forall P s ix n id, ISim s ix -> id_ok id ->
  p_idxcap P = BT2.max_records (BT2.node_size s) ->
  match idx_insert P (BT2.jenkins n, id) ix with
  | Some ix' => exists s', BT2.insert_record s n (unle (id8 id)) = (s', true) /\ ISim s' ix' /\
                           BT2.recs s' = BT2.insert_sorted (BT2.recs s) (BT2.jenkins n, id7 id)
  | None => BT2.insert_record s n (unle (id8 id)) = (s, false)
  end.
Proof. exact insert_sim. Qed.
Print Assumptions C02_compose_idx_insert.

Theorem C02_compose_idx_update : forall s ix n id, ISim s ix -> id_ok id ->
  match idx_update (BT2.jenkins n) id ix with
  | Some ix' => exists s', BT2.update_record s n (unle (id8 id)) = (s', true) /\ ISim s' ix' /\
                           List.length (BT2.recs s') = List.length (BT2.recs s)
  | None => BT2.update_record s n (unle (id8 id)) = (s, false)
  end.
Proof. exact update_sim. Qed.
Print Assumptions C02_compose_idx_update.

Theorem C02_compose_idx_delete : forall s ix n, ISim s ix ->
  match idx_delete (BT2.jenkins n) ix with
  | Some ix' => exists s', BT2.delete_with_rebalancing s n = (s', true) /\ ISim s' ix'
  | None => BT2.delete_with_rebalancing s n = (s, false)
  end.
Proof. exact AttrComposeIdx.delete_sim. Qed.
Print Assumptions C02_compose_idx_delete.

(* the index survives WriteAt + LoadFromFile into a fresh object (from C14's load_after_store) *)
Theorem C02_compose_idx_persist : forall bf bn ba s, WInv bf bn s -> BT2.loaded_hdr s = ba -> ba <> 0 ->
  exists f', BT2.write_in_place OSZ (BT2.mkW s bf bn) = Some (BT2.mkW (BT2.with_root s (BT2.loaded_leaf s)) f' bn) /\
    exists s', BT2.load_from OSZ (BT2.new_bt NODE) f' ba = BT2.LOk s' /\ BT2.recs s' = BT2.recs s /\
               WInv f' bn s' /\ BT2.loaded_hdr s' = ba.
Proof. exact bt_store. Qed.
Print Assumptions C02_compose_idx_persist.

(* 2. heap: FHeap operations simulate the abstract heap operations *)
Theorem C02_compose_heap_insert_ok : forall enc,
  (forall a sz, encode_attr a = EncOk sz -> FHeap.len (enc a) = sz) ->
  forall P, params_match P -> forall h fs hp a sz hp' id pk,
  HSim enc h fs hp -> encode_attr a = EncOk sz -> heap_insert P hp a = HOk hp' id ->
  exists h', FHeap.insert FHeap.cap_new h (enc a) pk = (h', FHeap.Ok (id8 id)) /\ HSim enc h' fs hp' /\ id_ok id /\
             id = (hfree hp, sz) /\ hobjs hp' = hobjs hp ++ [(hfree hp, a)] /\ hfree hp' = hfree hp + sz.
Proof. exact insert_sim_ok. Qed.
Print Assumptions C02_compose_heap_insert_ok.

Theorem C02_compose_heap_insert_err : forall enc,
  (forall a sz, encode_attr a = EncOk sz -> FHeap.len (enc a) = sz) ->
  forall P, params_match P -> forall h hp a sz pk, encode_attr a = EncOk sz ->
  heap_insert P hp a = HErr -> FHeap.insert FHeap.cap_new h (enc a) pk = (h, FHeap.Err).
Proof. exact insert_sim_err. Qed.
Print Assumptions C02_compose_heap_insert_err.

(* heap full: the in-memory heap goes to an indirect root, and such a heap is refused by WriteToFile / WriteAt *)
Theorem C02_compose_heap_insert_full : forall enc,
  (forall a sz, encode_attr a = EncOk sz -> FHeap.len (enc a) = sz) ->
  forall P h fs hp a sz pk, params_match P -> HSim enc h fs hp -> encode_attr a = EncOk sz ->
  heap_insert P hp a = HFull ->
  FHeap.h_ind (fst (FHeap.insert FHeap.cap_new h (enc a) pk)) <> None.
Proof. exact insert_sim_full. Qed.
Print Assumptions C02_compose_heap_insert_full.

Theorem C02_compose_heap_full_refused : forall h fs, FHeap.h_ind h <> None -> FHeap.store h fs = FHeap.Err.
Proof. exact store_ind. Qed.
Print Assumptions C02_compose_heap_full_refused.

Theorem C02_compose_heap_get : forall enc h fs hp id a, HSim enc h fs hp -> id_live hp id a ->
  FHeap.get h (id8 id) = FHeap.Ok (enc a).
Proof. exact get_sim. Qed.
Print Assumptions C02_compose_heap_get.

Theorem C02_compose_heap_overwrite : forall enc,
  (forall a sz, encode_attr a = EncOk sz -> FHeap.len (enc a) = sz) ->
  forall h fs hp id old a sz hp', HSim enc h fs hp -> id_live hp id old ->
  encode_attr a = EncOk sz -> sz = snd id -> heap_overwrite hp id a = Some hp' ->
  exists h', FHeap.overwrite h (id8 id) (enc a) = (h', FHeap.Ok tt) /\ HSim enc h' fs hp'.
Proof. exact overwrite_sim. Qed.
Print Assumptions C02_compose_heap_overwrite.

Theorem C02_compose_heap_delete : forall enc h fs hp id old hp', HSim enc h fs hp -> id_live hp id old ->
  heap_delete hp id = Some hp' ->
  exists h', FHeap.delete h (id8 id) = (h', FHeap.Ok tt) /\ HSim enc h' fs hp'.
Proof. exact AttrComposeHeap.delete_sim. Qed.
Print Assumptions C02_compose_heap_delete.

(* write-out + load (between two calls): relation kept, and core's reader finds every live object in the bytes *)
Theorem C02_compose_heap_persist : forall enc h fs hp, HSim enc h fs hp ->
  exists fs', FHeap.store h fs = FHeap.Ok (FHeap.set_addrs h 2048 2194, fs', 2048) /\
              FHeap.load BLOCK (FHeap.f_bytes fs') 2048 = FHeap.Ok (FHeap.reloaded BLOCK h) /\
              HSim enc (FHeap.reloaded BLOCK h) fs' hp /\
              forall id a, id_live hp id a -> FHeap.core_read (FHeap.f_bytes fs') 2048 (id7 id) = FHeap.Ok (enc a).
Proof. exact store_load_sim. Qed.
Print Assumptions C02_compose_heap_persist.

(* 3. the composed theorem: every history, same answers and same listing as the abstract model *)
Theorem C02_compose_simulation : forall P enc rebalance delay pick, params_match P ->
  (forall a sz, encode_attr a = EncOk sz -> FHeap.len (enc a) = sz) ->
  forall h cst rs, c_run P enc rebalance delay pick cinit h = (cst, rs) ->
  rs = snd (run BT2.jenkins P init h) /\
  c_read_msgs enc cst = option_map (map enc) (read_attrs (fst (run BT2.jenkins P init h))).
Proof. exact compose_simulation. Qed.
Print Assumptions C02_compose_simulation.

(* the same with ParseAttributeMessage applied by the reader, under the round trip of the message codec (the
   statement of C11; no witness for that hypothesis is given here: the primary theorem is the message-level one) *)
Theorem C02_compose_simulation_parsed : forall P enc dec rebalance delay pick, params_match P ->
  (forall a sz, encode_attr a = EncOk sz -> FHeap.len (enc a) = sz) ->
  (forall a sz, encode_attr a = EncOk sz -> dec (enc a) = Some a) ->
  forall h cst rs, c_run P enc rebalance delay pick cinit h = (cst, rs) ->
  rs = snd (run BT2.jenkins P init h) /\ c_read_attrs dec cst = read_attrs (fst (run BT2.jenkins P init h)).
Proof. exact compose_simulation_parsed. Qed.
Print Assumptions C02_compose_simulation_parsed.

(* 4. C02_refines_map for the composed model *)
Theorem C02_compose_refines_map : forall P enc rebalance delay pick, params_match P ->
  (forall a sz, encode_attr a = EncOk sz -> FHeap.len (enc a) = sz) ->
  forall h cst rs, NoHashCollision BT2.jenkins (names h) ->
  c_run P enc rebalance delay pick cinit h = (cst, rs) ->
  exists l, c_read_msgs enc cst = Some (map enc l) /\ NoDup (map aname l) /\
            (forall n, attr_get l n = sp_get (run_spec [] h rs) n) /\ results_ok [] h rs.
Proof. exact compose_refines_map. Qed.
Print Assumptions C02_compose_refines_map.

Theorem C02_compose_refines_map_go : forall base enc rebalance delay pick,
  (forall a sz, encode_attr a = EncOk sz -> FHeap.len (enc a) = sz) ->
  forall h cst rs, NoHashCollision BT2.jenkins (names h) ->
  c_run (go_params base) enc rebalance delay pick cinit h = (cst, rs) ->
  exists l, c_read_msgs enc cst = Some (map enc l) /\ NoDup (map aname l) /\
            (forall n, attr_get l n = sp_get (run_spec [] h rs) n) /\ results_ok [] h rs.
Proof. exact compose_refines_map_go. Qed.
Print Assumptions C02_compose_refines_map_go.

(* 5. the hypothesis on the encoder is satisfiable *)
Theorem C02_compose_encoder_exists :
  forall a sz, encode_attr a = EncOk sz -> FHeap.len (enc_zeros a) = sz.
Proof. exact enc_zeros_len. Qed.
Print Assumptions C02_compose_encoder_exists.
