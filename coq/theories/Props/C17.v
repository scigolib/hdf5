(* C17 - truncated files and failing I/O produce errors, never different answers.
   Only statements proved elsewhere (Proofs/IOProg*.v): restated by name, or the generic theorems at an entry point
   that is proved strict.

   run0 f p                      result of reader program p on the intact file image f with working I/O
   run (firstn n f) fl c p       result on the file cut to its first n bytes, under the fault oracle fl
                                 (fl i = what the i-th I/O call suffers: nothing, EIO, a short read)
   strict p                      p tolerates a short read only where the count is checked against every decoded byte
                                 and drops an error only where that cannot change the answer (Model/IOProg.v) *)
From HV Require Import Base.Prelude Base.Outcome Base.Bytes Model.IOProg Proofs.IOProg.
From HV Require Import Model.CodecSuper Model.CodecOhdr Model.IOProgReader Proofs.IOProgReader Model.IOProgOpen Proofs.IOProgOpen Proofs.IOProgSub.
From HV Require Import Proofs.IOProgExamples.
From HV Require Import Model.IOProgSlice Proofs.IOProgSlice Proofs.IOProgSliceExamples.

(* generic: every program of the strict fragment, every file, every cut, every fault pattern *)

Theorem C17_strict_refines : forall A (p : prog A), strict p ->
  forall (f : bytes) (n : nat) (fl : oracle) (c : nat),
    run0 f p = Panic \/ fst (run (firstn n f) fl c p) = run0 f p \/ fst (run (firstn n f) fl c p) = Err.
Proof. exact strict_refines. Qed.
Print Assumptions C17_strict_refines.

Theorem C17_trunc_monotone : forall A (p : prog A), strict p -> forall f n, (n <= length f)%nat ->
  run0 f p <> Panic -> run0 (firstn n f) p = run0 f p \/ run0 (firstn n f) p = Err.
Proof. exact trunc_monotone. Qed.
Print Assumptions C17_trunc_monotone.

Theorem C17_fault_monotone : forall A (p : prog A), strict p -> forall f k ft,
  run0 f p <> Panic ->
  fst (run f (fault_at k ft) 0 p) = run0 f p \/ fst (run f (fault_at k ft) 0 p) = Err.
Proof. exact fault_monotone. Qed.
Print Assumptions C17_fault_monotone.

Theorem C17_no_panic : forall A (p : prog A), strict p -> forall f n fl c,
  run0 f p <> Panic -> fst (run (firstn n f) fl c p) <> Panic.
Proof. exact no_panic. Qed.
Print Assumptions C17_no_panic.

Theorem C17_strict_bind : forall A (p : prog A), strict p -> forall B (g : A -> prog B),
  (forall a, strict (g a)) -> strict (bind p g).
Proof. exact strict_bind. Qed.
Print Assumptions C17_strict_bind.

(* the transcribed entry points of the reader (Model/IOProgReader.v, Model/IOProgOpen.v):
   [sb] ranges over superblocks whose length size passed ReadSuperblock's validation (superblock.go:131), which every
   superblock returned by ReadSuperblock satisfies (C17_superblock_sizes_valid). *)

Theorem C17_superblock_strict : strict p_superblock.
Proof. exact p_superblock_strict. Qed.
Print Assumptions C17_superblock_strict.

Theorem C17_superblock_sizes_valid : forall buf n sb, dec_sb_buf buf n = Ok sb -> valid_size (spp_lensize sb) = true.
Proof. exact dec_sb_buf_valid. Qed.
Print Assumptions C17_superblock_sizes_valid.

(* ReadObjectHeader, header part (versions 1 and 2 with their continuation blocks / chunks) *)
Theorem C17_object_header_strict : forall sb fuel addr, strict (p_ohdr sb fuel addr).
Proof. exact p_ohdr_strict. Qed.
Print Assumptions C17_object_header_strict.

(* Dataset.Attributes / Group.Attributes: compact and dense storage, AttributesErr returned *)
Theorem C17_attributes_strict : forall sb, valid_size (spp_lensize sb) = true ->
  forall fuel addr, strict (api_attributes sb fuel addr).
Proof. exact api_attributes_strict. Qed.
Print Assumptions C17_attributes_strict.

(* Dataset.Read / ReadStrings / ReadCompound: header, then compact / contiguous / chunked raw data *)
Theorem C17_read_strict : forall sb, valid_size (spp_lensize sb) = true ->
  forall fuel addr, strict (api_read_raw sb fuel addr).
Proof. exact api_read_raw_strict. Qed.
Print Assumptions C17_read_strict.

Theorem C17_read_trunc : forall sb, valid_size (spp_lensize sb) = true -> forall fuel addr f n, (n <= length f)%nat ->
  run0 f (api_read_raw sb fuel addr) <> Panic ->
  run0 (firstn n f) (api_read_raw sb fuel addr) = run0 f (api_read_raw sb fuel addr) \/
  run0 (firstn n f) (api_read_raw sb fuel addr) = Err.
Proof. exact (fun sb H fuel addr => trunc_monotone _ _ (api_read_raw_strict sb H fuel addr)). Qed.
Print Assumptions C17_read_trunc.

Theorem C17_read_fault : forall sb, valid_size (spp_lensize sb) = true -> forall fuel addr f k ft,
  run0 f (api_read_raw sb fuel addr) <> Panic ->
  fst (run f (fault_at k ft) 0 (api_read_raw sb fuel addr)) = run0 f (api_read_raw sb fuel addr) \/
  fst (run f (fault_at k ft) 0 (api_read_raw sb fuel addr)) = Err.
Proof. exact (fun sb H fuel addr => fault_monotone _ _ (api_read_raw_strict sb H fuel addr)). Qed.
Print Assumptions C17_read_fault.

Theorem C17_attributes_trunc : forall sb, valid_size (spp_lensize sb) = true -> forall fuel addr f n, (n <= length f)%nat ->
  run0 f (api_attributes sb fuel addr) <> Panic ->
  run0 (firstn n f) (api_attributes sb fuel addr) = run0 f (api_attributes sb fuel addr) \/
  run0 (firstn n f) (api_attributes sb fuel addr) = Err.
Proof. exact (fun sb H fuel addr => trunc_monotone _ _ (api_attributes_strict sb H fuel addr)). Qed.
Print Assumptions C17_attributes_trunc.

Theorem C17_attributes_fault : forall sb, valid_size (spp_lensize sb) = true -> forall fuel addr f k ft,
  run0 f (api_attributes sb fuel addr) <> Panic ->
  fst (run f (fault_at k ft) 0 (api_attributes sb fuel addr)) = run0 f (api_attributes sb fuel addr) \/
  fst (run f (fault_at k ft) 0 (api_attributes sb fuel addr)) = Err.
Proof. exact (fun sb H fuel addr => fault_monotone _ _ (api_attributes_strict sb H fuel addr)). Qed.
Print Assumptions C17_attributes_fault.

(* ReadObjectHeader as a value: header part strict, attribute part strict-or-marker (AttributesErr) *)
Theorem C17_read_object_header_run : forall sb fuel addr f fl c,
  run f fl c (p_read_object_header sb fuel addr) =
  match run f fl c (p_ohdr sb fuel addr) with
  | (Ok h, c') => match run f fl c' (p_attrs sb (ohp_msgs h)) with
                  | (Ok a, c'') => (Ok (h, Some a), c'')
                  | (Err, c'') => (Ok (h, None), c'')
                  | (Panic, c'') => (Panic, c'')
                  end
  | (Err, c') => (Err, c')
  | (Panic, c') => (Panic, c')
  end.
Proof. exact p_read_object_header_run. Qed.
Print Assumptions C17_read_object_header_run.

(* global heap collection, local heap, symbol table node, group B-tree *)
Theorem C17_global_heap_strict : forall sb fuel addr, strict (p_gheap sb fuel addr).
Proof. exact p_gheap_strict. Qed.
Print Assumptions C17_global_heap_strict.
(* variable-length strings of attributes / compound members: reference -> collection -> object *)
Theorem C17_vlen_string_strict : forall sb fuel ref, strict (api_vlen_string sb fuel ref).
Proof. exact api_vlen_string_strict. Qed.
Print Assumptions C17_vlen_string_strict.
Theorem C17_local_heap_strict : forall sb addr, strict (p_local_heap sb addr).
Proof. exact p_local_heap_strict. Qed.
Print Assumptions C17_local_heap_strict.
Theorem C17_symbol_table_node_strict : forall sb addr, strict (p_snod sb addr).
Proof. exact p_snod_strict. Qed.
Print Assumptions C17_symbol_table_node_strict.
Theorem C17_group_btree_strict : forall sb addr, strict (p_group_btree sb addr).
Proof. exact p_group_btree_strict. Qed.
Print Assumptions C17_group_btree_strict.

(* the remaining read entry points (Model/IOProgSlice.v): hyperslabs, chunk iterator, values behind global heap
   references.  C17_<entry>_damage: on the file cut to its first n bytes (any n), under ANY pattern of failing and short
   I/O calls (fl; in particular fault_at k ft: exactly the k-th call), the call returns the intact answer or an error,
   and does not panic -- unless the intact call itself panics. *)

Theorem C17_read_slice_strict : forall sb, valid_size (spp_lensize sb) = true ->
  forall fuel addr st cn, strict (api_read_slice sb fuel addr st cn).
Proof. exact api_read_slice_strict. Qed.
Print Assumptions C17_read_slice_strict.
Theorem C17_read_hyperslab_strict : forall sb, valid_size (spp_lensize sb) = true ->
  forall fuel addr s, strict (api_read_hyperslab sb fuel addr s).
Proof. exact api_read_hyperslab_strict. Qed.
Print Assumptions C17_read_hyperslab_strict.
Theorem C17_chunk_iterator_strict : forall sb, valid_size (spp_lensize sb) = true ->
  forall fuel addr, strict (api_chunk_iterator sb fuel addr).
Proof. exact api_chunk_iterator_strict. Qed.
Print Assumptions C17_chunk_iterator_strict.
Theorem C17_chunk_iterate_strict : forall sb, valid_size (spp_lensize sb) = true ->
  forall fuel addr, strict (api_chunk_iterate sb fuel addr).
Proof. exact api_chunk_iterate_strict. Qed.
Print Assumptions C17_chunk_iterate_strict.
Theorem C17_read_strings_strict : forall sb, valid_size (spp_lensize sb) = true ->
  forall fuel addr, strict (api_read_strings sb fuel addr).
Proof. exact api_read_strings_strict. Qed.
Print Assumptions C17_read_strings_strict.
Theorem C17_read_compound_strict : forall sb, valid_size (spp_lensize sb) = true ->
  forall fuel addr ctype walk, strict (api_read_compound sb fuel addr ctype walk).
Proof. exact api_read_compound_strict. Qed.
Print Assumptions C17_read_compound_strict.
Theorem C17_read_attribute_strict : forall sb, valid_size (spp_lensize sb) = true ->
  forall fuel addr walk, strict (api_read_attribute sb fuel addr walk).
Proof. exact api_read_attribute_strict. Qed.
Print Assumptions C17_read_attribute_strict.

(* Dataset.ReadSlice(start, count): contiguous single read / row run / per-element reads, chunked: B-tree descent + the chunks the selection touches *)
Theorem C17_read_slice_damage : forall sb, valid_size (spp_lensize sb) = true -> forall fuel addr st cn,
  let p := api_read_slice sb fuel addr st cn in
  forall (f : bytes) (n : nat) (fl : oracle) (c : nat),
    run0 f p <> Panic ->
    (fst (run (firstn n f) fl c p) = run0 f p \/ fst (run (firstn n f) fl c p) = Err) /\
    fst (run (firstn n f) fl c p) <> Panic.
Proof. exact (fun sb H fuel addr st cn => strict_damage_ok _ (api_read_slice_strict sb H fuel addr st cn)). Qed.
Print Assumptions C17_read_slice_damage.
(* Dataset.ReadHyperslab(selection) with stride and block *)
Theorem C17_read_hyperslab_damage : forall sb, valid_size (spp_lensize sb) = true -> forall fuel addr s,
  let p := api_read_hyperslab sb fuel addr s in
  forall (f : bytes) (n : nat) (fl : oracle) (c : nat),
    run0 f p <> Panic ->
    (fst (run (firstn n f) fl c p) = run0 f p \/ fst (run (firstn n f) fl c p) = Err) /\
    fst (run (firstn n f) fl c p) <> Panic.
Proof. exact (fun sb H fuel addr s => strict_damage_ok _ (api_read_hyperslab_strict sb H fuel addr s)). Qed.
Print Assumptions C17_read_hyperslab_damage.
(* Dataset.ChunkIterator(): the chunk coordinates collected from the chunk B-tree *)
Theorem C17_chunk_iterator_damage : forall sb, valid_size (spp_lensize sb) = true -> forall fuel addr,
  let p := api_chunk_iterator sb fuel addr in
  forall (f : bytes) (n : nat) (fl : oracle) (c : nat),
    run0 f p <> Panic ->
    (fst (run (firstn n f) fl c p) = run0 f p \/ fst (run (firstn n f) fl c p) = Err) /\
    fst (run (firstn n f) fl c p) <> Panic.
Proof. exact (fun sb H fuel addr => strict_damage_ok _ (api_chunk_iterator_strict sb H fuel addr)). Qed.
Print Assumptions C17_chunk_iterator_damage.
(* ChunkIterator.Chunk() of one chunk *)
Theorem C17_chunk_damage : forall sb, valid_size (spp_lensize sb) = true -> forall fuel addr cd dims coord,
  let p := api_chunk sb fuel addr cd dims coord in
  forall (f : bytes) (n : nat) (fl : oracle) (c : nat),
    run0 f p <> Panic ->
    (fst (run (firstn n f) fl c p) = run0 f p \/ fst (run (firstn n f) fl c p) = Err) /\
    fst (run (firstn n f) fl c p) <> Panic.
Proof. exact (fun sb H fuel addr cd dims coord => strict_damage_ok _ (api_chunk_strict sb H fuel addr cd dims coord)). Qed.
Print Assumptions C17_chunk_damage.
(* for it.Next() { it.Chunk() }: the iterator and every chunk in turn *)
Theorem C17_chunk_iterate_damage : forall sb, valid_size (spp_lensize sb) = true -> forall fuel addr,
  let p := api_chunk_iterate sb fuel addr in
  forall (f : bytes) (n : nat) (fl : oracle) (c : nat),
    run0 f p <> Panic ->
    (fst (run (firstn n f) fl c p) = run0 f p \/ fst (run (firstn n f) fl c p) = Err) /\
    fst (run (firstn n f) fl c p) <> Panic.
Proof. exact (fun sb H fuel addr => strict_damage_ok _ (api_chunk_iterate_strict sb H fuel addr)). Qed.
Print Assumptions C17_chunk_iterate_damage.
(* Dataset.ReadCompound: the raw data, then every variable-length member through the global heap (for every walk over the bytes read) *)
Theorem C17_read_compound_damage : forall sb, valid_size (spp_lensize sb) = true -> forall fuel addr ctype walk,
  let p := api_read_compound sb fuel addr ctype walk in
  forall (f : bytes) (n : nat) (fl : oracle) (c : nat),
    run0 f p <> Panic ->
    (fst (run (firstn n f) fl c p) = run0 f p \/ fst (run (firstn n f) fl c p) = Err) /\
    fst (run (firstn n f) fl c p) <> Panic.
Proof. exact (fun sb H fuel addr ctype walk => strict_damage_ok _ (api_read_compound_strict sb H fuel addr ctype walk)). Qed.
Print Assumptions C17_read_compound_damage.
(* Dataset.ReadStrings: the datatype check, then the layout dispatch of Read *)
Theorem C17_read_strings_damage : forall sb, valid_size (spp_lensize sb) = true -> forall fuel addr,
  let p := api_read_strings sb fuel addr in
  forall (f : bytes) (n : nat) (fl : oracle) (c : nat),
    run0 f p <> Panic ->
    (fst (run (firstn n f) fl c p) = run0 f p \/ fst (run (firstn n f) fl c p) = Err) /\
    fst (run (firstn n f) fl c p) <> Panic.
Proof. exact (fun sb H fuel addr => strict_damage_ok _ (api_read_strings_strict sb H fuel addr)). Qed.
Print Assumptions C17_read_strings_damage.
(* Dataset.ReadAttribute(name): Attributes(), then ReadValue with variable-length strings through the global heap *)
Theorem C17_read_attribute_damage : forall sb, valid_size (spp_lensize sb) = true -> forall fuel addr walk,
  let p := api_read_attribute sb fuel addr walk in
  forall (f : bytes) (n : nat) (fl : oracle) (c : nat),
    run0 f p <> Panic ->
    (fst (run (firstn n f) fl c p) = run0 f p \/ fst (run (firstn n f) fl c p) = Err) /\
    fst (run (firstn n f) fl c p) <> Panic.
Proof. exact (fun sb H fuel addr walk => strict_damage_ok _ (api_read_attribute_strict sb H fuel addr walk)). Qed.
Print Assumptions C17_read_attribute_damage.
(* Dataset.Read (api_read_raw), in the same form *)
Theorem C17_read_damage : forall sb, valid_size (spp_lensize sb) = true -> forall fuel addr,
  let p := api_read_raw sb fuel addr in
  forall (f : bytes) (n : nat) (fl : oracle) (c : nat),
    run0 f p <> Panic ->
    (fst (run (firstn n f) fl c p) = run0 f p \/ fst (run (firstn n f) fl c p) = Err) /\
    fst (run (firstn n f) fl c p) <> Panic.
Proof. exact (fun sb H fuel addr => strict_damage_ok _ (api_read_raw_strict sb H fuel addr)). Qed.
Print Assumptions C17_read_damage.
(* Dataset.Attributes / Group.Attributes, in the same form *)
Theorem C17_attributes_damage : forall sb, valid_size (spp_lensize sb) = true -> forall fuel addr,
  let p := api_attributes sb fuel addr in
  forall (f : bytes) (n : nat) (fl : oracle) (c : nat),
    run0 f p <> Panic ->
    (fst (run (firstn n f) fl c p) = run0 f p \/ fst (run (firstn n f) fl c p) = Err) /\
    fst (run (firstn n f) fl c p) <> Panic.
Proof. exact (fun sb H fuel addr => strict_damage_ok _ (api_attributes_strict sb H fuel addr)). Qed.
Print Assumptions C17_attributes_damage.

(* non-vacuity on a library-written file with a chunked dataset (Proofs/IOProgSliceExamples.v) *)
Theorem C17_example_slice_sizes : valid_size (spp_lensize (sb_of ex3)) = true.
Proof. exact ex3_sizes. Qed.
Print Assumptions C17_example_slice_sizes.
Theorem C17_example_slice_every_fault :
  forallb (fun k => match fst (run ex3 (fault_at k FailIO) 0 (api_read_slice (sb_of ex3) 64 2195 [1; 1] [3; 2])),
                          fst (run ex3 (fault_at k (ShortRead 0)) 0 (api_read_slice (sb_of ex3) 64 2195 [1; 1] [3; 2])) with
                    | Err, Err => true | _, _ => false end) (seq 0 21) = true.
Proof. exact ex3_slice_faults. Qed.
Print Assumptions C17_example_slice_every_fault.
Theorem C17_example_slice_cut : run0 (firstn 2576 ex3) (api_read_slice (sb_of ex3) 64 2195 [1; 1] [3; 2]) = Err.
Proof. exact ex3_slice_cut. Qed.
Print Assumptions C17_example_slice_cut.
Theorem C17_example_chunk_iterator :
  run0 ex3 (api_chunk_iterator (sb_of ex3) 64 2195) =
  Ok ([[0; 0]; [0; 1]; [0; 2]; [1; 0]; [1; 1]; [1; 2]; [2; 0]; [2; 1]; [2; 2]], [3; 2], [7; 5]).
Proof. exact ex3_chunk_iterator. Qed.
Print Assumptions C17_example_chunk_iterator.

(* hdf5.Open with readSignature returning its read error (/repo since 216d529, notes/fixes/c17-read-signature-error.patch):
   open_on f fl c = Open run on the file image f WITH THAT FILE'S SIZE (file.go:86 Stat: the load budget and the root
   address check depend on it) under fault oracle fl *)
Theorem C17_open_strict : forall fsize fuel hfuel, strict (p_open true fsize fuel hfuel).
Proof. exact p_open_strict. Qed.
Print Assumptions C17_open_strict.

Theorem C17_open_trunc : forall fuel hfuel (f : bytes) (n : nat),
  open_on f nofault 0 fuel hfuel <> Panic ->
  open_on (firstn n f) nofault 0 fuel hfuel = open_on f nofault 0 fuel hfuel \/
  open_on (firstn n f) nofault 0 fuel hfuel = Err.
Proof. exact open_trunc. Qed.
Print Assumptions C17_open_trunc.

Theorem C17_open_fault : forall fuel hfuel (f : bytes) k ft,
  open_on f nofault 0 fuel hfuel <> Panic ->
  open_on f (fault_at k ft) 0 fuel hfuel = open_on f nofault 0 fuel hfuel \/
  open_on f (fault_at k ft) 0 fuel hfuel = Err.
Proof. exact open_fault. Qed.
Print Assumptions C17_open_fault.

Theorem C17_open_no_panic : forall fuel hfuel (f : bytes) n fl c,
  open_on f nofault 0 fuel hfuel <> Panic -> open_on (firstn n f) fl c fuel hfuel <> Panic.
Proof. exact open_no_panic. Qed.
Print Assumptions C17_open_no_panic.

(* readSignature as it was in /repo before 216d529 (a failed read gives ""): outside the fragment.
   sig_dispatch is the shape of group.go:447-484; witness on the Go code: corpus/C17/unnamed-snod-container.h5,
   pread64 #17 failing: Open succeeds with a different tree. *)
Theorem C17_read_signature_dropped_error_refuted :
  exists f k, run0 f (sig_dispatch 0) = Ok 1 /\ fst (run f (fault_at k FailIO) 0 (sig_dispatch 0)) = Ok 2.
Proof. exact loadchildren_sig_refuted. Qed.
Print Assumptions C17_read_signature_dropped_error_refuted.

(* non-vacuity on real files written by the library (Proofs/IOProgExamples.v) *)
Theorem C17_example_open : open_on ex2 nofault 0 64 64 = Ok (Grp [47] 2168 [Dset [100] 2198]).
Proof. exact ex2_open. Qed.
Print Assumptions C17_example_open.
Theorem C17_example_open_cut : open_on (firstn 2190 ex2) nofault 0 64 64 = Err.
Proof. exact ex2_open_cut. Qed.
Print Assumptions C17_example_open_cut.
Theorem C17_example_open_every_fault :
  calls0 ex2 (p_open true (blen ex2) 64 64) = 25%nat /\
  forallb (fun k => match open_on ex2 (fault_at k FailIO) 0 64 64 with Err => true | _ => false end) (seq 0 25) = true.
Proof. exact ex2_open_faults. Qed.
Print Assumptions C17_example_open_every_fault.
Theorem C17_example_read : run0 ex2 (api_read_raw (sb_of ex2) 64 2198) = Ok (RawBytes [1; 2; 3]).
Proof. exact ex2_read. Qed.
Print Assumptions C17_example_read.
Theorem C17_example_read_cut : run0 (firstn 2197 ex2) (api_read_raw (sb_of ex2) 64 2198) = Err.
Proof. exact ex2_read_cut. Qed.
Print Assumptions C17_example_read_cut.

(* the side conditions are necessary: the pre-fix shapes give a different answer *)

Theorem C17_short_read_unchecked_refuted :
  exists f n, (n <= length f)%nat /\ run0 f short_unchecked <> Panic /\
              run0 (firstn n f) short_unchecked <> run0 f short_unchecked /\
              run0 (firstn n f) short_unchecked <> Err.
Proof. exact trunc_short_refuted. Qed.
Print Assumptions C17_short_read_unchecked_refuted.

Theorem C17_swallowed_member_refuted_trunc :
  exists f n, (n <= length f)%nat /\ run0 f listing_skipping = Ok [1; 2] /\
              run0 (firstn n f) listing_skipping = Ok [1].
Proof. exact trunc_swallow_refuted. Qed.
Print Assumptions C17_swallowed_member_refuted_trunc.

Theorem C17_swallowed_member_refuted_fault :
  exists f k, run0 f listing_skipping = Ok [1; 2] /\
              fst (run f (fault_at k FailIO) 0 listing_skipping) = Ok [2].
Proof. exact fault_swallow_refuted. Qed.
Print Assumptions C17_swallowed_member_refuted_fault.

(* writer side: no dropped error => a failing WriteAt/Sync/Truncate/Close makes the call return an error *)

Theorem C17_write_fault_err : forall A (p : wprog A), wstrict p ->
  forall f fl torn c,
    (exists i, (c <= i)%nat /\ (i < snd (wrun f noflt torn c p))%nat /\ fl i = true) ->
    fst (fst (wrun f fl torn c p)) = Err.
Proof. exact w_fault_err. Qed.
Print Assumptions C17_write_fault_err.

(* what the file holds afterwards: the calls before the failing one applied, the failing write torn, nothing after *)
Theorem C17_write_fault_file : forall A (p : wprog A), wstrict p ->
  forall f fl torn c j,
    (forall i, (c <= i)%nat -> (i < c + j)%nat -> fl i = false) -> fl (c + j)%nat = true ->
    (c + j < snd (wrun f noflt torn c p))%nat ->
    snd (fst (wrun f fl torn c p)) = wfile_upto f p j (torn (c + j)%nat).
Proof. exact w_fault_file. Qed.
Print Assumptions C17_write_fault_file.

Theorem C17_write_dropped_error_refuted :
  exists fl, fl 0%nat = true /\ fst (fst (wrun [] fl (fun _ => 0%nat) 0 w_dropping)) = Ok tt.
Proof. exact w_swallow_refuted. Qed.
Print Assumptions C17_write_dropped_error_refuted.
